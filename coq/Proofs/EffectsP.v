(* Proofs/EffectsP.v — lemmas about the state machine of Model/Effects.v (property C19).
   Everything is proved for ARBITRARY result_of / norm_of / window (section variables), by induction over
   arbitrary operation lists.  These are statements about the model; see the header of Model/Effects.v
   for what the model does not exhibit (aliasing), which the monitor observes instead. *)
From Coq Require Import ZArith List Bool Lia.
From GB Require Import Model.Effects.
Import ListNotations.
Open Scope Z_scope.

(* the boolean equalities used by the executable predictions decide Leibniz equality; [val] is a nested
   inductive, hence the induction principle with Forall *)
Section ValInd.
  Variable P : val -> Prop.
  Hypothesis HZ : forall z, P (VZ z).
  Hypothesis HQ : forall n d, P (VQ n d).
  Hypothesis HL : forall l, Forall P l -> P (VL l).
  Fixpoint val_ind2 (v : val) : P v :=
    match v with
    | VZ z => HZ z
    | VQ n d => HQ n d
    | VL l => HL l ((fix go (l : list val) : Forall P l :=
                       match l with
                       | [] => Forall_nil P
                       | x :: r => Forall_cons x (val_ind2 x) (go r)
                       end) l)
    end.
End ValInd.

Lemma list_eqb_spec {A} (f : A -> A -> bool) (l : list A) :
  Forall (fun x => forall y, f x y = true <-> x = y) l ->
  forall k, list_eqb f l k = true <-> l = k.
Proof.
  induction 1 as [|x l Hx Hl IH]; intros [|y k]; cbn; try (split; congruence).
  rewrite andb_true_iff, Hx, IH. split; [intros [-> ->]; reflexivity | intros E; injection E; auto].
Qed.

Lemma val_eqb_spec : forall a b, val_eqb a b = true <-> a = b.
Proof.
  induction a as [z|n d|l IH] using val_ind2; intros [y|m e|k]; cbn; try (split; congruence).
  - rewrite Z.eqb_eq. split; congruence.
  - rewrite andb_true_iff, Z.eqb_eq, Pos.eqb_eq. split; [intros [-> ->]; reflexivity | intros E; injection E; auto].
  - rewrite (list_eqb_spec val_eqb l IH k). split; congruence.
Qed.

Lemma val_eqb_refl a : val_eqb a a = true.
Proof. apply val_eqb_spec; reflexivity. Qed.

Lemma mode_eqb_spec a b : mode_eqb a b = true <-> a = b.
Proof. destruct a, b; cbn; split; congruence. Qed.

Lemma err_eqb_spec a b : err_eqb a b = true <-> a = b.
Proof.
  destruct a, b; unfold err_eqb; cbn.
  rewrite !andb_true_iff, !mode_eqb_spec, Z.eqb_eq.
  split; [intros [[[[-> ->] ->] ->] ->]; reflexivity | intros E; injection E; intros; subst; auto].
Qed.

Lemma shell_eqb_spec a b : shell_eqb a b = true <-> a = b.
Proof.
  unfold shell_eqb. rewrite val_eqb_spec. destruct a, b; unfold shell_val; cbn.
  split; intros E; injection E; intros; subst; reflexivity.
Qed.

Lemma world_eqb_spec a b : world_eqb a b = true <-> a = b.
Proof.
  destruct a as [o s e], b as [o' s' e']; unfold world_eqb; cbn.
  rewrite !andb_true_iff, err_eqb_spec.
  rewrite (list_eqb_spec val_eqb o), (list_eqb_spec shell_eqb s).
  - split; [intros [[-> ->] ->]; reflexivity | intros E; injection E; intros; subst; auto].
  - apply Forall_forall; intros x _ y; apply shell_eqb_spec.
  - apply Forall_forall; intros x _ y; apply val_eqb_spec.
Qed.

Lemma result_eqb_spec a b : result_eqb a b = true <-> a = b.
Proof.
  destruct a, b; cbn; try (split; congruence). rewrite val_eqb_spec; split; congruence.
Qed.

Lemma outcome_eqb_spec a b : outcome_eqb a b = true <-> a = b.
Proof.
  destruct a, b; cbn; try (split; congruence). rewrite result_eqb_spec; split; congruence.
Qed.

(* the executable "same outcome as op j" is sound for the free interpretation *)
Lemma first_index_sound x l :
  (first_index x l < length l)%nat -> nth_error l (first_index x l) = Some x.
Proof.
  induction l as [|y r IH]; cbn; [lia|].
  destruct (outcome_eqb y x) eqn:E; cbn.
  - intros _. apply outcome_eqb_spec in E. congruence.
  - intros H. apply IH. lia.
Qed.

Section Machine.
  Variable result_of : Z -> errstate -> list val -> result.
  Variable norm_of : val -> val -> val -> val -> val.
  Variable window : Z -> errstate -> errstate.

  Notation step := (step result_of norm_of window).
  Notation run := (exec result_of norm_of window).
  Notation renorm := (renorm norm_of).
  Notation construct := (construct norm_of).

  Definition is_call (o : op) : Prop := match o with Call _ _ => True | _ => False end.
  Definition is_seterr (o : op) : Prop := match o with SetErr _ => True | _ => False end.

  Lemma with_err_restore w e : with_err (with_err w e) (w_err w) = w.
  Proof. destruct w; reflexivity. Qed.

  Lemma call_preserves_world w f args : fst (step w (Call f args)) = w.
  Proof. cbn. apply with_err_restore. Qed.

  Lemma call_outcome w f args :
    snd (step w (Call f args))
    = OCall (result_of f (w_err w) (map (arg_value w) args)).
  Proof.
    reflexivity.
  Qed.

  Lemma run_cons w o r :
    run w (o :: r) = (fst (run (fst (step w o)) r), snd (step w o) :: snd (run (fst (step w o)) r)).
  Proof. cbn [Effects.exec]. destruct (step w o) as [w1 x]. cbn [fst snd]. destruct (run w1 r). reflexivity. Qed.

  Lemma run_app w a b :
    run w (a ++ b) = (fst (run (fst (run w a)) b), snd (run w a) ++ snd (run (fst (run w a)) b)).
  Proof.
    revert w; induction a as [|o a IH]; intros w.
    - cbn. destruct (run w b); reflexivity.
    - cbn [app]. rewrite !run_cons, IH. reflexivity.
  Qed.

  Definition params_eq_except (fld : field) (a b : shell) : Prop :=
    (fld = FAngmom \/ s_angmom a = s_angmom b) /\ (fld = FCoord \/ s_coord a = s_coord b)
    /\ (fld = FExps \/ s_exps a = s_exps b) /\ (fld = FCoeffs \/ s_coeffs a = s_coeffs b)
    /\ (fld = FCtype \/ s_ctype a = s_ctype b).

  (* an accepted update replaces exactly that parameter and leaves the cached norm as it was (STALE) *)
  Ltac fin H := first [discriminate H | injection H as <-; cbn; repeat split; auto].
  Ltac crush H :=
    repeat (match type of H with
            | context [match ?x with _ => _ end] => destruct x; try discriminate H
            end);
    fin H.

  Lemma setter_frame fld sh v sh' :
    setter fld sh v = Some sh' -> params_eq_except fld sh sh' /\ s_norm sh' = s_norm sh.
  Proof.
    unfold params_eq_except.
    destruct fld; cbn [setter]; intros H;
      [unfold set_angmom in H | unfold set_coord in H | unfold set_exps in H | unfold set_coeffs in H
       | unfold set_ctype in H]; crush H.
  Qed.

  Lemma nth_error_replace_same {A} (l : list A) n x y :
    nth_error l n = Some y -> nth_error (replace n x l) n = Some x.
  Proof.
    revert n; induction l as [|a l IH]; intros [|n]; cbn; try discriminate; auto.
  Qed.

  Lemma nth_error_replace_other {A} (l : list A) n m x :
    n <> m -> nth_error (replace n x l) m = nth_error l m.
  Proof.
    revert n m; induction l as [|a l IH]; intros [|n] [|m] H; cbn; auto; try congruence.
  Qed.

  Lemma step_frame w o :
    let w' := fst (step w o) in
    w_objs w' = w_objs w
    /\ (~ is_seterr o -> w_err w' = w_err w)
    /\ (forall s, (forall fld v, o <> Update s fld v) -> o <> AssignNorm s ->
                  nth_error (w_shells w') s = nth_error (w_shells w) s).
  Proof.
    destruct o as [f args|s fld v|s|e]; cbn [Effects.step].
    - cbn. repeat split; auto.
    - destruct (nth_error (w_shells w) s) as [sh|] eqn:E; [|cbn; repeat split; auto].
      destruct (setter fld sh v) as [sh'|]; cbn; repeat split; auto.
      intros s0 H _. apply nth_error_replace_other. intros ->. apply (H fld v). reflexivity.
    - destruct (nth_error (w_shells w) s) as [sh|] eqn:E; cbn; repeat split; auto.
      intros s0 _ H. apply nth_error_replace_other. intros ->. apply H. reflexivity.
    - cbn. repeat split; auto. intros H; exfalso; apply H; exact I.
  Qed.

  Lemma update_changes_exactly_l w s fld v sh sh' :
    nth_error (w_shells w) s = Some sh -> setter fld sh v = Some sh' ->
    let w' := fst (step w (Update s fld v)) in
    nth_error (w_shells w') s = Some sh'
    /\ params_eq_except fld sh sh'
    /\ s_norm sh' = s_norm sh                                  (* norm_cont is stale, as in the code *)
    /\ w_objs w' = w_objs w /\ w_err w' = w_err w
    /\ (forall s0, s0 <> s -> nth_error (w_shells w') s0 = nth_error (w_shells w) s0).
  Proof.
    intros E H. cbn [Effects.step]. rewrite E, H. cbn.
    destruct (setter_frame _ _ _ _ H) as [Hp Hn].
    split; [eapply nth_error_replace_same; eassumption|].
    split; [exact Hp|]. split; [exact Hn|]. split; [reflexivity|]. split; [reflexivity|].
    intros s0 Hs. apply nth_error_replace_other; congruence.
  Qed.

  Definition as_constructed (sh : shell) : Prop :=
    sh = construct (s_angmom sh) (s_coord sh) (s_exps sh) (s_coeffs sh) (s_ctype sh).

  Lemma renorm_as_constructed sh : as_constructed (renorm sh).
  Proof. destruct sh; reflexivity. Qed.

  Lemma assign_norm_step w s sh :
    nth_error (w_shells w) s = Some sh ->
    nth_error (w_shells (fst (step w (AssignNorm s)))) s = Some (renorm sh).
  Proof. intros E. cbn [Effects.step]. rewrite E. apply (nth_error_replace_same _ _ _ _ E). Qed.

  Lemma errstate_restored_l : forall ops w, Forall (fun o => ~ is_seterr o) ops -> w_err (fst (run w ops)) = w_err w.
  Proof.
    induction ops as [|o r IH]; intros w H; [reflexivity|].
    inversion H as [|? ? Ho Hr]; subst. rewrite run_cons. cbn [fst]. rewrite (IH _ Hr).
    destruct (step_frame w o) as (_ & He & _). exact (He Ho).
  Qed.

  (* inside the window of a call the state may differ; after the call it is the caller's again *)
  Lemma errstate_window_closed w f args :
    w_err (fst (step w (Call f args))) = w_err w.
  Proof. rewrite call_preserves_world. reflexivity. Qed.

End Machine.

Definition ex_f (l : list Z) : val := arr 0 [VZ (Z.of_nat (length l))] (VL (map (fun z => VQ z 1) l)).
Definition ex_shell : shell :=
  construct norm_free (VZ 1) (ex_f [0; 0; 0]) (ex_f [1; 2]) (arr 0 [VZ 2; VZ 1] (VL [VL [VQ 1 1]; VL [VQ 1 2]]))
            (VL [VZ 1; VZ 1]).
Definition ex_world : world :=
  mkWorld [VL [VZ 3; VL [VZ 7; VZ 0]]; ex_f [1; 1; 1]] [ex_shell] (mkErr Warn Warn Ignore Warn 0).

(* staleness is real: after an accepted update the cached norm is NOT that of a fresh shell ... *)
Example stale_after_update :
  let w := fst (exec result_free norm_free window_exec ex_world [Update 0 FExps (ex_f [3; 4])]) in
  map fresh (w_shells w) = [false].
Proof. vm_compute. reflexivity. Qed.

(* ... and the outcome of a call on the basis changes with the update (values changed), but is the same
   again for the two calls before it and the two calls after it *)
Example outcomes_follow_values :
  let ops := [Call 0 [AObj 0]; Call 9 [AObj 0; AObj 1]; Call 0 [AObj 0];
              Update 0 FExps (ex_f [3; 4]); AssignNorm 0; Call 0 [AObj 0]; Update 0 FExps (ex_f [3]);
              Call ESP [AObj 0]; Call 0 [AObj 0]] in
  map (fun '(k, i, ch) => (k, i, ch)) (fst (fst (predict ex_world ops)))
  = [(0, 0%nat, false); (0, 1%nat, false); (0, 0%nat, false); (2, 3%nat, true); (2, 4%nat, true);
     (0, 5%nat, false); (1, 6%nat, false); (0, 7%nat, false); (0, 5%nat, false)].
Proof. vm_compute. reflexivity. Qed.
