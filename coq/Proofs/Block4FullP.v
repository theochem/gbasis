(* Proofs/Block4FullP.v — property C09, four-index class (base_four_symm.py): EVERY entry of the processed
   shell-quartet block [Model/Assembly14.block4 t1 t2 t3 t4 s1 s2 s3 s4 blk] (normalise by the four norms,
   tensordot with the transformation of every spherical shell, merge (M, L) on every index), for every
   assignment of coordinate types.

   Props/C09.v has the statement for the first index only (C09_block4_index1_partial, as an equation between
   whole blocks: pulling T_s2 out through the outer stage as a BLOCK operation needs additivity laws).  Stated
   entry by entry no law is needed at all:

     block4_entry    (any element module A, no algebraic law)
        block4[m1 O1 + q1][m2 O2 + q2][m3 O3 + q3][m4 O4 + q4]
          = tsum_1 (c1 -> tsum_2 (c2 -> tsum_3 (c3 -> tsum_4 (c4 ->
              n4[m4][c4] . (n3[m3][c3] . (n2[m2][c2] . (n1[m1][c1] . blk[m1][c1][m2][c2][m3][c3][m4][c4]))))))),
        tsum_k = sum_{c<L_k} T_k[q_k][c] . (..) for a spherical index, evaluation at c = q_k for a Cartesian one;
     block4_shape    the block is [M1 O1][M2 O2][M3 O3][M4 O4];
     block4_is_cart_transformed
        the same with the all-Cartesian processed block  block4 false false false false  inside the sums;
     block4_quadruple_sum (A = F a field)
        = sum_{c1,c2,c3,c4} U1[q1][c1] U2[q2][c2] U3[q3][c3] U4[q4][c4] x (all-Cartesian entry), U_k = T_k for a
        spherical index and the identity matrix for a Cartesian one; hence independent of the order in which
        the four contractions are performed (qsum4_swap12, _swap23, _swap34).

   Method: an evaluation functional [ev] (read the entry at fixed later indices) is linear on well-shaped
   elements of the row modules R1, R2, R3 ([row_evlin]); one generic stage lemma ([axis_stage]) describes
   [axis_tr] for any module with such a functional; it is applied four times. *)
From Coq Require Import List Arith Lia Bool.
From GB Require Import Base.Field Base.FNum Base.Tables Base.Blocks Model.Shell Model.Assembly Model.Assembly14
  Proofs.CoreSumP Proofs.CoreBlockP Proofs.AssemblyP Proofs.BlockMatP Proofs.AssembledP Proofs.AssembledSphP.
Import ListNotations.

Definition lshape {X} (Q : X -> Prop) (n : nat) (l : list X) : Prop := length l = n /\ Forall Q l.

Lemma lshape_nth {X} (Q : X -> Prop) n l d i : lshape Q n l -> i < n -> Q (nth i l d).
Proof. intros [HL HF] Hi. apply Forall_nth_in; [exact HF|lia]. Qed.

Lemma lshape_of_nth {X} (Q : X -> Prop) n l d :
  length l = n -> (forall i, i < n -> Q (nth i l d)) -> lshape Q n l.
Proof. intros HL H. split; [exact HL|]. apply (Forall_of_nth _ _ d). now rewrite HL. Qed.

Lemma lshape_impl {X} (Q Q' : X -> Prop) n l : (forall x, Q x -> Q' x) -> lshape Q n l -> lshape Q' n l.
Proof. intros H [HL HF]. split; [exact HL|]. eapply Forall_impl; eauto. Qed.

Lemma lshape_mk {X} (Q : X -> Prop) n (f : nat -> X) : (forall i, i < n -> Q (f i)) -> lshape Q n (mk n f).
Proof. intros H. split; [apply mk_length|]. now apply Forall_mk. Qed.

Lemma map2_lshape {X Y Z} (f : X -> Y -> Z) (PX : X -> Prop) (PY : Y -> Prop) (Q : Z -> Prop) n a b :
  lshape PX n a -> lshape PY n b -> (forall x y, PX x -> PY y -> Q (f x y)) -> lshape Q n (map2 f a b).
Proof.
  intros [La Fa] [Lb Fb] H. split; [rewrite map2_length; congruence|].
  clear La Lb. revert b Fb. induction Fa as [|x a Hx Fa IH]; intros [|y b] Fb; cbn [map2]; try constructor.
  - inversion Fb as [|? ? Hy Fb']. now apply H.
  - inversion Fb as [|? ? Hy Fb']. now apply IH.
Qed.

Lemma map_lshape {X Y} (f : X -> Y) (P : X -> Prop) (Q : Y -> Prop) n l :
  lshape P n l -> (forall x, P x -> Q (f x)) -> lshape Q n (map f l).
Proof.
  intros [HL HF] H. split; [now rewrite map_length|]. apply Forall_forall. intros y Hy.
  apply in_map_iff in Hy. destruct Hy as [x [<- Hx]]. rewrite Forall_forall in HF. auto.
Qed.

Lemma nth_repeat_lt {X} (x d : X) w i : i < w -> nth i (repeat x w) d = x.
Proof. revert i. induction w as [|w IH]; intros [|i] H; cbn; try lia; [reflexivity|apply IH; lia]. Qed.

Lemma dm_idx x M O : x < M * O -> x / O < M /\ x mod O < O /\ x = (x / O) * O + x mod O.
Proof.
  intros H. assert (HO : 0 < O) by nia. split; [|split].
  - apply Nat.div_lt_upper_bound; lia.
  - apply Nat.mod_upper_bound. lia.
  - rewrite (Nat.div_mod x O) at 1 by lia. lia.
Qed.

Lemma divmod_idx I M O : I < M * O -> exists m q, m < M /\ q < O /\ I = m * O + q.
Proof. intros H. exists (I / O), (I mod O). exact (dm_idx I M O H). Qed.

Section Ev.
Context {F : Type} (K : Fops F).
Context {A : Type} (azero : A) (aadd : A -> A -> A) (ascale : F -> A -> A).

Definition closed {X} (xzero : X) (xadd : X -> X -> X) (xscale : F -> X -> X) (P : X -> Prop) : Prop :=
  P xzero /\ (forall x y, P x -> P y -> P (xadd x y)) /\ (forall t x, P x -> P (xscale t x)).
Definition evlin {X} (xzero : X) (xadd : X -> X -> X) (xscale : F -> X -> X) (P : X -> Prop) (ev : X -> A) : Prop :=
  ev xzero = azero /\ (forall x y, P x -> P y -> ev (xadd x y) = aadd (ev x) (ev y)) /\
  (forall t x, P x -> ev (xscale t x) = ascale t (ev x)).

Lemma base_closed : closed azero aadd ascale (fun _ => True).
Proof. repeat split. Qed.
Lemma base_evlin : evlin azero aadd ascale (fun _ => True) (fun x => x).
Proof. repeat split. Qed.

Lemma dot_asum (t : list F) (v : list A) L : length t = L -> length v = L ->
  dot azero aadd ascale t v = asum azero aadd (mk L (fun c => ascale (nth c t (f0 K)) (nth c v azero))).
Proof.
  revert v L. induction t as [|a t IH]; intros [|x v] [|L] Ht Hv; cbn in Ht, Hv; try lia; [reflexivity|].
  rewrite mk_cons. cbn [dot asum fold_right nth]. f_equal. apply IH; lia.
Qed.

Section Mod.
Context {X : Type} (xzero : X) (xadd : X -> X -> X) (xscale : F -> X -> X).
Variable P : X -> Prop.
Variable ev : X -> A.
Hypothesis HC : closed xzero xadd xscale P.
Hypothesis HE : evlin xzero xadd xscale P ev.

Lemma dot_closed t v : Forall P v -> P (dot xzero xadd xscale t v).
Proof.
  destruct HC as (Pz & Pa & Ps).
  revert v. induction t as [|a t IH]; intros [|x v] H; cbn [dot]; auto. inversion H; subst. auto.
Qed.

Lemma ev_dot t v : Forall P v -> ev (dot xzero xadd xscale t v) = dot azero aadd ascale t (map ev v).
Proof.
  destruct HC as (Pz & Pa & Ps). destruct HE as (Ez & Ea & Es).
  revert v. induction t as [|a t IH]; intros [|x v] H; cbn [dot map]; auto. inversion H; subst.
  rewrite Ea; [|now apply Ps|now apply dot_closed]. rewrite Es by assumption. now rewrite IH.
Qed.

(* rows of width w *)
Lemma row_closed w : closed (rzero xzero w) (radd xadd) (rscale xscale) (lshape P w).
Proof.
  destruct HC as (Pz & Pa & Ps). split; [|split].
  - split; [apply repeat_length|]. apply Forall_forall. intros x Hx. apply repeat_spec in Hx. now subst.
  - intros x y Hx Hy. unfold radd. apply (map2_lshape _ P P); auto.
  - intros t x Hx. unfold rscale. apply (map_lshape _ P); auto.
Qed.

Lemma row_evlin w i (d : X) : i < w ->
  evlin (rzero xzero w) (radd xadd) (rscale xscale) (lshape P w) (fun r => ev (nth i r d)).
Proof.
  intros Hi. destruct HE as (Ez & Ea & Es). split; [|split].
  - unfold rzero. now rewrite nth_repeat_lt.
  - intros x y [Lx Fx] [Ly Fy]. unfold radd. rewrite (nth_map2 xadd x y d d d) by lia.
    apply Ea; apply Forall_nth_in; auto; lia.
  - intros t x [Lx Fx]. unfold rscale. rewrite (nth_map_lt _ x i d) by lia.
    apply Es. apply Forall_nth_in; auto; lia.
Qed.

(* one axis: tensordot with T if the shell is spherical, merge (M, L') *)
Section Axis.
Variables (sph : bool) (T : list (list F)) (blk : list (list X)) (M L S : nat) (d : X).
Hypothesis HM : length blk = M.
Hypothesis HL : forall m, m < M -> length (nth m blk []) = L.
Hypothesis HP : forall m c, m < M -> c < L -> P (nth c (nth m blk []) d).
Hypothesis HS : length T = S.
Hypothesis HT : sph = true -> Forall (fun r => length r = L) T.

Lemma axis_rows m : m < M -> Forall P (nth m blk []).
Proof. intros Hm. apply (Forall_of_nth _ _ d). rewrite HL by exact Hm. intros c Hc. now apply HP. Qed.

Lemma axis_sph_rows : Forall (fun r => length r = S) (map (lin xzero xadd xscale T) blk).
Proof.
  apply Forall_forall. intros r Hr. apply in_map_iff in Hr. destruct Hr as [row [<- _]].
  unfold lin. now rewrite map_length.
Qed.

Lemma axis_sph_entry m q : m < M -> q < S ->
  nth (m * S + q) (concat (map (lin xzero xadd xscale T) blk)) d
  = dot xzero xadd xscale (nth q T []) (nth m blk []).
Proof.
  intros Hm Hq. rewrite (nth_concat_uniform S _ d m q axis_sph_rows) by lia.
  rewrite (nth_map_lt _ blk m []) by lia. unfold lin. now rewrite (nth_map_lt _ T q []) by lia.
Qed.

Lemma axis_cart_rows : Forall (fun r => length r = L) blk.
Proof. apply (Forall_of_nth _ _ []). rewrite HM. exact HL. Qed.

Lemma axis_shape : lshape P (M * (if sph then S else L)) (axis_tr xzero xadd xscale sph T blk).
Proof.
  unfold axis_tr. destruct sph.
  - split; [rewrite (concat_length_const _ S axis_sph_rows), map_length; lia|].
    apply (Forall_of_nth _ _ d). rewrite (concat_length_const _ S axis_sph_rows), map_length, HM.
    intros I HI. destruct (divmod_idx I M S HI) as (m & q & Hm & Hq & ->).
    rewrite axis_sph_entry by assumption. apply dot_closed. now apply axis_rows.
  - split; [rewrite (concat_length_const _ L axis_cart_rows); lia|].
    apply Forall_concat. apply (Forall_of_nth _ _ []). rewrite HM. exact axis_rows.
Qed.

Lemma axis_stage m q : m < M -> q < (if sph then S else L) ->
  ev (nth (m * (if sph then S else L) + q) (axis_tr xzero xadd xscale sph T blk) d)
  = tsum K azero aadd ascale sph T L q (fun c => ev (nth c (nth m blk []) d)).
Proof.
  unfold axis_tr, tsum. destruct sph; intros Hm Hq.
  - rewrite axis_sph_entry by assumption. rewrite ev_dot by (now apply axis_rows).
    rewrite (dot_asum _ _ L).
    + f_equal. apply mk_ext. intros c Hc. f_equal. rewrite (nth_map_lt _ _ c d) by (rewrite HL; lia). reflexivity.
    + apply (Forall_nth_in _ T [] q (HT eq_refl)). lia.
    + rewrite map_length. now apply HL.
  - now rewrite (nth_concat_uniform L _ d m q axis_cart_rows) by lia.
Qed.
End Axis.
End Mod.
End Ev.

Definition L2s {X} (Q : X -> Prop) (M L : nat) (b : list (list X)) : Prop := lshape (lshape Q L) M b.

Lemma L2s_len {X} (Q : X -> Prop) M L b : L2s Q M L b -> length b = M.
Proof. now intros [H _]. Qed.
Lemma L2s_row {X} (Q : X -> Prop) M L b m : L2s Q M L b -> m < M -> length (nth m b []) = L.
Proof. intros H Hm. exact (proj1 (lshape_nth _ M b [] m H Hm)). Qed.
Lemma L2s_ent {X} (Q : X -> Prop) M L b m c d : L2s Q M L b -> m < M -> c < L -> Q (nth c (nth m b []) d).
Proof. intros H Hm Hc. exact (lshape_nth _ L _ d c (lshape_nth _ M b [] m H Hm) Hc). Qed.

Lemma map2l_nth {X Y} (f : X -> Y) (Q : X -> Prop) M L b m c dX dY : L2s Q M L b -> m < M -> c < L ->
  nth c (nth m (map (map f) b) []) dY = f (nth c (nth m b []) dX).
Proof.
  intros H Hm Hc. rewrite (nth_map_lt _ b m []) by (rewrite (L2s_len _ _ _ _ H); lia).
  now rewrite (nth_map_lt _ _ c dX) by (rewrite (L2s_row _ _ _ _ m H Hm); lia).
Qed.

Lemma map2l_shape {X Y} (f : X -> Y) (P : X -> Prop) (Q : Y -> Prop) M L b :
  L2s P M L b -> (forall x, P x -> Q (f x)) -> L2s Q M L (map (map f) b).
Proof. intros H Hf. apply (map_lshape _ (lshape P L)); [exact H|]. intros r Hr. now apply (map_lshape _ P). Qed.

Section Block4.
Context {F : Type} (K : Fops F).
Context {A : Type} (azero : A) (aadd : A -> A -> A) (ascale : F -> A -> A).
Notation R1 := (list A).
Notation R2 := (list (list A)).
Notation R3 := (list (list (list A))).
Notation R4 := (list (list (list (list A)))).
Notation TA := (fun _ : A => True).

Definition sh8 (M1 L1 M2 L2 M3 L3 M4 L4 : nat) (b : list (list (list (list R4)))) : Prop :=
  L2s (L2s (L2s (L2s TA M4 L4) M3 L3) M2 L2) M1 L1 b.
Definition get8 (d : A) (m1 c1 m2 c2 m3 c3 m4 c4 : nat) (b : list (list (list (list R4)))) : A :=
  nth c4 (nth m4 (nth c3 (nth m3 (nth c2 (nth m2 (nth c1 (nth m1 b []) []) []) []) []) []) []) d.
Definition nsh (M L : nat) (n : list (list F)) : Prop := lshape (fun r : list F => length r = L) M n.

Lemma len_lshapeT {X} (r : list X) L : length r = L -> lshape (fun _ : X => True) L r.
Proof. intros H. split; [exact H|]. apply Forall_forall. auto. Qed.

Lemma sh8_mk M1 L1 M2 L2 M3 L3 M4 L4 (f : nat -> nat -> nat -> nat -> nat -> nat -> nat -> nat -> A) :
  sh8 M1 L1 M2 L2 M3 L3 M4 L4
    (mk M1 (fun m1 => mk L1 (fun c1 => mk M2 (fun m2 => mk L2 (fun c2 =>
     mk M3 (fun m3 => mk L3 (fun c3 => mk M4 (fun m4 => mk L4 (fun c4 => f m1 c1 m2 c2 m3 c3 m4 c4))))))))).
Proof. unfold sh8, L2s. repeat (apply lshape_mk; intros ? _). exact I. Qed.

Lemma map2l2_nth {Y Z} (f : F -> Y -> Z) (Q : Y -> Prop) M L n b m c dn dY dZ :
  nsh M L n -> L2s Q M L b -> m < M -> c < L ->
  nth c (nth m (map2 (fun r row => map2 f r row) n b) []) dZ = f (nth c (nth m n []) dn) (nth c (nth m b []) dY).
Proof.
  intros Hn Hb Hm Hc. rewrite (nth_map2 _ n b [] [] [] m) by (rewrite ?(proj1 Hn), ?(L2s_len _ _ _ _ Hb); lia).
  apply nth_map2; [rewrite (lshape_nth _ _ _ [] m Hn Hm)|rewrite (L2s_row _ _ _ _ m Hb Hm)]; exact Hc.
Qed.

Section Norm.
Variables (n1 n2 n3 n4 : list (list F)) (blk : list (list (list (list R4)))).
Variables M1 L1 M2 L2 M3 L3 M4 L4 : nat.
Hypothesis N1 : nsh M1 L1 n1.
Hypothesis N2 : nsh M2 L2 n2.
Hypothesis N3 : nsh M3 L3 n3.
Hypothesis N4 : nsh M4 L4 n4.
Hypothesis HB : sh8 M1 L1 M2 L2 M3 L3 M4 L4 blk.

Lemma normalise4_shape : sh8 M1 L1 M2 L2 M3 L3 M4 L4 (normalise4 ascale n1 n2 n3 n4 blk).
Proof.
  unfold normalise4, sh8, L2s in *.
  eapply (map2_lshape _ (fun r : list F => length r = L1)); [exact N1|exact HB|]. intros r1 b1 Hr1 Hb1.
  eapply (map2_lshape _ (fun _ : F => True)); [exact (len_lshapeT _ _ Hr1)|exact Hb1|]. intros x1 b2 _ Hb2.
  eapply (map2_lshape _ (fun r : list F => length r = L2)); [exact N2|exact Hb2|]. intros r2 b3 Hr2 Hb3.
  eapply (map2_lshape _ (fun _ : F => True)); [exact (len_lshapeT _ _ Hr2)|exact Hb3|]. intros x2 b4 _ Hb4.
  eapply (map2_lshape _ (fun r : list F => length r = L3)); [exact N3|exact Hb4|]. intros r3 b5 Hr3 Hb5.
  eapply (map2_lshape _ (fun _ : F => True)); [exact (len_lshapeT _ _ Hr3)|exact Hb5|]. intros x3 b6 _ Hb6.
  eapply (map2_lshape _ (fun r : list F => length r = L4)); [exact N4|exact Hb6|]. intros r4 b7 Hr4 Hb7.
  eapply (map2_lshape _ (fun _ : F => True)); [exact (len_lshapeT _ _ Hr4)|exact Hb7|]. auto.
Qed.

Lemma normalise4_entry d m1 c1 m2 c2 m3 c3 m4 c4 :
  m1 < M1 -> c1 < L1 -> m2 < M2 -> c2 < L2 -> m3 < M3 -> c3 < L3 -> m4 < M4 -> c4 < L4 ->
  get8 d m1 c1 m2 c2 m3 c3 m4 c4 (normalise4 ascale n1 n2 n3 n4 blk)
  = ascale (nth c4 (nth m4 n4 []) (f0 K)) (ascale (nth c3 (nth m3 n3 []) (f0 K))
      (ascale (nth c2 (nth m2 n2 []) (f0 K)) (ascale (nth c1 (nth m1 n1 []) (f0 K))
         (get8 d m1 c1 m2 c2 m3 c3 m4 c4 blk)))).
Proof.
  intros Hm1 Hc1 Hm2 Hc2 Hm3 Hc3 Hm4 Hc4. unfold get8, normalise4. unfold sh8 in HB.
  rewrite (map2l2_nth _ _ M1 L1 n1 blk m1 c1 (f0 K) [] [] N1 HB Hm1 Hc1).
  pose proof (L2s_ent _ _ _ _ m1 c1 [] HB Hm1 Hc1) as HB2.
  rewrite (map2l2_nth _ _ M2 L2 n2 _ m2 c2 (f0 K) [] [] N2 HB2 Hm2 Hc2).
  pose proof (L2s_ent _ _ _ _ m2 c2 [] HB2 Hm2 Hc2) as HB3.
  rewrite (map2l2_nth _ _ M3 L3 n3 _ m3 c3 (f0 K) [] [] N3 HB3 Hm3 Hc3).
  pose proof (L2s_ent _ _ _ _ m3 c3 [] HB3 Hm3 Hc3) as HB4.
  exact (map2l2_nth _ _ M4 L4 n4 _ m4 c4 (f0 K) d d N4 HB4 Hm4 Hc4).
Qed.
End Norm.

Lemma axis_width_eq t (s : @sh F) M L : nsh M L (sh_n s) -> axis_width t s = M * osz t (sh_T s) L.
Proof.
  intros [HL HF]. unfold axis_width, osz. destruct t; [now rewrite HL|].
  rewrite (concat_length_const _ L HF). now rewrite HL.
Qed.

Lemma osz_bound sph (T : list (list F)) L q : q < osz sph T L -> sph = false -> q < L.
Proof. intros H E. now rewrite E in H. Qed.

(* [axis_shape] / [axis_stage] for a pair of axes given by L2s *)
Lemma axis_shape2 {X} (xzero : X) (xadd : X -> X -> X) (xscale : F -> X -> X) (P : X -> Prop) (HC : closed xzero xadd xscale P)
      sph T (blk : list (list X)) M L :
  L2s P M L blk -> (sph = true -> Forall (fun r => length r = L) T) ->
  lshape P (M * osz sph T L) (axis_tr xzero xadd xscale sph T blk).
Proof.
  intros HB HT. unfold osz.
  apply (axis_shape xzero xadd xscale P HC sph T blk M L (length T) xzero).
  - exact (L2s_len _ _ _ _ HB).
  - intros m Hm. exact (L2s_row _ _ _ _ m HB Hm).
  - intros m c Hm Hc. exact (L2s_ent _ _ _ _ m c xzero HB Hm Hc).
  - reflexivity.
  - exact HT.
Qed.

Lemma axis_stage2 {X} (xzero : X) (xadd : X -> X -> X) (xscale : F -> X -> X) (P : X -> Prop) (ev : X -> A)
      (HC : closed xzero xadd xscale P) (HE : evlin azero aadd ascale xzero xadd xscale P ev)
      sph T (blk : list (list X)) M L (d : X) m q :
  L2s P M L blk -> (sph = true -> Forall (fun r => length r = L) T) ->
  m < M -> q < osz sph T L ->
  ev (nth (m * osz sph T L + q) (axis_tr xzero xadd xscale sph T blk) d)
  = tsum K azero aadd ascale sph T L q (fun c => ev (nth c (nth m blk []) d)).
Proof.
  intros HB HT. unfold osz.
  apply (axis_stage K azero aadd ascale xzero xadd xscale P ev HC HE sph T blk M L (length T) d).
  - exact (L2s_len _ _ _ _ HB).
  - intros m' Hm. exact (L2s_row _ _ _ _ m' HB Hm).
  - intros m' c Hm Hc. exact (L2s_ent _ _ _ _ m' c d HB Hm Hc).
  - reflexivity.
  - exact HT.
Qed.

Lemma map2l_map2l {X Y Z} (g : Y -> Z) (h : X -> Y) l :
  map (map g) (map (map h) l) = map (map (fun x => g (h x))) l.
Proof. rewrite map_map. apply map_ext. intros r. apply map_map. Qed.

(* [axis_stage2] when the entries of the block are the images under [f] of the entries of a block of shape Q *)
Lemma axis_map_stage {X Y} (xzero : X) (xadd : X -> X -> X) (xscale : F -> X -> X) (P : X -> Prop) (ev : X -> A)
      (HC : closed xzero xadd xscale P) (HE : evlin azero aadd ascale xzero xadd xscale P ev)
      sph T (Q : Y -> Prop) (f : Y -> X) (g : Y -> A) b M L (d : X) (dY : Y) m q :
  L2s Q M L b -> (sph = true -> Forall (fun r => length r = L) T) ->
  (forall y, Q y -> P (f y)) -> (forall y, Q y -> ev (f y) = g y) ->
  m < M -> q < osz sph T L ->
  ev (nth (m * osz sph T L + q) (axis_tr xzero xadd xscale sph T (map (map f) b)) d)
  = tsum K azero aadd ascale sph T L q (fun c => g (nth c (nth m b []) dY)).
Proof.
  intros HB HT Hf Hg Hm Hq.
  rewrite (axis_stage2 xzero xadd xscale P ev HC HE sph T _ M L d m q (map2l_shape f Q P M L b HB Hf) HT Hm Hq).
  apply tsum_ext; [|exact (osz_bound _ _ _ _ Hq)]. intros c Hc.
  rewrite (map2l_nth f Q M L b m c dY d HB Hm Hc). apply Hg. exact (L2s_ent Q M L b m c dY HB Hm Hc).
Qed.

Section Main.
Variables t1 t2 t3 t4 : bool.
Variables s1 s2 s3 s4 : @sh F.
Variable blk : list (list (list (list R4))).
Variables M1 L1 M2 L2 M3 L3 M4 L4 : nat.
Hypothesis N1 : nsh M1 L1 (sh_n s1).
Hypothesis N2 : nsh M2 L2 (sh_n s2).
Hypothesis N3 : nsh M3 L3 (sh_n s3).
Hypothesis N4 : nsh M4 L4 (sh_n s4).
Hypothesis HB : sh8 M1 L1 M2 L2 M3 L3 M4 L4 blk.
Hypothesis HT1 : t1 = true -> Forall (fun r => length r = L1) (sh_T s1).
Hypothesis HT2 : t2 = true -> Forall (fun r => length r = L2) (sh_T s2).
Hypothesis HT3 : t3 = true -> Forall (fun r => length r = L3) (sh_T s3).
Hypothesis HT4 : t4 = true -> Forall (fun r => length r = L4) (sh_T s4).

Let O1 := osz t1 (sh_T s1) L1.
Let O2 := osz t2 (sh_T s2) L2.
Let O3 := osz t3 (sh_T s3) L3.
Let O4 := osz t4 (sh_T s4) L4.
Let w2 := M2 * O2.
Let w3 := M3 * O3.
Let w4 := M4 * O4.
Let P1 : R1 -> Prop := lshape TA w4.
Let P2 : R2 -> Prop := lshape P1 w3.
Let P3 : R3 -> Prop := lshape P2 w2.
Let z1 : R1 := rzero azero w4.
Let z2 : R2 := rzero z1 w3.
Let z3 : R3 := rzero z2 w2.

(* the normalised entry *)
Definition nrm8 (m1 c1 m2 c2 m3 c3 m4 c4 : nat) : A :=
  ascale (nth c4 (nth m4 (sh_n s4) []) (f0 K)) (ascale (nth c3 (nth m3 (sh_n s3) []) (f0 K))
    (ascale (nth c2 (nth m2 (sh_n s2) []) (f0 K)) (ascale (nth c1 (nth m1 (sh_n s1) []) (f0 K))
       (get8 azero m1 c1 m2 c2 m3 c3 m4 c4 blk)))).

Theorem block4_spec :
  let B := block4 azero aadd ascale t1 t2 t3 t4 s1 s2 s3 s4 blk in
  lshape (lshape (lshape (lshape TA (M4 * O4)) (M3 * O3)) (M2 * O2)) (M1 * O1) B /\
  forall m1 q1 m2 q2 m3 q3 m4 q4,
    m1 < M1 -> q1 < O1 -> m2 < M2 -> q2 < O2 -> m3 < M3 -> q3 < O3 -> m4 < M4 -> q4 < O4 ->
    Assembly14.get4 azero B (m1 * O1 + q1) (m2 * O2 + q2) (m3 * O3 + q3) (m4 * O4 + q4)
    = tsum K azero aadd ascale t1 (sh_T s1) L1 q1 (fun c1 =>
      tsum K azero aadd ascale t2 (sh_T s2) L2 q2 (fun c2 =>
      tsum K azero aadd ascale t3 (sh_T s3) L3 q3 (fun c3 =>
      tsum K azero aadd ascale t4 (sh_T s4) L4 q4 (fun c4 => nrm8 m1 c1 m2 c2 m3 c3 m4 c4)))).
Proof.
  intros B.
  pose proof (normalise4_shape _ _ _ _ _ _ _ _ _ _ _ _ _ N1 N2 N3 N4 HB) as Hb.
  pose proof (normalise4_entry _ _ _ _ _ _ _ _ _ _ _ _ _ N1 N2 N3 N4 HB azero) as Eb.
  set (b := normalise4 ascale (sh_n s1) (sh_n s2) (sh_n s3) (sh_n s4) blk) in *.
  set (f4 := axis_tr azero aadd ascale t4 (sh_T s4)).
  set (f3 := fun y : R4 => axis_tr z1 (r1add aadd) (r1scale ascale) t3 (sh_T s3) (map (map f4) y)).
  set (f2 := fun y : list (list R4) => axis_tr z2 (r2add aadd) (r2scale ascale) t2 (sh_T s2) (map (map f3) y)).
  (* the three inner stages gathered at the entries of b *)
  assert (EB : B = axis_tr z3 (r3add aadd) (r3scale ascale) t1 (sh_T s1) (map (map f2) b)).
  { unfold B, block4. cbv zeta.
    rewrite (axis_width_eq t4 s4 M4 L4 N4), (axis_width_eq t3 s3 M3 L3 N3), (axis_width_eq t2 s2 M2 L2 N2).
    fold b. f_equal. rewrite !map2l_map2l. apply map_ext. intros r. apply map_ext. intros y.
    unfold f2. f_equal. exact (map2l_map2l _ (map (map f4)) y). }
  rewrite EB. unfold sh8 in Hb.
  pose proof (base_closed azero aadd ascale) as C0.
  pose proof (row_closed azero aadd ascale TA C0 w4 : closed z1 (r1add aadd) (r1scale ascale) P1) as C1.
  pose proof (row_closed z1 (r1add aadd) (r1scale ascale) P1 C1 w3 : closed z2 (r2add aadd) (r2scale ascale) P2) as C2.
  pose proof (row_closed z2 (r2add aadd) (r2scale ascale) P2 C2 w2 : closed z3 (r3add aadd) (r3scale ascale) P3) as C3.
  (* the value of each stage is in the row module of its level *)
  pose proof (fun y Hy => axis_shape2 azero aadd ascale TA C0 t4 (sh_T s4) y M4 L4 Hy HT4 : P1 (f4 y)) as S4.
  pose proof (fun y Hy => axis_shape2 z1 (r1add aadd) (r1scale ascale) P1 C1 t3 (sh_T s3) _ M3 L3
                            (map2l_shape f4 _ P1 M3 L3 y Hy S4) HT3 : P2 (f3 y)) as S3.
  pose proof (fun y Hy => axis_shape2 z2 (r2add aadd) (r2scale ascale) P2 C2 t2 (sh_T s2) _ M2 L2
                            (map2l_shape f3 _ P2 M2 L2 y Hy S3) HT2 : P3 (f2 y)) as S2.
  split; [exact (axis_shape2 z3 (r3add aadd) (r3scale ascale) P3 C3 t1 (sh_T s1) _ M1 L1 (map2l_shape f2 _ P3 M1 L1 b Hb S2) HT1)|].
  intros m1 q1 m2 q2 m3 q3 m4 q4 Hm1 Hq1 Hm2 Hq2 Hm3 Hq3 Hm4 Hq4.
  set (I2 := m2 * O2 + q2). set (I3 := m3 * O3 + q3). set (I4 := m4 * O4 + q4).
  assert (HI2 : I2 < w2) by (unfold I2, w2; now apply idx_lt).
  assert (HI3 : I3 < w3) by (unfold I3, w3; now apply idx_lt).
  assert (HI4 : I4 < w4) by (unfold I4, w4; now apply idx_lt).
  pose proof (base_evlin azero aadd ascale) as E0.
  pose proof (row_evlin azero aadd ascale azero aadd ascale TA (fun x => x) E0 w4 I4 azero HI4) as E1.
  pose proof (row_evlin azero aadd ascale z1 (r1add aadd) (r1scale ascale) P1 _ E1 w3 I3 [] HI3) as E2.
  pose proof (row_evlin azero aadd ascale z2 (r2add aadd) (r2scale ascale) P2 _ E2 w2 I2 [] HI2) as E3.
  cbv beta in E1, E2, E3.
  (* the entry, stage by stage from the innermost one *)
  pose proof (fun y Hy => axis_stage2 azero aadd ascale TA (fun x => x) C0 E0 t4 (sh_T s4) y M4 L4 azero m4 q4 Hy HT4 Hm4 Hq4) as V4.
  pose proof (fun y Hy => axis_map_stage z1 (r1add aadd) (r1scale ascale) P1 _ C1 E1 t3 (sh_T s3) _ f4 _ y M3 L3 [] [] m3 q3
                            Hy HT3 S4 V4 Hm3 Hq3) as V3.
  pose proof (fun y Hy => axis_map_stage z2 (r2add aadd) (r2scale ascale) P2 _ C2 E2 t2 (sh_T s2) _ f3 _ y M2 L2 [] [] m2 q2
                            Hy HT2 S3 V3 Hm2 Hq2) as V2.
  unfold Assembly14.get4.
  etransitivity; [exact (axis_map_stage z3 (r3add aadd) (r3scale ascale) P3 _ C3 E3 t1 (sh_T s1) _ f2 _ b M1 L1 [] [] m1 q1
                           Hb HT1 S2 V2 Hm1 Hq1)|].
  apply tsum_ext; [|exact (osz_bound _ _ _ _ Hq1)]. intros c1 Hc1.
  apply tsum_ext; [|exact (osz_bound _ _ _ _ Hq2)]. intros c2 Hc2.
  apply tsum_ext; [|exact (osz_bound _ _ _ _ Hq3)]. intros c3 Hc3.
  apply tsum_ext; [|exact (osz_bound _ _ _ _ Hq4)]. intros c4 Hc4.
  exact (Eb m1 c1 m2 c2 m3 c3 m4 c4 Hm1 Hc1 Hm2 Hc2 Hm3 Hc3 Hm4 Hc4).
Qed.
End Main.
End Block4.

(* a Cartesian index (type flag false) asks nothing of the transformation matrix *)
Lemma cart_rows {X} (P : X -> Prop) (l : list X) : false = true -> Forall P l.
Proof. discriminate. Qed.

Section Block4Cor.
Context {F : Type} (K : Fops F).
Context {A : Type} (azero : A) (aadd : A -> A -> A) (ascale : F -> A -> A).
Notation R4 := (list (list (list (list A)))).
Variables t1 t2 t3 t4 : bool.
Variables s1 s2 s3 s4 : @sh F.
Variable blk : list (list (list (list R4))).
Variables M1 L1 M2 L2 M3 L3 M4 L4 : nat.
Hypothesis N1 : nsh M1 L1 (sh_n s1).
Hypothesis N2 : nsh M2 L2 (sh_n s2).
Hypothesis N3 : nsh M3 L3 (sh_n s3).
Hypothesis N4 : nsh M4 L4 (sh_n s4).
Hypothesis HB : sh8 M1 L1 M2 L2 M3 L3 M4 L4 blk.
Hypothesis HT1 : t1 = true -> Forall (fun r => length r = L1) (sh_T s1).
Hypothesis HT2 : t2 = true -> Forall (fun r => length r = L2) (sh_T s2).
Hypothesis HT3 : t3 = true -> Forall (fun r => length r = L3) (sh_T s3).
Hypothesis HT4 : t4 = true -> Forall (fun r => length r = L4) (sh_T s4).

Notation O1 := (osz t1 (sh_T s1) L1).
Notation O2 := (osz t2 (sh_T s2) L2).
Notation O3 := (osz t3 (sh_T s3) L3).
Notation O4 := (osz t4 (sh_T s4) L4).
Notation Bmix := (block4 azero aadd ascale t1 t2 t3 t4 s1 s2 s3 s4 blk).
Notation Bcart := (block4 azero aadd ascale false false false false s1 s2 s3 s4 blk).

Theorem block4_shape :
  lshape (lshape (lshape (lshape (fun _ : A => True) (M4 * O4)) (M3 * O3)) (M2 * O2)) (M1 * O1) Bmix.
Proof. exact (proj1 (block4_spec K azero aadd ascale t1 t2 t3 t4 s1 s2 s3 s4 blk _ _ _ _ _ _ _ _ N1 N2 N3 N4 HB HT1 HT2 HT3 HT4)). Qed.

Theorem block4_entry m1 q1 m2 q2 m3 q3 m4 q4 :
  m1 < M1 -> q1 < O1 -> m2 < M2 -> q2 < O2 -> m3 < M3 -> q3 < O3 -> m4 < M4 -> q4 < O4 ->
  Assembly14.get4 azero Bmix (m1 * O1 + q1) (m2 * O2 + q2) (m3 * O3 + q3) (m4 * O4 + q4)
  = tsum K azero aadd ascale t1 (sh_T s1) L1 q1 (fun c1 =>
    tsum K azero aadd ascale t2 (sh_T s2) L2 q2 (fun c2 =>
    tsum K azero aadd ascale t3 (sh_T s3) L3 q3 (fun c3 =>
    tsum K azero aadd ascale t4 (sh_T s4) L4 q4 (fun c4 =>
      nrm8 K azero ascale s1 s2 s3 s4 blk m1 c1 m2 c2 m3 c3 m4 c4)))).
Proof. exact (proj2 (block4_spec K azero aadd ascale t1 t2 t3 t4 s1 s2 s3 s4 blk _ _ _ _ _ _ _ _ N1 N2 N3 N4 HB HT1 HT2 HT3 HT4) m1 q1 m2 q2 m3 q3 m4 q4). Qed.

(* the all-Cartesian processed block: only the norms *)
Theorem block4_cart_entry m1 c1 m2 c2 m3 c3 m4 c4 :
  m1 < M1 -> c1 < L1 -> m2 < M2 -> c2 < L2 -> m3 < M3 -> c3 < L3 -> m4 < M4 -> c4 < L4 ->
  Assembly14.get4 azero Bcart (m1 * L1 + c1) (m2 * L2 + c2) (m3 * L3 + c3) (m4 * L4 + c4)
  = nrm8 K azero ascale s1 s2 s3 s4 blk m1 c1 m2 c2 m3 c3 m4 c4.
Proof.
  exact (proj2 (block4_spec K azero aadd ascale false false false false s1 s2 s3 s4 blk _ _ _ _ _ _ _ _ N1 N2 N3 N4 HB
                  (cart_rows _ _) (cart_rows _ _) (cart_rows _ _) (cart_rows _ _)) m1 c1 m2 c2 m3 c3 m4 c4).
Qed.

Theorem block4_cart_shape :
  lshape (lshape (lshape (lshape (fun _ : A => True) (M4 * L4)) (M3 * L3)) (M2 * L2)) (M1 * L1) Bcart.
Proof.
  exact (proj1 (block4_spec K azero aadd ascale false false false false s1 s2 s3 s4 blk _ _ _ _ _ _ _ _ N1 N2 N3 N4 HB
                  (cart_rows _ _) (cart_rows _ _) (cart_rows _ _) (cart_rows _ _))).
Qed.

(* EVERY entry of the mixed block is T_s1 (x) T_s2 (x) T_s3 (x) T_s4 applied to the all-Cartesian block *)
Theorem block4_is_cart_transformed m1 q1 m2 q2 m3 q3 m4 q4 :
  m1 < M1 -> q1 < O1 -> m2 < M2 -> q2 < O2 -> m3 < M3 -> q3 < O3 -> m4 < M4 -> q4 < O4 ->
  Assembly14.get4 azero Bmix (m1 * O1 + q1) (m2 * O2 + q2) (m3 * O3 + q3) (m4 * O4 + q4)
  = tsum K azero aadd ascale t1 (sh_T s1) L1 q1 (fun c1 =>
    tsum K azero aadd ascale t2 (sh_T s2) L2 q2 (fun c2 =>
    tsum K azero aadd ascale t3 (sh_T s3) L3 q3 (fun c3 =>
    tsum K azero aadd ascale t4 (sh_T s4) L4 q4 (fun c4 =>
      Assembly14.get4 azero Bcart (m1 * L1 + c1) (m2 * L2 + c2) (m3 * L3 + c3) (m4 * L4 + c4))))).
Proof.
  intros Hm1 Hq1 Hm2 Hq2 Hm3 Hq3 Hm4 Hq4. rewrite block4_entry by assumption.
  apply tsum_ext; [|exact (osz_bound _ _ _ _ Hq1)]. intros c1 Hc1.
  apply tsum_ext; [|exact (osz_bound _ _ _ _ Hq2)]. intros c2 Hc2.
  apply tsum_ext; [|exact (osz_bound _ _ _ _ Hq3)]. intros c3 Hc3.
  apply tsum_ext; [|exact (osz_bound _ _ _ _ Hq4)]. intros c4 Hc4.
  symmetry. now apply block4_cart_entry.
Qed.
End Block4Cor.

(* the all-Cartesian block does not look at the transformations *)
Lemma block4_cart_ext {F A} (azero : A) aadd (ascale : F -> A -> A) (s1 s2 s3 s4 s1' s2' s3' s4' : @sh F) blk :
  sh_n s1 = sh_n s1' -> sh_n s2 = sh_n s2' -> sh_n s3 = sh_n s3' -> sh_n s4 = sh_n s4' ->
  block4 azero aadd ascale false false false false s1 s2 s3 s4 blk
  = block4 azero aadd ascale false false false false s1' s2' s3' s4' blk.
Proof. intros E1 E2 E3 E4. unfold block4, axis_width, axis_tr. cbv zeta. now rewrite E1, E2, E3, E4. Qed.

(* over a field: one quadruple sum, independent of the order of the contractions *)
From Coq Require Import Field.
From GB Require Import Model.TwoElec Proofs.AssembledSphOverlapP.

Section Block4Field.
Context {F : Type} (K : Fops F) (Kf : is_field K).
Add Field KFb4 : Kf.
Local Open Scope F_scope.
Notation "0" := (f0 K) : F_scope.
Notation "1" := (f1 K) : F_scope.
Infix "+" := (fadd K) : F_scope.
Infix "*" := (fmul K) : F_scope.
Notation fsum := (FNum.fsum K).
Notation tsumF := (tsum K 0 (fadd K) (fmul K)).

(* the matrix acting on one index: T for a spherical shell, the identity for a Cartesian one *)
Definition ucoef (sph : bool) (T : list (list F)) (q c : nat) : F :=
  if sph then nth c (nth q T []) 0 else if Nat.eqb q c then 1 else 0.

Lemma tsum_ucoef sph T L q (f : nat -> F) : (sph = false -> (q < L)%nat) ->
  tsumF sph T L q f = fsum (mk L (fun c => ucoef sph T q c * f c)).
Proof.
  intros Hq. unfold tsum, ucoef. destruct sph; [reflexivity|].
  symmetry. apply (fsum_delta K Kf). now apply Hq.
Qed.

Definition qsum4 (L1 L2 L3 L4 : nat) (g : nat -> nat -> nat -> nat -> F) : F :=
  fsum (mk L1 (fun c1 => fsum (mk L2 (fun c2 => fsum (mk L3 (fun c3 => fsum (mk L4 (fun c4 => g c1 c2 c3 c4)))))))).

Lemma qsum4_ext L1 L2 L3 L4 g h :
  (forall c1 c2 c3 c4, (c1 < L1)%nat -> (c2 < L2)%nat -> (c3 < L3)%nat -> (c4 < L4)%nat -> g c1 c2 c3 c4 = h c1 c2 c3 c4) ->
  qsum4 L1 L2 L3 L4 g = qsum4 L1 L2 L3 L4 h.
Proof.
  intros H. unfold qsum4. apply fsum_mk_ext; intros c1 H1. apply fsum_mk_ext; intros c2 H2.
  apply fsum_mk_ext; intros c3 H3. apply fsum_mk_ext; intros c4 H4. now apply H.
Qed.

(* exchange of adjacent summations: every order of the four contractions gives the same number *)
Lemma qsum4_swap12 L1 L2 L3 L4 g :
  qsum4 L1 L2 L3 L4 g = qsum4 L2 L1 L3 L4 (fun c2 c1 c3 c4 => g c1 c2 c3 c4).
Proof. unfold qsum4. apply (fsum_mk_swap K Kf). Qed.
Lemma qsum4_swap23 L1 L2 L3 L4 g :
  qsum4 L1 L2 L3 L4 g = qsum4 L1 L3 L2 L4 (fun c1 c3 c2 c4 => g c1 c2 c3 c4).
Proof. unfold qsum4. apply fsum_mk_ext; intros c1 _. apply (fsum_mk_swap K Kf). Qed.
Lemma qsum4_swap34 L1 L2 L3 L4 g :
  qsum4 L1 L2 L3 L4 g = qsum4 L1 L2 L4 L3 (fun c1 c2 c4 c3 => g c1 c2 c3 c4).
Proof. unfold qsum4. apply fsum_mk_ext; intros c1 _. apply fsum_mk_ext; intros c2 _. apply (fsum_mk_swap K Kf). Qed.

(* the sum over the quadruples in the ranges permuted by o: three adjacent exchanges give the exchange of the pairs *)
Lemma qsum4_orient o L1 L2 L3 L4 g :
  qsum4 (opick1 o L1 L2 L3 L4) (opick2 o L1 L2 L3 L4) (opick3 o L1 L2 L3 L4) (opick4 o L1 L2 L3 L4) g
  = qsum4 L1 L2 L3 L4 (fun c1 c2 c3 c4 =>
      g (opick1 o c1 c2 c3 c4) (opick2 o c1 c2 c3 c4) (opick3 o c1 c2 c3 c4) (opick4 o c1 c2 c3 c4)).
Proof.
  assert (El : forall h, qsum4 L3 L4 L1 L2 h = qsum4 L1 L2 L3 L4 (fun c1 c2 c3 c4 => h c3 c4 c1 c2)).
  { intros h. rewrite (qsum4_swap23 L3 L4 L1 L2), (qsum4_swap12 L3 L1 L4 L2).
    rewrite (qsum4_swap34 L1 L3 L4 L2), (qsum4_swap23 L1 L3 L2 L4). reflexivity. }
  destruct o; cbn [opick1 opick2 opick3 opick4].
  - reflexivity.
  - apply qsum4_swap12.
  - apply qsum4_swap34.
  - rewrite (qsum4_swap12 L2 L1 L4 L3). apply qsum4_swap34.
  - apply El.
  - rewrite (qsum4_swap12 L4 L3 L1 L2). apply El.
  - rewrite (qsum4_swap34 L3 L4 L2 L1). apply El.
  - rewrite (qsum4_swap12 L4 L3 L2 L1), (qsum4_swap34 L3 L4 L2 L1). apply El.
Qed.

Lemma tsum4_qsum t1 t2 t3 t4 T1 T2 T3 T4 L1 L2 L3 L4 q1 q2 q3 q4 (X : nat -> nat -> nat -> nat -> F) :
  (t1 = false -> (q1 < L1)%nat) -> (t2 = false -> (q2 < L2)%nat) ->
  (t3 = false -> (q3 < L3)%nat) -> (t4 = false -> (q4 < L4)%nat) ->
  tsumF t1 T1 L1 q1 (fun c1 => tsumF t2 T2 L2 q2 (fun c2 => tsumF t3 T3 L3 q3 (fun c3 =>
    tsumF t4 T4 L4 q4 (fun c4 => X c1 c2 c3 c4))))
  = qsum4 L1 L2 L3 L4 (fun c1 c2 c3 c4 =>
      ucoef t1 T1 q1 c1 * ucoef t2 T2 q2 c2 * ucoef t3 T3 q3 c3 * ucoef t4 T4 q4 c4 * X c1 c2 c3 c4).
Proof.
  intros H1 H2 H3 H4. unfold qsum4.
  rewrite tsum_ucoef by exact H1. apply fsum_mk_ext; intros c1 _.
  rewrite tsum_ucoef by exact H2. rewrite (fsum_mk_scale_l K Kf). apply fsum_mk_ext; intros c2 _.
  rewrite tsum_ucoef by exact H3.
  transitivity ((ucoef t1 T1 q1 c1 * ucoef t2 T2 q2 c2) * fsum (mk L3 (fun c3 =>
                  ucoef t3 T3 q3 c3 * tsumF t4 T4 L4 q4 (fun c4 => X c1 c2 c3 c4)))); [ring|].
  rewrite (fsum_mk_scale_l K Kf). apply fsum_mk_ext; intros c3 _.
  rewrite tsum_ucoef by exact H4.
  transitivity ((ucoef t1 T1 q1 c1 * ucoef t2 T2 q2 c2 * ucoef t3 T3 q3 c3) * fsum (mk L4 (fun c4 =>
                  ucoef t4 T4 q4 c4 * X c1 c2 c3 c4))); [ring|].
  rewrite (fsum_mk_scale_l K Kf). apply fsum_mk_ext; intros c4 _. ring.
Qed.

Section Q.
Variables t1 t2 t3 t4 : bool.
Variables s1 s2 s3 s4 : @sh F.
Variable blk : list (list (list (list (list (list (list (list F))))))).
Variables M1 L1 M2 L2 M3 L3 M4 L4 : nat.
Hypothesis N1 : nsh M1 L1 (sh_n s1).
Hypothesis N2 : nsh M2 L2 (sh_n s2).
Hypothesis N3 : nsh M3 L3 (sh_n s3).
Hypothesis N4 : nsh M4 L4 (sh_n s4).
Hypothesis HB : sh8 M1 L1 M2 L2 M3 L3 M4 L4 blk.
Hypothesis HT1 : t1 = true -> Forall (fun r => length r = L1) (sh_T s1).
Hypothesis HT2 : t2 = true -> Forall (fun r => length r = L2) (sh_T s2).
Hypothesis HT3 : t3 = true -> Forall (fun r => length r = L3) (sh_T s3).
Hypothesis HT4 : t4 = true -> Forall (fun r => length r = L4) (sh_T s4).
Notation O1 := (osz t1 (sh_T s1) L1).
Notation O2 := (osz t2 (sh_T s2) L2).
Notation O3 := (osz t3 (sh_T s3) L3).
Notation O4 := (osz t4 (sh_T s4) L4).

Theorem block4_quadruple_sum m1 q1 m2 q2 m3 q3 m4 q4 :
  (m1 < M1)%nat -> (q1 < O1)%nat -> (m2 < M2)%nat -> (q2 < O2)%nat ->
  (m3 < M3)%nat -> (q3 < O3)%nat -> (m4 < M4)%nat -> (q4 < O4)%nat ->
  Assembly14.get4 0 (block4 0 (fadd K) (fmul K) t1 t2 t3 t4 s1 s2 s3 s4 blk)
    (m1 * O1 + q1) (m2 * O2 + q2) (m3 * O3 + q3) (m4 * O4 + q4)
  = qsum4 L1 L2 L3 L4 (fun c1 c2 c3 c4 =>
      ucoef t1 (sh_T s1) q1 c1 * ucoef t2 (sh_T s2) q2 c2 * ucoef t3 (sh_T s3) q3 c3 * ucoef t4 (sh_T s4) q4 c4
      * Assembly14.get4 0 (block4 0 (fadd K) (fmul K) false false false false s1 s2 s3 s4 blk)
          (m1 * L1 + c1) (m2 * L2 + c2) (m3 * L3 + c3) (m4 * L4 + c4)).
Proof.
  intros Hm1 Hq1 Hm2 Hq2 Hm3 Hq3 Hm4 Hq4.
  rewrite (block4_is_cart_transformed K 0 (fadd K) (fmul K) t1 t2 t3 t4 s1 s2 s3 s4 blk
             M1 L1 M2 L2 M3 L3 M4 L4 N1 N2 N3 N4 HB HT1 HT2 HT3 HT4) by assumption.
  apply tsum4_qsum; [exact (osz_bound _ _ _ _ Hq1)|exact (osz_bound _ _ _ _ Hq2)|exact (osz_bound _ _ _ _ Hq3)|exact (osz_bound _ _ _ _ Hq4)].
Qed.
End Q.
End Block4Field.

From GB Require Import Model.Spherical Model.Overlap Model.OneBody Proofs.PermP Proofs.EriStructP.

Lemma lshape4_shp4 {A} w1 w2 w3 w4 (m : list (list (list (list A)))) :
  lshape (lshape (lshape (lshape (fun _ : A => True) w4) w3) w2) w1 m -> shp4 w1 w2 w3 w4 m.
Proof.
  unfold shp4, shp3, shp2, shp1. intros H.
  refine (lshape_impl _ _ _ _ _ H). intros x3. refine (lshape_impl _ _ _ _ _). intros x2.
  refine (lshape_impl _ _ _ _ _). intros x1 [H1 _]. exact H1.
Qed.

Section FourAsm.
Context {F : Type} (K : Fops F).
Context {A : Type} (azero : A) (aadd : A -> A -> A) (ascale : F -> A -> A).
Notation R4 := (list (list (list (list A)))).
Variable ss : list (@sh F).
Variable bf : nat -> nat -> nat -> nat -> list (list (list (list R4))).
Variables Mf Lf : nat -> nat.          (* segments / Cartesian components of shell k *)
Let n := length ss.
Let dsh : @sh F := mkSh false [] [].
Let s_ k := nth k ss dsh.
Hypothesis HN : forall k, k < n -> nsh (Mf k) (Lf k) (sh_n (s_ k)).
Hypothesis HT : forall k, k < n -> sh_sph (s_ k) = true -> Forall (fun r => length r = Lf k) (sh_T (s_ k)).
Hypothesis HB : forall i j k l, i < n -> j < n -> k < n -> l < n ->
  sh8 (Mf i) (Lf i) (Mf j) (Lf j) (Mf k) (Lf k) (Mf l) (Lf l) (bf i j k l).

Definition Of (k : nat) : nat := osz (sh_sph (s_ k)) (sh_T (s_ k)) (Lf k).
Definition rmix (k : nat) : nat := Mf k * Of k.
Definition rcart (k : nat) : nat := Mf k * Lf k.

Lemma B4f_mix_shape : shape4 n rmix (B4f azero aadd ascale 2 ss bf).
Proof.
  intros i j k l Hi Hj Hk Hl. unfold B4f. cbv zeta. apply lshape4_shp4.
  exact (block4_shape K azero aadd ascale _ _ _ _ _ _ _ _ _ _ _ _ _ _ _ _ _
           (HN i Hi) (HN j Hj) (HN k Hk) (HN l Hl) (HB i j k l Hi Hj Hk Hl) (HT i Hi) (HT j Hj) (HT k Hk) (HT l Hl)).
Qed.

Lemma B4f_cart_shape : shape4 n rcart (B4f azero aadd ascale 0 ss bf).
Proof.
  intros i j k l Hi Hj Hk Hl. unfold B4f. cbv zeta. apply lshape4_shp4.
  exact (block4_cart_shape K azero aadd ascale _ _ _ _ _ _ _ _ _ _ _ _ _
           (HN i Hi) (HN j Hj) (HN k Hk) (HN l Hl) (HB i j k l Hi Hj Hk Hl)).
Qed.

(* entry of the assembled array of a basis with ANY assignment of coordinate types (mode 2 = the mix path)
   = T on each of the four indices of the assembled all-Cartesian array (mode 0 = the cartesian path).
   The eight-fold block symmetry [sym8] of the processed blocks is the hypothesis under which the store of
   base_four_symm.py holds the block of every quartet (Proofs/PermP.lookup_all_writes, property C11). *)
Theorem four_symm_mix_is_cart_transformed i j k l m1 q1 m2 q2 m3 q3 m4 q4 :
  sym8 azero n (B4f azero aadd ascale 2 ss bf) -> sym8 azero n (B4f azero aadd ascale 0 ss bf) ->
  i < n -> j < n -> k < n -> l < n ->
  m1 < Mf i -> q1 < Of i -> m2 < Mf j -> q2 < Of j -> m3 < Mf k -> q3 < Of k -> m4 < Mf l -> q4 < Of l ->
  Assembly14.get4 azero (four_symm azero aadd ascale 2 ss bf)
    (offs rmix i + (m1 * Of i + q1)) (offs rmix j + (m2 * Of j + q2))
    (offs rmix k + (m3 * Of k + q3)) (offs rmix l + (m4 * Of l + q4))
  = tsum K azero aadd ascale (sh_sph (s_ i)) (sh_T (s_ i)) (Lf i) q1 (fun c1 =>
    tsum K azero aadd ascale (sh_sph (s_ j)) (sh_T (s_ j)) (Lf j) q2 (fun c2 =>
    tsum K azero aadd ascale (sh_sph (s_ k)) (sh_T (s_ k)) (Lf k) q3 (fun c3 =>
    tsum K azero aadd ascale (sh_sph (s_ l)) (sh_T (s_ l)) (Lf l) q4 (fun c4 =>
      Assembly14.get4 azero (four_symm azero aadd ascale 0 ss bf)
        (offs rcart i + (m1 * Lf i + c1)) (offs rcart j + (m2 * Lf j + c2))
        (offs rcart k + (m3 * Lf k + c3)) (offs rcart l + (m4 * Lf l + c4)))))).
Proof.
  intros S2 S0 Hi Hj Hk Hl Hm1 Hq1 Hm2 Hq2 Hm3 Hq3 Hm4 Hq4.
  rewrite (four_symm_is_concat azero aadd ascale 2 ss bf S2).
  rewrite <- !off_offs.
  rewrite (four_concat_entry azero n rmix _ B4f_mix_shape i j k l) by (try assumption; unfold rmix; now apply idx_lt).
  unfold B4f at 1. cbv zeta.
  rewrite (block4_is_cart_transformed K azero aadd ascale _ _ _ _ _ _ _ _ _ _ _ _ _ _ _ _ _
             (HN i Hi) (HN j Hj) (HN k Hk) (HN l Hl) (HB i j k l Hi Hj Hk Hl) (HT i Hi) (HT j Hj) (HT k Hk) (HT l Hl))
    by assumption.
  apply tsum_ext; [|exact (osz_bound _ _ _ _ Hq1)]. intros c1 Hc1.
  apply tsum_ext; [|exact (osz_bound _ _ _ _ Hq2)]. intros c2 Hc2.
  apply tsum_ext; [|exact (osz_bound _ _ _ _ Hq3)]. intros c3 Hc3.
  apply tsum_ext; [|exact (osz_bound _ _ _ _ Hq4)]. intros c4 Hc4.
  rewrite (four_symm_is_concat azero aadd ascale 0 ss bf S0).
  rewrite (four_concat_entry azero n rcart _ B4f_cart_shape i j k l) by (try assumption; unfold rcart; now apply idx_lt).
  reflexivity.
Qed.
End FourAsm.

(* electron_repulsion_integral (OneBody.eri_integral), chemists' notation, no final transformation *)
Section EriAsm.
Context {F : Type} (K : Fops F).
Notation R4 := (list (list (list (list F)))).
Notation "0" := (f0 K).
Variable bs : list (shell F).
Let n := length bs.
Let bsc := map to_cart bs.
Notation s_ k := (sh_at K bs k).
Notation dsh := (mkSh (F:=F) false [] []).

Lemma ess_length : length (ess K bs) = n.
Proof. unfold ess. now rewrite !map_length. Qed.

Lemma ess_nth k : k < n ->
  nth k (ess K bs) dsh = mkSh (s_sph (s_ k)) (shell_transform K (s_ k)) (norm_cont K (s_ k)).
Proof.
  intros Hk. unfold ess. rewrite (nth_map_lt _ _ k (dummy_p K)) by (now rewrite map_length).
  rewrite nth_prep by exact Hk. reflexivity.
Qed.

Lemma ebf_eq i j k l : i < n -> j < n -> k < n -> l < n ->
  ebf K bs i j k l = eri_block K (s_ i) (s_ j) (s_ k) (s_ l).
Proof. intros Hi Hj Hk Hl. unfold ebf. cbv zeta. now rewrite !nth_prep by assumption. Qed.

Lemma norm_cont_nsh (s : shell F) : nsh (nseg s) (ncomp s) (norm_cont K s).
Proof.
  destruct (norm_cont_shape K s) as [HL HR]. apply (lshape_of_nth _ _ _ []); [exact HL|exact HR].
Qed.

Lemma eri_block_sh8 (a b c d : shell F) :
  sh8 (nseg a) (ncomp a) (nseg b) (ncomp b) (nseg c) (ncomp c) (nseg d) (ncomp d) (eri_block K a b c d).
Proof.
  unfold eri_block, ncomp. cbv zeta. apply sh8_mk.
Qed.

Let Mf k := nseg (s_ k).
Let Lf k := ncomp (s_ k).

Lemma eHN k : k < length (ess K bs) -> nsh (Mf k) (Lf k) (sh_n (nth k (ess K bs) dsh)).
Proof. rewrite ess_length. intros Hk. rewrite ess_nth by exact Hk. apply norm_cont_nsh. Qed.
Lemma eHT k : k < length (ess K bs) -> sh_sph (nth k (ess K bs) dsh) = true ->
  Forall (fun r => length r = Lf k) (sh_T (nth k (ess K bs) dsh)).
Proof. rewrite ess_length. intros Hk _. rewrite ess_nth by exact Hk. apply shell_transform_rows. Qed.
Lemma eHB i j k l : i < length (ess K bs) -> j < length (ess K bs) -> k < length (ess K bs) -> l < length (ess K bs) ->
  sh8 (Mf i) (Lf i) (Mf j) (Lf j) (Mf k) (Lf k) (Mf l) (Lf l) (ebf K bs i j k l).
Proof. rewrite ess_length. intros Hi Hj Hk Hl. rewrite ebf_eq by assumption. apply eri_block_sh8. Qed.

Lemma eOf k : k < n -> Of (ess K bs) Lf k = osize (s_ k).
Proof. intros Hk. unfold Of. rewrite ess_nth by exact Hk. apply osz_shell. Qed.

Lemma ermix_off k : k <= n -> offs (rmix (ess K bs) Mf Lf) k = ooff K bs k.
Proof.
  intros Hk. unfold ooff. apply offs_ext. intros t Ht. unfold rmix, odim. rewrite eOf by lia. reflexivity.
Qed.
Lemma ercart_off k : offs (rcart Mf Lf) k = boff K bs k.
Proof. reflexivity. Qed.

(* the processed block of the all-Cartesian basis is the mode-0 block of the mixed one *)
Lemma Beri_to_cart i j k l : i < n -> j < n -> k < n -> l < n ->
  Beri K bsc i j k l = B4f 0 (fadd K) (fmul K) 0 (ess K bs) (ebf K bs) i j k l.
Proof.
  intros Hi Hj Hk Hl. unfold Beri, B4f. cbv zeta.
  assert (Ln : length bsc = n) by (unfold bsc; now rewrite map_length).
  assert (E : forall t, t < n ->
     nth t (ess K bsc) dsh = mkSh false (shell_transform K (to_cart (s_ t))) (norm_cont K (s_ t))).
  { intros t Ht. unfold ess. rewrite (nth_map_lt _ _ t (dummy_p K)) by (now rewrite map_length, Ln).
    rewrite nth_prep by (now rewrite Ln). unfold bsc. rewrite sh_at_to_cart. reflexivity. }
  assert (EB : ebf K bsc i j k l = ebf K bs i j k l).
  { unfold ebf. cbv zeta. rewrite !nth_prep by (rewrite ?Ln; assumption).
    unfold bsc. rewrite !sh_at_to_cart. reflexivity. }
  rewrite !E by assumption. cbn [sh_sph]. rewrite EB.
  apply block4_cart_ext; rewrite ess_nth by assumption; reflexivity.
Qed.

Lemma sym8_to_cart : sym8 0 n (Beri K bsc) -> sym8 0 n (B4f 0 (fadd K) (fmul K) 0 (ess K bs) (ebf K bs)).
Proof.
  intros H i j k l Hi Hj Hk Hl. rewrite <- !Beri_to_cart by assumption. now apply H.
Qed.

Lemma eri_cart_is_mode0 : sym8 0 n (Beri K bsc) ->
  eri_integral K bsc None false = four_symm 0 (fadd K) (fmul K) 0 (ess K bs) (ebf K bs).
Proof.
  intros H. rewrite eri_integral_chem.
  assert (Ln : length (ess K bsc) = n) by (unfold ess, bsc; now rewrite !map_length).
  rewrite four_symm_is_concat by (rewrite Ln; exact H).
  rewrite (four_symm_is_concat 0 (fadd K) (fmul K) 0 (ess K bs) (ebf K bs)) by (rewrite ess_length; now apply sym8_to_cart).
  rewrite Ln, ess_length. apply four_concat_ext. intros i j k l Hi Hj Hk Hl. now apply Beri_to_cart.
Qed.

(* EVERY entry of the ERI array of a basis with any assignment of coordinate types is T (x) T (x) T (x) T applied
   to the ERI array of the same basis with all shells Cartesian; oidx / gidx: the output / Cartesian index maps of
   Proofs/AssembledSphP.v / AssembledP.v *)
Theorem eri_mixed_is_cart_transformed i j k l m1 q1 m2 q2 m3 q3 m4 q4 :
  sym8 0 n (Beri K bs) -> sym8 0 n (Beri K bsc) ->
  i < n -> j < n -> k < n -> l < n ->
  m1 < nseg (s_ i) -> q1 < osize (s_ i) -> m2 < nseg (s_ j) -> q2 < osize (s_ j) ->
  m3 < nseg (s_ k) -> q3 < osize (s_ k) -> m4 < nseg (s_ l) -> q4 < osize (s_ l) ->
  Assembly14.get4 0 (eri_integral K bs None false)
    (oidx K bs i m1 q1) (oidx K bs j m2 q2) (oidx K bs k m3 q3) (oidx K bs l m4 q4)
  = tsum K 0 (fadd K) (fmul K) (s_sph (s_ i)) (shell_transform K (s_ i)) (ncomp (s_ i)) q1 (fun c1 =>
    tsum K 0 (fadd K) (fmul K) (s_sph (s_ j)) (shell_transform K (s_ j)) (ncomp (s_ j)) q2 (fun c2 =>
    tsum K 0 (fadd K) (fmul K) (s_sph (s_ k)) (shell_transform K (s_ k)) (ncomp (s_ k)) q3 (fun c3 =>
    tsum K 0 (fadd K) (fmul K) (s_sph (s_ l)) (shell_transform K (s_ l)) (ncomp (s_ l)) q4 (fun c4 =>
      Assembly14.get4 0 (eri_integral K bsc None false)
        (gidx K bs i m1 c1) (gidx K bs j m2 c2) (gidx K bs k m3 c3) (gidx K bs l m4 c4))))).
Proof.
  intros S2 S0 Hi Hj Hk Hl Hm1 Hq1 Hm2 Hq2 Hm3 Hq3 Hm4 Hq4.
  rewrite (eri_cart_is_mode0 S0). rewrite eri_integral_chem.
  pose proof (four_symm_mix_is_cart_transformed K 0 (fadd K) (fmul K) (ess K bs) (ebf K bs) Mf Lf eHN eHT eHB
                i j k l m1 q1 m2 q2 m3 q3 m4 q4) as H.
  rewrite ess_length in H. unfold Beri in S2.
  specialize (H S2 (sym8_to_cart S0) Hi Hj Hk Hl).
  rewrite !eOf in H by assumption. rewrite !ermix_off in H by (unfold n in *; lia).
  rewrite !ess_nth in H by assumption. cbn [sh_sph sh_T] in H.
  unfold oidx, gidx. exact (H Hm1 Hq1 Hm2 Hq2 Hm3 Hq3 Hm4 Hq4).
Qed.
End EriAsm.

(* the hypotheses are satisfiable (labelled integers, Proofs/PermEx.v: shells with 1, 2 (two segments) and
   2 (spherical, from 3 Cartesian components) functions) *)
From Coq Require Import ZArith.
From GB Require Import Proofs.PermEx.

Lemma ex_block4_hyps :
  (forall k, k < 3 -> nsh (nM k) (nL4 k) (sh_n (nth k ss4 (mkSh false [] [])))) /\
  (forall k, k < 3 -> sh_sph (nth k ss4 (mkSh false [] [])) = true ->
     Forall (fun r => length r = nL4 k) (sh_T (nth k ss4 (mkSh false [] [])))) /\
  (forall i j k l, i < 3 -> j < 3 -> k < 3 -> l < 3 ->
     sh8 (nM i) (nL4 i) (nM j) (nL4 j) (nM k) (nL4 k) (nM l) (nL4 l) (raw4 i j k l)) /\
  sym8 0%Z 3 (B4f 0%Z Z.add Z.mul 2 ss4 raw4) /\ sym8 0%Z 3 (B4f 0%Z Z.add Z.mul 0 ss4 raw4).
Proof.
  split; [|split; [|split; [|split]]].
  - intros k Hk. cases3 k Hk; (split; [reflexivity|repeat constructor]).
  - intros k Hk. cases3 k Hk; cbn; intros E; try discriminate. repeat constructor.
  - intros i j k l _ _ _ _. apply sh8_mk.
  - exact ex_sym8.
  - exact ex_sym8_cart.
Qed.
