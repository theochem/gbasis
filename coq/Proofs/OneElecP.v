(* Proofs/OneElecP.v — the list-level model of _one_elec_int.py / point_charge.py (Model/OneElec.v,
   Model/OneBody.v) against the abstract theory of Gauss/SPoly.v: inside its validity region every table
   entry of the vertical passes and of the horizontal transfer is Phi_0 of a polynomial in s whose value at
   every s is the product over the axes of the two-centre Gaussian moments; a block entry is the contraction
   sum of these.  The vertical pass is treated with ARBITRARY data in the row m = L that the code never
   writes.  The L_a < L_b swap rests on the uniqueness of the polynomial representative (characteristic 0). *)
From Coq Require Import List Arith Lia Bool Field.
From GB Require Import Base.Field Base.FNum Base.Tables Base.Sums Gauss.Moment1D Gauss.SPoly
  Model.Shell Model.MomentInt Model.OneElec Model.OneBody.
From GB Require Proofs.BlockP.
Import ListNotations.

Section Lists.
Context {A B C : Type}.

Lemma zip2_length (f : A -> B -> C) x y : length (zip2 f x y) = Nat.min (length x) (length y).
Proof. unfold zip2. now rewrite map_length, combine_length. Qed.

Lemma nth_zip2 (f : A -> B -> C) x y i da db dc :
  i < length x -> i < length y -> nth i (zip2 f x y) dc = f (nth i x da) (nth i y db).
Proof.
  revert y i. induction x as [|a x IH]; intros [|b y] i Hx Hy; cbn [length] in *; try lia.
  destruct i as [|i]; [reflexivity|]. unfold zip2 in *. cbn [combine map nth].
  apply IH; lia.
Qed.
End Lists.

Section P.
Context {F : Type} (K : Fops F) (Kf : is_field K).
Add Field KFoe : Kf.
Local Open Scope F_scope.
Notation "0" := (f0 K) : F_scope.
Notation "1" := (f1 K) : F_scope.
Infix "+" := (fadd K) : F_scope.
Infix "*" := (fmul K) : F_scope.
Infix "-" := (fsub K) : F_scope.
Infix "/" := (fdiv K) : F_scope.
Notation "- x" := (fopp K x) : F_scope.
Notation "# n" := (ofnat K n) (at level 5) : F_scope.
Notation fsum := (FNum.fsum K).
Notation padd := (Moment1D.padd K).
Notation pscale := (Moment1D.pscale K).
Notation Vf := (SPoly.Vf K).
Notation Phi := (SPoly.Phi K).
Notation peval := (SPoly.peval K).
Notation Pc := (SPoly.Pc K).

Lemma div_as_mul x y : x / y = x * (1 / y).
Proof. rewrite !(Fdiv_def Kf). ring. Qed.

Lemma Vf_ext_local pa pc v (b1 b2 : nat -> F) a m :
  (forall k, k <= a -> b1 (m + k)%nat = b2 (m + k)%nat) ->
  Vf pa pc v b1 a m = Vf pa pc v b2 a m.
Proof.
  revert m. induction a as [| |a IH0 IH1] using nat_ind2; intros m H.
  - rewrite !Vf_0. specialize (H 0%nat ltac:(lia)). now rewrite Nat.add_0_r in H.
  - pose proof (H 0%nat ltac:(lia)) as H0. pose proof (H 1%nat ltac:(lia)) as H1.
    rewrite Nat.add_0_r in H0. rewrite Nat.add_1_r in H1. rewrite !Vf_1. now rewrite H0, H1.
  - rewrite !Vf_SS.
    rewrite (IH1 m), (IH0 m) by (intros; apply H; lia).
    rewrite (IH1 (S m)), (IH0 (S m))
      by (intros k Hk; replace (S m + k)%nat with (m + S k)%nat by lia; apply H; lia).
    reflexivity.
Qed.

Section VPassP.
Variables (L : nat) (pa pc twop : F).
Let v := 1 / twop.

(* the model's step with the row m = L (never written by the code: slices [:-1]) filled by an
   ARBITRARY function g of the step index and of the current row *)
Definition vstep_g (g : nat -> list F -> list F) (a : nat) (cur prev : list (list F))
  : list (list F) :=
  mk (S L) (fun m =>
    let c0 := nth m cur [] in
    if Nat.eqb m L then g a c0
    else
      let c1 := nth (S m) cur [] in
      let lead := zip2 (fun x y => pa * x - pc * y) c0 c1 in
      match a with
      | O => lead
      | S _ => zip2 (fadd K) lead
                 (zip2 (fun x y => #a / twop * (x - y)) (nth m prev []) (nth (S m) prev []))
      end).
Definition vpass_g g (v0 : list (list F)) : list (list (list F)) := iter2 (vstep_g g) L 0%nat v0 [].

Lemma vstep_is_g : vstep K L pa pc twop = vstep_g (fun _ c0 => map (fun _ => 0) c0).
Proof. reflexivity. Qed.
Lemma vpass_is_g v0 : vpass K L pa pc twop v0 = vpass_g (fun _ c0 => map (fun _ => 0) c0) v0.
Proof. reflexivity. Qed.

Variables (g : nat -> list F -> list F) (v0 : list (list F)) (w : nat).
Hypothesis Hw : forall m, m <= L -> length (nth m v0 []) = w.

Definition col (c : nat) : nat -> F := fun m => nth c (nth m v0 []) 0.

Definition Pv (a : nat) (tbl : list (list F)) : Prop :=
  forall m, (m + a <= L)%nat ->
    length (nth m tbl []) = w /\
    forall c, c < w -> nth c (nth m tbl []) 0 = Vf pa pc v (col c) a m.

Lemma vstep_g_inv j cur prev :
  Pv j cur -> (0 < j -> Pv (j - 1) prev) -> Pv (S j) (vstep_g g j cur prev).
Proof.
  intros Hc Hp m Hm. unfold vstep_g. rewrite nth_mk by lia. cbv zeta.
  destruct (Nat.eqb_spec m L) as [->|Hne]; [lia|].
  destruct (Hc m ltac:(lia)) as [Lc0 Vc0]. destruct (Hc (S m) ltac:(lia)) as [Lc1 Vc1].
  destruct j as [|j'].
  - split.
    + rewrite zip2_length, Lc0, Lc1. apply Nat.min_id.
    + intros c Hcw. rewrite (nth_zip2 _ _ _ c 0 0 0) by lia.
      rewrite Vc0, Vc1 by exact Hcw. rewrite !Vf_0, Vf_1. reflexivity.
  - specialize (Hp ltac:(lia)). replace (S j' - 1)%nat with j' in Hp by lia.
    destruct (Hp m ltac:(lia)) as [Lp0 Vp0]. destruct (Hp (S m) ltac:(lia)) as [Lp1 Vp1].
    split.
    + rewrite !zip2_length, Lc0, Lc1, Lp0, Lp1. rewrite !Nat.min_id. reflexivity.
    + intros c Hcw.
      rewrite (nth_zip2 _ _ _ c 0 0 0) by (rewrite !zip2_length; lia).
      rewrite (nth_zip2 _ _ _ c 0 0 0) by lia.
      rewrite (nth_zip2 _ _ _ c 0 0 0) by lia.
      rewrite Vc0, Vc1, Vp0, Vp1 by exact Hcw. rewrite Vf_SS.
      rewrite (div_as_mul #(S j') twop). fold v. ring.
Qed.

Lemma Pv_0 : Pv 0%nat v0.
Proof. intros m Hm. split; [apply Hw; lia|]. intros c Hcw. rewrite Vf_0. reflexivity. Qed.

Lemma vpass_g_Pv a : a <= L -> Pv a (nth a (vpass_g g v0) []).
Proof. intros Ha. apply (iter2_spec (vstep_g g) Pv [] vstep_g_inv L 0 v0 []); [apply Pv_0|lia|exact Ha]. Qed.

Theorem vpass_g_entry a m c : (m + a <= L)%nat -> c < w ->
  nth c (nth m (nth a (vpass_g g v0) []) []) 0 = Vf pa pc v (col c) a m.
Proof. intros Hm Hcw. now apply (vpass_g_Pv a ltac:(lia) m Hm). Qed.

Lemma vpass_g_row_length a m : (m + a <= L)%nat ->
  length (nth m (nth a (vpass_g g v0) []) []) = w.
Proof. intros Hm. apply (vpass_g_Pv a ltac:(lia) m Hm). Qed.

End VPassP.

Corollary vpass_garbage_independent L pa pc twop g v0 w :
  (forall m, m <= L -> length (nth m v0 []) = w) ->
  forall (g' : nat -> list F -> list F) a m c, (m + a <= L)%nat -> c < w ->
  nth c (nth m (nth a (vpass_g L pa pc twop g v0) []) []) 0
  = nth c (nth m (nth a (vpass_g L pa pc twop g' v0) []) []) 0.
Proof. intros Hw g' a m c Hm Hcw. now rewrite !(vpass_g_entry L pa pc twop _ v0 w Hw). Qed.

Theorem vpass_entry L pa pc twop v0 w a m c :
  (forall m, m <= L -> length (nth m v0 []) = w) ->
  (m + a <= L)%nat -> c < w ->
  nth c (nth m (nth a (vpass K L pa pc twop v0) []) []) 0
  = Vf pa pc (1 / twop) (col v0 c) a m.
Proof. intros Hw Hm Hc. rewrite vpass_is_g. now apply vpass_g_entry with (w := w). Qed.

Lemma vpass_all_lengths L pa pc twop v0 w :
  (forall m, m <= L -> length (nth m v0 []) = w) ->
  forall a m, a <= L -> m <= L -> length (nth m (nth a (vpass K L pa pc twop v0) []) []) = w.
Proof.
  intros Hw a m Ha Hm. unfold vpass.
  pose (Q := fun (_ : nat) (tbl : list (list F)) => forall m, m <= L -> length (nth m tbl []) = w).
  assert (H : Q (0 + a)%nat (nth a (iter2 (vstep K L pa pc twop) L 0 v0 []) [])).
  { apply (iter2_spec (vstep K L pa pc twop) Q); [|exact Hw|intros Hlt; lia|lia].
    intros j x y Hx Hy m' Hm'. unfold vstep. rewrite nth_mk by lia. cbv zeta.
    destruct (Nat.eqb_spec m' L) as [->|Hne].
    - rewrite map_length. apply Hx. lia.
    - assert (HS : S m' <= L) by lia.
      destruct j as [|j'].
      + rewrite zip2_length, (Hx m' Hm'), (Hx (S m') HS). apply Nat.min_id.
      + assert (Hy' : forall m, m <= L -> length (nth m y []) = w) by (apply Hy; lia).
        rewrite !zip2_length, (Hx m' Hm'), (Hx (S m') HS), (Hy' m' Hm'), (Hy' (S m') HS).
        rewrite !Nat.min_id. reflexivity. }
  apply H. exact Hm.
Qed.


Fixpoint pmul (P Q : list F) : list F :=
  match Q with [] => [] | q :: Q' => padd (pscale q P) (0 :: pmul P Q') end.

Lemma peval_pmul P Q s : peval (pmul P Q) s = peval P s * peval Q s.
Proof.
  induction Q as [|q Q IH]; cbn [pmul SPoly.peval]; [ring|].
  rewrite (peval_padd K Kf), (peval_pscale K Kf), (peval_shift K Kf), IH. ring.
Qed.

Lemma Phi_ext (b1 b2 : nat -> F) f : forall m,
  (forall k, b1 k = b2 k) -> Phi b1 m f = Phi b2 m f.
Proof. induction f as [|c f IH]; intros m H; cbn [SPoly.Phi]; [reflexivity|].
  now rewrite H, (IH (S m) H). Qed.

Lemma Phi_pmul beta P Q : forall m,
  Phi beta m (pmul P Q) = Phi (fun m' => Phi beta m' P) m Q.
Proof.
  induction Q as [|q Q IH]; intros m; cbn [pmul SPoly.Phi]; [reflexivity|].
  rewrite (Phi_padd K Kf), (Phi_pscale K Kf), (Phi_shift K Kf), IH. reflexivity.
Qed.

Lemma Phi_beta_add (b1 b2 : nat -> F) f : forall m,
  Phi (fun k => b1 k + b2 k) m f = Phi b1 m f + Phi b2 m f.
Proof. induction f as [|c f IH]; intros m; cbn [SPoly.Phi]; [ring|]. rewrite IH. ring. Qed.
Lemma Phi_beta_scale t (b : nat -> F) f : forall m,
  Phi (fun k => t * b k) m f = t * Phi b m f.
Proof. induction f as [|c f IH]; intros m; cbn [SPoly.Phi]; [ring|]. rewrite IH. ring. Qed.

Lemma Vf_ext pa pc v (b1 b2 : nat -> F) a m :
  (forall k, b1 k = b2 k) -> Vf pa pc v b1 a m = Vf pa pc v b2 a m.
Proof. intros H. apply Vf_ext_local. intros; apply H. Qed.

Lemma Vf_Phi pa pc v beta a m : Vf pa pc v beta a m = Phi beta m (Pc pa pc v a).
Proof. apply (proj1 (V_is_Phi K Kf pa pc v beta a m)). Qed.

Section Three.
Variables (pax pcx pay pcy paz pcz v : F).

(* the abstract three-axis recursion: the y pass runs on the results of the x pass, the z pass
   on the results of the y pass *)
Definition V3 (beta : nat -> F) (ax ay az m : nat) : F :=
  Vf paz pcz v (fun m' => Vf pay pcy v (fun m'' => Vf pax pcx v beta ax m'') ay m') az m.

Definition P3 (ax ay az : nat) : list F :=
  pmul (pmul (Pc pax pcx v ax) (Pc pay pcy v ay)) (Pc paz pcz v az).

Theorem V3_is_Phi beta ax ay az m : V3 beta ax ay az m = Phi beta m (P3 ax ay az).
Proof.
  unfold V3, P3. rewrite Vf_Phi, Phi_pmul. apply Phi_ext. intros k.
  rewrite Vf_Phi, Phi_pmul. apply Phi_ext. intros k'. apply Vf_Phi.
Qed.

Theorem P3_eval ax ay az s :
  peval (P3 ax ay az) s = Gs K pax pcx v s ax * Gs K pay pcy v s ay * Gs K paz pcz v s az.
Proof.
  unfold P3. rewrite !peval_pmul.
  rewrite (proj1 (Pc_eval K Kf pax pcx v ax s)), (proj1 (Pc_eval K Kf pay pcy v ay s)),
          (proj1 (Pc_eval K Kf paz pcz v az s)). reflexivity.
Qed.
End Three.

(* three passes in a row, each known by its recursion R on columns: the second runs on the table of the first with
   its axis as column index, the third on the table of the second with both axes flattened into the column index *)
Section ThreePass.
Variable L : nat.

Definition pass_spec (pass : list (list F) -> list (list (list F))) (R : (nat -> F) -> nat -> nat -> F) : Prop :=
  forall v0 w, (forall m, m <= L -> length (nth m v0 []) = w) ->
    (forall a m, a <= L -> m <= L -> length (nth m (nth a (pass v0) []) []) = w) /\
    (forall a m c, (m + a <= L)%nat -> c < w -> nth c (nth m (nth a (pass v0) []) []) 0 = R (col v0 c) a m).

Definition rec_local (R : (nat -> F) -> nat -> nat -> F) : Prop :=
  forall (b1 b2 : nat -> F) a m, (forall k, k <= a -> b1 (m + k)%nat = b2 (m + k)%nat) -> R b1 a m = R b2 a m.

Definition core3 (px py pz : list (list F) -> list (list (list F))) (v0 : list (list F)) : list (list (list F)) :=
  let X := px v0 in
  let v0y := mk (S L) (fun m => mk (S L) (fun ax => nth 0 (nth m (nth ax X []) []) 0)) in
  let Y := py v0y in
  let v0z := mk (S L) (fun m => concat (mk (S L) (fun ay => nth m (nth ay Y []) []))) in
  pz v0z.

Theorem core3_entry px py pz Rx Ry Rz v0 ax ay az m :
  pass_spec px Rx -> pass_spec py Ry -> pass_spec pz Rz -> rec_local Ry -> rec_local Rz ->
  (forall m, m <= L -> length (nth m v0 []) = 1%nat) ->
  (m + (ax + ay + az) <= L)%nat ->
  nth (ay * S L + ax) (nth m (nth az (core3 px py pz v0) []) []) 0
  = Rz (fun m2 => Ry (fun m1 => Rx (col v0 0) ax m1) ay m2) az m.
Proof.
  intros Sx Sy Sz Ly Lz Hw Hm. unfold core3.
  set (X := px v0).
  set (v0y := mk (S L) (fun m => mk (S L) (fun ax => nth 0 (nth m (nth ax X []) []) 0))).
  set (Y := py v0y).
  set (v0z := mk (S L) (fun m => concat (mk (S L) (fun ay => nth m (nth ay Y []) [])))).
  destruct (Sx v0 1%nat Hw) as [_ EX].
  destruct (Sy v0y (S L)) as [LY EY].
  { intros m' Hm'. unfold v0y. rewrite nth_mk by lia. apply mk_length. }
  assert (Hrows : forall m', m' <= L ->
            Forall (fun r => length r = S L) (mk (S L) (fun ay => nth m' (nth ay Y []) []))).
  { intros m' Hm'. apply Forall_mk. intros i Hi. apply LY; lia. }
  destruct (Sz v0z (S L * S L)%nat) as [_ EZ].
  { intros m' Hm'. unfold v0z. rewrite nth_mk by lia.
    rewrite (concat_length_const _ (S L)) by (apply Hrows; exact Hm'). now rewrite mk_length. }
  rewrite EZ by nia.
  apply Lz. intros k Hk. unfold col at 1. unfold v0z. rewrite nth_mk by lia.
  rewrite (nth_concat_uniform (S L)) by (try apply Hrows; lia).
  rewrite nth_mk by lia. rewrite EY by lia.
  apply Ly. intros k' Hk'. unfold col at 1. unfold v0y. rewrite nth_mk by lia. rewrite nth_mk by lia.
  apply EX; lia.
Qed.
End ThreePass.

Lemma vpass_spec L pa pc twop : pass_spec L (vpass K L pa pc twop) (Vf pa pc (1 / twop)).
Proof.
  intros v0 w Hw. split.
  - now apply vpass_all_lengths.
  - intros a m c Hm Hc. now apply (vpass_entry L pa pc twop v0 w).
Qed.

(* the three passes of vrr_prim on an arbitrary input column *)
Definition vrr_core (L : nat) (pax pcx pay pcy paz pcz twop : F) (v0 : list (list F))
  : list (list (list F)) :=
  let X := vpass K L pax pcx twop v0 in
  let v0y := mk (S L) (fun m => mk (S L) (fun ax => nth 0 (nth m (nth ax X []) []) 0)) in
  let Y := vpass K L pay pcy twop v0y in
  let v0z := mk (S L) (fun m => concat (mk (S L) (fun ay => nth m (nth ay Y []) []))) in
  vpass K L paz pcz twop v0z.

Lemma vrr_prim_core L Ax Ay Az Bx By Bz Cx Cy Cz alpha beta :
  vrr_prim K L Ax Ay Az Bx By Bz Cx Cy Cz alpha beta =
  let p := alpha + beta in
  let Px := (alpha * Ax + beta * Bx) / p in
  let Py := (alpha * Ay + beta * By) / p in
  let Pz := (alpha * Az + beta * Bz) / p in
  let twop := (1 + 1) * p in
  let mu := alpha * beta / p in
  let ab2 := (Ax - Bx) * (Ax - Bx) + (Ay - By) * (Ay - By) + (Az - Bz) * (Az - Bz) in
  let pc2 := (Px - Cx) * (Px - Cx) + (Py - Cy) * (Py - Cy) + (Pz - Cz) * (Pz - Cz) in
  let pref := (1 + 1) * fpi K / p * fexp K (- (mu * ab2)) in
  let T := p * pc2 in
  let Z := vrr_core L (Px - Ax) (Px - Cx) (Py - Ay) (Py - Cy) (Pz - Az) (Pz - Cz) twop
             (mk (S L) (fun m => [fapx K (pref * fboys K m T)])) in
  mk (S L) (fun ax => mk (S L) (fun ay => mk (S L) (fun az =>
    fapx K (nth (ay * S L + ax) (nth 0 (nth az Z []) []) 0)))).
Proof. reflexivity. Qed.

Theorem vrr_core_entry L pax pcx pay pcy paz pcz twop v0 ax ay az m :
  (forall m, m <= L -> length (nth m v0 []) = 1%nat) ->
  (m + (ax + ay + az) <= L)%nat ->
  nth (ay * S L + ax) (nth m (nth az (vrr_core L pax pcx pay pcy paz pcz twop v0) []) []) 0
  = V3 pax pcx pay pcy paz pcz (1 / twop) (col v0 0) ax ay az m.
Proof.
  exact (core3_entry L _ _ _ _ _ _ v0 ax ay az m (vpass_spec L pax pcx twop) (vpass_spec L pay pcy twop)
           (vpass_spec L paz pcz twop) (Vf_ext_local _ _ _) (Vf_ext_local _ _ _)).
Qed.

(* the cube returned for ANY beta sequence (the model's vrr_prim feeds beta m = pref * F_m(T)) *)
Definition vrr_cube (L : nat) (pax pcx pay pcy paz pcz twop : F) (beta : nat -> F) : list (list (list F)) :=
  let Z := vrr_core L pax pcx pay pcy paz pcz twop (mk (S L) (fun m => [beta m])) in
  mk (S L) (fun ax => mk (S L) (fun ay => mk (S L) (fun az =>
    nth (ay * S L + ax) (nth 0 (nth az Z []) []) 0))).

Theorem vrr_cube_entry L pax pcx pay pcy paz pcz twop beta ax ay az :
  (ax + ay + az <= L)%nat ->
  cget K (vrr_cube L pax pcx pay pcy paz pcz twop beta) ax ay az
  = Phi beta 0 (P3 pax pcx pay pcy paz pcz (1 / twop) ax ay az).
Proof.
  intros H. unfold cget, vrr_cube. cbv zeta.
  rewrite nth_mk by lia. rewrite nth_mk by lia. rewrite nth_mk by lia.
  rewrite vrr_core_entry; [| |lia].
  - rewrite <- V3_is_Phi. unfold V3.
    apply Vf_ext_local. intros k Hk. apply Vf_ext_local. intros k' Hk'.
    apply Vf_ext_local. intros k'' Hk''. unfold col. rewrite nth_mk by lia. reflexivity.
  - intros m Hm. rewrite nth_mk by lia. reflexivity.
Qed.


(* beta m = pref * F_m(T): the sequence with which the model's vrr_prim is that cube ([vrr_prim_is_cube];
   fapx is the identity in theorems) *)
Definition boys_seq (Ax Ay Az Bx By Bz Cx Cy Cz alpha beta : F) : nat -> F :=
  let p := alpha + beta in
  let Px := (alpha * Ax + beta * Bx) / p in
  let Py := (alpha * Ay + beta * By) / p in
  let Pz := (alpha * Az + beta * Bz) / p in
  let mu := alpha * beta / p in
  let ab2 := (Ax - Bx) * (Ax - Bx) + (Ay - By) * (Ay - By) + (Az - Bz) * (Az - Bz) in
  let pc2 := (Px - Cx) * (Px - Cx) + (Py - Cy) * (Py - Cy) + (Pz - Cz) * (Pz - Cz) in
  let pref := (1 + 1) * fpi K / p * fexp K (- (mu * ab2)) in
  fun m => pref * fboys K m (p * pc2).

Lemma vrr_prim_is_cube L Ax Ay Az Bx By Bz Cx Cy Cz alpha beta :
  (forall x, fapx K x = x) ->
  vrr_prim K L Ax Ay Az Bx By Bz Cx Cy Cz alpha beta =
  let p := alpha + beta in
  let Px := (alpha * Ax + beta * Bx) / p in
  let Py := (alpha * Ay + beta * By) / p in
  let Pz := (alpha * Az + beta * Bz) / p in
  vrr_cube L (Px - Ax) (Px - Cx) (Py - Ay) (Py - Cy) (Pz - Az) (Pz - Cz) ((1 + 1) * p)
    (boys_seq Ax Ay Az Bx By Bz Cx Cy Cz alpha beta).
Proof.
  intros Hapx. rewrite vrr_prim_core. cbv zeta. unfold vrr_cube, boys_seq. cbv zeta.
  apply mk_ext; intros ax Hax. apply mk_ext; intros ay Hay. apply mk_ext; intros az Haz.
  rewrite Hapx. do 4 f_equal. apply mk_ext. intros m Hm. now rewrite Hapx.
Qed.

Fixpoint Hf (ab : F) (T : nat -> F) (b a : nat) : F :=
  match b with O => T a | S b' => Hf ab T b' (S a) + ab * Hf ab T b' a end.

Lemma Hf_ext_local ab (T1 T2 : nat -> F) b : forall a,
  (forall k, k <= b -> T1 (a + k)%nat = T2 (a + k)%nat) -> Hf ab T1 b a = Hf ab T2 b a.
Proof.
  induction b as [|b IH]; intros a H; cbn [Hf].
  - specialize (H 0%nat ltac:(lia)). now rewrite Nat.add_0_r in H.
  - rewrite (IH (S a)), (IH a); [reflexivity| |].
    + intros k Hk. apply H. lia.
    + intros k Hk. replace (S a + k)%nat with (a + S k)%nat by lia. apply H. lia.
Qed.
Lemma Hf_ext ab (T1 T2 : nat -> F) b a : (forall k, T1 k = T2 k) -> Hf ab T1 b a = Hf ab T2 b a.
Proof. intros H. apply Hf_ext_local. intros; apply H. Qed.

(* the step may equally be applied to the input first (what the list model does) *)
Lemma Hf_inner ab T b : forall a,
  Hf ab T (S b) a = Hf ab (fun a' => T (S a') + ab * T a') b a.
Proof.
  induction b as [|b IH]; intros a; [reflexivity|].
  change (Hf ab T (S (S b)) a) with (Hf ab T (S b) (S a) + ab * Hf ab T (S b) a).
  rewrite (IH (S a)), (IH a). reflexivity.
Qed.

Definition cget_ax (axis : nat) (t : list (list (list F))) (i x y z : nat) : F :=
  match axis with O => cget K t i y z | S O => cget K t x i z | _ => cget K t x y i end.
Definition idx_ax (axis x y z : nat) : nat := match axis with O => x | S O => y | _ => z end.

Lemma hstep_get L axis ab t x y z : x <= L -> y <= L -> z <= L -> idx_ax axis x y z < L ->
  cget K (hstep K L axis ab t) x y z
  = cget_ax axis t (S (idx_ax axis x y z)) x y z + ab * cget K t x y z.
Proof.
  intros Hx Hy Hz Hi. unfold hstep. unfold cget at 1.
  rewrite nth_mk by lia. rewrite nth_mk by lia. rewrite nth_mk by lia. cbv zeta.
  destruct axis as [|[|axis]]; cbn [idx_ax cget_ax] in *.
  - destruct (Nat.eqb_spec x L); [lia|reflexivity].
  - destruct (Nat.eqb_spec y L); [lia|reflexivity].
  - destruct (Nat.eqb_spec z L); [lia|reflexivity].
Qed.

Lemma nth_hiter_S L axis ab n t b :
  nth (S b) (hiter K L axis ab (S n) t) [] = nth b (hiter K L axis ab n (hstep K L axis ab t)) [].
Proof. reflexivity. Qed.
Lemma hiter_length L axis ab n t : length (hiter K L axis ab n t) = S n.
Proof. revert t; induction n as [|n IH]; intros t; cbn [hiter length]; [reflexivity|]. now rewrite IH. Qed.

Theorem hiter_entry L axis ab b : forall n t x y z,
  b <= n -> x <= L -> y <= L -> z <= L -> (idx_ax axis x y z + b <= L)%nat ->
  cget K (nth b (hiter K L axis ab n t) []) x y z
  = Hf ab (fun i => cget_ax axis t i x y z) b (idx_ax axis x y z).
Proof.
  induction b as [|b IH]; intros n t x y z Hb Hx Hy Hz Hi.
  - destruct n; cbn [hiter nth Hf]; destruct axis as [|[|axis]]; reflexivity.
  - destruct n as [|n]; [lia|]. rewrite nth_hiter_S. rewrite IH by lia.
    rewrite Hf_inner. apply Hf_ext_local. intros k Hk.
    destruct axis as [|[|axis]]; cbn [idx_ax cget_ax] in *.
    + rewrite (hstep_get L 0 ab t (x + k) y z) by (cbn [idx_ax]; lia). reflexivity.
    + rewrite (hstep_get L 1 ab t x (y + k) z) by (cbn [idx_ax]; lia). reflexivity.
    + rewrite (hstep_get L (S (S axis)) ab t x y (z + k)) by (cbn [idx_ax]; lia). reflexivity.
Qed.

(* the three chains of hrr: entry [bx][by][bz] (ax, ay, az) *)
Definition H3 (abx aby abz : F) (T : nat -> nat -> nat -> F) (bx by_ bz ax ay az : nat) : F :=
  Hf abz (fun z' => Hf aby (fun y' => Hf abx (fun x' => T x' y' z') bx ax) by_ ay) bz az.

Theorem hrr_entry L lb abx aby abz t bx by_ bz ax ay az :
  bx <= lb -> by_ <= lb -> bz <= lb ->
  (ax + bx <= L)%nat -> (ay + by_ <= L)%nat -> (az + bz <= L)%nat ->
  cget K (nth bz (nth by_ (nth bx (hrr K L lb abx aby abz t) []) []) []) ax ay az
  = H3 abx aby abz (cget K t) bx by_ bz ax ay az.
Proof.
  intros Hbx Hby Hbz Hx Hy Hz. unfold hrr, H3.
  rewrite (nth_map_lt _ _ bx (@nil (list (list F)))) by (rewrite hiter_length; lia).
  rewrite (nth_map_lt _ _ by_ (@nil (list (list F)))) by (rewrite hiter_length; lia).
  rewrite (hiter_entry L 2 abz bz) by (cbn [idx_ax]; lia). cbn [idx_ax cget_ax].
  apply Hf_ext_local. intros k Hk.
  rewrite (hiter_entry L 1 aby by_) by (cbn [idx_ax]; lia). cbn [idx_ax cget_ax].
  apply Hf_ext_local. intros k' Hk'.
  rewrite (hiter_entry L 0 abx bx) by (cbn [idx_ax]; lia). cbn [idx_ax cget_ax].
  reflexivity.
Qed.

Lemma H3_ext_local abx aby abz (T1 T2 : nat -> nat -> nat -> F) bx by_ bz ax ay az :
  (forall x y z, x <= ax + bx -> y <= ay + by_ -> z <= az + bz -> T1 x y z = T2 x y z)%nat ->
  H3 abx aby abz T1 bx by_ bz ax ay az = H3 abx aby abz T2 bx by_ bz ax ay az.
Proof.
  intros H. unfold H3. apply Hf_ext_local; intros k Hk. apply Hf_ext_local; intros k' Hk'.
  apply Hf_ext_local; intros k'' Hk''. apply H; lia.
Qed.


(* binomial coefficients by Pascal's rule, computed in the field *)
Fixpoint pasc (b k : nat) : F :=
  match b, k with
  | _, O => 1
  | O, S _ => 0
  | S b', S k' => pasc b' k' + pasc b' (S k')
  end.
Lemma pasc_0 b : pasc b 0 = 1. Proof. destruct b; reflexivity. Qed.
Lemma pasc_SS b k : pasc (S b) (S k) = pasc b k + pasc b (S k). Proof. reflexivity. Qed.
Lemma pasc_gt b : forall k, b < k -> pasc b k = 0.
Proof. induction b as [|b IH]; intros [|k] H; try lia; [reflexivity|].
  rewrite pasc_SS, !IH by lia. ring. Qed.

Notation fpow := (FNum.fpow K).
Notation Ssum := (sumn 0 (fadd K)).

(* (x - B)^b = ((x - A) + AB)^b *)
Definition Hbin (ab : F) (T : nat -> F) (b a : nat) : F :=
  Ssum (S b) (fun k => pasc b k * fpow ab (b - k) * T (a + k)%nat).

Theorem Hf_binomial ab T b : forall a, Hf ab T b a = Hbin ab T b a.
Proof.
  induction b as [|b IH]; intros a.
  - unfold Hbin. cbn [Hf sumn pasc FNum.fpow Nat.sub]. rewrite Nat.add_0_r. ring.
  - cbn [Hf]. rewrite (IH (S a)), (IH a). unfold Hbin.
    (* the term k = 0 is peeled off the sums for (S b, a) and (b, a); the latter gets the zero term
       k = b back, and the three sums over k < S b are compared term by term (Pascal's rule) *)
    rewrite (sumn_shift K Kf (S b)), (sumn_shift K Kf b (fun k => pasc b k * fpow ab (b - k) * T (a + k)%nat)).
    rewrite !pasc_0, !Nat.add_0_r, !Nat.sub_0_r.
    assert (E : Ssum b (fun k => pasc b (S k) * fpow ab (b - S k) * T (a + S k)%nat)
              = Ssum (S b) (fun k => pasc b (S k) * fpow ab (b - S k) * T (a + S k)%nat)).
    { cbn [sumn]. rewrite (pasc_gt b (S b)) by lia. ring. }
    rewrite E.
    transitivity (fpow ab (S b) * T a
                  + (Ssum (S b) (fun k => pasc b k * fpow ab (b - k) * T (S a + k)%nat)
                     + ab * Ssum (S b) (fun k => pasc b (S k) * fpow ab (b - S k) * T (a + S k)%nat)));
      [cbn [FNum.fpow]; ring|].
    rewrite <- (sumn_scale K Kf), <- (sumn_add K Kf). f_equal; [ring|].
    apply sumn_ext. intros k Hk. rewrite pasc_SS.
    replace (a + S k)%nat with (S a + k)%nat by lia.
    replace (S b - S k)%nat with (b - k)%nat by lia.
    destruct (Nat.eq_dec k b) as [->|Hne].
    + rewrite (pasc_gt b (S b)) by lia. ring.
    + replace (b - k)%nat with (S (b - S k)) by lia. cbn [FNum.fpow]. ring.
Qed.

Fixpoint Hp (ab : F) (Pf : nat -> list F) (b a : nat) : list F :=
  match b with O => Pf a | S b' => padd (Hp ab Pf b' (S a)) (pscale ab (Hp ab Pf b' a)) end.

(* the two-centre polynomial of one axis: value at s = Gaussian moment with both factors *)
Definition Pab (pa pc v ab : F) (a b : nat) : list F := Hp ab (Pc pa pc v) b a.

Theorem Pab_eval pa pc v ab b : forall a s,
  peval (Pab pa pc v ab a b) s
  = S3 K (v * (1 - s)) (pa - s * pc) (pa + ab - s * pc) 0 0%nat 0%nat a b.
Proof.
  unfold Pab. induction b as [|b IH]; intros a s.
  - cbn [Hp]. rewrite (proj1 (Pc_eval K Kf pa pc v a s)). reflexivity.
  - cbn [Hp]. rewrite (peval_padd K Kf), (peval_pscale K Kf), (IH (S a)), (IH a).
    rewrite (S3_Si K Kf), (S3_Sj K Kf). ring.
Qed.

(* contexts that are linear when seen through every Phi *)
Definition PhiLin (C : list F -> list F) : Prop :=
  (forall beta m P Q, Phi beta m (C (padd P Q)) = Phi beta m (C P) + Phi beta m (C Q)) /\
  (forall beta m t P, Phi beta m (C (pscale t P)) = t * Phi beta m (C P)).

Lemma PhiLin_id : PhiLin (fun P => P).
Proof. split; intros; [apply (Phi_padd K Kf)|apply (Phi_pscale K Kf)]. Qed.
Lemma PhiLin_pmul_l C Q : PhiLin C -> PhiLin (fun P => pmul (C P) Q).
Proof.
  intros [Ha Hs]. split; intros.
  - rewrite !Phi_pmul, <- Phi_beta_add. apply Phi_ext. intros k. apply Ha.
  - rewrite !Phi_pmul, <- Phi_beta_scale. apply Phi_ext. intros k. apply Hs.
Qed.
Lemma PhiLin_pmul_r C Q : PhiLin C -> PhiLin (fun P => pmul Q (C P)).
Proof. intros [Ha Hs]. split; intros; rewrite !Phi_pmul; [apply Ha|apply Hs]. Qed.

Lemma Hf_Hp C ab Pf beta m b : PhiLin C -> forall a,
  Phi beta m (C (Hp ab Pf b a)) = Hf ab (fun a' => Phi beta m (C (Pf a'))) b a.
Proof.
  intros [Ha Hs]. induction b as [|b IH]; intros a; cbn [Hp Hf]; [reflexivity|].
  rewrite Ha, Hs, (IH (S a)), (IH a). reflexivity.
Qed.

Section Cube.
Variables (pax pcx pay pcy paz pcz v abx aby abz : F).

Definition P3ab (ax ay az bx by_ bz : nat) : list F :=
  pmul (pmul (Pab pax pcx v abx ax bx) (Pab pay pcy v aby ay by_)) (Pab paz pcz v abz az bz).

Theorem P3ab_eval ax ay az bx by_ bz s :
  peval (P3ab ax ay az bx by_ bz) s
  = S3 K (v * (1 - s)) (pax - s * pcx) (pax + abx - s * pcx) 0 0%nat 0%nat ax bx
  * S3 K (v * (1 - s)) (pay - s * pcy) (pay + aby - s * pcy) 0 0%nat 0%nat ay by_
  * S3 K (v * (1 - s)) (paz - s * pcz) (paz + abz - s * pcz) 0 0%nat 0%nat az bz.
Proof. unfold P3ab. rewrite !peval_pmul, !Pab_eval. reflexivity. Qed.

Theorem H3_of_Phi beta m bx by_ bz ax ay az :
  H3 abx aby abz (fun x y z => Phi beta m (P3 pax pcx pay pcy paz pcz v x y z)) bx by_ bz ax ay az
  = Phi beta m (P3ab ax ay az bx by_ bz).
Proof.
  unfold H3, P3ab, Pab, P3.
  rewrite (Hf_Hp (fun P => pmul (pmul (Hp abx (Pc pax pcx v) bx ax) (Hp aby (Pc pay pcy v) by_ ay)) P))
    by (apply PhiLin_pmul_r, PhiLin_id).
  apply Hf_ext. intros z'.
  rewrite (Hf_Hp (fun P => pmul (pmul (Hp abx (Pc pax pcx v) bx ax) P) (Pc paz pcz v z')))
    by (apply PhiLin_pmul_l, PhiLin_pmul_r, PhiLin_id).
  apply Hf_ext. intros y'.
  rewrite (Hf_Hp (fun P => pmul (pmul P (Pc pay pcy v y')) (Pc paz pcz v z')))
    by (apply PhiLin_pmul_l, PhiLin_pmul_l, PhiLin_id).
  reflexivity.
Qed.
End Cube.



(* the double sum over the primitives of b (outer) and of a (inner) with norms and coefficients;
   rows of ea / eb are (exponent, (radial norm, coefficient row)) *)
Definition csum2 (ea eb : list (F * (F * list F))) (ma mb : nat) (G : F -> F -> F) : F :=
  fsum (map (fun r : F * (F * list F) =>
          fsum (map (fun q : F * (F * list F) =>
                  G (fst q) (fst r) * fst (snd q) * nth ma (snd (snd q)) 0) ea)
          * fst (snd r) * nth mb (snd (snd r)) 0) eb).

Lemma csum2_ext ea eb ma mb G G' : (forall a b, G a b = G' a b) ->
  csum2 ea eb ma mb G = csum2 ea eb ma mb G'.
Proof. intros H. unfold csum2. f_equal. apply map_ext. intros r. do 3 f_equal.
  apply map_ext. intros q. now rewrite H. Qed.

Lemma csum2_lin ea eb ma mb G1 G2 c :
  csum2 ea eb ma mb (fun a b => G1 a b + c * G2 a b)
  = csum2 ea eb ma mb G1 + c * csum2 ea eb ma mb G2.
Proof.
  unfold csum2. rewrite <- (fsum_map_scale K Kf), <- (fsum_map_add K Kf). f_equal. apply map_ext. intros r.
  rewrite (map_ext _ (fun q : F * (F * list F) =>
     G1 (fst q) (fst r) * fst (snd q) * nth ma (snd (snd q)) 0
     + c * (G2 (fst q) (fst r) * fst (snd q) * nth ma (snd (snd q)) 0))) by (intros q; ring).
  rewrite (fsum_map_add K Kf), (fsum_map_scale K Kf). ring.
Qed.

Lemma Hf_csum2 ea eb ma mb ab (G : F -> F -> nat -> F) b : forall a,
  Hf ab (fun i => csum2 ea eb ma mb (fun al be => G al be i)) b a
  = csum2 ea eb ma mb (fun al be => Hf ab (G al be) b a).
Proof.
  induction b as [|b IH]; intros a; [reflexivity|].
  cbn [Hf]. rewrite (IH (S a)), (IH a). symmetry. apply csum2_lin.
Qed.

Lemma H3_csum2 ea eb ma mb abx aby abz (G : F -> F -> nat -> nat -> nat -> F) bx by_ bz ax ay az :
  H3 abx aby abz (fun x y z => csum2 ea eb ma mb (fun al be => G al be x y z)) bx by_ bz ax ay az
  = csum2 ea eb ma mb (fun al be => H3 abx aby abz (G al be) bx by_ bz ax ay az).
Proof.
  unfold H3.
  rewrite <- (Hf_csum2 ea eb ma mb abz
    (fun al be z' => Hf aby (fun y' => Hf abx (fun x' => G al be x' y' z') bx ax) by_ ay)).
  apply Hf_ext. intros z'.
  rewrite <- (Hf_csum2 ea eb ma mb aby (fun al be y' => Hf abx (fun x' => G al be x' y' z') bx ax)).
  apply Hf_ext. intros y'.
  rewrite <- (Hf_csum2 ea eb ma mb abx (fun al be x' => G al be x' y' z')).
  reflexivity.
Qed.

Section Spec.
Variables (Cx Cy Cz : F).

Definition prim_poly (Ax Ay Az Bx By Bz alpha beta : F) (ca cb : comp) : list F :=
  let p := alpha + beta in
  let Px := (alpha * Ax + beta * Bx) / p in
  let Py := (alpha * Ay + beta * By) / p in
  let Pz := (alpha * Az + beta * Bz) / p in
  P3ab (Px - Ax) (Px - Cx) (Py - Ay) (Py - Cy) (Pz - Az) (Pz - Cz) (1 / ((1 + 1) * p))
       (Ax - Bx) (Ay - By) (Az - Bz)
       (fst (fst ca)) (snd (fst ca)) (snd ca) (fst (fst cb)) (snd (fst cb)) (snd cb).

(* its value at every s: the product over the axes of the Gaussian moments
   E_{v(1-s)} ((y + PA - s PC)^a (y + PB - s PC)^b) *)
Theorem prim_poly_eval Ax Ay Az Bx By Bz alpha beta ca cb s :
  let p := alpha + beta in
  let Px := (alpha * Ax + beta * Bx) / p in
  let Py := (alpha * Ay + beta * By) / p in
  let Pz := (alpha * Az + beta * Bz) / p in
  let v := 1 / ((1 + 1) * p) in
  peval (prim_poly Ax Ay Az Bx By Bz alpha beta ca cb) s
  = S3 K (v * (1 - s)) (Px - Ax - s * (Px - Cx)) (Px - Bx - s * (Px - Cx)) 0 0%nat 0%nat
       (fst (fst ca)) (fst (fst cb))
  * S3 K (v * (1 - s)) (Py - Ay - s * (Py - Cy)) (Py - By - s * (Py - Cy)) 0 0%nat 0%nat
       (snd (fst ca)) (snd (fst cb))
  * S3 K (v * (1 - s)) (Pz - Az - s * (Pz - Cz)) (Pz - Bz - s * (Pz - Cz)) 0 0%nat 0%nat
       (snd ca) (snd cb).
Proof.
  cbv zeta. unfold prim_poly. cbv zeta. rewrite P3ab_eval.
  set (p := alpha + beta).
  set (Px := (alpha * Ax + beta * Bx) / p). set (Py := (alpha * Ay + beta * By) / p).
  set (Pz := (alpha * Az + beta * Bz) / p).
  replace (Px - Ax + (Ax - Bx) - s * (Px - Cx)) with (Px - Bx - s * (Px - Cx)) by ring.
  replace (Py - Ay + (Ay - By) - s * (Py - Cy)) with (Py - By - s * (Py - Cy)) by ring.
  replace (Pz - Az + (Az - Bz) - s * (Pz - Cz)) with (Pz - Bz - s * (Pz - Cz)) by ring.
  reflexivity.
Qed.

Definition prim_val (Ax Ay Az Bx By Bz alpha beta : F) (ca cb : comp) : F :=
  Phi (boys_seq Ax Ay Az Bx By Bz Cx Cy Cz alpha beta) 0
      (prim_poly Ax Ay Az Bx By Bz alpha beta ca cb).

Definition erows (s : shell F) : list (F * (F * list F)) :=
  combine (s_exps s) (combine (map (norm_rad K (s_l s)) (s_exps s)) (s_coeffs s)).

Definition one_elec_spec (sa sb : shell F) (ma : nat) (ca : comp) (mb : nat) (cb : comp) : F :=
  csum2 (erows sa) (erows sb) ma mb
    (fun alpha beta => prim_val (s_x sa) (s_y sa) (s_z sa) (s_x sb) (s_y sb) (s_z sb) alpha beta ca cb)
  * inv_sqrt_df K ca * inv_sqrt_df K cb.
End Spec.

Theorem one_elec_entry Cx Cy Cz (sa sb : shell F) ma ia mb ib :
  (forall x, fapx K x = x) ->
  let ca := nth ia (comps_of sa) (0, 0, 0)%nat in
  let cb := nth ib (comps_of sb) (0, 0, 0)%nat in
  ma < nseg sa -> ia < length (comps_of sa) -> mb < nseg sb -> ib < length (comps_of sb) ->
  (fst (fst cb) <= s_l sb)%nat -> (snd (fst cb) <= s_l sb)%nat -> (snd cb <= s_l sb)%nat ->
  (fst (fst ca) + snd (fst ca) + snd ca + (fst (fst cb) + snd (fst cb) + snd cb) <= s_l sa + s_l sb)%nat ->
  nth ib (nth mb (nth ia (nth ma (one_elec_point K Cx Cy Cz sa sb) []) []) []) 0
  = one_elec_spec Cx Cy Cz sa sb ma ca mb cb.
Proof.
  intros Hapx ca cb Hma Hia Hmb Hib Hbx Hby Hbz Hsum.
  unfold one_elec_point. cbv zeta.
  rewrite nth_mk by exact Hma.
  rewrite (BlockP.nth_map_combine _ (comps_of sa) (map (inv_sqrt_df K) (comps_of sa)) ia (0,0,0)%nat 0 [])
    by (rewrite ?map_length; auto).
  rewrite nth_mk by exact Hmb.
  rewrite (BlockP.nth_map_combine _ (comps_of sb) (map (inv_sqrt_df K) (comps_of sb)) ib (0,0,0)%nat 0 0)
    by (rewrite ?map_length; auto).
  rewrite (nth_map_lt (inv_sqrt_df K) _ ia (0,0,0)%nat) by exact Hia.
  rewrite (nth_map_lt (inv_sqrt_df K) _ ib (0,0,0)%nat) by exact Hib.
  fold ca cb. destruct ca as [[ax ay] az] eqn:Eca. destruct cb as [[bx by_] bz] eqn:Ecb.
  cbn [fst snd] in *.
  rewrite nth_mk by exact Hma. rewrite nth_mk by exact Hmb.
  set (L := (s_l sa + s_l sb)%nat) in *.
  rewrite hrr_entry by lia.
  unfold one_elec_spec. f_equal. f_equal.
  (* the contracted cube, entry by entry, is the double sum of the primitive cubes *)
  rewrite (H3_ext_local _ _ _ _
    (fun x y z => csum2 (erows sa) (erows sb) ma mb (fun alpha beta =>
       cget K (vrr_prim K L (s_x sa) (s_y sa) (s_z sa) (s_x sb) (s_y sb) (s_z sb) Cx Cy Cz alpha beta) x y z))).
  2:{ intros x y z Hx Hy Hz. unfold cget at 1.
      rewrite nth_mk by lia. rewrite nth_mk by lia. rewrite nth_mk by lia.
      unfold csum2, erows. rewrite (BlockP.combine_map_l _ (s_exps sb) (combine _ (s_coeffs sb))), map_map. f_equal. apply map_ext.
      intros [be [nbk crow_b]]. cbn [fst snd]. do 2 f_equal.
      rewrite (BlockP.combine_map_l _ (s_exps sa) (combine _ (s_coeffs sa))), map_map. f_equal. apply map_ext.
      intros [al [nak crow_a]]. reflexivity. }
  rewrite H3_csum2. apply csum2_ext. intros alpha beta.
  unfold prim_val, prim_poly. cbv zeta. cbn [fst snd].
  rewrite <- H3_of_Phi. apply H3_ext_local. intros x y z Hx Hy Hz.
  rewrite vrr_prim_is_cube by exact Hapx. cbv zeta.
  apply vrr_cube_entry. lia.
Qed.


Definition allz (l : list F) : Prop := Forall (fun c => c = 0) l.

Lemma Phi_allz beta l : allz l -> forall m, Phi beta m l = 0.
Proof. induction 1 as [|c l Hc Hl IH]; intros m; cbn [SPoly.Phi]; [reflexivity|].
  rewrite Hc, IH. ring. Qed.

Lemma mul_zero_r a b : a <> 0 -> a * b = 0 -> b = 0.
Proof. intros Ha H. assert (E : b = (a * b) / a) by (field; exact Ha). rewrite E, H. field. exact Ha. Qed.

(* Horner scheme for the division by (s - r): [hq r l] = remainder :: quotient *)
Fixpoint hq (r : F) (l : list F) : list F :=
  match l with [] => [] | c :: l' => (c + r * hd 0 (hq r l')) :: hq r l' end.

Lemma hq_length r l : length (hq r l) = length l.
Proof. induction l as [|c l IH]; cbn [hq length]; [reflexivity|]. now rewrite IH. Qed.
Lemma hq_hd r l : hd 0 (hq r l) = peval l r.
Proof. induction l as [|c l IH]; cbn [hq hd SPoly.peval]; [reflexivity|]. now rewrite IH. Qed.
Lemma peval_hd_tl l s : peval l s = hd 0 l + s * peval (tl l) s.
Proof. destruct l; cbn [hd tl SPoly.peval]; [ring|reflexivity]. Qed.
Lemma hq_factor r l s : peval l s = hd 0 (hq r l) + (s - r) * peval (tl (hq r l)) s.
Proof.
  induction l as [|c l IH]; cbn [hq hd tl SPoly.peval]; [ring|].
  rewrite (peval_hd_tl (hq r l) s). rewrite IH. ring.
Qed.
Lemma allz_hd l : allz l -> hd 0 l = 0.
Proof. destruct 1; [reflexivity|assumption]. Qed.
Lemma hq_allz r l : allz (hq r l) -> allz l.
Proof.
  induction l as [|c l IH]; intros H; [constructor|].
  cbn [hq] in H. inversion H as [|x y Hx Hy]; subst.
  constructor; [|now apply IH].
  rewrite (allz_hd _ Hy) in Hx. rewrite <- Hx. ring.
Qed.

Lemma roots_allz : forall n l rs, length l = n -> length rs = n -> NoDup rs ->
  (forall r, In r rs -> peval l r = 0) -> allz l.
Proof.
  induction n as [|n IH]; intros l rs Hl Hr Hnd Hroot.
  - destruct l; [constructor|discriminate].
  - destruct rs as [|r rs]; [discriminate|].
    apply (hq_allz r). pose proof (hq_length r l) as Hlen. pose proof (hq_hd r l) as Hhd.
    destruct (hq r l) as [|h q] eqn:E; [constructor|].
    cbn [hd] in Hhd. cbn [length] in Hlen.
    apply NoDup_cons_iff in Hnd. destruct Hnd as [Hnotin Hnd'].
    constructor.
    + rewrite Hhd. apply Hroot. now left.
    + apply (IH q rs); [lia|cbn [length] in Hr; lia|exact Hnd'|].
      intros r' Hin. pose proof (hq_factor r l r') as Hf. rewrite E in Hf. cbn [hd tl] in Hf.
      rewrite (Hroot r') in Hf by now right. rewrite Hhd, (Hroot r) in Hf by now left.
      apply (mul_zero_r (r' - r)).
      * intros Hz. apply Hnotin. assert (r' = r) by (rewrite <- (Radd_0_l (F_R Kf) r), <- Hz; ring).
        now subst.
      * transitivity (0 + (r' - r) * peval q r'); [ring|now symmetry].
Qed.

Section Char0.
Hypothesis char0 : forall n, #(S n) <> 0.

Lemma ofnat_inj_lt i j : i < j -> #i <> #j.
Proof. intros Hlt E. replace j with (i + S (j - i - 1))%nat in E by lia. rewrite (ofnat_add K Kf) in E.
  apply (char0 (j - i - 1)). 
  assert (H : #(S (j - i - 1)) = (#i + #(S (j - i - 1))) - #i) by ring. rewrite H, <- E. ring. Qed.
Lemma ofnat_inj i j : #i = #j -> i = j.
Proof. intros E. destruct (Nat.lt_trichotomy i j) as [H|[H|H]]; [|exact H|].
  - exfalso. now apply (ofnat_inj_lt i j H).
  - exfalso. now apply (ofnat_inj_lt j i H). Qed.

Lemma NoDup_ofnat_seq n : NoDup (map (ofnat K) (seq 0 n)).
Proof. apply FinFun.Injective_map_NoDup; [intros i j; apply ofnat_inj|apply seq_NoDup]. Qed.

Theorem poly_zero l : (forall k : nat, peval l #k = 0) -> allz l.
Proof.
  intros H. apply (roots_allz (length l) l (map (ofnat K) (seq 0 (length l)))).
  - reflexivity.
  - now rewrite map_length, seq_length.
  - apply NoDup_ofnat_seq.
  - intros r Hin. apply in_map_iff in Hin. destruct Hin as [k [<- _]]. apply H.
Qed.

(* two coefficient lists with the same values give the same Phi_m for every beta: the number
   Phi_m (P) depends on the polynomial FUNCTION only *)
Theorem Phi_unique P Q : (forall s, peval P s = peval Q s) ->
  forall beta m, Phi beta m P = Phi beta m Q.
Proof.
  intros H beta m.
  assert (Hz : allz (SPoly.psub K P Q)).
  { apply poly_zero. intros k. unfold SPoly.psub.
    rewrite (peval_padd K Kf), (peval_pscale K Kf), H. ring. }
  pose proof (Phi_allz beta _ Hz m) as E. unfold SPoly.psub in E.
  rewrite (Phi_padd K Kf), (Phi_pscale K Kf) in E.
  rewrite <- (Radd_0_l (F_R Kf) (Phi beta m Q)), <- E. ring.
Qed.

Lemma boys_seq_swap Ax Ay Az Bx By Bz Cx Cy Cz alpha beta m :
  boys_seq Ax Ay Az Bx By Bz Cx Cy Cz alpha beta m = boys_seq Bx By Bz Ax Ay Az Cx Cy Cz beta alpha m.
Proof.
  unfold boys_seq. cbv zeta.
  replace (beta + alpha) with (alpha + beta) by ring.
  replace (beta * Bx + alpha * Ax) with (alpha * Ax + beta * Bx) by ring.
  replace (beta * By + alpha * Ay) with (alpha * Ay + beta * By) by ring.
  replace (beta * Bz + alpha * Az) with (alpha * Az + beta * Bz) by ring.
  replace (beta * alpha) with (alpha * beta) by ring.
  replace ((Bx - Ax) * (Bx - Ax) + (By - Ay) * (By - Ay) + (Bz - Az) * (Bz - Az))
    with ((Ax - Bx) * (Ax - Bx) + (Ay - By) * (Ay - By) + (Az - Bz) * (Az - Bz)) by ring.
  reflexivity.
Qed.

Theorem prim_poly_swap_eval Cx Cy Cz Ax Ay Az Bx By Bz alpha beta ca cb s :
  peval (prim_poly Cx Cy Cz Ax Ay Az Bx By Bz alpha beta ca cb) s
  = peval (prim_poly Cx Cy Cz Bx By Bz Ax Ay Az beta alpha cb ca) s.
Proof.
  rewrite !prim_poly_eval. cbv zeta.
  replace (beta + alpha) with (alpha + beta) by ring.
  replace (beta * Bx + alpha * Ax) with (alpha * Ax + beta * Bx) by ring.
  replace (beta * By + alpha * Ay) with (alpha * Ay + beta * By) by ring.
  replace (beta * Bz + alpha * Az) with (alpha * Az + beta * Bz) by ring.
  f_equal; [f_equal|]; apply (S3_swap K Kf).
Qed.

Theorem prim_val_swap Cx Cy Cz Ax Ay Az Bx By Bz alpha beta ca cb :
  prim_val Cx Cy Cz Ax Ay Az Bx By Bz alpha beta ca cb
  = prim_val Cx Cy Cz Bx By Bz Ax Ay Az beta alpha cb ca.
Proof.
  unfold prim_val.
  rewrite (Phi_unique _ _ (prim_poly_swap_eval Cx Cy Cz Ax Ay Az Bx By Bz alpha beta ca cb)).
  apply Phi_ext. intros k. apply boys_seq_swap.
Qed.

Lemma csum2_swap ea eb ma mb G :
  csum2 ea eb ma mb G = csum2 eb ea mb ma (fun b a => G a b).
Proof.
  unfold csum2.
  rewrite (map_ext _ (fun r : F * (F * list F) => fsum (map (fun q : F * (F * list F) =>
      (fst (snd r) * nth mb (snd (snd r)) 0)
      * (G (fst q) (fst r) * fst (snd q) * nth ma (snd (snd q)) 0)) ea)))
    by (intros r; rewrite (fsum_map_scale K Kf); ring).
  rewrite (fsum_swap K Kf). f_equal. apply map_ext. intros q.
  rewrite (map_ext _ (fun r : F * (F * list F) =>
      (fst (snd q) * nth ma (snd (snd q)) 0)
      * (G (fst q) (fst r) * fst (snd r) * nth mb (snd (snd r)) 0))) by (intros r; ring).
  rewrite (fsum_map_scale K Kf). ring.
Qed.

Theorem one_elec_spec_swap Cx Cy Cz sa sb ma ca mb cb :
  one_elec_spec Cx Cy Cz sa sb ma ca mb cb = one_elec_spec Cx Cy Cz sb sa mb cb ma ca.
Proof.
  unfold one_elec_spec. rewrite csum2_swap.
  rewrite (csum2_ext _ _ _ _ _
    (fun beta alpha => prim_val Cx Cy Cz (s_x sb) (s_y sb) (s_z sb) (s_x sa) (s_y sa) (s_z sa)
                         beta alpha cb ca)) by (intros a b; apply prim_val_swap).
  ring.
Qed.

Definition csum3 (c : comp) : nat := (fst (fst c) + snd (fst c) + snd c)%nat.

(* PointChargeIntegral.construct_array_contraction, either branch of the swap: every entry is the
   vector over the charges of  -q * (specified entry for that charge position) *)
Theorem point_charge_block_entry points (sa sb : shell F) ma ia mb ib :
  (forall x, fapx K x = x) ->
  let ca := nth ia (comps_of sa) (0, 0, 0)%nat in
  let cb := nth ib (comps_of sb) (0, 0, 0)%nat in
  ma < nseg sa -> ia < length (comps_of sa) -> mb < nseg sb -> ib < length (comps_of sb) ->
  (csum3 ca <= s_l sa)%nat -> (csum3 cb <= s_l sb)%nat ->
  nth ib (nth mb (nth ia (nth ma (point_charge_block K points sa sb) []) []) []) []
  = map (fun pt : F * F * F * F =>
           (- snd pt) * one_elec_spec (fst (fst (fst pt))) (snd (fst (fst pt))) (snd (fst pt))
                                       sa sb ma ca mb cb) points.
Proof.
  intros Hapx ca cb Hma Hia Hmb Hib Hca Hcb. unfold csum3 in *.
  unfold point_charge_block. cbv zeta.
  rewrite nth_mk by exact Hma. rewrite nth_mk by exact Hia.
  rewrite nth_mk by exact Hmb. rewrite nth_mk by exact Hib.
  rewrite map_map. apply map_ext. intros [[[cx cy] cz] q]. cbn [fst snd]. f_equal.
  destruct (Nat.ltb (s_l sa) (s_l sb)).
  - rewrite (one_elec_entry cx cy cz sb sa mb ib ma ia Hapx) by (fold ca cb; lia || assumption).
    fold ca cb. symmetry. apply one_elec_spec_swap.
  - rewrite (one_elec_entry cx cy cz sa sb ma ia mb ib Hapx) by (fold ca cb; lia || assumption).
    reflexivity.
Qed.

(* the transposed block of the same quantity: the swapped computation and the direct one agree *)
Corollary swap_sound Cx Cy Cz (sa sb : shell F) ma ia mb ib :
  (forall x, fapx K x = x) ->
  let ca := nth ia (comps_of sa) (0, 0, 0)%nat in
  let cb := nth ib (comps_of sb) (0, 0, 0)%nat in
  ma < nseg sa -> ia < length (comps_of sa) -> mb < nseg sb -> ib < length (comps_of sb) ->
  (csum3 ca <= s_l sa)%nat -> (csum3 cb <= s_l sb)%nat ->
  nth ia (nth ma (nth ib (nth mb (one_elec_point K Cx Cy Cz sb sa) []) []) []) 0
  = nth ib (nth mb (nth ia (nth ma (one_elec_point K Cx Cy Cz sa sb) []) []) []) 0.
Proof.
  intros Hapx ca cb Hma Hia Hmb Hib Hca Hcb. unfold csum3 in *.
  rewrite (one_elec_entry Cx Cy Cz sb sa mb ib ma ia Hapx) by (fold ca cb; lia || assumption).
  rewrite (one_elec_entry Cx Cy Cz sa sb ma ia mb ib Hapx) by (fold ca cb; lia || assumption).
  fold ca cb. symmetry. apply one_elec_spec_swap.
Qed.
End Char0.

Theorem nuclear_is_sum points basis T i j :
  nth j (nth i (nuclear_attraction_integral K points basis T) []) 0
  = fsum (nth j (nth i (point_charge_integral K points basis T) []) []).
Proof.
  unfold nuclear_attraction_integral.
  change (@nil F) with (map fsum (@nil (list F))) at 1. rewrite map_nth.
  change 0 with (fsum (@nil F)) at 1. rewrite map_nth. reflexivity.
Qed.


(* Pascal coefficients are the binomial coefficients of FNum (scipy.special.comb) *)
Section Binom.
Hypothesis char0 : forall n, #(S n) <> 0.
Notation ffact := (FNum.ffact K).
Lemma pasc_fact b : forall k, k <= b -> pasc b k * (ffact k * ffact (b - k)) = ffact b.
Proof.
  induction b as [|b IH]; intros k Hk.
  - assert (k = 0%nat) by lia. subst. cbn [pasc FNum.ffact Nat.sub]. ring.
  - destruct k as [|k].
    + rewrite pasc_0. cbn [FNum.ffact Nat.sub]. ring.
    + rewrite pasc_SS. destruct (Nat.eq_dec k b) as [->|Hne].
      * rewrite (pasc_gt b (S b)) by lia. pose proof (IH b ltac:(lia)) as E.
        rewrite Nat.sub_diag in *. cbn [FNum.ffact] in *.
        transitivity (#(S b) * (pasc b b * (ffact b * 1))); [cbn [ofnat]; ring|].
        rewrite E. reflexivity.
      * pose proof (IH k ltac:(lia)) as E1. pose proof (IH (S k) ltac:(lia)) as E2.
        replace (S b - S k)%nat with (b - k)%nat by lia.
        replace (b - k)%nat with (S (b - S k)) in * by lia.
        cbn [FNum.ffact] in *.
        assert (Hs : #(S b) = #(S k) + #(S (b - S k))).
        { rewrite <- (ofnat_add K Kf). f_equal. lia. }
        rewrite Hs.
        transitivity (#(S k) * (pasc b k * (ffact k * (#(S (b - S k)) * ffact (b - S k))))
                      + #(S (b - S k)) * (pasc b (S k) * (#(S k) * ffact k * ffact (b - S k)))).
        { ring. }
        rewrite E1, E2. ring.
Qed.
Theorem pasc_fbinom b k : pasc b k = FNum.fbinom K b k.
Proof.
  unfold FNum.fbinom. destruct (Nat.leb_spec k b) as [Hle|Hgt].
  - rewrite <- (pasc_fact b k Hle). field. split; apply (ffact_nz K Kf char0).
  - apply pasc_gt. exact Hgt.
Qed.
End Binom.

End P.

(* the component hypothesis of the block theorems holds for every default Cartesian component list *)
Lemma default_comps_sum l c : In c (default_comps l) -> csum3 c = l.
Proof. apply BlockP.default_comps_degree. Qed.
Lemma default_shell_comp_ok {F} (s : shell F) i :
  s_comps s = [] -> i < length (comps_of s) -> (csum3 (nth i (comps_of s) (0, 0, 0)%nat) <= s_l s)%nat.
Proof.
  intros E Hi. unfold comps_of in *. rewrite E in *.
  rewrite (default_comps_sum (s_l s)); [lia|]. now apply nth_In.
Qed.

From Coq Require Import QArith Qcanon.
Section QcInst.
Variables (opi : Qc) (osqrt oexp oln : Qc -> Qc) (oboys : nat -> Qc -> Qc).
Let KQ := QcK true opi osqrt oexp oln oboys.

Lemma QcK_ofnat_nonneg n : (0 <= ofnat KQ n)%Qc.
Proof.
  induction n as [|n IH]; [apply Qcle_refl|].
  cbn [ofnat]. change (fadd KQ) with qc_add. rewrite qc_add_eq.
  change (0%Qc) with (0 + 0)%Qc. apply Qcplus_le_compat; [easy|exact IH].
Qed.
Lemma QcK_char0 n : ofnat KQ (S n) <> f0 KQ.
Proof.
  cbn [ofnat]. change (fadd KQ) with qc_add. rewrite qc_add_eq.
  intros H. assert (Hlt : (0 < f1 KQ + ofnat KQ n)%Qc).
  { apply Qclt_le_trans with (1 + 0)%Qc; [easy|].
    apply Qcplus_le_compat; [apply Qcle_refl|apply QcK_ofnat_nonneg]. }
  rewrite H in Hlt. now apply Qclt_not_eq in Hlt.
Qed.

(* a concrete pair of shells (p and d, off-axis centres) meeting every hypothesis of the block theorems *)
Definition ex_sa : shell Qc :=
  mkShell Qc 1 (Q2Qc 0) (Q2Qc (1#2)) (Q2Qc 0) [Q2Qc (3#2); Q2Qc (1#4)]
          [[Q2Qc 1]; [Q2Qc (1#3)]] false [] [].
Definition ex_sb : shell Qc :=
  mkShell Qc 2 (Q2Qc 1) (Q2Qc 0) (Q2Qc (-1#3)) [Q2Qc (2#1)] [[Q2Qc 1]] false [] [].
Lemma ex_hyps :
  (0 < nseg ex_sa /\ 1 < length (comps_of ex_sa) /\ 0 < nseg ex_sb /\ 3 < length (comps_of ex_sb)
  /\ csum3 (nth 1 (comps_of ex_sa) (0, 0, 0)) <= s_l ex_sa
  /\ csum3 (nth 3 (comps_of ex_sb) (0, 0, 0)) <= s_l ex_sb)%nat.
Proof. cbn. repeat split; lia. Qed.
End QcInst.
