(* Proofs/AssembledSphP.v — entries of the processed shell-pair block (Model/Assembly.shell_block: normalise,
   transform_left for a spherical first shell, transform_right for a spherical second shell, flatten) and of the
   assembled matrices, for ANY assignment of coordinate types and any element module (no algebraic law is used).

   Output index map: shell k occupies [odim s_k] = M_k * [osize s_k] positions, osize = number of spherical
   labels for a spherical shell, number of Cartesian components for a Cartesian one;
       oidx bs k m q = ooff bs k + (m * osize s_k + q).
   [tsum sph T L q f] = sum_{c<L} T[q][c] . f(c) for a spherical shell, f(q) for a Cartesian one: the action of
   the shell's transformation T_s (identity for Cartesian shells) on one index.  The processed block of the
   ordered pair (a, b) has entries [Emix a b] = tsum_b (tsum_a (n_a n_b . block)); an assembled entry is Emix of
   the pair in the order in which the model evaluated it (the square assemblies are [BlockMatP.mirror]).
   Section Cartesian: for a basis of Cartesian shells osize = ncomp, oidx = gidx and both tsum are the identity,
   which gives the Cartesian entry theorems as corollaries. *)
From Coq Require Import List Arith Lia Bool.
From GB Require Import Base.Field Base.Tables Model.Shell Model.Spherical Model.Assembly Model.Overlap Model.OneBody
  Proofs.CoreSumP Proofs.CoreDiffP Proofs.AssemblyP Proofs.OverlapP Proofs.BlockMatP Proofs.AssembledP.
Import ListNotations.

Section SphBlock.
Context {F : Type} (K : Fops F).
Context {A : Type} (azero : A) (aadd : A -> A -> A) (ascale : F -> A -> A).

Notation asum' := (asum azero aadd).

Lemma apply_rows_entry T (v : list A) L a :
  Forall (fun r => length r = L) T -> length v = L -> a < length T ->
  nth a (apply_rows azero aadd ascale T v) azero
  = asum' (mk L (fun c => ascale (nth c (nth a T []) (f0 K)) (nth c v azero))).
Proof.
  intros HT Hv Ha. unfold apply_rows. rewrite (nth_map_lt _ T a []) by exact Ha.
  assert (Hr : length (nth a T []) = L) by (now apply (Forall_nth_in _ T [] a HT)).
  rewrite (combine_as_mk (nth a T []) v (f0 K) azero) by congruence.
  now rewrite Tables.map_mk, Hr.
Qed.

Lemma transform_right_spec T (blk : list (list (list (list A)))) M1 X M2 L2 :
  shape4 M1 X M2 L2 blk -> Forall (fun r => length r = L2) T ->
  shape4 M1 X M2 (length T) (transform_right azero aadd ascale T blk) /\
  forall m1 x m2 s2, m1 < M1 -> x < X -> m2 < M2 -> s2 < length T ->
    get4 azero m1 x m2 s2 (transform_right azero aadd ascale T blk)
    = asum' (mk L2 (fun c2 => ascale (nth c2 (nth s2 T []) (f0 K)) (get4 azero m1 x m2 c2 blk))).
Proof.
  intros Hb HT. apply shape4_slabs in Hb. destruct Hb as [Hb Hs]. unfold transform_right.
  destruct (map2_spec (map (fun row => apply_rows azero aadd ascale T row)) M1 X blk [] [] Hb) as [Rs Re].
  assert (Row : forall m1 x m2, m1 < M1 -> x < X -> m2 < M2 ->
     nth m2 (nth x (nth m1 (map (map (map (fun row => apply_rows azero aadd ascale T row))) blk) []) []) []
     = apply_rows azero aadd ascale T (nth m2 (nth x (nth m1 blk []) []) [])).
  { intros m1 x m2 H1 H2 H3. rewrite (Re m1 x H1 H2). apply nth_map_lt. now rewrite (proj1 (Hs m1 x H1 H2)). }
  split.
  - apply shape4_slabs. split; [exact Rs|]. intros m1 x H1 H2. split.
    + rewrite (Re m1 x H1 H2), map_length. exact (proj1 (Hs m1 x H1 H2)).
    + intros m2 H3. rewrite (Row m1 x m2 H1 H2 H3). apply map_length.
  - intros m1 x m2 s2 H1 H2 H3 H4. unfold get4. rewrite (Row m1 x m2 H1 H2 H3).
    apply apply_rows_entry; [exact HT | now apply (proj2 (Hs m1 x H1 H2)) | exact H4].
Qed.

Lemma slab_add_zip (x y : list (list A)) :
  slab_add aadd x y = zipc (fun r1 r2 => zipc aadd r1 r2) x y.
Proof. reflexivity. Qed.

Lemma slab_add_spec x y M L : shape2 M L x -> shape2 M L y ->
  shape2 M L (slab_add aadd x y) /\
  forall m c, m < M -> c < L ->
    nth c (nth m (slab_add aadd x y) []) azero = aadd (nth c (nth m x []) azero) (nth c (nth m y []) azero).
Proof.
  intros [X1 X2] [Y1 Y2]. rewrite slab_add_zip. split.
  - split; [rewrite zipc_length; lia|]. intros m Hm. rewrite (zipc_nth _ x y m [] [] []) by lia.
    rewrite zipc_length; rewrite ?X2, ?Y2 by exact Hm; lia.
  - intros m c Hm Hc. rewrite (zipc_nth _ x y m [] [] []) by lia.
    apply zipc_nth; rewrite ?X2, ?Y2 by exact Hm; lia.
Qed.

Lemma slab_scale_spec t x M L : shape2 M L x ->
  shape2 M L (slab_scale ascale t x) /\
  forall m c, m < M -> c < L ->
    nth c (nth m (slab_scale ascale t x) []) azero = ascale t (nth c (nth m x []) azero).
Proof. exact (map2_spec (ascale t) M L x azero azero). Qed.

Lemma slab_zero_spec x M L : shape2 M L x ->
  shape2 M L (slab_zero azero x) /\
  forall m c, m < M -> c < L -> nth c (nth m (slab_zero azero x) []) azero = azero.
Proof. exact (map2_spec (fun _ => azero) M L x azero azero). Qed.

Lemma slab_fold_spec (sls : list (list (list A))) z M L :
  Forall (shape2 M L) sls -> shape2 M L z ->
  shape2 M L (fold_right (slab_add aadd) z sls) /\
  forall m c, m < M -> c < L ->
    nth c (nth m (fold_right (slab_add aadd) z sls) []) azero
    = fold_right aadd (nth c (nth m z []) azero) (map (fun sl => nth c (nth m sl []) azero) sls).
Proof.
  intros HF Hz. induction HF as [|sl sls Hsl HF [IHs IHe]]; cbn [fold_right map].
  - split; [exact Hz|]. reflexivity.
  - destruct (slab_add_spec sl (fold_right (slab_add aadd) z sls) M L Hsl IHs) as [S1 S2].
    split; [exact S1|]. intros m c Hm Hc. rewrite (S2 m c Hm Hc). now rewrite IHe.
Qed.

(* the slab that transform_left puts at (m1, s1): the combination of the L1 slabs b1 = blk[m1] with the
   coefficients trow = T[s1] *)
Definition slab_lincomb (trow : list F) (b1 : list (list (list A))) : list (list A) :=
  fold_right (slab_add aadd) (slab_zero azero (hd [] b1))
    (map (fun '(t, sl) => slab_scale ascale t sl) (combine trow b1)).

Lemma transform_left_slabs T (blk : list (list (list (list A)))) :
  transform_left azero aadd ascale T blk = map (fun b1 => map (fun trow => slab_lincomb trow b1) T) blk.
Proof. reflexivity. Qed.

Lemma slab_lincomb_spec (trow : list F) (b1 : list (list (list A))) L1 M2 L2 :
  0 < L1 -> length trow = L1 -> length b1 = L1 -> (forall c1, c1 < L1 -> shape2 M2 L2 (nth c1 b1 [])) ->
  shape2 M2 L2 (slab_lincomb trow b1) /\
  forall m2 c2, m2 < M2 -> c2 < L2 ->
    nth c2 (nth m2 (slab_lincomb trow b1) []) azero
    = asum' (mk L1 (fun c1 => ascale (nth c1 trow (f0 K)) (nth c2 (nth m2 (nth c1 b1 []) []) azero))).
Proof.
  intros HL Htr Hb1 Hsh.
  assert (Hhd : shape2 M2 L2 (hd [] b1)).
  { replace (hd [] b1) with (nth 0 b1 []) by (destruct b1; reflexivity). now apply Hsh. }
  destruct (slab_zero_spec (hd [] b1) M2 L2 Hhd) as [Z1 Z2].
  assert (Ecomb : map (fun '(t, sl) => slab_scale ascale t sl) (combine trow b1)
                  = mk L1 (fun c1 => slab_scale ascale (nth c1 trow (f0 K)) (nth c1 b1 []))).
  { rewrite (combine_as_mk trow b1 (f0 K) []) by congruence. rewrite Tables.map_mk. now rewrite Htr. }
  assert (HF : Forall (shape2 M2 L2) (mk L1 (fun c1 => slab_scale ascale (nth c1 trow (f0 K)) (nth c1 b1 [])))).
  { apply Forall_mk. intros c1 Hc1. exact (proj1 (slab_scale_spec _ _ M2 L2 (Hsh c1 Hc1))). }
  unfold slab_lincomb. rewrite Ecomb.
  destruct (slab_fold_spec _ _ M2 L2 HF Z1) as [F1 F2]. split; [exact F1|].
  intros m2 c2 H3 H4. rewrite (F2 m2 c2 H3 H4), (Z2 m2 c2 H3 H4), Tables.map_mk.
  unfold asum. f_equal. apply mk_ext. intros c1 Hc1.
  exact (proj2 (slab_scale_spec _ _ M2 L2 (Hsh c1 Hc1)) m2 c2 H3 H4).
Qed.

Lemma transform_left_spec T (blk : list (list (list (list A)))) M1 L1 M2 L2 :
  shape4 M1 L1 M2 L2 blk -> 0 < L1 -> Forall (fun r => length r = L1) T ->
  shape4 M1 (length T) M2 L2 (transform_left azero aadd ascale T blk) /\
  forall m1 s1 m2 c2, m1 < M1 -> s1 < length T -> m2 < M2 -> c2 < L2 ->
    get4 azero m1 s1 m2 c2 (transform_left azero aadd ascale T blk)
    = asum' (mk L1 (fun c1 => ascale (nth c1 (nth s1 T []) (f0 K)) (get4 azero m1 c1 m2 c2 blk))).
Proof.
  intros Hb HL HT. apply shape4_slabs in Hb. destruct Hb as [[B1 B1r] Hs]. rewrite transform_left_slabs.
  assert (E : forall m1 s1, m1 < M1 -> s1 < length T ->
     nth s1 (nth m1 (map (fun b1 => map (fun trow => slab_lincomb trow b1) T) blk) []) []
     = slab_lincomb (nth s1 T []) (nth m1 blk [])).
  { intros m1 s1 H1 H2. rewrite (nth_map_lt _ blk m1 []) by lia.
    now apply (nth_map_lt (fun trow => slab_lincomb trow (nth m1 blk []))). }
  pose proof (fun m1 s1 (H1 : m1 < M1) (H2 : s1 < length T) =>
    slab_lincomb_spec (nth s1 T []) (nth m1 blk []) L1 M2 L2 HL (Forall_nth_in _ T [] s1 HT H2) (B1r m1 H1)
      (fun c1 Hc1 => Hs m1 c1 H1 Hc1)) as G.
  split.
  - apply shape4_slabs. split.
    + split; [now rewrite map_length|]. intros m1 H1. rewrite (nth_map_lt _ blk m1 []) by lia. apply map_length.
    + intros m1 s1 H1 H2. rewrite (E m1 s1 H1 H2). exact (proj1 (G m1 s1 H1 H2)).
  - intros m1 s1 m2 c2 H1 H2 H3 H4. unfold get4 at 1. rewrite (E m1 s1 H1 H2).
    exact (proj2 (G m1 s1 H1 H2) m2 c2 H3 H4).
Qed.

Definition tsum (sph : bool) (T : list (list F)) (L q : nat) (f : nat -> A) : A :=
  if sph then asum' (mk L (fun c => ascale (nth c (nth q T []) (f0 K)) (f c))) else f q.
Definition osz (sph : bool) (T : list (list F)) (L : nat) : nat := if sph then length T else L.

Lemma osz_cart sph T L q : q < osz sph T L -> sph = false -> q < L.
Proof. intros H ->. exact H. Qed.

Lemma tsum_ext sph T L q f g : (forall c, c < L -> f c = g c) -> (sph = false -> q < L) ->
  tsum sph T L q f = tsum sph T L q g.
Proof.
  intros H Hq. unfold tsum. destruct sph; [|apply H; now apply Hq].
  f_equal. apply mk_ext. intros c Hc. now rewrite H.
Qed.

Definition T_ok (sph : bool) (T : list (list F)) (L : nat) : Prop :=
  sph = true -> Forall (fun r => length r = L) T.

(* the two optional steps of shell_block: T on the first index of a spherical first shell, T on the second
   index of a spherical second shell, nothing for a Cartesian one *)
Lemma left_step sph T (blk : list (list (list (list A)))) M1 L1 M2 L2 :
  shape4 M1 L1 M2 L2 blk -> 0 < L1 -> T_ok sph T L1 ->
  let bl := if sph then transform_left azero aadd ascale T blk else blk in
  shape4 M1 (osz sph T L1) M2 L2 bl /\
  forall m1 q1 m2 c2, m1 < M1 -> q1 < osz sph T L1 -> m2 < M2 -> c2 < L2 ->
    get4 azero m1 q1 m2 c2 bl = tsum sph T L1 q1 (fun c1 => get4 azero m1 c1 m2 c2 blk).
Proof.
  intros Hb HL HT. destruct sph; [exact (transform_left_spec T blk M1 L1 M2 L2 Hb HL (HT eq_refl))|].
  split; [exact Hb|reflexivity].
Qed.

Lemma right_step sph T (blk : list (list (list (list A)))) M1 X M2 L2 :
  shape4 M1 X M2 L2 blk -> T_ok sph T L2 ->
  let br := if sph then transform_right azero aadd ascale T blk else blk in
  shape4 M1 X M2 (osz sph T L2) br /\
  forall m1 x m2 q2, m1 < M1 -> x < X -> m2 < M2 -> q2 < osz sph T L2 ->
    get4 azero m1 x m2 q2 br = tsum sph T L2 q2 (fun c2 => get4 azero m1 x m2 c2 blk).
Proof.
  intros Hb HT. destruct sph; [exact (transform_right_spec T blk M1 X M2 L2 Hb (HT eq_refl))|].
  split; [exact Hb|reflexivity].
Qed.

Theorem shell_block_spec sph1 sph2 T1 T2 n1 n2 (blk : list (list (list (list A)))) M1 L1 M2 L2 :
  shape2 M1 L1 n1 -> shape2 M2 L2 n2 -> shape4 M1 L1 M2 L2 blk -> 0 < L1 ->
  T_ok sph1 T1 L1 -> T_ok sph2 T2 L2 ->
  let O1 := osz sph1 T1 L1 in let O2 := osz sph2 T2 L2 in
  let B := shell_block K azero aadd ascale sph1 sph2 T1 T2 n1 n2 blk in
  (length B = M1 * O1 /\ Forall (fun row => length row = M2 * O2) B) /\
  forall m1 q1 m2 q2, m1 < M1 -> q1 < O1 -> m2 < M2 -> q2 < O2 ->
    nth (m2 * O2 + q2) (nth (m1 * O1 + q1) B []) azero
    = tsum sph2 T2 L2 q2 (fun c2 => tsum sph1 T1 L1 q1 (fun c1 =>
        ascale (fmul K (nth c1 (nth m1 n1 []) (f0 K)) (nth c2 (nth m2 n2 []) (f0 K)))
               (get4 azero m1 c1 m2 c2 blk))).
Proof.
  intros Hn1 Hn2 Hb HL HT1 HT2 O1 O2 B.
  destruct (normalise_spec K azero ascale n1 n2 blk M1 L1 M2 L2 Hn1 Hn2 Hb) as [Ns Ne].
  destruct (left_step sph1 T1 _ M1 L1 M2 L2 Ns HL HT1) as [Ls Le].
  destruct (right_step sph2 T2 _ M1 O1 M2 L2 Ls HT2) as [Rs Re].
  split; [exact (flatten_shape _ M1 O1 M2 O2 Rs)|].
  intros m1 q1 m2 q2 H1 H2 H3 H4. unfold B, shell_block.
  rewrite (flatten_entry _ M1 O1 M2 O2 azero m1 q1 m2 q2 Rs H1 H2 H3 H4), (Re m1 q1 m2 q2 H1 H2 H3 H4).
  apply tsum_ext; [|exact (osz_cart _ _ _ _ H4)]. intros c2 Hc2. rewrite (Le m1 q1 m2 c2 H1 H2 H3 Hc2).
  apply tsum_ext; [|exact (osz_cart _ _ _ _ H2)]. intros c1 Hc1. now apply Ne.
Qed.
End SphBlock.

Section MixedIndex.
Context {F : Type} (K : Fops F).

Definition nlab (s : shell F) : nat := length (labels_of s).
Definition osize (s : shell F) : nat := if s_sph s then nlab s else ncomp s.
Definition odim (s : shell F) : nat := nseg s * osize s.
Definition ooff (bs : list (shell F)) (k : nat) : nat := offs (fun t => odim (sh_at K bs t)) k.
Definition ototal (bs : list (shell F)) : nat := ooff bs (length bs).
Definition oidx (bs : list (shell F)) (k m q : nat) : nat := ooff bs k + (m * osize (sh_at K bs k) + q).

Lemma default_labels_nonempty l : 0 < length (default_labels l).
Proof.
  unfold default_labels. destruct (Nat.eqb l 1); [cbn; lia|].
  rewrite app_length, !map_length, !seq_length. lia.
Qed.

Lemma nlab_pos (s : shell F) : 0 < nlab s.
Proof.
  unfold nlab, labels_of. destruct (s_labels s) as [|c r]; [apply default_labels_nonempty|cbn; lia].
Qed.

Lemma osize_pos (s : shell F) : 0 < osize s.
Proof. unfold osize. destruct (s_sph s); [apply nlab_pos|apply ncomp_pos]. Qed.

Lemma oidx_surj bs I : I < ototal bs ->
  exists k m q, k < length bs /\ m < nseg (sh_at K bs k) /\ q < osize (sh_at K bs k) /\ I = oidx bs k m q.
Proof. exact (xidx_surj K osize bs I osize_pos). Qed.

Lemma oidx_inj bs k m q k' m' q' :
  m < nseg (sh_at K bs k) -> q < osize (sh_at K bs k) -> m' < nseg (sh_at K bs k') -> q' < osize (sh_at K bs k') ->
  oidx bs k m q = oidx bs k' m' q' -> k = k' /\ m = m' /\ q = q'.
Proof. exact (xidx_inj K osize bs k m q k' m' q'). Qed.

Lemma oidx_lt bs k m q : k < length bs -> m < nseg (sh_at K bs k) -> q < osize (sh_at K bs k) ->
  oidx bs k m q < ototal bs.
Proof. exact (xidx_lt K osize bs k m q). Qed.

Lemma shell_transform_length (s : shell F) : length (shell_transform K s) = nlab s.
Proof. unfold shell_transform, sph_transform, nlab. now rewrite !map_length. Qed.

Lemma shell_transform_rows (s : shell F) : Forall (fun r => length r = ncomp s) (shell_transform K s).
Proof.
  unfold shell_transform, sph_transform, ncomp. apply Forall_forall. intros r Hr.
  apply in_map_iff in Hr. destruct Hr as [r0 [<- Hr0]]. rewrite map_length.
  apply in_map_iff in Hr0. destruct Hr0 as [[[neg sine] m] [<- _]]. now rewrite map_length.
Qed.

Lemma osize_cart (s : shell F) q : q < osize s -> s_sph s = false -> q < ncomp s.
Proof. unfold osize. intros H E. now rewrite E in H. Qed.

Lemma osz_shell (s : shell F) : osz (s_sph s) (shell_transform K s) (ncomp s) = osize s.
Proof. unfold osz, osize. now rewrite shell_transform_length. Qed.
End MixedIndex.

Section MixedAssembled.
Context {F : Type} (K : Fops F).
Context {A : Type} (azero : A) (aadd : A -> A -> A) (ascale : F -> A -> A).
Variable blockf : shell F -> shell F -> list (list (list (list A))).

Definition seg_basis (bs : list (shell F)) : Prop := forall s, In s bs -> 0 < nseg s.

Notation pb := (pblock K azero aadd ascale blockf).

(* the (m1, q1; m2, q2) entry of the processed block of the ordered pair (a, b): T_a on the first index and
   T_b on the second index of the normalised Cartesian block *)
Definition Emix (a b : shell F) (m1 q1 m2 q2 : nat) : A :=
  tsum K azero aadd ascale (s_sph b) (shell_transform K b) (ncomp b) q2 (fun c2 =>
    tsum K azero aadd ascale (s_sph a) (shell_transform K a) (ncomp a) q1 (fun c1 =>
      ascale (fmul K (ncont K a m1 c1) (ncont K b m2 c2)) (get4 azero m1 c1 m2 c2 (blockf a b)))).

Lemma tsum2_ext (a b : shell F) q q' (X Y : nat -> nat -> A) : q < osize a -> q' < osize b ->
  (forall c c', c < ncomp a -> c' < ncomp b -> X c c' = Y c c') ->
  tsum K azero aadd ascale (s_sph b) (shell_transform K b) (ncomp b) q' (fun c' =>
    tsum K azero aadd ascale (s_sph a) (shell_transform K a) (ncomp a) q (fun c => X c c'))
  = tsum K azero aadd ascale (s_sph b) (shell_transform K b) (ncomp b) q' (fun c' =>
      tsum K azero aadd ascale (s_sph a) (shell_transform K a) (ncomp a) q (fun c => Y c c')).
Proof.
  intros Hq Hq' H. apply tsum_ext; [|exact (osize_cart b q' Hq')]. intros c' Hc'.
  apply tsum_ext; [|exact (osize_cart a q Hq)]. intros c Hc. now apply H.
Qed.

Lemma pblock_mixed_spec (s1 s2 : shell F) :
  shape4 (nseg s1) (ncomp s1) (nseg s2) (ncomp s2) (blockf s1 s2) ->
  (length (pb (prep K s1) (prep K s2)) = odim s1 /\
   Forall (fun row => length row = odim s2) (pb (prep K s1) (prep K s2))) /\
  forall m1 q1 m2 q2, m1 < nseg s1 -> q1 < osize s1 -> m2 < nseg s2 -> q2 < osize s2 ->
    nth (m2 * osize s2 + q2) (nth (m1 * osize s1 + q1) (pb (prep K s1) (prep K s2)) []) azero
    = Emix s1 s2 m1 q1 m2 q2.
Proof.
  intros Hb. unfold pblock. cbn [prep p_shell p_T p_norm].
  pose proof (shell_block_spec K azero aadd ascale (s_sph s1) (s_sph s2) (shell_transform K s1) (shell_transform K s2)
                (norm_cont K s1) (norm_cont K s2) (blockf s1 s2) (nseg s1) (ncomp s1) (nseg s2) (ncomp s2)
                (norm_cont_shape K s1) (norm_cont_shape K s2) Hb (ncomp_pos s1)
                (fun _ => shell_transform_rows K s1) (fun _ => shell_transform_rows K s2)) as H.
  cbv zeta in H. rewrite !osz_shell in H. exact H.
Qed.

(* the processed block of shell i of b1 and shell j of b2, as the assemblies look it up *)
Lemma pblock_at_spec (b1 b2 : list (shell F)) i j : blocks_shaped blockf b1 b2 -> i < length b1 -> j < length b2 ->
  let B := pb (nth i (map (prep K) b1) (dummy_p K)) (nth j (map (prep K) b2) (dummy_p K)) in
  (length B = odim (sh_at K b1 i) /\ Forall (fun row => length row = odim (sh_at K b2 j)) B) /\
  forall m q m' q', m < nseg (sh_at K b1 i) -> q < osize (sh_at K b1 i) ->
                    m' < nseg (sh_at K b2 j) -> q' < osize (sh_at K b2 j) ->
    nth (m' * osize (sh_at K b2 j) + q') (nth (m * osize (sh_at K b1 i) + q) B []) azero
    = Emix (sh_at K b1 i) (sh_at K b2 j) m q m' q'.
Proof.
  intros HB Hi Hj. cbv zeta. rewrite !nth_prep by assumption.
  apply pblock_mixed_spec. apply HB; now apply sh_in.
Qed.

(* the square assemblies: the plain one (Model/Overlap.two_symm_integral) and the conjugating one
   (Model/OneBody.two_symm_integral_h) *)
Section Symm.
Variable bs : list (shell F).
Hypothesis C : seg_basis bs.
Hypothesis HB : blocks_shaped blockf bs bs.
Variable aconj : A -> A.

Let n := length bs.
Let P := fun i j => pb (nth i (map (prep K) bs) (dummy_p K)) (nth j (map (prep K) bs) (dummy_p K)).
Let w := fun t => odim (sh_at K bs t).
Let ct := fun M : list (list A) => map (map aconj) (transpose azero M).

Lemma mP_spec i j : i < n -> j < n ->
  (length (P i j) = w i /\ Forall (fun row => length row = w j) (P i j)) /\
  forall m q m' q', m < nseg (sh_at K bs i) -> q < osize (sh_at K bs i) ->
                    m' < nseg (sh_at K bs j) -> q' < osize (sh_at K bs j) ->
    nth (m' * osize (sh_at K bs j) + q') (nth (m * osize (sh_at K bs i) + q) (P i j) []) azero
    = Emix (sh_at K bs i) (sh_at K bs j) m q m' q'.
Proof. exact (fun Hi Hj => pblock_at_spec bs bs i j HB Hi Hj). Qed.

Lemma mw_pos i : i < n -> 0 < w i.
Proof.
  intros Hi. unfold w, odim. pose proof (osize_pos (sh_at K bs i)).
  pose proof (C (sh_at K bs i) (sh_in K bs i Hi)). nia.
Qed.

Lemma symm_is_mirror :
  two_symm_integral K azero aadd ascale blockf bs None = mirror Nat.leb (transpose azero) n P.
Proof. rewrite two_symm_integral_unfold. cbv zeta. rewrite map_length. reflexivity. Qed.

(* the model looks the evaluated blocks up in a table that holds them for i <= j only *)
Lemma symm_h_is_mirror :
  two_symm_integral_h K azero aadd ascale aconj blockf bs None = mirror Nat.ltb ct n P.
Proof.
  unfold two_symm_integral_h. cbv zeta. rewrite map_length. fold n.
  apply (mirror_ext Nat.ltb ct n).
  - intros i j H. apply Nat.ltb_lt in H. lia.
  - intros i j H. apply Nat.ltb_ge in H. exact H.
  - intros i j Hi Hj Hle. rewrite nth_mk by exact Hi. rewrite nth_mk by exact Hj.
    destruct (Nat.leb_spec i j); [reflexivity|lia].
Qed.

Theorem two_symm_mixed_shape : 0 < n ->
  length (two_symm_integral K azero aadd ascale blockf bs None) = ototal K bs /\
  forall I, I < ototal K bs -> length (nth I (two_symm_integral K azero aadd ascale blockf bs None) []) = ototal K bs.
Proof.
  rewrite symm_is_mirror.
  exact (mirror_shape azero azero (fun x => x) Nat.leb (transpose azero) (transpose_spec azero) n P w mw_pos
           (fun i j Hi Hj => proj1 (mP_spec i j Hi Hj))).
Qed.

Theorem two_symm_mixed_entry i j m q m' q' :
  i < n -> j < n ->
  m < nseg (sh_at K bs i) -> q < osize (sh_at K bs i) -> m' < nseg (sh_at K bs j) -> q' < osize (sh_at K bs j) ->
  nth (oidx K bs j m' q') (nth (oidx K bs i m q)
      (two_symm_integral K azero aadd ascale blockf bs None) []) azero
  = if Nat.leb i j then Emix (sh_at K bs i) (sh_at K bs j) m q m' q'
    else Emix (sh_at K bs j) (sh_at K bs i) m' q' m q.
Proof.
  intros Hi Hj Hm Hq Hm' Hq'. rewrite symm_is_mirror. unfold oidx, ooff. fold w.
  rewrite (mirror_entry azero azero (fun x => x) Nat.leb (transpose azero) (transpose_spec azero) n P w mw_pos
             (fun i j Hi Hj => proj1 (mP_spec i j Hi Hj)) i j _ _ Hi Hj (idx_lt _ _ _ _ Hm Hq) (idx_lt _ _ _ _ Hm' Hq')).
  destruct (Nat.leb i j); [now apply (proj2 (mP_spec i j Hi Hj)) | now apply (proj2 (mP_spec j i Hj Hi))].
Qed.

Theorem two_symm_h_mixed_shape : 0 < n ->
  length (two_symm_integral_h K azero aadd ascale aconj blockf bs None) = ototal K bs /\
  forall I, I < ototal K bs ->
    length (nth I (two_symm_integral_h K azero aadd ascale aconj blockf bs None) []) = ototal K bs.
Proof.
  rewrite symm_h_is_mirror.
  exact (mirror_shape azero (aconj azero) aconj Nat.ltb ct (map_transpose_spec azero aconj) n P w mw_pos
           (fun i j Hi Hj => proj1 (mP_spec i j Hi Hj))).
Qed.

(* blocks strictly above the diagonal are evaluated; every other block, the DIAGONAL ones included, is the
   conjugated transpose of the mirrored evaluated block *)
Theorem two_symm_h_mixed_entry i j m q m' q' :
  i < n -> j < n ->
  m < nseg (sh_at K bs i) -> q < osize (sh_at K bs i) -> m' < nseg (sh_at K bs j) -> q' < osize (sh_at K bs j) ->
  nth (oidx K bs j m' q') (nth (oidx K bs i m q)
      (two_symm_integral_h K azero aadd ascale aconj blockf bs None) []) (aconj azero)
  = if Nat.ltb i j then Emix (sh_at K bs i) (sh_at K bs j) m q m' q'
    else aconj (Emix (sh_at K bs j) (sh_at K bs i) m' q' m q).
Proof.
  intros Hi Hj Hm Hq Hm' Hq'. rewrite symm_h_is_mirror. unfold oidx, ooff. fold w.
  rewrite (mirror_entry azero (aconj azero) aconj Nat.ltb ct (map_transpose_spec azero aconj) n P w mw_pos
             (fun i j Hi Hj => proj1 (mP_spec i j Hi Hj)) i j _ _ Hi Hj (idx_lt _ _ _ _ Hm Hq) (idx_lt _ _ _ _ Hm' Hq')).
  destruct (Nat.ltb i j); [|f_equal]; [now apply (proj2 (mP_spec i j Hi Hj)) | now apply (proj2 (mP_spec j i Hj Hi))].
Qed.
End Symm.

Section AsymmMixed.
Variables b1 b2 : list (shell F).
Hypothesis HB : blocks_shaped blockf b1 b2.

Let Bf := fun i j => pb (nth i (map (prep K) b1) (dummy_p K)) (nth j (map (prep K) b2) (dummy_p K)).

Lemma masymm_Bf_spec i j : i < length b1 -> j < length b2 ->
  (length (Bf i j) = odim (sh_at K b1 i) /\ Forall (fun row => length row = odim (sh_at K b2 j)) (Bf i j)) /\
  forall m q m' q', m < nseg (sh_at K b1 i) -> q < osize (sh_at K b1 i) ->
                    m' < nseg (sh_at K b2 j) -> q' < osize (sh_at K b2 j) ->
    nth (m' * osize (sh_at K b2 j) + q') (nth (m * osize (sh_at K b1 i) + q) (Bf i j) []) azero
    = Emix (sh_at K b1 i) (sh_at K b2 j) m q m' q'.
Proof. exact (pblock_at_spec b1 b2 i j HB). Qed.

Lemma masymm_is_blockmat :
  two_asymm_integral K azero aadd ascale blockf b1 b2 None None = two_asymm_blocks (length b1) (length b2) Bf.
Proof. unfold two_asymm_integral. cbv zeta. rewrite !map_length. reflexivity. Qed.

Lemma two_asymm_mixed_shape : 0 < length b2 ->
  length (two_asymm_integral K azero aadd ascale blockf b1 b2 None None) = ototal K b1 /\
  forall I, I < ototal K b1 ->
    length (nth I (two_asymm_integral K azero aadd ascale blockf b1 b2 None None) []) = ototal K b2.
Proof.
  intros Hn. rewrite masymm_is_blockmat.
  pose proof (fun i j Hi Hj => proj1 (masymm_Bf_spec i j Hi Hj)) as HS. split.
  - exact (blockmat_length _ _ Bf (fun t => odim (sh_at K b1 t)) (fun t => odim (sh_at K b2 t)) HS Hn).
  - intros I HI. destruct (offs_decompose _ _ I HI) as (i & a & Hi & Ha & ->).
    exact (blockmat_row_length _ _ Bf _ (fun t => odim (sh_at K b2 t)) HS Hn i a Hi Ha).
Qed.

Theorem two_asymm_mixed_entry i j m q m' q' :
  i < length b1 -> j < length b2 ->
  m < nseg (sh_at K b1 i) -> q < osize (sh_at K b1 i) -> m' < nseg (sh_at K b2 j) -> q' < osize (sh_at K b2 j) ->
  nth (oidx K b2 j m' q') (nth (oidx K b1 i m q)
      (two_asymm_integral K azero aadd ascale blockf b1 b2 None None) []) azero
  = Emix (sh_at K b1 i) (sh_at K b2 j) m q m' q'.
Proof.
  intros Hi Hj Hm Hq Hm' Hq'. rewrite masymm_is_blockmat.
  unfold oidx, ooff.
  rewrite (blockmat_entry (length b1) (length b2) Bf (fun t => odim (sh_at K b1 t)) (fun t => odim (sh_at K b2 t))
             (fun i j Hi Hj => proj1 (masymm_Bf_spec i j Hi Hj)) ltac:(lia) azero i j _ _ Hi Hj
             (idx_lt _ _ _ _ Hm Hq) (idx_lt _ _ _ _ Hm' Hq')).
  now apply (proj2 (masymm_Bf_spec i j Hi Hj)).
Qed.
End AsymmMixed.
End MixedAssembled.

Section OffDiagMixed.
Context {F : Type} (K : Fops F).
Context {A : Type} (azero : A) (aadd : A -> A -> A) (ascale : F -> A -> A).
Variable blockf : shell F -> shell F -> list (list (list (list A))).
Variables b1 b2 : list (shell F).

Let n1 := length b1.

Lemma sh_at_app_l t : t < n1 -> sh_at K (b1 ++ b2) t = sh_at K b1 t.
Proof. intros H. unfold sh_at. now rewrite app_nth1. Qed.
Lemma sh_at_app_r t : sh_at K (b1 ++ b2) (n1 + t) = sh_at K b2 t.
Proof. unfold sh_at. rewrite app_nth2 by (unfold n1; lia). f_equal. unfold n1. lia. Qed.

Lemma ooff_app_l k : k <= n1 -> ooff K (b1 ++ b2) k = ooff K b1 k.
Proof. intros H. unfold ooff. apply offs_ext. intros t Ht. rewrite sh_at_app_l by lia. reflexivity. Qed.
Lemma ooff_app_r k : ooff K (b1 ++ b2) (n1 + k) = ototal K b1 + ooff K b2 k.
Proof.
  unfold ooff at 1. rewrite offs_add. f_equal.
  - apply (ooff_app_l n1). lia.
  - apply offs_ext. intros t _. now rewrite sh_at_app_r.
Qed.
Lemma ototal_app : ototal K (b1 ++ b2) = ototal K b1 + ototal K b2.
Proof. unfold ototal at 1. rewrite app_length. apply ooff_app_r. Qed.

Lemma oidx_app_l i m c : i < n1 -> oidx K (b1 ++ b2) i m c = oidx K b1 i m c.
Proof. intros H. unfold oidx. rewrite ooff_app_l, sh_at_app_l by lia. reflexivity. Qed.
Lemma oidx_app_r j m c : oidx K (b1 ++ b2) (n1 + j) m c = ototal K b1 + oidx K b2 j m c.
Proof. unfold oidx. rewrite ooff_app_r, sh_at_app_r. lia. Qed.

Hypothesis C1 : seg_basis b1.
Hypothesis C2 : seg_basis b2.
Hypothesis HB : blocks_shaped blockf (b1 ++ b2) (b1 ++ b2).
Hypothesis Hn2 : 0 < length b2.

Lemma seg_basis_app : seg_basis (b1 ++ b2).
Proof. intros s Hs. apply in_app_or in Hs. destruct Hs; [now apply C1 | now apply C2]. Qed.

Lemma blocks_shaped_12 : blocks_shaped blockf b1 b2.
Proof. intros sa sb Ha Hb. apply HB; apply in_or_app; auto. Qed.

(* The rectangular assembly of (b1, b2) is rows [0, |b1|) x columns [|b1|, |b1|+|b2|) of the square
   assembly of the union b1 ++ b2 (|b| = ototal b, the number of basis functions of b). *)
Theorem asymm_is_offdiag_block_mixed :
  two_asymm_integral K azero aadd ascale blockf b1 b2 None None
  = map (skipn (ototal K b1)) (firstn (ototal K b1) (two_symm_integral K azero aadd ascale blockf (b1 ++ b2) None)).
Proof.
  set (U := two_symm_integral K azero aadd ascale blockf (b1 ++ b2) None).
  assert (Hpos : 0 < length (b1 ++ b2)) by (rewrite app_length; lia).
  destruct (two_symm_mixed_shape K azero aadd ascale blockf (b1 ++ b2) seg_basis_app HB Hpos) as [SL SR].
  fold U in SL, SR. rewrite ototal_app in SL, SR.
  destruct (two_asymm_mixed_shape K azero aadd ascale blockf b1 b2 blocks_shaped_12 Hn2) as [AL AR].
  apply (matrix_ext azero _ _ (ototal K b1) (ototal K b2)).
  - exact AL.
  - rewrite map_length, firstn_length, SL. lia.
  - intros a Ha. split; [now apply AR|].
    rewrite (nth_map_lt _ _ _ []) by (rewrite firstn_length, SL; lia).
    rewrite nth_firstn by exact Ha. rewrite skipn_length, SR by lia. lia.
  - intros a b Ha Hb.
    destruct (oidx_surj K b1 a Ha) as (i & m & c & Hi & Hm & Hc & ->).
    destruct (oidx_surj K b2 b Hb) as (j & m' & c' & Hj & Hm' & Hc' & ->).
    rewrite (two_asymm_mixed_entry K azero aadd ascale blockf b1 b2 blocks_shaped_12) by assumption.
    rewrite (nth_map_lt _ _ _ []) by (rewrite firstn_length, SL; lia).
    rewrite nth_firstn by exact Ha. rewrite nth_skipn_add.
    rewrite <- oidx_app_r, <- (oidx_app_l i m c) by exact Hi. unfold U.
    rewrite (two_symm_mixed_entry K azero aadd ascale blockf (b1 ++ b2) seg_basis_app HB i (n1 + j) m c m' c');
      rewrite ?app_length, ?sh_at_app_r, ?(sh_at_app_l i) by exact Hi; try assumption; try (unfold n1 in *; lia).
    destruct (Nat.leb_spec i (n1 + j)) as [_|Hlt]; [reflexivity|unfold n1 in *; lia].
Qed.
End OffDiagMixed.

Section Cartesian.
Context {F : Type} (K : Fops F).
Context {A : Type} (azero : A) (aadd : A -> A -> A) (ascale : F -> A -> A).
Variable blockf : shell F -> shell F -> list (list (list (list A))).

Lemma cart_seg (bs : list (shell F)) : cart_basis bs -> seg_basis bs.
Proof. intros C s Hs. exact (proj2 (C s Hs)). Qed.

Lemma cart_osize (bs : list (shell F)) k : cart_basis bs -> k < length bs ->
  osize (sh_at K bs k) = ncomp (sh_at K bs k).
Proof. intros C Hk. unfold osize. now rewrite (proj1 (C _ (sh_in K bs k Hk))). Qed.

Lemma cart_ooff (bs : list (shell F)) k : cart_basis bs -> k <= length bs -> ooff K bs k = boff K bs k.
Proof. intros C Hk. apply (xoff_ext K osize ncomp). intros t Ht. apply cart_osize; [exact C|lia]. Qed.

Lemma cart_ototal (bs : list (shell F)) : cart_basis bs -> ototal K bs = btotal K bs.
Proof. intros C. now apply cart_ooff. Qed.

Lemma cart_oidx (bs : list (shell F)) k m c : cart_basis bs -> k < length bs -> oidx K bs k m c = gidx K bs k m c.
Proof. intros C Hk. unfold oidx, gidx. rewrite cart_ooff, cart_osize by (assumption || lia). reflexivity. Qed.

Lemma Emix_cart (a b : shell F) m1 c1 m2 c2 : s_sph a = false -> s_sph b = false ->
  Emix K azero aadd ascale blockf a b m1 c1 m2 c2
  = ascale (fmul K (ncont K a m1 c1) (ncont K b m2 c2)) (get4 azero m1 c1 m2 c2 (blockf a b)).
Proof. intros Ha Hb. unfold Emix, tsum. now rewrite Ha, Hb. Qed.

Section Symm.
Variable bs : list (shell F).
Hypothesis C : cart_basis bs.
Hypothesis HB : blocks_shaped blockf bs bs.
Variable aconj : A -> A.
Notation s_ k := (sh_at K bs k).

Lemma Emix_cart_at i j m c m' c' : i < length bs -> j < length bs ->
  Emix K azero aadd ascale blockf (s_ i) (s_ j) m c m' c'
  = ascale (fmul K (ncont K (s_ i) m c) (ncont K (s_ j) m' c')) (get4 azero m c m' c' (blockf (s_ i) (s_ j))).
Proof. intros Hi Hj. apply Emix_cart; [exact (proj1 (C _ (sh_in K bs i Hi))) | exact (proj1 (C _ (sh_in K bs j Hj)))]. Qed.

Theorem two_symm_cart_shape : 0 < length bs ->
  length (two_symm_integral K azero aadd ascale blockf bs None) = btotal K bs /\
  forall I, I < btotal K bs -> length (nth I (two_symm_integral K azero aadd ascale blockf bs None) []) = btotal K bs.
Proof. rewrite <- (cart_ototal bs C). exact (two_symm_mixed_shape K azero aadd ascale blockf bs (cart_seg bs C) HB). Qed.

Theorem two_symm_cart_entry i j m c m' c' :
  i < length bs -> j < length bs ->
  m < nseg (s_ i) -> c < ncomp (s_ i) -> m' < nseg (s_ j) -> c' < ncomp (s_ j) ->
  nth (gidx K bs j m' c') (nth (gidx K bs i m c)
      (two_symm_integral K azero aadd ascale blockf bs None) []) azero
  = if Nat.leb i j
    then ascale (fmul K (ncont K (s_ i) m c) (ncont K (s_ j) m' c')) (get4 azero m c m' c' (blockf (s_ i) (s_ j)))
    else ascale (fmul K (ncont K (s_ j) m' c') (ncont K (s_ i) m c)) (get4 azero m' c' m c (blockf (s_ j) (s_ i))).
Proof.
  intros Hi Hj Hm Hc Hm' Hc'. rewrite <- !(cart_oidx bs) by assumption.
  rewrite (two_symm_mixed_entry K azero aadd ascale blockf bs (cart_seg bs C) HB)
    by (rewrite ?cart_osize; assumption).
  now rewrite !Emix_cart_at.
Qed.

Theorem two_symm_h_cart_shape : 0 < length bs ->
  length (two_symm_integral_h K azero aadd ascale aconj blockf bs None) = btotal K bs /\
  forall I, I < btotal K bs ->
    length (nth I (two_symm_integral_h K azero aadd ascale aconj blockf bs None) []) = btotal K bs.
Proof.
  rewrite <- (cart_ototal bs C).
  exact (two_symm_h_mixed_shape K azero aadd ascale blockf bs (cart_seg bs C) HB aconj).
Qed.

Theorem two_symm_h_cart_entry i j m c m' c' :
  i < length bs -> j < length bs ->
  m < nseg (s_ i) -> c < ncomp (s_ i) -> m' < nseg (s_ j) -> c' < ncomp (s_ j) ->
  nth (gidx K bs j m' c') (nth (gidx K bs i m c)
      (two_symm_integral_h K azero aadd ascale aconj blockf bs None) []) (aconj azero)
  = if Nat.ltb i j
    then ascale (fmul K (ncont K (s_ i) m c) (ncont K (s_ j) m' c')) (get4 azero m c m' c' (blockf (s_ i) (s_ j)))
    else aconj (ascale (fmul K (ncont K (s_ j) m' c') (ncont K (s_ i) m c))
                       (get4 azero m' c' m c (blockf (s_ j) (s_ i)))).
Proof.
  intros Hi Hj Hm Hc Hm' Hc'. rewrite <- !(cart_oidx bs) by assumption.
  rewrite (two_symm_h_mixed_entry K azero aadd ascale blockf bs (cart_seg bs C) HB aconj)
    by (rewrite ?cart_osize; assumption).
  now rewrite !Emix_cart_at.
Qed.
End Symm.

Section Asymm.
Variables b1 b2 : list (shell F).
Hypothesis C1 : cart_basis b1.
Hypothesis C2 : cart_basis b2.

Theorem two_asymm_cart_entry i j m c m' c' : blocks_shaped blockf b1 b2 ->
  i < length b1 -> j < length b2 ->
  m < nseg (sh_at K b1 i) -> c < ncomp (sh_at K b1 i) -> m' < nseg (sh_at K b2 j) -> c' < ncomp (sh_at K b2 j) ->
  nth (gidx K b2 j m' c') (nth (gidx K b1 i m c)
      (two_asymm_integral K azero aadd ascale blockf b1 b2 None None) []) azero
  = ascale (fmul K (ncont K (sh_at K b1 i) m c) (ncont K (sh_at K b2 j) m' c'))
           (get4 azero m c m' c' (blockf (sh_at K b1 i) (sh_at K b2 j))).
Proof.
  intros HB Hi Hj Hm Hc Hm' Hc'. rewrite <- (cart_oidx b1), <- (cart_oidx b2) by assumption.
  rewrite (two_asymm_mixed_entry K azero aadd ascale blockf b1 b2 HB) by (rewrite ?cart_osize; assumption).
  apply Emix_cart; [exact (proj1 (C1 _ (sh_in K b1 i Hi))) | exact (proj1 (C2 _ (sh_in K b2 j Hj)))].
Qed.

Theorem asymm_is_offdiag_block_cart : blocks_shaped blockf (b1 ++ b2) (b1 ++ b2) -> 0 < length b2 ->
  two_asymm_integral K azero aadd ascale blockf b1 b2 None None
  = map (skipn (btotal K b1)) (firstn (btotal K b1) (two_symm_integral K azero aadd ascale blockf (b1 ++ b2) None)).
Proof.
  intros HB Hn. rewrite <- (cart_ototal b1 C1).
  exact (asymm_is_offdiag_block_mixed K azero aadd ascale blockf b1 b2 (cart_seg b1 C1) (cart_seg b2 C2) HB Hn).
Qed.
End Asymm.
End Cartesian.
