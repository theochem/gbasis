(* Proofs/CoreSumP.v — the index form of the double sum [entry_sum] of Proofs/BlockP.v, and the generic block theorem
   [block_of_contracted]: every entry of a block built by [block_of] from a (K_b, K_a) array of
   primitive values h(alpha_k, beta_k') is the contraction
       sum_{k < K_a} sum_{k' < K_b}  d_a[k][ma] d_b[k'][mb] N_a(alpha_k) N_b(beta_k') h(alpha_k, beta_k'). *)
From Coq Require Import List Arith Lia Field.
From GB Require Export Base.Tables Base.Sums.
From GB Require Import Base.Field Base.FNum Model.Shell Model.MomentInt Model.Overlap Model.Assembly Proofs.BlockP.
Import ListNotations.

Section Contracted.
Context {F : Type} (K : Fops F) (Kf : is_field K).
Add Field KFs1 : Kf.
Local Open Scope F_scope.
Notation "0" := (f0 K) : F_scope.
Notation "1" := (f1 K) : F_scope.
Infix "+" := (fadd K) : F_scope.
Infix "*" := (fmul K) : F_scope.
Infix "-" := (fsub K) : F_scope.
Notation "- x" := (fopp K x) : F_scope.
Notation fsum := (FNum.fsum K).

Definition wf_coeffs (s : shell F) : Prop := length (s_coeffs s) = length (s_exps s).

Definition contracted (sa sb : shell F) (ca cb : comp) (ma mb : nat) (prim : F -> F -> F) : F :=
  fsum (mk (length (s_exps sa)) (fun ka => fsum (mk (length (s_exps sb)) (fun kb =>
    nth ma (nth ka (s_coeffs sa) []) 0 * nth mb (nth kb (s_coeffs sb) []) 0
    * norm_prim K (s_l sa) ca (nth ka (s_exps sa) 0) * norm_prim K (s_l sb) cb (nth kb (s_exps sb) 0)
    * prim (nth ka (s_exps sa) 0) (nth kb (s_exps sb) 0))))).

Lemma contracted_ext sa sb ca cb ma mb p q :
  (forall alpha beta, In alpha (s_exps sa) -> In beta (s_exps sb) -> p alpha beta = q alpha beta) ->
  contracted sa sb ca cb ma mb p = contracted sa sb ca cb ma mb q.
Proof.
  intros H. unfold contracted. apply fsum_mk_ext; intros ka Hka. apply fsum_mk_ext; intros kb Hkb.
  rewrite H by (apply nth_In; assumption). reflexivity.
Qed.

Lemma contracted_opp sa sb ca cb ma mb p :
  contracted sa sb ca cb ma mb (fun x y => - p x y) = - contracted sa sb ca cb ma mb p.
Proof.
  unfold contracted. rewrite (fsum_mk_opp K Kf). apply fsum_mk_ext; intros ka _.
  rewrite (fsum_mk_opp K Kf). apply fsum_mk_ext; intros kb _. ring.
Qed.

Lemma contracted_add sa sb ca cb ma mb p q :
  contracted sa sb ca cb ma mb (fun x y => p x y + q x y)
  = contracted sa sb ca cb ma mb p + contracted sa sb ca cb ma mb q.
Proof.
  unfold contracted. rewrite (fsum_mk_add K Kf). apply fsum_mk_ext; intros ka _.
  rewrite (fsum_mk_add K Kf). apply fsum_mk_ext; intros kb _. ring.
Qed.

Lemma contracted_scale sa sb ca cb ma mb c p :
  contracted sa sb ca cb ma mb (fun x y => c * p x y) = c * contracted sa sb ca cb ma mb p.
Proof.
  unfold contracted. rewrite (fsum_mk_scale_l K Kf). apply fsum_mk_ext; intros ka _.
  rewrite (fsum_mk_scale_l K Kf). apply fsum_mk_ext; intros kb _. ring.
Qed.

Lemma contracted_swap sa sb ca cb ma mb p :
  contracted sb sa cb ca mb ma (fun beta alpha => p alpha beta) = contracted sa sb ca cb ma mb p.
Proof.
  unfold contracted. rewrite (fsum_mk_swap K Kf). apply fsum_mk_ext; intros ka _.
  apply fsum_mk_ext; intros kb _. ring.
Qed.

Lemma contracted_swap_ext sa sb ca cb ma mb p q :
  (forall alpha beta, In alpha (s_exps sa) -> In beta (s_exps sb) -> q beta alpha = p alpha beta) ->
  contracted sb sa cb ca mb ma q = contracted sa sb ca cb ma mb p.
Proof.
  intros H. rewrite <- contracted_swap. apply contracted_ext. intros beta alpha Hb Ha. now apply H.
Qed.

Lemma contracted_swap_scaled sa sb ca cb ma mb c p q :
  (forall alpha beta, In alpha (s_exps sa) -> In beta (s_exps sb) -> q beta alpha = c * p alpha beta) ->
  contracted sb sa cb ca mb ma q = c * contracted sa sb ca cb ma mb p.
Proof. intros H. rewrite <- contracted_scale. now apply contracted_swap_ext. Qed.

Lemma contracted_swap_opp sa sb ca cb ma mb p q :
  (forall alpha beta, In alpha (s_exps sa) -> In beta (s_exps sb) -> q beta alpha = - p alpha beta) ->
  contracted sb sa cb ca mb ma q = - contracted sa sb ca cb ma mb p.
Proof. intros H. rewrite <- contracted_opp. now apply contracted_swap_ext. Qed.

Lemma nth_norms (s : shell F) i : i < length (comps_of s) ->
  nth i (norms K s) [] = map (norm_prim K (s_l s) (nth i (comps_of s) (0, 0, 0)%nat)) (s_exps s).
Proof. intros Hi. unfold norms. now rewrite (nth_map_lt _ _ _ (0, 0, 0)%nat). Qed.

(* [pf ca cb] is the (K_b, K_a) array of primitive values handed to [block_of]; it only has to have the
   form h(alpha_k, beta_k') for the pair of components that is looked at.  Here the sums run over the
   (exponent, coefficient row) lists of the two shells, as [block_of] computes them. *)
Lemma block_of_entry_lists (sa sb : shell F) (pf : comp -> comp -> list (list F)) (h : F -> F -> F) ma ia mb ib :
  ma < nseg sa -> ia < length (comps_of sa) -> mb < nseg sb -> ib < length (comps_of sb) ->
  pf (nth ia (comps_of sa) (0, 0, 0)%nat) (nth ib (comps_of sb) (0, 0, 0)%nat)
    = map (fun beta => map (fun alpha => h alpha beta) (s_exps sa)) (s_exps sb) ->
  nth4 K ma ia mb ib (block_of K sa sb pf)
  = fsum (map (fun bc : F * list F =>
        fsum (map (fun ac : F * list F =>
               h (fst ac) (fst bc) * norm_prim K (s_l sa) (nth ia (comps_of sa) (0, 0, 0)%nat) (fst ac)
               * nth ma (snd ac) 0) (combine (s_exps sa) (s_coeffs sa)))
        * norm_prim K (s_l sb) (nth ib (comps_of sb) (0, 0, 0)%nat) (fst bc) * nth mb (snd bc) 0)
      (combine (s_exps sb) (s_coeffs sb))).
Proof.
  intros Hma Hia Hmb Hib Hpf. unfold nth4.
  rewrite (block_of_entry K sa sb _ ma ia mb ib Hma Hia Hmb Hib), Hpf, !nth_norms by assumption.
  unfold entry_sum. rewrite combine_map_map3, map_map.
  apply fsum_map_ext_in; intros [beta crowb] _; cbn [fst snd].
  now rewrite combine_map_map3, map_map.
Qed.

(* for shells with one coefficient row per exponent the sums run over the indices of the primitives *)
Theorem block_of_contracted (sa sb : shell F) (pf : comp -> comp -> list (list F)) (h : F -> F -> F) ma ia mb ib :
  wf_coeffs sa -> wf_coeffs sb ->
  ma < nseg sa -> ia < length (comps_of sa) -> mb < nseg sb -> ib < length (comps_of sb) ->
  pf (nth ia (comps_of sa) (0, 0, 0)%nat) (nth ib (comps_of sb) (0, 0, 0)%nat)
    = map (fun beta => map (fun alpha => h alpha beta) (s_exps sa)) (s_exps sb) ->
  nth4 K ma ia mb ib (block_of K sa sb pf)
  = contracted sa sb (nth ia (comps_of sa) (0, 0, 0)%nat) (nth ib (comps_of sb) (0, 0, 0)%nat) ma mb h.
Proof.
  intros Wa Wb Hma Hia Hmb Hib Hpf. rewrite (block_of_entry_lists sa sb pf h) by assumption.
  rewrite (combine_as_mk (s_exps sb) (s_coeffs sb) 0 []), Tables.map_mk by exact Wb.
  unfold contracted. rewrite (fsum_mk_swap K Kf). apply fsum_mk_ext; intros kb _. cbn [fst snd].
  rewrite (combine_as_mk (s_exps sa) (s_coeffs sa) 0 []), Tables.map_mk by exact Wa.
  rewrite !(fsum_mk_scale_r K Kf). apply fsum_mk_ext; intros ka _. cbn [fst snd]. ring.
Qed.

(* in particular when the array is the image under [g . ca cb] of a (K_b, K_a) array of tables, as
   MomentInt.mm_block and DiffOp.diffop_block build it *)
Corollary kernel_block_entry {T} (g : T -> comp -> comp -> F) (tab : F -> F -> T) (sa sb : shell F) ma ia mb ib :
  wf_coeffs sa -> wf_coeffs sb ->
  ma < nseg sa -> ia < length (comps_of sa) -> mb < nseg sb -> ib < length (comps_of sb) ->
  nth4 K ma ia mb ib
    (block_of K sa sb (fun ca cb => map (map (fun t => g t ca cb))
       (map (fun beta => map (fun alpha => tab alpha beta) (s_exps sa)) (s_exps sb))))
  = contracted sa sb (nth ia (comps_of sa) (0, 0, 0)%nat) (nth ib (comps_of sb) (0, 0, 0)%nat) ma mb
      (fun alpha beta => g (tab alpha beta) (nth ia (comps_of sa) (0, 0, 0)%nat) (nth ib (comps_of sb) (0, 0, 0)%nat)).
Proof.
  intros Wa Wb Hma Hia Hmb Hib. apply block_of_contracted; try assumption.
  rewrite map_map. apply map_ext. intros beta. apply map_map.
Qed.

Lemma block_of_shape (sa sb : shell F) pf :
  length (block_of K sa sb pf) = nseg sa /\
  (forall ma, ma < nseg sa -> length (nth ma (block_of K sa sb pf) []) = length (comps_of sa) /\
   forall ia, ia < length (comps_of sa) ->
     length (nth ia (nth ma (block_of K sa sb pf) []) []) = nseg sb /\
     forall mb, mb < nseg sb ->
       length (nth mb (nth ia (nth ma (block_of K sa sb pf) []) []) []) = length (comps_of sb)).
Proof.
  unfold block_of. cbv zeta. rewrite !combine_length, !length_norms, !Nat.min_id.
  split; [apply mk_length|]. intros ma Hma. rewrite nth_mk by exact Hma.
  split; [apply mk_length|]. intros ia Hia. rewrite nth_mk by exact Hia.
  split; [apply mk_length|]. intros mb Hmb. rewrite nth_mk by exact Hmb. apply mk_length.
Qed.

Lemma block_of_as_mk (sa sb : shell F) pf :
  block_of K sa sb pf
  = mk (nseg sa) (fun m => mk (length (comps_of sa)) (fun c => mk (nseg sb) (fun m' =>
      mk (length (comps_of sb)) (fun c' => nth4 K m c m' c' (block_of K sa sb pf))))).
Proof.
  unfold nth4, block_of. cbv zeta. rewrite !combine_length, !length_norms, !Nat.min_id.
  apply mk_ext; intros m Hm. apply mk_ext; intros c Hc.
  apply mk_ext; intros m' Hm'. apply mk_ext; intros c' Hc'.
  rewrite nth_mk by exact Hm. rewrite nth_mk by exact Hc.
  rewrite nth_mk by exact Hm'. now rewrite nth_mk by exact Hc'.
Qed.

Lemma normalise_mk M1 L1 M2 L2 (N1 N2 : nat -> nat -> F) (B : nat -> nat -> nat -> nat -> F) :
  normalise K (fmul K) (mk M1 (fun m => mk L1 (N1 m))) (mk M2 (fun m => mk L2 (N2 m)))
    (mk M1 (fun m => mk L1 (fun c => mk M2 (fun m' => mk L2 (fun c' => B m c m' c')))))
  = mk M1 (fun m => mk L1 (fun c => mk M2 (fun m' => mk L2 (fun c' => N1 m c * N2 m' c' * B m c m' c')))).
Proof.
  unfold normalise. rewrite combine_mk, map_mk. apply mk_ext; intros m _.
  rewrite combine_mk, map_mk. apply mk_ext; intros c _.
  rewrite combine_mk, map_mk. apply mk_ext; intros m' _.
  rewrite combine_mk, map_mk. apply mk_ext; intros c' _. reflexivity.
Qed.

End Contracted.
