(* Proofs/RotationEriBlockP.v — GENERAL ROTATIONS for EVERY ENTRY of the model's electron-repulsion block (C12).

   TwoElecP.two_elec_correct: every entry of [eri_block s1 s2 s3 s4] (ElectronRepulsionIntegral.construct_array_
   contraction) is
        sum over the primitive quartets (weights norm_rad x coefficient, independent of the components)
          of  eri_quartet_spec(alpha beta gamma delta; c1 c2 c3 c4)   x  prod_k 1/sqrt((2c_k - 1)!!),
   and RotationEriP.eri_spec_rotation_covariant_shells is the covariance of the quartet specification.  Collecting the
   entries of (R^T u)^a into the representation matrices [rep_mat] (RotationBlockP) and using the linearity of the
   contraction:

     eri_block_rotation_law :  for every orthogonal R (proper or improper) and all Cartesian shells in the default
        component order (any l1..l4, centres, exponents with non-zero pair sums, generalized contractions)
           prod_k dfnorm(j_k) * G[m1, j1, m2, j2, m3, j3, m4, j4]
             = sum_{i1 i2 i3 i4} prod_k rep_mat[i_k, j_k] dfnorm(i_k) * G'[m1, i1, m2, i2, m3, i3, m4, i4]
        G = eri_block s1 s2 s3 s4, G' = eri_block of the four rotated shells; [rep_mat R] represents R on the monomials
        of each degree (RotationBlockP.rep_mat_mono_rep).
   Hypotheses: fapx = id, characteristic 0, dfnorm <> 0. *)
From Coq Require Import List Arith Lia Field Bool.
From GB Require Import Base.Field Base.FNum Base.Tables Gauss.Moment1D Gauss.SPoly Gauss.Poly3 Gauss.Wick2D Gauss.Poly6
  Model.Shell Model.MomentInt Model.OneElec Model.TwoElec Proofs.CoreSumP Proofs.OneElecP Proofs.TwoElecP Proofs.EriOrientP
  Proofs.RigidP Proofs.RotationP Proofs.RotationBlockP Proofs.RotationMoreP Proofs.RotationEriP.
Import ListNotations.

Section EriBlock.
Context {F : Type} (K : Fops F) (Kf : is_field K).
Add Field KFreb : Kf.
Local Open Scope F_scope.
Notation "0" := (f0 K) : F_scope.
Notation "1" := (f1 K) : F_scope.
Infix "+" := (fadd K) : F_scope.
Infix "*" := (fmul K) : F_scope.
Infix "-" := (fsub K) : F_scope.
Infix "/" := (fdiv K) : F_scope.
Notation "# n" := (ofnat K n) (at level 5) : F_scope.
Notation fsum := (FNum.fsum K).
Notation centre := RotationMoreP.centre.

Hypothesis Hapx : forall x : F, fapx K x = x.
Hypothesis char0 : forall n, #(S n) <> 0.
Hypothesis Hdf : forall c, dfnorm K c <> 0.

Lemma dfnorm_inv_sqrt_df c : dfnorm K c * inv_sqrt_df K c = 1.
Proof.
  destruct c as [[x y] z]. pose proof (Hdf (x, y, z)) as H. unfold dfnorm, inv_sqrt_df in *. cbn [fst snd] in *.
  field. exact H.
Qed.

Lemma fsum_single x : fsum [x] = x.
Proof. rewrite (fsum_cons K), (fsum_nil K). ring. Qed.

Lemma csum_fsum {A B} ws m (xs : list A) (L : list B) (c : B -> F) (f : B -> A -> F) :
  csum K ws m xs (fun x => fsum (map (fun i => c i * f i x) L))
  = fsum (map (fun i => c i * csum K ws m xs (f i)) L).
Proof.
  induction L as [|i L IH]; cbn [map].
  - apply (csum_zero K Kf).
  - rewrite (fsum_cons K), <- IH.
    rewrite (csum_ext K ws m xs _ (fun x => f i x * c i + fsum (map (fun i0 => c i0 * f i0 x) L)))
      by (intro x; rewrite (fsum_cons K); ring).
    rewrite (csum_add K Kf), (csum_scale_r K Kf). ring.
Qed.

(* the four-fold contraction over the primitives of four shells *)
Definition Q4 (s1 s2 s3 s4 : shell F) (m1 m2 m3 m4 : nat) (spec : F -> F -> F -> F -> F) : F :=
  csum K (wts K s1) m1 (s_exps s1) (fun alpha => csum K (wts K s2) m2 (s_exps s2) (fun beta =>
    csum K (wts K s3) m3 (s_exps s3) (fun gamma => csum K (wts K s4) m4 (s_exps s4) (fun delta =>
      spec alpha beta gamma delta)))).

Lemma Q4_ext_in s1 s2 s3 s4 m1 m2 m3 m4 f g :
  (forall a b c d, In a (s_exps s1) -> In b (s_exps s2) -> In c (s_exps s3) -> In d (s_exps s4) ->
     f a b c d = g a b c d) ->
  Q4 s1 s2 s3 s4 m1 m2 m3 m4 f = Q4 s1 s2 s3 s4 m1 m2 m3 m4 g.
Proof.
  intro H. unfold Q4. apply (csum_ext_in K); intros a Ha. apply (csum_ext_in K); intros b Hb.
  apply (csum_ext_in K); intros c Hc. apply (csum_ext_in K); intros d Hd. now apply H.
Qed.
Lemma Q4_fsum {B} s1 s2 s3 s4 m1 m2 m3 m4 (L : list B) (c : B -> F) (f : B -> F -> F -> F -> F -> F) :
  Q4 s1 s2 s3 s4 m1 m2 m3 m4 (fun a b g d => fsum (map (fun i => c i * f i a b g d) L))
  = fsum (map (fun i => c i * Q4 s1 s2 s3 s4 m1 m2 m3 m4 (f i)) L).
Proof.
  unfold Q4. rewrite <- csum_fsum. apply (csum_ext K); intro a.
  rewrite <- csum_fsum. apply (csum_ext K); intro b.
  rewrite <- csum_fsum. apply (csum_ext K); intro g. apply csum_fsum.
Qed.

Section Law.
Variable R : @mat3 F.
Hypothesis HO : orthogonal K R.
Variables (s1 s2 s3 s4 : shell F).
Hypothesis Hc1 : s_comps s1 = []. Hypothesis Hc2 : s_comps s2 = [].
Hypothesis Hc3 : s_comps s3 = []. Hypothesis Hc4 : s_comps s4 = [].
Hypothesis Hp : forall alpha beta, In alpha (s_exps s1) -> In beta (s_exps s2) -> alpha + beta <> 0.
Hypothesis Hq : forall gamma delta, In gamma (s_exps s3) -> In delta (s_exps s4) -> gamma + delta <> 0.
Hypothesis Hpq : forall alpha beta gamma delta, In alpha (s_exps s1) -> In beta (s_exps s2) ->
  In gamma (s_exps s3) -> In delta (s_exps s4) -> (alpha + beta) + (gamma + delta) <> 0.
Let l1 := s_l s1. Let l2 := s_l s2. Let l3 := s_l s3. Let l4 := s_l s4.
Let cmp (l i : nat) : comp := nth i (default_comps l) (0, 0, 0)%nat.
Let r1 := rot_shell K R s1. Let r2 := rot_shell K R s2. Let r3 := rot_shell K R s3. Let r4 := rot_shell K R s4.

Definition spec_of (t1 t2 t3 t4 : shell F) (c1 c2 c3 c4 : comp) : F -> F -> F -> F -> F :=
  fun alpha beta gamma delta =>
    eri_quartet_spec K alpha beta gamma delta (centre t1) (centre t2) (centre t3) (centre t4) c1 c2 c3 c4.

Lemma compsum_default l i : (i < length (default_comps l))%nat -> compsum (cmp l i) = l.
Proof.
  intro H. unfold compsum, cmp. apply BlockP.default_comps_degree. now apply nth_In.
Qed.

(* every entry of the block of four Cartesian default-order shells, through two_elec_correct *)
Lemma eri_entry (t1 t2 t3 t4 : shell F) m1 i1 m2 i2 m3 i3 m4 i4 :
  s_comps t1 = [] -> s_comps t2 = [] -> s_comps t3 = [] -> s_comps t4 = [] ->
  (forall alpha beta, In alpha (s_exps t1) -> In beta (s_exps t2) -> alpha + beta <> 0) ->
  (forall gamma delta, In gamma (s_exps t3) -> In delta (s_exps t4) -> gamma + delta <> 0) ->
  (forall alpha beta gamma delta, In alpha (s_exps t1) -> In beta (s_exps t2) ->
     In gamma (s_exps t3) -> In delta (s_exps t4) -> (alpha + beta) + (gamma + delta) <> 0) ->
  (m1 < nseg t1)%nat -> (m2 < nseg t2)%nat -> (m3 < nseg t3)%nat -> (m4 < nseg t4)%nat ->
  (i1 < length (default_comps (s_l t1)))%nat -> (i2 < length (default_comps (s_l t2)))%nat ->
  (i3 < length (default_comps (s_l t3)))%nat -> (i4 < length (default_comps (s_l t4)))%nat ->
  dfnorm K (cmp (s_l t1) i1) * dfnorm K (cmp (s_l t2) i2) * dfnorm K (cmp (s_l t3) i3) * dfnorm K (cmp (s_l t4) i4)
  * nth i4 (nth m4 (nth i3 (nth m3 (nth i2 (nth m2 (nth i1 (nth m1 (eri_block K t1 t2 t3 t4) []) []) []) []) []) []) []) 0
  = Q4 t1 t2 t3 t4 m1 m2 m3 m4
      (spec_of t1 t2 t3 t4 (cmp (s_l t1) i1) (cmp (s_l t2) i2) (cmp (s_l t3) i3) (cmp (s_l t4) i4)).
Proof.
  intros C1 C2 C3 C4 P Qh PQ Hm1 Hm2 Hm3 Hm4 Hi1 Hi2 Hi3 Hi4.
  pose proof (comps_of_default t1 C1) as E1. pose proof (comps_of_default t2 C2) as E2.
  pose proof (comps_of_default t3 C3) as E3. pose proof (comps_of_default t4 C4) as E4.
  pose proof (two_elec_correct K Kf t1 t2 t3 t4 m1 i1 m2 i2 m3 i3 m4 i4 Hapx (two_nz K Kf char0) P Qh PQ Hm1 Hm2 Hm3 Hm4) as T.
  rewrite E1, E2, E3, E4 in T. specialize (T Hi1 Hi2 Hi3 Hi4).
  fold (cmp (s_l t1) i1) (cmp (s_l t2) i2) (cmp (s_l t3) i3) (cmp (s_l t4) i4) in T.
  rewrite !compsum_default in T by assumption.
  destruct (T (le_n _) (le_n _) (le_n _) (le_n _)) as [T1 _]. rewrite T1. clear T T1.
  transitivity (Q4 t1 t2 t3 t4 m1 m2 m3 m4
      (spec_of t1 t2 t3 t4 (cmp (s_l t1) i1) (cmp (s_l t2) i2) (cmp (s_l t3) i3) (cmp (s_l t4) i4))
    * ((dfnorm K (cmp (s_l t1) i1) * inv_sqrt_df K (cmp (s_l t1) i1))
       * (dfnorm K (cmp (s_l t2) i2) * inv_sqrt_df K (cmp (s_l t2) i2))
       * (dfnorm K (cmp (s_l t3) i3) * inv_sqrt_df K (cmp (s_l t3) i3))
       * (dfnorm K (cmp (s_l t4) i4) * inv_sqrt_df K (cmp (s_l t4) i4)))).
  - unfold Q4, spec_of.
    rewrite (csum_ext_in K _ _ _ _ (fun alpha => csum K (wts K t2) m2 (s_exps t2) (fun beta =>
               csum K (wts K t3) m3 (s_exps t3) (fun gamma => csum K (wts K t4) m4 (s_exps t4) (fun delta =>
                 eri_quartet_spec K alpha beta gamma delta (centre t1) (centre t2) (centre t3) (centre t4)
                   (cmp (s_l t1) i1) (cmp (s_l t2) i2) (cmp (s_l t3) i3) (cmp (s_l t4) i4)))))).
    + ring.
    + intros alpha _. apply (csum_ext K); intro beta. apply (csum_ext K); intro gamma.
      apply (csum_ext K); intro delta.
      rewrite (two_elec_summand_is_spec K). rewrite E1, E2, E3, E4. reflexivity.
  - rewrite !dfnorm_inv_sqrt_df. ring.
Qed.

(* one index: the D-combination under the contraction is the rep_mat combination of the contractions *)
Lemma Q4_rot_expand (f : comp -> F -> F -> F -> F -> F) l j m1 m2 m3 m4 : (j < length (default_comps l))%nat ->
  Q4 s1 s2 s3 s4 m1 m2 m3 m4 (fun a b g d => Poly3.Jsum K (fun c' => f c' a b g d) (rot_expand K R (cmp l j)))
  = fsum (map (fun i => rep_mat K R (cmp l i) (cmp l j) * Q4 s1 s2 s3 s4 m1 m2 m3 m4 (f (cmp l i)))
              (seq 0 (length (default_comps l)))).
Proof.
  intro Hj.
  transitivity (Q4 s1 s2 s3 s4 m1 m2 m3 m4 (fun a b g d =>
    fsum (map (fun i => rep_mat K R (cmp l i) (cmp l j) * f (cmp l i) a b g d) (seq 0 (length (default_comps l)))))).
  - apply Q4_ext_in. intros a b g d _ _ _ _. exact (Jsum_rot_expand_idx K Kf (fun c' => f c' a b g d) R l (cmp l j) (nth_In _ _ Hj)).
  - apply (Q4_fsum s1 s2 s3 s4 m1 m2 m3 m4 _ (fun i => rep_mat K R (cmp l i) (cmp l j)) (fun i => f (cmp l i))).
Qed.

(* the rotated shells keep l, exponents, coefficients and components: [eri_entry] applies to them as it stands *)
Lemma eri_entry_rot m1 i1 m2 i2 m3 i3 m4 i4 :
  (m1 < nseg s1)%nat -> (m2 < nseg s2)%nat -> (m3 < nseg s3)%nat -> (m4 < nseg s4)%nat ->
  (i1 < length (default_comps l1))%nat -> (i2 < length (default_comps l2))%nat ->
  (i3 < length (default_comps l3))%nat -> (i4 < length (default_comps l4))%nat ->
  dfnorm K (cmp l1 i1) * dfnorm K (cmp l2 i2) * dfnorm K (cmp l3 i3) * dfnorm K (cmp l4 i4)
  * nth i4 (nth m4 (nth i3 (nth m3 (nth i2 (nth m2 (nth i1 (nth m1 (eri_block K r1 r2 r3 r4) []) []) []) []) []) []) []) 0
  = Q4 s1 s2 s3 s4 m1 m2 m3 m4 (spec_of r1 r2 r3 r4 (cmp l1 i1) (cmp l2 i2) (cmp l3 i3) (cmp l4 i4)).
Proof. exact (eri_entry r1 r2 r3 r4 m1 i1 m2 i2 m3 i3 m4 i4 Hc1 Hc2 Hc3 Hc4 Hp Hq Hpq). Qed.

Theorem eri_block_rotation_law m1 m2 m3 m4 j1 j2 j3 j4 :
  (m1 < nseg s1)%nat -> (m2 < nseg s2)%nat -> (m3 < nseg s3)%nat -> (m4 < nseg s4)%nat ->
  (j1 < length (default_comps l1))%nat -> (j2 < length (default_comps l2))%nat ->
  (j3 < length (default_comps l3))%nat -> (j4 < length (default_comps l4))%nat ->
  dfnorm K (cmp l1 j1) * dfnorm K (cmp l2 j2) * dfnorm K (cmp l3 j3) * dfnorm K (cmp l4 j4)
  * nth j4 (nth m4 (nth j3 (nth m3 (nth j2 (nth m2 (nth j1 (nth m1 (eri_block K s1 s2 s3 s4) []) []) []) []) []) []) []) 0
  = fsum (map (fun i1 => fsum (map (fun i2 => fsum (map (fun i3 => fsum (map (fun i4 =>
      rep_mat K R (cmp l1 i1) (cmp l1 j1) * rep_mat K R (cmp l2 i2) (cmp l2 j2)
      * rep_mat K R (cmp l3 i3) (cmp l3 j3) * rep_mat K R (cmp l4 i4) (cmp l4 j4)
      * (dfnorm K (cmp l1 i1) * dfnorm K (cmp l2 i2) * dfnorm K (cmp l3 i3) * dfnorm K (cmp l4 i4)
         * nth i4 (nth m4 (nth i3 (nth m3 (nth i2 (nth m2 (nth i1 (nth m1 (eri_block K r1 r2 r3 r4)
             []) []) []) []) []) []) []) 0))
      (seq 0 (length (default_comps l4))))) (seq 0 (length (default_comps l3)))))
      (seq 0 (length (default_comps l2))))) (seq 0 (length (default_comps l1)))).
Proof.
  intros Hm1 Hm2 Hm3 Hm4 Hj1 Hj2 Hj3 Hj4.
  etransitivity;
    [exact (eri_entry s1 s2 s3 s4 m1 j1 m2 j2 m3 j3 m4 j4 Hc1 Hc2 Hc3 Hc4 Hp Hq Hpq Hm1 Hm2 Hm3 Hm4 Hj1 Hj2 Hj3 Hj4)|].
  rewrite (Q4_ext_in s1 s2 s3 s4 m1 m2 m3 m4 _ (fun a b g d =>
     Poly3.Jsum K (fun a' => Poly3.Jsum K (fun b' => Poly3.Jsum K (fun c' => Poly3.Jsum K (fun d' =>
       spec_of r1 r2 r3 r4 a' b' c' d' a b g d) (rot_expand K R (cmp l4 j4))) (rot_expand K R (cmp l3 j3)))
       (rot_expand K R (cmp l2 j2))) (rot_expand K R (cmp l1 j1))))
    by (intros a b g d Ha Hb Hg Hd; symmetry;
        exact (eri_spec_rotation_covariant_shells K Kf R s1 s2 s3 s4 a b g d _ _ _ _ HO (Hp _ _ Ha Hb) (Hq _ _ Hg Hd)
                 (Hpq _ _ _ _ Ha Hb Hg Hd) (two_nz K Kf char0) char0)).
  (* one index after the other *)
  rewrite (Q4_rot_expand _ l1 j1 m1 m2 m3 m4 Hj1). apply fsum_map_ext_in. intros i1 Hi1. apply in_seq in Hi1. cbv beta.
  rewrite (Q4_rot_expand _ l2 j2 m1 m2 m3 m4 Hj2), <- (fsum_map_scale K Kf).
  apply fsum_map_ext_in. intros i2 Hi2. apply in_seq in Hi2. cbv beta.
  rewrite (Q4_rot_expand _ l3 j3 m1 m2 m3 m4 Hj3), <- !(fsum_map_scale K Kf).
  apply fsum_map_ext_in. intros i3 Hi3. apply in_seq in Hi3. cbv beta.
  rewrite (Q4_rot_expand _ l4 j4 m1 m2 m3 m4 Hj4), <- !(fsum_map_scale K Kf).
  apply fsum_map_ext_in. intros i4 Hi4. apply in_seq in Hi4. cbv beta.
  rewrite (eri_entry_rot m1 i1 m2 i2 m3 i3 m4 i4 Hm1 Hm2 Hm3 Hm4 (proj2 Hi1) (proj2 Hi2) (proj2 Hi3) (proj2 Hi4)).
  change (fun a b g d : F => spec_of r1 r2 r3 r4 (cmp l1 i1) (cmp l2 i2) (cmp l3 i3) (cmp l4 i4) a b g d)
    with (spec_of r1 r2 r3 r4 (cmp l1 i1) (cmp l2 i2) (cmp l3 i3) (cmp l4 i4)).
  ring.
Qed.
End Law.

End EriBlock.

(* Examples over Qc (sqrt = 1, exp = identity, a stand-in Boys function): the hypotheses are satisfiable, and the block
   law in boolean form on the list-level model for a (p s | p s) block with a contracted two-segment p shell. *)
From Coq Require Import ZArith QArith Qcanon.
Definition ebKQ : Fops Qc := QcK true (Q2Qc 3) (fun _ => Q2Qc 1) (fun x => x) (fun x => x) exBoys.
Section Examples.
Let KQ : Fops Qc := ebKQ.
Let KQf : is_field KQ := QcK_field _ _ _ _ _ _.
Let q (n : Z) (d : positive) : Qc := qc_of n d.
Definition ebP1 : shell Qc :=
  mkShell Qc 1 (q 1 2) (q (-1) 1) (q 2 1) [q 3 2; q 1 4] [[q 1 1; q 2 1]; [q (-1) 3; q 1 2]] false [] [].
Definition ebS2 : shell Qc := mkShell Qc 0 (q 0 1) (q 1 3) (q (-1) 1) [q 2 3] [[q 5 7]] false [] [].
Definition ebP3 : shell Qc := mkShell Qc 1 (q 1 4) (q (-2) 1) (q 1 3) [q 1 2] [[q 1 1]] false [] [].
Definition ebS4 : shell Qc := mkShell Qc 0 (q (-1) 1) (q 1 2) (q 0 1) [q 5 4] [[q 1 1]] false [] [].

Lemma ebKQ_hyps :
  (forall x, fapx KQ x = x) /\ (forall n, ofnat KQ (S n) <> f0 KQ) /\ (forall c, dfnorm KQ c <> f0 KQ).
Proof.
  split; [reflexivity|]. split; [apply QcK_char0|].
  intros c H. apply (f_equal this) in H. vm_compute in H. discriminate H.
Qed.
Lemma ebKQ_exps :
  (forall a b, In a (s_exps ebP1) -> In b (s_exps ebS2) -> fadd KQ a b <> f0 KQ)
  /\ (forall g d, In g (s_exps ebP3) -> In d (s_exps ebS4) -> fadd KQ g d <> f0 KQ)
  /\ (forall a b g d, In a (s_exps ebP1) -> In b (s_exps ebS2) -> In g (s_exps ebP3) -> In d (s_exps ebS4) ->
        fadd KQ (fadd KQ a b) (fadd KQ g d) <> f0 KQ).
Proof.
  split; [|split].
  - intros a b Ha Hb. cbn [ebP1 ebS2 s_exps In] in Ha, Hb.
    destruct Ha as [<-|[<-|[]]]; destruct Hb as [<-|[]]; intro H; apply (f_equal this) in H;
      vm_compute in H; discriminate H.
  - intros g d Hg Hd. cbn [ebP3 ebS4 s_exps In] in Hg, Hd.
    destruct Hg as [<-|[]]; destruct Hd as [<-|[]]; intro H; apply (f_equal this) in H;
      vm_compute in H; discriminate H.
  - intros a b g d Ha Hb Hg Hd. cbn [ebP1 ebS2 ebP3 ebS4 s_exps In] in Ha, Hb, Hg, Hd.
    destruct Ha as [<-|[<-|[]]]; destruct Hb as [<-|[]]; destruct Hg as [<-|[]]; destruct Hd as [<-|[]];
      intro H; apply (f_equal this) in H; vm_compute in H; discriminate H.
Qed.

(* the block law on the model in boolean form (executable): every segment and component of the (p s | p s) block, both
   rotations.  The s shells have one component, with dfnorm = rep_mat = 1: their sums and factors are left out. *)
Definition eb_get (G : list (list (list (list (list (list (list (list Qc)))))))) (m1 i1 i3 : nat) : Qc :=
  nth 0 (nth 0 (nth i3 (nth 0 (nth 0 (nth 0 (nth i1 (nth m1 G []) []) []) []) []) []) []) (f0 KQ).
Definition eb_check (R : @mat3 Qc) : bool :=
  let G := eri_block KQ ebP1 ebS2 ebP3 ebS4 in
  let G' := eri_block KQ (rot_shell KQ R ebP1) (rot_shell KQ R ebS2) (rot_shell KQ R ebP3) (rot_shell KQ R ebS4) in
  let cmp i := nth i (default_comps 1) (0, 0, 0)%nat in
  forallb (fun m1 => forallb (fun j1 => forallb (fun j3 =>
    Qeq_bool
      (fmul KQ (fmul KQ (dfnorm KQ (cmp j1)) (dfnorm KQ (cmp j3))) (eb_get G m1 j1 j3))
      (FNum.fsum KQ (map (fun i1 => FNum.fsum KQ (map (fun i3 =>
         fmul KQ (fmul KQ (rep_mat KQ R (cmp i1) (cmp j1)) (rep_mat KQ R (cmp i3) (cmp j3)))
                 (fmul KQ (fmul KQ (dfnorm KQ (cmp i1)) (dfnorm KQ (cmp i3))) (eb_get G' m1 i1 i3)))
         (seq 0 3))) (seq 0 3)))) (seq 0 3)) (seq 0 3)) (seq 0 2).
Add Field ebKQ_field : KQf.

Example eri_block_law_computed : forallb eb_check [R345; Rimp] = true.
Proof.
  destruct ebKQ_hyps as (A & B & C). destruct ebKQ_exps as (Hp & Hq & Hpq).
  apply forallb_forall. intros R HR. unfold eb_check. cbv zeta.
  apply forallb_seq. intros m1 Hm1. apply forallb_seq. intros j1 Hj1. apply forallb_seq. intros j3 Hj3.
  apply Qeq_bool_of_eq. unfold eb_get.
  pose proof (eri_block_rotation_law KQ KQf A B C R (orthogonal_R345_Rimp _ _ _ _ _ _ R HR)
                ebP1 ebS2 ebP3 ebS4 eq_refl eq_refl eq_refl eq_refl Hp Hq Hpq m1 0%nat 0%nat 0%nat j1 0%nat j3 0%nat) as L.
  cbv beta zeta in L. revert L.
  generalize (eri_block KQ ebP1 ebS2 ebP3 ebS4).
  generalize (eri_block KQ (rot_shell KQ R ebP1) (rot_shell KQ R ebS2) (rot_shell KQ R ebP3) (rot_shell KQ R ebS4)).
  intros G' G L.
  change (s_l ebP1) with 1%nat in L. change (s_l ebS2) with 0%nat in L.
  change (s_l ebP3) with 1%nat in L. change (s_l ebS4) with 0%nat in L.
  change (length (default_comps 0)) with 1%nat in L. cbn [seq map] in L.
  change (nth 0 (default_comps 0) (0, 0, 0)%nat) with (0, 0, 0)%nat in L.
  assert (D0 : dfnorm KQ (0, 0, 0)%nat = f1 KQ) by (apply Qc_is_canon; reflexivity).
  etransitivity; [|etransitivity; [apply L; cbn; lia|]].
  - rewrite D0. ring.
  - apply (fsum_map_ext_in KQ). intros i1 _. rewrite (fsum_single KQ KQf). apply (fsum_map_ext_in KQ). intros i3 _.
    rewrite (fsum_single KQ KQf), (rep_mat_000 KQ KQf), D0. ring.
Qed.
End Examples.
