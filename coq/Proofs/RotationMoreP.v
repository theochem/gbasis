(* Proofs/RotationMoreP.v — general rotations (property C12), primitive level: the point-charge (Boys-type
   one-electron) integral and the momentum operator.  Vocabulary and conventions of Proofs/RotationP.v.

   Point charge.  Proofs/OneElecP.v: the model's primitive value is [prim_val] = Phi_0 (prim_poly) for the sequence
   beta_m = (2 pi / p) K_AB F_m(p |PC|^2) ([boys_seq]), and for every s
      peval (prim_poly) s = prod over the axes of E_{v(1-s)} [(y + PA_i - s PC_i)^(a_i) (y + PB_i - s PC_i)^(b_i)].
   The three 1-D functionals have the same variance v (1 - s), so the product is the isotropic functional
   E3 (v (1 - s)) of the product polynomial; PA - s PC, PB - s PC rotate with R when A, B, C do; hence for every s the
   values of the s-polynomials are covariant.  The D-combination of the s-polynomials of the rotated system is again a
   coefficient list ([Phi_of_Jsum]), Phi is linear, and two coefficient lists with the same values have the same Phi
   ([OneElecP.Phi_unique], characteristic 0) for any sequence beta; the Boys argument p |PC|^2 and K_AB are invariant.
   No property of the Boys function is used (fboys is an arbitrary function of the field record).

   Momentum.  [mom_x_prim] ... of Proofs/CoreDiffP.v are grad_k = e^{beta u^2} d/du_k (. e^{-beta u^2})
   = d_k - 2 beta u_k (u = r - B) acting on the index b of the overlap ([mom_prim_is_gradT]); for Q with orthonormal
   columns grad_k (f o Q) = sum_i Q i k ((grad_i f) o Q) ([gradop_subst]: chain rule [Poly3.dv_subst] + [subst_mulv]).
   With Q = R^T the D-contracted momentum integrals of the rotated system are the rotated vector R (mom_x, mom_y, mom_z)
   of the original one: the component index transforms with row k of R. *)
From Coq Require Import List Arith Lia Field.
From GB Require Import Base.Field Base.FNum Base.Tables Gauss.Moment1D Gauss.SPoly Gauss.Poly3 Model.Shell
  Model.MomentInt Model.OneElec Proofs.DiffOpP Proofs.CoreSumP Proofs.CoreBlockP Proofs.CoreDiffP Proofs.OneElecP
  Proofs.RigidP Proofs.RotationP.
Import ListNotations.

Section RotMore.
Context {F : Type} (K : Fops F) (Kf : is_field K).
Add Field KFrm : Kf.
Local Open Scope F_scope.
Notation "0" := (f0 K) : F_scope.
Notation "1" := (f1 K) : F_scope.
Infix "+" := (fadd K) : F_scope.
Infix "*" := (fmul K) : F_scope.
Infix "-" := (fsub K) : F_scope.
Infix "/" := (fdiv K) : F_scope.
Notation "- x" := (fopp K x) : F_scope.
Notation "# n" := (ofnat K n) (at level 5) : F_scope.
Notation speval := (SPoly.peval K).
Notation Phi := (SPoly.Phi K).
Notation padd := (Moment1D.padd K).
Notation pscale := (Moment1D.pscale K).

Definition rotv (R : axis -> axis -> F) (A : axis -> F) : axis -> F := fun i => dot K (R i) A.
Definition Pv (A B : axis -> F) (alpha beta : F) : axis -> F :=
  fun i => (alpha * A i + beta * B i) / (alpha + beta).
(* PA - s PC and PB - s PC *)
Definition dAs (C A B : axis -> F) (alpha beta s : F) : axis -> F :=
  fun i => Pv A B alpha beta i - A i - s * (Pv A B alpha beta i - C i).
Definition dBs (C A B : axis -> F) (alpha beta s : F) : axis -> F :=
  fun i => Pv A B alpha beta i - B i - s * (Pv A B alpha beta i - C i).

Definition prim_poly_v (C A B : axis -> F) (alpha beta : F) (ca cb : comp) : list F :=
  prim_poly K (C AX) (C AY) (C AZ) (A AX) (A AY) (A AZ) (B AX) (B AY) (B AZ) alpha beta ca cb.
Definition pc_var (alpha beta s : F) : F := 1 / ((1 + 1) * (alpha + beta)) * (1 - s).

(* for every s the value of the s-polynomial is the ISOTROPIC 3-D functional (variance v (1 - s)) of
   (y + PA - s PC)^a (y + PB - s PC)^b *)
Theorem prim_poly_is_E3 (C A B : axis -> F) alpha beta ca cb s :
  speval (prim_poly_v C A B alpha beta ca cb) s
  = E3 K (pc_var alpha beta s)
      (smono K (dAs C A B alpha beta s) ca (smono K (dBs C A B alpha beta s) cb (one3 K))).
Proof.
  unfold prim_poly_v. rewrite (prim_poly_eval K Kf). cbv zeta. symmetry.
  rewrite (factors_E3 K _ _ _ _ _
             (factors_smono K Kf _ _ _ _ _ _ _
                (factors_smono K Kf _ _ _ _ _ _ _ (factors_one3 K Kf _)))).
  reflexivity.
Qed.

Lemma dAs_rot (R : axis -> axis -> F) C A B alpha beta s : alpha + beta <> 0 ->
  forall i, dAs (rotv R C) (rotv R A) (rotv R B) alpha beta s i = dot K (R i) (dAs C A B alpha beta s).
Proof. intros Hp i. unfold dAs, Pv, rotv, dot, sum3. field. exact Hp. Qed.
Lemma dBs_rot (R : axis -> axis -> F) C A B alpha beta s : alpha + beta <> 0 ->
  forall i, dBs (rotv R C) (rotv R A) (rotv R B) alpha beta s i = dot K (R i) (dBs C A B alpha beta s).
Proof. intros Hp i. unfold dBs, Pv, rotv, dot, sum3. field. exact Hp. Qed.

Theorem prim_poly_rotation_covariant_eval (R : axis -> axis -> F) C A B alpha beta ca cb s :
  orth_rows K (transpose R) -> alpha + beta <> 0 ->
  Jsum K (fun a' => Jsum K (fun b' =>
      speval (prim_poly_v (rotv R C) (rotv R A) (rotv R B) alpha beta a' b') s)
    (subst_mon K (transpose R) cb)) (subst_mon K (transpose R) ca)
  = speval (prim_poly_v C A B alpha beta ca cb) s.
Proof.
  intros HO Hp. rewrite prim_poly_is_E3.
  rewrite (Jsum_ext K _ (fun a' => Jsum K (fun b' => E3 K (pc_var alpha beta s)
             (smono K (dAs (rotv R C) (rotv R A) (rotv R B) alpha beta s) a'
                (smono K (dBs (rotv R C) (rotv R A) (rotv R B) alpha beta s) b' (one3 K))))
             (subst_mon K (transpose R) cb))).
  2:{ intro a'. apply Jsum_ext. intro b'. apply prim_poly_is_E3. }
  apply (rotated_product2_E3 K Kf _ R (dAs C A B alpha beta s) (dBs C A B alpha beta s)).
  - exact HO.
  - now apply dAs_rot.
  - now apply dBs_rot.
Qed.

(* x is Phi_m, and y the value function, of one and the same coefficient list *)
Definition Phi_of (bet : nat -> F) (m : nat) (x : F) (y : F -> F) : Prop :=
  exists g, x = Phi bet m g /\ forall s, y s = speval g s.

Lemma Phi_of_poly bet m g : Phi_of bet m (Phi bet m g) (speval g).
Proof. exists g. split; [reflexivity|intro s; reflexivity]. Qed.

(* the D-combination of a family of s-polynomials is a coefficient list, and Phi and the values are linear *)
Lemma Phi_of_Jsum bet m (X : mon -> F) (Y : mon -> F -> F) f :
  (forall a, Phi_of bet m (X a) (Y a)) -> Phi_of bet m (Jsum K X f) (fun s => Jsum K (fun a => Y a s) f).
Proof.
  intro H. induction f as [|mc f IH]; cbn [Jsum].
  - exact (Phi_of_poly bet m []).
  - destruct (H (fst mc)) as (ga & Ea & Va). destruct IH as (g & Eg & Vg).
    exists (padd (pscale (snd mc) ga) g). split.
    + now rewrite (Phi_padd K Kf), (Phi_pscale K Kf), Ea, Eg.
    + intro s. now rewrite (peval_padd K Kf), (peval_pscale K Kf), Va, Vg.
Qed.

Hypothesis char0 : forall n, #(S n) <> 0.

(* Phi depends on the polynomial function only, for ANY sequence *)
Lemma Phi_of_unique bet m x y g : Phi_of bet m x y -> (forall s, y s = speval g s) -> x = Phi bet m g.
Proof. intros (g' & -> & V) H. apply (Phi_unique K Kf char0). intro s. now rewrite <- V. Qed.

Theorem Phi_prim_poly_rotation_covariant (R : axis -> axis -> F) C A B alpha beta ca cb bet m :
  orth_rows K (transpose R) -> alpha + beta <> 0 ->
  Jsum K (fun a' => Jsum K (fun b' =>
      Phi bet m (prim_poly_v (rotv R C) (rotv R A) (rotv R B) alpha beta a' b'))
    (subst_mon K (transpose R) cb)) (subst_mon K (transpose R) ca)
  = Phi bet m (prim_poly_v C A B alpha beta ca cb).
Proof.
  intros HO Hp.
  apply (Phi_of_unique bet m _ (fun s => Jsum K (fun a' => Jsum K (fun b' =>
           speval (prim_poly_v (rotv R C) (rotv R A) (rotv R B) alpha beta a' b') s)
           (subst_mon K (transpose R) cb)) (subst_mon K (transpose R) ca))).
  - apply Phi_of_Jsum. intro a'. apply Phi_of_Jsum. intro b'. apply Phi_of_poly.
  - intro s. now apply prim_poly_rotation_covariant_eval.
Qed.

(* the Boys sequence sees the centres through |A - B|^2 and |P - C|^2 only *)
Definition boys_seq_v (C A B : axis -> F) (alpha beta : F) : nat -> F :=
  boys_seq K (A AX) (A AY) (A AZ) (B AX) (B AY) (B AZ) (C AX) (C AY) (C AZ) alpha beta.

Lemma boys_seq_rot (R : axis -> axis -> F) C A B alpha beta m :
  orth_rows K (transpose R) -> alpha + beta <> 0 ->
  boys_seq_v (rotv R C) (rotv R A) (rotv R B) alpha beta m = boys_seq_v C A B alpha beta m.
Proof.
  intros HO Hp. unfold boys_seq_v, boys_seq. cbv zeta.
  pose proof (norm_rot K Kf R (fun i => A i - B i) HO) as NAB.
  pose proof (norm_rot K Kf R (fun i => (alpha * A i + beta * B i) / (alpha + beta) - C i) HO) as NPC.
  unfold sum3 in NAB, NPC.
  assert (EAB : forall i, rotv R A i - rotv R B i = dot K (R i) (fun j => A j - B j))
    by (intro i; unfold rotv, dot, sum3; ring).
  assert (EPC : forall i, (alpha * rotv R A i + beta * rotv R B i) / (alpha + beta) - rotv R C i
                          = dot K (R i) (fun j => (alpha * A j + beta * B j) / (alpha + beta) - C j))
    by (intro i; exact (dot_wc K Kf (R i) A B C alpha beta Hp)).
  rewrite !EAB, !EPC, NAB, NPC. reflexivity.
Qed.

Definition prim_val_v (C A B : axis -> F) (alpha beta : F) (ca cb : comp) : F :=
  prim_val K (C AX) (C AY) (C AZ) (A AX) (A AY) (A AZ) (B AX) (B AY) (B AZ) alpha beta ca cb.

Theorem prim_val_rotation_covariant_v (R : axis -> axis -> F) C A B alpha beta ca cb :
  orth_rows K (transpose R) -> alpha + beta <> 0 ->
  Jsum K (fun a' => Jsum K (fun b' => prim_val_v (rotv R C) (rotv R A) (rotv R B) alpha beta a' b')
    (subst_mon K (transpose R) cb)) (subst_mon K (transpose R) ca)
  = prim_val_v C A B alpha beta ca cb.
Proof.
  intros HO Hp. unfold prim_val_v, prim_val.
  fold (boys_seq_v C A B alpha beta) (prim_poly_v C A B alpha beta ca cb).
  rewrite <- (Phi_prim_poly_rotation_covariant R C A B alpha beta ca cb _ 0%nat HO Hp).
  apply Jsum_ext. intro a'. apply Jsum_ext. intro b'.
  fold (boys_seq_v (rotv R C) (rotv R A) (rotv R B) alpha beta)
       (prim_poly_v (rotv R C) (rotv R A) (rotv R B) alpha beta a' b').
  apply Phi_ext. intro k. now apply boys_seq_rot.
Qed.

(* in the vocabulary of RigidP / RotationP: shells, vec3, mat3 *)
Definition centre (s : shell F) : axis -> F := vecf (s_x s, s_y s, s_z s).
Definition pc_prim (C : @vec3 F) (sa sb : shell F) (ca cb : comp) (alpha beta : F) : F :=
  prim_val K (vget C 0) (vget C 1) (vget C 2) (s_x sa) (s_y sa) (s_z sa) (s_x sb) (s_y sb) (s_z sb)
           alpha beta ca cb.

Lemma centre_rot R s i : centre (rot_shell K R s) i = rotv (matf R) (centre s) i.
Proof. destruct i; reflexivity. Qed.
Lemma vecf_mapply R C i : vecf (mapply K R C) i = rotv (matf R) (vecf C) i.
Proof. destruct C as [[c0 c1] c2]. destruct i; reflexivity. Qed.

Lemma pc_prim_as_v C sa sb ca cb alpha beta :
  pc_prim C sa sb ca cb alpha beta = prim_val_v (vecf C) (centre sa) (centre sb) alpha beta ca cb.
Proof. destruct C as [[c0 c1] c2]. reflexivity. Qed.

Lemma prim_val_v_ext C A B C' A' B' alpha beta ca cb :
  (forall i, C i = C' i) -> (forall i, A i = A' i) -> (forall i, B i = B' i) ->
  prim_val_v C A B alpha beta ca cb = prim_val_v C' A' B' alpha beta ca cb.
Proof. intros HC HA HB. unfold prim_val_v. now rewrite !HC, !HA, !HB. Qed.

Theorem point_charge_prim_rotation_covariant R (C : @vec3 F) sa sb ca cb alpha beta :
  orthogonal K R -> psum K alpha beta <> 0 ->
  Jsum K (fun a' => Jsum K (fun b' =>
       pc_prim (mapply K R C) (rot_shell K R sa) (rot_shell K R sb) a' b' alpha beta)
     (rot_expand K R cb)) (rot_expand K R ca)
  = pc_prim C sa sb ca cb alpha beta.
Proof.
  intros HO Hp. rewrite pc_prim_as_v.
  rewrite <- (prim_val_rotation_covariant_v (matf R) (vecf C) (centre sa) (centre sb) alpha beta ca cb
                (orthogonal_cols K R HO) Hp).
  unfold rot_expand. apply Jsum_ext. intro a'. apply Jsum_ext. intro b'.
  rewrite pc_prim_as_v. apply prim_val_v_ext; intro i;
    [apply vecf_mapply|apply centre_rot|apply centre_rot].
Qed.

(* grad_k f = e^{beta u^2} d/du_k (f e^{-beta u^2}) = d_k f - 2 beta u_k f *)
Definition gradop (k : axis) (beta : F) (f : poly3 (F:=F)) : poly3 (F:=F) :=
  dv K k f ++ pscale3 K (- ((1 + 1) * beta)) (mulv k f).
Definition gradT (k : axis) (beta : F) (J : mon -> F) : mon -> F := fun b => Jsum K J (gradop k beta (mono3 K b)).

Lemma gradop_adjoint k beta :
  adjoint K (gradop k beta) (fun J m => dvT K k J m + (- ((1 + 1) * beta)) * mulvT k J m).
Proof.
  unfold gradop.
  apply (adjoint_app2 K Kf (dv K k) (dvT K k) (fun f => pscale3 K (- ((1 + 1) * beta)) (mulv k f))
           (fun J m => (- ((1 + 1) * beta)) * mulvT k J m)).
  - apply (Jsum_dv K Kf).
  - apply (adjoint_scale K Kf _ (mulv k) (mulvT k)). apply (Jsum_mulv K).
Qed.
(* chain rule for the Gaussian-weighted derivative: Q^T Q = 1 (columns of Q orthonormal) *)
Theorem gradop_subst (Q : axis -> axis -> F) k beta f J : orth_rows K (transpose Q) ->
  Jsum K J (gradop k beta (subst K Q f))
  = sum3 K (fun i => Q i k * Jsum K J (subst K Q (gradop i beta f))).
Proof.
  intros HO. unfold gradop. rewrite (Jsum_app K Kf), (dv_subst K Kf), (Jsum_pscale3 K Kf). unfold sum3.
  rewrite !subst_app, !(Jsum_app K Kf), !(subst_pscale3 K Kf), !(Jsum_pscale3 K Kf), !(subst_mulv K Kf),
    !(Jsum_mullin_exp K Kf).
  pose proof (orth_contract K Kf Q (fun j => Jsum K J (mulv j (subst K Q f))) k HO) as E.
  unfold dot, sum3 in E. cbv beta in E. rewrite <- E. ring.
Qed.

(* a covariant bilinear form B(a, b): when grad_k acts on the second index the result transforms as D x D on the
   indices and as a VECTOR on k *)
Theorem gradT_covariant (Q : axis -> axis -> F) beta (B B' : mon -> mon -> F) :
  orth_rows K (transpose Q) ->
  (forall a b, Jsum K (fun a' => Jsum K (fun b' => B' a' b') (subst_mon K Q b)) (subst_mon K Q a) = B a b) ->
  forall k a b, Jsum K (fun a' => Jsum K (fun b' => gradT k beta (B' a') b') (subst_mon K Q b)) (subst_mon K Q a)
                = sum3 K (fun i => Q i k * gradT i beta (B a) b).
Proof.
  intros HC Hcov k a b.
  exact (operator_covariant K Kf Q (gradop k beta) _ (fun i => gradop i beta) (fun i => Q i k) B B'
           (gradop_adjoint k beta) (fun f J => gradop_subst Q k beta f J HC) Hcov a b).
Qed.

(* the real matrix M_k of the momentum integral -i M_k, component k = x, y, z *)
Definition momk (k : axis) : shell F -> shell F -> comp -> comp -> F -> F -> F :=
  match k with AX => mom_x_prim K | AY => mom_y_prim K | AZ => mom_z_prim K end.

Theorem mom_prim_is_gradT k sa sb ca cb alpha beta :
  momk k sa sb ca cb alpha beta = gradT k beta (fun b => ovl_prim K sa sb ca b alpha beta) cb.
Proof.
  unfold gradT. rewrite (Jsum_ext K _ _ (fun b => ovl_prim_S1 K Kf sa sb ca b alpha beta)).
  destruct k; unfold momk, mom_x_prim, mom_y_prim, mom_z_prim, D1; rewrite (Bop1_explicit K);
    unfold gradop, mono3, S1, cx, cy, cz; cbn [fst snd dv mulv map app pscale3 Jsum bump mlower expo]; ring.
Qed.

Hypothesis Hexp : forall x y, fexp K (x + y) = fexp K x * fexp K y.

Theorem momentum_prim_rotation_covariant R k sa sb ca cb alpha beta :
  orthogonal K R -> psum K alpha beta <> 0 ->
  Jsum K (fun a' => Jsum K (fun b' =>
       momk k (rot_shell K R sa) (rot_shell K R sb) a' b' alpha beta)
     (rot_expand K R cb)) (rot_expand K R ca)
  = sum3 K (fun i => matf R k i * momk i sa sb ca cb alpha beta).
Proof.
  intros HO Hp.
  rewrite (Jsum_ext K _ (fun a' => Jsum K (fun b' =>
             gradT k beta (fun b => ovl_prim K (rot_shell K R sa) (rot_shell K R sb) a' b alpha beta) b')
             (rot_expand K R cb))).
  2:{ intro a'. apply Jsum_ext. intro b'. apply mom_prim_is_gradT. }
  unfold rot_expand.
  rewrite (gradT_covariant (transpose (matf R)) beta
           (fun a b => ovl_prim K sa sb a b alpha beta)
           (fun a b => ovl_prim K (rot_shell K R sa) (rot_shell K R sb) a b alpha beta)).
  - unfold sum3, transpose. now rewrite !mom_prim_is_gradT.
  - exact (orthogonal_rows K R HO).
  - intros a b. now apply (overlap_prim_rotation_covariant K Kf Hexp).
Qed.

End RotMore.

(* Examples over Qc: the hypotheses are satisfiable, and the statements at the proper 3-4-5 rotation R345 and the
   improper Rimp of Proofs/RotationP.v are written as executable boolean checks (consequences of the theorems).
   The transcendental closures are stand-ins: sqrt = id, exp = 1, and a "Boys function" that depends on m and on its
   argument (the theorems assume nothing about fboys). *)
From Coq Require Import ZArith QArith Qcanon.
Definition exBoys (m : nat) (x : Qc) : Qc := Qcplus (Qcmult x x) (qc_of (Z.of_nat (S m)) 1).
Definition exKQm : Fops Qc := QcK true (Q2Qc 3) (fun x => x) (fun _ => Q2Qc 1) (fun x => x) exBoys.
Section Examples.
Let KQ : Fops Qc := exKQm.
Let KQf : is_field KQ := QcK_field _ _ _ _ _ _.
Let q (n : Z) (d : positive) : Qc := qc_of n d.

Lemma exKQm_char0 : forall n, ofnat KQ (S n) <> f0 KQ.
Proof. apply QcK_char0. Qed.

Example point_charge_rotation_345 :
  forall ca cb,
  Jsum KQ (fun a' => Jsum KQ (fun b' =>
       pc_prim KQ (mapply KQ R345 exC) (rot_shell KQ R345 exA) (rot_shell KQ R345 exB) a' b' (q 3 2) (q 2 3))
     (rot_expand KQ R345 cb)) (rot_expand KQ R345 ca)
  = pc_prim KQ exC exA exB ca cb (q 3 2) (q 2 3).
Proof.
  intros. apply (point_charge_prim_rotation_covariant KQ KQf exKQm_char0 R345 exC exA exB ca cb _ _
                   orthogonal_R345 ex_psum).
Qed.
Example momentum_rotation_improper :
  forall k ca cb,
  Jsum KQ (fun a' => Jsum KQ (fun b' =>
       momk KQ k (rot_shell KQ Rimp exA) (rot_shell KQ Rimp exB) a' b' (q 3 2) (q 2 3))
     (rot_expand KQ Rimp cb)) (rot_expand KQ Rimp ca)
  = sum3 KQ (fun i => fmul KQ (matf Rimp k i) (momk KQ i exA exB ca cb (q 3 2) (q 2 3))).
Proof.
  intros. apply (momentum_prim_rotation_covariant KQ KQf KQ_exp_hom Rimp k exA exB ca cb _ _
                   orthogonal_Rimp ex_psum).
Qed.

Definition pc_cov_check (R : @mat3 Qc) (ca cb : comp) : bool :=
  Qeq_bool
    (Jsum KQ (fun a' => Jsum KQ (fun b' =>
         pc_prim KQ (mapply KQ R exC) (rot_shell KQ R exA) (rot_shell KQ R exB) a' b' (q 3 2) (q 2 3))
       (rot_expand KQ R cb)) (rot_expand KQ R ca))
    (pc_prim KQ exC exA exB ca cb (q 3 2) (q 2 3)).
Definition mom_vec_check (R : @mat3 Qc) (k : axis) (ca cb : comp) : bool :=
  Qeq_bool
    (Jsum KQ (fun a' => Jsum KQ (fun b' =>
         momk KQ k (rot_shell KQ R exA) (rot_shell KQ R exB) a' b' (q 3 2) (q 2 3))
       (rot_expand KQ R cb)) (rot_expand KQ R ca))
    (sum3 KQ (fun i => fmul KQ (matf R k i) (momk KQ i exA exB ca cb (q 3 2) (q 2 3)))).
Definition ex_pairs : list (comp * comp) :=
  [((1, 0, 0), (0, 1, 0)); ((0, 1, 1), (1, 0, 0)); ((2, 0, 0), (1, 1, 0)); ((0, 0, 0), (0, 0, 1));
   ((0, 1, 0), (1, 0, 1))]%nat.

Example point_charge_rotation_computed :
  forallb (fun R => forallb (fun t => pc_cov_check R (fst t) (snd t)) ex_pairs) [R345; Rimp] = true.
Proof.
  apply forallb_forall. intros R HR. apply forallb_all. intros [ca cb]. apply Qeq_bool_of_eq.
  apply (point_charge_prim_rotation_covariant KQ KQf exKQm_char0 R exC exA exB ca cb _ _
           (orthogonal_R345_Rimp _ _ _ _ _ _ R HR) ex_psum).
Qed.
(* not vacuous: without the representation matrices the p-p value DOES change *)
Example point_charge_rotation_not_invariant :
  Qeq_bool (pc_prim KQ (mapply KQ R345 exC) (rot_shell KQ R345 exA) (rot_shell KQ R345 exB)
              (1, 0, 0)%nat (0, 1, 0)%nat (q 3 2) (q 2 3))
           (pc_prim KQ exC exA exB (1, 0, 0)%nat (0, 1, 0)%nat (q 3 2) (q 2 3)) = false.
Proof. vm_compute. reflexivity. Qed.
Example momentum_rotation_computed :
  forallb (fun R => forallb (fun k => forallb (fun t => mom_vec_check R k (fst t) (snd t)) ex_pairs)
     [AX; AY; AZ]) [R345; Rimp] = true.
Proof.
  apply forallb_forall. intros R HR. apply forallb_all. intro k. apply forallb_all. intros [ca cb].
  apply Qeq_bool_of_eq.
  apply (momentum_prim_rotation_covariant KQ KQf KQ_exp_hom R k exA exB ca cb _ _
           (orthogonal_R345_Rimp _ _ _ _ _ _ R HR) ex_psum).
Qed.
(* the component index transforms with R, not with R^T: the transposed law fails for the (non-symmetric) R345 *)
Example momentum_rotation_transposed_law_fails :
  Qeq_bool
    (Jsum KQ (fun a' => Jsum KQ (fun b' =>
         momk KQ AX (rot_shell KQ R345 exA) (rot_shell KQ R345 exB) a' b' (q 3 2) (q 2 3))
       (rot_expand KQ R345 (0, 1, 0)%nat)) (rot_expand KQ R345 (1, 0, 0)%nat))
    (sum3 KQ (fun i => fmul KQ (matf R345 i AX) (momk KQ i exA exB (1, 0, 0)%nat (0, 1, 0)%nat (q 3 2) (q 2 3))))
  = false.
Proof. vm_compute. reflexivity. Qed.
End Examples.
