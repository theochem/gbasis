(* Proofs/CoreShiftP.v — moving the origin of a multipole moment changes the 1-D moment integrals by the
   binomial expansion in lower moments:
       T3 v a b (c + delta) k i j = sum_{m <= k} binom(k, m) delta^(k-m) T3 v a b c m i j
   ((y + c + delta)^k = sum_m binom(k,m) delta^(k-m) (y + c)^m under the Gaussian moment functional),
   for every k, i, j and every ring element; [binom] is Pascal's triangle on nat, and [binom_fact]
   ties it to factorials:  binom(n,k) k! (n-k)! = n!  in the field. *)
(* NOT proved (full-strength statement, for the record): at block level, for C' = C - (dx, dy, dz),
     entry(mm_block C' [o]) = sum_{m <= o, componentwise} prod_axes binom(o_axis, m_axis) d_axis^(o_axis - m_axis)
                              * entry(mm_block C [m])
   i.e. the product of three per-axis binomial sums pushed through the contraction.  What is proved is the
   per-axis law ([T3_origin_shift], [T1_origin_shift]) from which it follows by linearity of [contracted]
   (Proofs/CoreSumP.v: contracted_add, contracted_scale); missing: the bookkeeping of the triple sum. *)
From Coq Require Import List Arith Lia Field.
From GB Require Export Base.Sums.
From GB Require Import Base.Field Base.FNum Base.Tables Gauss.Moment1D Model.MomentInt
  Proofs.CoreSumP Proofs.CoreBlockP.
Import ListNotations.

Fixpoint binom (n k : nat) : nat :=
  match n, k with
  | _, O => 1
  | O, S _ => 0
  | S n', S k' => binom n' k' + binom n' (S k')
  end.

Lemma binom_0_r n : binom n 0 = 1.
Proof. destruct n; reflexivity. Qed.
Lemma binom_gt n : forall k, n < k -> binom n k = 0.
Proof. induction n as [|n IH]; intros [|k] H; try lia; cbn [binom]; [reflexivity|].
  rewrite !IH by lia. reflexivity. Qed.
Lemma binom_nn n : binom n n = 1.
Proof. induction n as [|n IH]; [reflexivity|]. cbn [binom]. rewrite IH, binom_gt by lia. lia. Qed.

Section P.
Context {F : Type} (K : Fops F) (Kf : is_field K).
Add Field KFsh : Kf.
Local Open Scope F_scope.
Notation "0" := (f0 K) : F_scope.
Notation "1" := (f1 K) : F_scope.
Infix "+" := (fadd K) : F_scope.
Infix "*" := (fmul K) : F_scope.
Infix "-" := (fsub K) : F_scope.
Infix "/" := (fdiv K) : F_scope.
Notation "# n" := (ofnat K n) (at level 5) : F_scope.
Notation fsum := (FNum.fsum K).
Notation fpow := (FNum.fpow K).

Lemma ofnat_mul x y : #(x * y) = #x * #y.
Proof. apply (Sums.ofnat_mul K Kf). Qed.

Lemma binom_fact n : forall k, k <= n -> #(binom n k) * ffact K k * ffact K (n - k) = ffact K n.
Proof.
  induction n as [|n IH]; intros k Hk.
  - assert (k = 0%nat) by lia. subst. cbn [binom ofnat ffact Nat.sub]. ring.
  - destruct k as [|k].
    + rewrite binom_0_r, Nat.sub_0_r. cbn [ofnat ffact]. ring.
    + cbn [binom]. rewrite (ofnat_add K Kf). cbn [Nat.sub].
      destruct (Nat.eq_dec k n) as [E|NE].
      * subst k. rewrite (binom_gt n (S n)) by lia. rewrite binom_nn, Nat.sub_diag.
        cbn [ofnat ffact]. ring.
      * pose proof (IH k ltac:(lia)) as H1. pose proof (IH (S k) ltac:(lia)) as H2.
        replace (n - k)%nat with (S (n - S k)) in * by lia.
        assert (Es : #(S n) = #(S k) + #(S (n - S k))).
        { rewrite <- (ofnat_add K Kf). f_equal. lia. }
        cbn [ffact] in H1, H2 |- *. rewrite Es.
        transitivity (#(S k) * ffact K n + #(S (n - S k)) * ffact K n); [|ring].
        rewrite <- H1 at 1. rewrite <- H2. ring.
Qed.

Section Shift.
Variable delta : F.

Definition bterm (k : nat) (f : nat -> F) (m : nat) : F := #(binom k m) * fpow delta (k - m) * f m.
Definition bsum (k : nat) (f : nat -> F) : F := fsum (mk (S k) (bterm k f)).

Lemma bterm_S_0 k f : bterm (S k) f 0 = delta * bterm k f 0.
Proof. unfold bterm. rewrite !binom_0_r, !Nat.sub_0_r. cbn [FNum.fpow]. ring. Qed.

Lemma bterm_above k f : bterm k f (S k) = 0.
Proof. unfold bterm. rewrite binom_gt by lia. cbn [ofnat]. ring. Qed.

Lemma bterm_pascal k f m : m <= k ->
  bterm (S k) f (S m) = bterm k (fun m => f (S m)) m + delta * bterm k f (S m).
Proof.
  intros Hm. destruct (Nat.eq_dec m k) as [->|Hn].
  - rewrite bterm_above. unfold bterm. rewrite !binom_nn, !Nat.sub_diag. ring.
  - unfold bterm. cbn [binom Nat.sub]. rewrite (ofnat_add K Kf).
    replace (k - m)%nat with (S (k - S m)) by lia. cbn [FNum.fpow]. ring.
Qed.

Lemma bsum_pascal k f : bsum (S k) f = delta * bsum k f + bsum k (fun m => f (S m)).
Proof.
  unfold bsum. rewrite (fsum_mk_S_front K (S k)), (fsum_mk_S_front K k (bterm k f)), bterm_S_0.
  rewrite (fsum_mk_ext K (S k) _ (fun m => bterm k (fun m => f (S m)) m + delta * bterm k f (S m)))
    by (intros m Hm; apply bterm_pascal; lia).
  rewrite <- (fsum_mk_add K Kf), <- (fsum_mk_scale_l K Kf).
  rewrite (fsum_mk_S K Kf k (fun m => bterm k f (S m))), bterm_above. ring.
Qed.

Lemma bsum_ext k f g : (forall m, m <= k -> f m = g m) -> bsum k f = bsum k g.
Proof. intros H. unfold bsum, bterm. apply fsum_mk_ext. intros m Hm. rewrite H by lia. reflexivity. Qed.

Lemma bsum_add k f g : bsum k (fun m => f m + g m) = bsum k f + bsum k g.
Proof. unfold bsum. rewrite (fsum_mk_add K Kf). apply fsum_mk_ext. intros; unfold bterm; ring. Qed.

Lemma bsum_scale k c f : bsum k (fun m => c * f m) = c * bsum k f.
Proof. unfold bsum. rewrite (fsum_mk_scale_l K Kf). apply fsum_mk_ext. intros; unfold bterm; ring. Qed.

Variables v a b c : F.

Lemma S3_shift k : forall n i j,
  S3 K v a b (c + delta) n k i j = bsum k (fun m => S3 K v a b c n m i j).
Proof.
  induction k as [|k IH]; intros n i j.
  - unfold bsum, bterm. rewrite (fsum_mk_S K Kf), (fsum_mk_0 K). cbn [binom Nat.sub FNum.fpow ofnat].
    rewrite (S3_0_indep_c K v a b (c + delta)), <- (S3_0_indep_c K v a b c). ring.
  - rewrite (S3_Sk K Kf), (IH n), (IH (S n)). rewrite bsum_pascal.
    rewrite <- !bsum_scale, <- !bsum_add. apply bsum_ext. intros m _.
    rewrite (S3_Sk K Kf v a b c n m). ring.
Qed.

(* origin_shift_binomial, on the moment functional *)
Theorem T3_origin_shift k i j :
  T3 K v a b (c + delta) k i j
  = fsum (mk (S k) (fun m => #(binom k m) * fpow delta (k - m) * T3 K v a b c m i j)).
Proof. apply S3_shift. Qed.

End Shift.

(* ... and on the 1-D integral of a primitive pair: the moment about the origin C' in terms of the
   moments about C (the Gaussian prefactor does not depend on the origin) *)
Theorem T1_origin_shift (A B C C' alpha beta : F) k i j :
  T1 K A B C' alpha beta k i j
  = fsum (mk (S k) (fun m => #(binom k m) * fpow (C - C') (k - m) * T1 K A B C alpha beta m i j)).
Proof.
  unfold T1. rewrite <- T3_origin_shift.
  f_equal. unfold PC. ring.
Qed.

End P.
