(* Proofs/DiagSphRealP.v — diag_one_sph over the reals (see the header of Proofs/DiagSphP.v): the rational
   orthonormality identity of Proofs/DiagSphCheckP.v at K = RK (the instance of SphLinkP.Eorth_le10, whose embedding
   ofQc RK is Q2R), and the assembled statement with the real square root. *)
From Coq Require Import List Arith Lia Bool ZArith QArith Qcanon Qreals Reals Lra.
From GB Require Import Base.Field Base.FNum Base.Tables Model.Shell Model.MomentInt Model.Spherical Model.Overlap
  Proofs.CoreSumP Proofs.CoreBlockP Proofs.CoreNormP Proofs.ScreeningP Proofs.AssembledP Proofs.AssembledOverlapP
  Proofs.AssembledRealP Proofs.AssembledSphP Proofs.AssembledSphOverlapP Proofs.DiagSphP Proofs.DiagSphCheckP
  Proofs.SphLinkP.
Import ListNotations.

Local Open Scope R_scope.

(* the ring homomorphism Qc -> R; it is ofQc RK (SphLinkP.ofQc_R) *)
Definition phi (q : Qc) : R := Q2R (this q).

Lemma phi_sub a b : phi (fsub QK a b) = phi a - phi b.
Proof.
  cbn [fsub QK QcK]. unfold qc_sub, phi, Q2Qcf. cbn [this].
  rewrite Qred_fast_eq, (Qeq_eqR _ _ (Qred_correct _)). apply Q2R_minus.
Qed.

Theorem orth_rational_le10_R l sine m : (l <= 10)%nat -> valid_sm l sine m -> Eorth RK l m sine = 1.
Proof. exact (Eorth_le10 RK RK_field char0_R l sine m). Qed.

Lemma sqrt_ok_pos (x : R) : 0 < x -> sqrt_ok RK x.
Proof. intro H. split; [change (sqrt x * sqrt x = x); apply sqrt_sqrt; lra | change (x <> 0); lra]. Qed.

Lemma dfp_pos (c : comp) : 0 < dfp RK c.
Proof.
  unfold dfp. change (0 < fdf_odd RK (cx c) * fdf_odd RK (cy c) * fdf_odd RK (cz c)).
  repeat apply Rmult_lt_0_compat; apply fdf_odd_pos.
Qed.

Lemma ffact_pos n : 0 < ffact RK n.
Proof.
  induction n as [|n IH]; cbn [ffact]; [change (0 < 1); lra|].
  change (0 < ofnat RK (S n) * ffact RK n). rewrite ofnat_R. apply Rmult_lt_0_compat; [|exact IH].
  apply lt_0_INR. lia.
Qed.

Lemma hrad_pos l m : 0 < hrad RK l m.
Proof.
  unfold hrad. pose proof (ffact_pos (l + m)). pose proof (ffact_pos (l - m)).
  change (0 < (1 + 1) * ffact RK (l + m) * ffact RK (l - m) / (if Nat.eqb m 0 then 1 + 1 else 1)).
  apply Rdiv_lt_0_compat; [|destruct (Nat.eqb m 0); lra].
  apply Rmult_lt_0_compat; [apply Rmult_lt_0_compat; [lra|assumption]|assumption].
Qed.

Section DiagR.
Variable bs : list (shell R).
Hypothesis C : seg_basis bs.
Hypothesis W : basis_wf bs.
Hypothesis P : pos_exps_basis bs.
Notation s_ k := (sh_at RK bs k).

Lemma Orth_one_R (s : shell R) q : s_sph s = true -> (s_l s <= 10)%nat ->
  comps_of s = default_comps (s_l s) -> (q < nlab s)%nat ->
  adm_label (s_l s) (nth q (labels_of s) (false, false, 0%nat)) ->
  Orth RK s q q = 1.
Proof.
  intros Hsph Hl Hc Hq Hv.
  rewrite (Orth_rational RK RK_field fapx_id_R s q Hsph Hq).
  - rewrite Hc. exact (orth_rational_le10_R (s_l s) _ _ Hl Hv).
  - intros c _. apply sqrt_ok_pos, dfp_pos.
  - apply sqrt_ok_pos, fdf_odd_pos.
  - apply sqrt_ok_pos, hrad_pos.
Qed.

Lemma homog_of_default (s : shell R) : comps_of s = default_comps (s_l s) -> comps_homog s.
Proof. intros Hc c Hin. rewrite Hc in Hin. now apply default_comps_sum. Qed.

Lemma diag_is_Orth_R i m q :
  (i < length bs)%nat -> comps_homog (s_ i) -> (m < nseg (s_ i))%nat -> (q < osize (s_ i))%nat ->
  0 < nth4 RK m 0 m 0 (overlap_block RK (s_ i) (s_ i)) ->
  Orth RK (s_ i) q q = 1 ->
  nth (oidx RK bs i m q) (nth (oidx RK bs i m q) (overlap_integral RK bs None) []) 0 = 1.
Proof.
  intros Hi Hh Hm Hq Hpos HO.
  assert (Ii : In (s_ i) bs) by (now apply nth_In).
  assert (Ex : exps_ok RK (s_ i) (s_ i)) by (apply exps_ok_pos_R; now apply P).
  assert (Hrad : nth4 RK m 0 m 0 (overlap_block RK (s_ i) (s_ i)) = Rad RK (s_ i) m).
  { apply (self_block_diag RK RK_field fapx_id_R two_neq_0_R (s_ i) (W _ Ii) Hh Ex m 0%nat Hm (ncomp_pos (s_ i))).
    apply sqrt_ok_pos, dfp_pos. }
  apply (diag_one_sph_of_orthonormal RK RK_field fapx_id_R two_neq_0_R bs C W (basis_exps_pos_R bs bs P P)
           i m q Hi Hh Hm Hq); [|now apply sqrt_ok_pos; rewrite <- Hrad|exact HO].
  intros c _. apply sqrt_ok_pos, dfp_pos.
Qed.

(* the basis may mix Cartesian and spherical shells freely; the only premise left is the positivity of the
   segment's self-overlap (as in diag_one_cart_R) *)
Theorem diag_one_sph_R i m q :
  (i < length bs)%nat -> s_sph (s_ i) = true -> (s_l (s_ i) <= 10)%nat ->
  comps_of (s_ i) = default_comps (s_l (s_ i)) ->
  (m < nseg (s_ i))%nat -> (q < nlab (s_ i))%nat ->
  adm_label (s_l (s_ i)) (nth q (labels_of (s_ i)) (false, false, 0%nat)) ->
  0 < nth4 RK m 0 m 0 (overlap_block RK (s_ i) (s_ i)) ->
  nth (oidx RK bs i m q) (nth (oidx RK bs i m q) (overlap_integral RK bs None) []) 0 = 1.
Proof.
  intros Hi Hsph Hl Hc Hm Hq Hv Hpos.
  apply diag_is_Orth_R; [exact Hi|now apply homog_of_default|exact Hm| |exact Hpos|now apply Orth_one_R].
  unfold osize. now rewrite Hsph.
Qed.

Theorem diag_one_mixed_R :
  (forall s, In s bs -> s_comps s = [] /\ s_labels s = [] /\ (s_sph s = true -> (s_l s <= 10)%nat)) ->
  (forall i m, (i < length bs)%nat -> (m < nseg (s_ i))%nat ->
     0 < nth4 RK m 0 m 0 (overlap_block RK (s_ i) (s_ i))) ->
  forall I, (I < ototal RK bs)%nat -> nth I (nth I (overlap_integral RK bs None) []) 0 = 1.
Proof.
  intros Hdef Hpos I HI. destruct (oidx_surj RK bs I HI) as (i & m & q & Hi & Hm & Hq & ->).
  assert (Ii : In (s_ i) bs) by (now apply nth_In). destruct (Hdef _ Ii) as [Hc [Hlab Hl]].
  assert (Ec : comps_of (s_ i) = default_comps (s_l (s_ i))) by (unfold comps_of; now rewrite Hc).
  unfold osize in Hq. destruct (s_sph (s_ i)) eqn:Hsph.
  - apply diag_one_sph_R; auto.
    apply default_labels_adm. unfold nlab, labels_of in *. rewrite Hlab in *. now apply nth_In.
  - apply diag_is_Orth_R; auto; [now apply homog_of_default|unfold osize; now rewrite Hsph|].
    apply (Orth_cart RK RK_field); [exact Hsph|exact Hq|apply sqrt_ok_pos, dfp_pos].
Qed.
End DiagR.

(* the hypotheses are satisfiable: a basis over R with a spherical d shell (two segments, two primitives),
   a Cartesian p shell and a spherical f shell *)
Definition ex_sph_d : shell R := mkShell R 2 0 0 0 [3 / 2; 1 / 4] [[1; 2]; [3; 4]] true [] [].
Definition ex_cart_p : shell R := mkShell R 1 1 (-1) (1 / 2) [2] [[1]] false [] [].
Definition ex_sph_f : shell R := mkShell R 3 0 1 0 [1] [[1]] true [] [].
Definition ex_basis_sph : list (shell R) := [ex_sph_d; ex_cart_p; ex_sph_f].

Example diag_sph_hypotheses_satisfiable :
  seg_basis ex_basis_sph /\ basis_wf ex_basis_sph /\ pos_exps_basis ex_basis_sph
  /\ (forall s, In s ex_basis_sph -> s_comps s = [] /\ s_labels s = [] /\ (s_sph s = true -> (s_l s <= 10)%nat))
  /\ ototal RK ex_basis_sph = 20%nat.
Proof.
  split; [|split; [|split; [|split]]].
  - intros s [<-|[<-|[<-|[]]]]; cbn; lia.
  - intros s [<-|[<-|[<-|[]]]]; apply wf_shell_default; reflexivity.
  - intros s [<-|[<-|[<-|[]]]] x Hx; cbn in Hx.
    + destruct Hx as [<-|[<-|[]]]; lra.
    + destruct Hx as [<-|[]]; lra.
    + destruct Hx as [<-|[]]; lra.
  - intros s [<-|[<-|[<-|[]]]]; cbn; repeat split; intros; try lia; discriminate.
  - reflexivity.
Qed.

(* uncontracted shells (one primitive, any number of segments) with non-zero coefficients: the self-overlap is
   d_m^2 > 0, so NO premise is left *)
Theorem diag_one_mixed_uncontracted_R (bs : list (shell R)) :
  seg_basis bs -> uncontracted_basis bs ->
  (forall s, In s bs -> s_comps s = [] /\ s_labels s = [] /\ (s_sph s = true -> (s_l s <= 10)%nat)) ->
  forall I, (I < ototal RK bs)%nat -> nth I (nth I (overlap_integral RK bs None) []) 0 = 1.
Proof.
  intros C U Hdef. apply diag_one_mixed_R; [exact C| | |exact Hdef|].
  - intros s Hs. destruct (U s Hs) as (alpha & row & Hu & _). now apply (uncontracted_wf s alpha row).
  - intros s Hs x Hx. destruct (U s Hs) as (alpha & row & (He & _ & Ha & _) & _).
    rewrite He in Hx. destruct Hx as [<-|[]]. exact Ha.
  - intros i m Hi Hm. destruct (U (sh_at RK bs i) ltac:(now apply nth_In)) as (alpha & row & Hu & Hd).
    rewrite (self_overlap_uncontracted_R _ alpha row m 0%nat Hu Hm (ncomp_pos _)).
    assert (Hnz : nth m row 0 <> 0).
    { apply Hd, nth_In. destruct Hu as (_ & Hco & _). unfold nseg in Hm. rewrite Hco in Hm. exact Hm. }
    nra.
Qed.

Definition ex_unc_d : shell R := mkShell R 2 0 0 0 [3 / 2] [[1; -2]] true [] [].
Definition ex_unc_p : shell R := mkShell R 1 1 (-1) (1 / 2) [2] [[1]] false [] [].
Definition ex_basis_unc : list (shell R) := [ex_unc_d; ex_unc_p].

Example diag_one_sph_example_R :
  forall I, (I < 13)%nat -> nth I (nth I (overlap_integral RK ex_basis_unc None) []) 0 = 1.
Proof.
  apply (diag_one_mixed_uncontracted_R ex_basis_unc).
  - intros s [<-|[<-|[]]]; cbn; lia.
  - intros s [<-|[<-|[]]].
    + exists (3 / 2), [1; -2]. split.
      * split; [reflexivity|]. split; [reflexivity|]. split; [lra|]. now apply comps_homog_default.
      * intros d [<-|[<-|[]]]; lra.
    + exists 2, [1]. split.
      * split; [reflexivity|]. split; [reflexivity|]. split; [lra|]. now apply comps_homog_default.
      * intros d [<-|[]]; lra.
  - intros s [<-|[<-|[]]]; cbn; repeat split; intros; try lia; discriminate.
Qed.
