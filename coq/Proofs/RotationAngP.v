(* Proofs/RotationAngP.v — GENERAL ROTATIONS (C12): the ANGULAR MOMENTUM about the coordinate origin is a PSEUDO-VECTOR.

   [ang_x_prim] ... of Proofs/CoreDiffP.v (x component: S_x (M_y D_z - M_z D_y), M the first moment about the
   coordinate origin, D the first derivative of the right function) are the operator
        L_k = sum_{m n} eps_{kmn} X_m G_n,     X_m = u_m + B_m  (multiplication by the coordinate r_m, u = r - B),
                                               G_n = e^{beta u^2} d/du_n (. e^{-beta u^2})   ([RotationMoreP.gradop])
   acting on the index b of the overlap ([ang_prim_is_LT]).  For Q with orthonormal columns and B' = Q^T B
        X'_m G'_n (f o Q) = sum_{i j} Q i m Q j n ((X_i G_j f) o Q)                      ([XG_subst])
   and  (row_i Q) x (row_j Q) = det Q * eps_{ijl} row_l Q                                ([cross_cyclic]), hence
        L'_k (f o Q) = det Q * sum_l Q l k ((L_l f) o Q)                                 ([Lop_subst]).
   With Q = R^T (the coordinate origin is fixed by R):

     angular_momentum_prim_rotation_covariant :
        sum_{a'} sum_{b'} D(R)[a,a'] D(R)[b,b'] ang_k(R A, R B; a', b') = det R * sum_l R[k][l] ang_l(A, B; a, b)

   for every orthogonal R; det R * det R = 1 ([det3_sq]); for an improper R the extra sign is -1.
   Block level: [angmom_block_rotation_law] for every entry of [angmom_block_re]
   (= AngularMomentumIntegral.construct_array_contraction, real matrix of the value -i M). *)
From Coq Require Import List Arith Lia Field.
From GB Require Import Base.Field Base.FNum Base.Tables Gauss.Moment1D Gauss.Poly3 Model.Shell Model.MomentInt
  Model.DiffOp Proofs.DiffOpP Proofs.CoreSumP Proofs.CoreBlockP Proofs.CoreDiffP Proofs.RigidP Proofs.RotationP
  Proofs.RotationBlockP Proofs.RotationMoreP Proofs.RotationMoreBlockP.
Import ListNotations.

Definition nxt (k : axis) : axis := match k with AX => AY | AY => AZ | AZ => AX end.

Section Ang.
Context {F : Type} (K : Fops F) (Kf : is_field K).
Add Field KFang : Kf.
Local Open Scope F_scope.
Notation "0" := (f0 K) : F_scope.
Notation "1" := (f1 K) : F_scope.
Infix "+" := (fadd K) : F_scope.
Infix "*" := (fmul K) : F_scope.
Infix "-" := (fsub K) : F_scope.
Infix "/" := (fdiv K) : F_scope.
Notation "- x" := (fopp K x) : F_scope.
Notation "# n" := (ofnat K n) (at level 5) : F_scope.

Definition det3 (M : axis -> axis -> F) : F :=
  M AX AX * (M AY AY * M AZ AZ - M AY AZ * M AZ AY)
  + M AX AY * (M AY AZ * M AZ AX - M AY AX * M AZ AZ)
  + M AX AZ * (M AY AX * M AZ AY - M AY AY * M AZ AX).
(* component k of (row i) x (row j) *)
Definition cross (M : axis -> axis -> F) (i j k : axis) : F :=
  M i (nxt k) * M j (nxt (nxt k)) - M i (nxt (nxt k)) * M j (nxt k).

Lemma det3_transpose M : det3 (transpose M) = det3 M.
Proof. unfold det3, transpose. ring. Qed.

Lemma expand_in_rows (M : axis -> axis -> F) (w : axis -> F) k : orth_rows K (transpose M) ->
  w k = sum3 K (fun l => dot K w (M l) * M l k).
Proof.
  intro HC. rewrite <- (orth_contract K Kf M w k HC). unfold dot, sum3. ring.
Qed.

Lemma cross_cyclic M i k : orth_rows K (transpose M) -> cross M i (nxt i) k = det3 M * M (nxt (nxt i)) k.
Proof.
  intro HC. rewrite (expand_in_rows M (cross M i (nxt i)) k HC).
  unfold sum3, dot, sum3, cross, det3. destruct i; cbn [nxt]; ring.
Qed.

(* det R = +1 or -1, in the form det^2 = 1 *)
Lemma det3_sq M : orth_rows K M -> det3 M * det3 M = 1.
Proof.
  intro HO.
  pose proof (HO AX AX) as H00. pose proof (HO AX AY) as H01. pose proof (HO AX AZ) as H02.
  pose proof (HO AY AX) as H10. pose proof (HO AY AY) as H11. pose proof (HO AY AZ) as H12.
  pose proof (HO AZ AX) as H20. pose proof (HO AZ AY) as H21. pose proof (HO AZ AZ) as H22.
  unfold sum3, delta3 in *. cbn [axis_eqb] in *.
  set (g := fun i k => M i AX * M k AX + M i AY * M k AY + M i AZ * M k AZ).
  transitivity (g AX AX * (g AY AY * g AZ AZ - g AY AZ * g AZ AY)
                + g AX AY * (g AY AZ * g AZ AX - g AY AX * g AZ AZ)
                + g AX AZ * (g AY AX * g AZ AY - g AY AY * g AZ AX)); [unfold g, det3; ring|].
  unfold g. rewrite H00, H01, H02, H10, H11, H12, H20, H21, H22. ring.
Qed.

(* X_m G_n : multiplication by the coordinate r_m = u_m + B_m after the Gaussian-weighted derivative along n *)
Definition XG (Bv : axis -> F) (beta : F) (m n : axis) (f : poly3 (F:=F)) : poly3 (F:=F) :=
  plin3 K m (Bv m) (gradop K n beta f).
Definition Lop (Bv : axis -> F) (beta : F) (k : axis) (f : poly3 (F:=F)) : poly3 (F:=F) :=
  XG Bv beta (nxt k) (nxt (nxt k)) f ++ pscale3 K (- (1)) (XG Bv beta (nxt (nxt k)) (nxt k) f).
Definition LT (Bv : axis -> F) (beta : F) (k : axis) (J : mon -> F) : mon -> F :=
  fun b => Jsum K J (Lop Bv beta k (mono3 K b)).

Lemma XG_adjoint Bv beta m n : exists opT, adjoint K (XG Bv beta m n) opT.
Proof.
  eexists. unfold XG.
  apply (adjoint_comp K (plin3 K m (Bv m)) _ (gradop K n beta) _ (Jsum_plin3 K Kf m (Bv m)) (gradop_adjoint K Kf n beta)).
Qed.
Lemma Lop_adjoint Bv beta k : exists opT, adjoint K (Lop Bv beta k) opT.
Proof.
  destruct (XG_adjoint Bv beta (nxt k) (nxt (nxt k))) as [T1 A1].
  destruct (XG_adjoint Bv beta (nxt (nxt k)) (nxt k)) as [T2 A2].
  eexists. unfold Lop.
  apply (adjoint_app2 K Kf _ T1 (fun f => pscale3 K (- (1)) (XG Bv beta (nxt (nxt k)) (nxt k) f))
           (fun J m => (- (1)) * T2 J m) A1).
  apply (adjoint_scale K Kf (- (1)) _ T2 A2).
Qed.
(* multiplication by a coordinate, B' = Q^T B *)
Lemma X_subst (Q : axis -> axis -> F) (Bv Bv' : axis -> F) m g J :
  orth_rows K (transpose Q) -> (forall n, Bv' n = sum3 K (fun i => Q i n * Bv i)) ->
  Jsum K J (plin3 K m (Bv' m) (subst K Q g))
  = sum3 K (fun i => Q i m * Jsum K J (subst K Q (plin3 K i (Bv i) g))).
Proof.
  intros HC HB. unfold sum3. rewrite !(subst_plin3 K Kf), !(Jsum_mulaff_exp K Kf), !(Jsum_mullin_exp K Kf),
    (Jsum_plin3_exp K Kf), (HB m). unfold sum3.
  pose proof (orth_contract K Kf Q (fun j => Jsum K J (mulv j (subst K Q g))) m HC) as E.
  unfold dot, sum3 in E. cbv beta in E. rewrite <- E. ring.
Qed.

Theorem XG_subst (Q : axis -> axis -> F) (Bv Bv' : axis -> F) beta m n f J :
  orth_rows K (transpose Q) -> (forall n, Bv' n = sum3 K (fun i => Q i n * Bv i)) ->
  Jsum K J (XG Bv' beta m n (subst K Q f))
  = sum3 K (fun i => sum3 K (fun j => Q i m * Q j n * Jsum K J (subst K Q (XG Bv beta i j f)))).
Proof.
  intros HC HB. unfold XG.
  rewrite (Jsum_plin3 K Kf), (gradop_subst K Kf Q n beta f _ HC). unfold sum3 at 1.
  rewrite <- !(Jsum_plin3 K Kf m (Bv' m) J).
  rewrite !(X_subst Q Bv Bv' m _ J HC HB). unfold sum3. ring.
Qed.

(* THE ANGULAR-MOMENTUM OPERATOR UNDER AN ORTHOGONAL SUBSTITUTION: a pseudo-vector *)
Theorem Lop_subst (Q : axis -> axis -> F) (Bv Bv' : axis -> F) beta k f J :
  orth_rows K (transpose Q) -> (forall n, Bv' n = sum3 K (fun i => Q i n * Bv i)) ->
  Jsum K J (Lop Bv' beta k (subst K Q f))
  = det3 Q * sum3 K (fun l => Q l k * Jsum K J (subst K Q (Lop Bv beta l f))).
Proof.
  intros HC HB. unfold Lop.
  rewrite (Jsum_app K Kf), (Jsum_pscale3 K Kf), !(XG_subst Q Bv Bv' beta _ _ f J HC HB).
  unfold sum3. rewrite !subst_app, !(Jsum_app K Kf), !(subst_pscale3 K Kf), !(Jsum_pscale3 K Kf). cbn [nxt].
  pose proof (cross_cyclic Q AX k HC) as Cxy. pose proof (cross_cyclic Q AY k HC) as Cyz.
  pose proof (cross_cyclic Q AZ k HC) as Czx. cbn [nxt] in Cxy, Cyz, Czx.
  generalize (Jsum K J (subst K Q (XG Bv beta AX AX f))) (Jsum K J (subst K Q (XG Bv beta AX AY f)))
    (Jsum K J (subst K Q (XG Bv beta AX AZ f))) (Jsum K J (subst K Q (XG Bv beta AY AX f)))
    (Jsum K J (subst K Q (XG Bv beta AY AY f))) (Jsum K J (subst K Q (XG Bv beta AY AZ f)))
    (Jsum K J (subst K Q (XG Bv beta AZ AX f))) (Jsum K J (subst K Q (XG Bv beta AZ AY f)))
    (Jsum K J (subst K Q (XG Bv beta AZ AZ f))).
  intros xx xy xz yx yy yz zx zy zz.
  transitivity (cross Q AX AY k * (xy - yx) + cross Q AY AZ k * (yz - zy) + cross Q AZ AX k * (zx - xz)).
  - unfold cross. destruct k; cbn [nxt]; ring.
  - rewrite Cxy, Cyz, Czx. ring.
Qed.

(* a covariant bilinear form B(a, b): when L_k acts on the second index the result transforms as D x D on the
   indices and as a PSEUDO-VECTOR on k *)
Theorem LT_covariant (Q : axis -> axis -> F) (Bv Bv' : axis -> F) beta (B B' : mon -> mon -> F) :
  orth_rows K (transpose Q) -> (forall n, Bv' n = sum3 K (fun i => Q i n * Bv i)) ->
  (forall a b, Jsum K (fun a' => Jsum K (fun b' => B' a' b') (subst_mon K Q b)) (subst_mon K Q a) = B a b) ->
  forall k a b, Jsum K (fun a' => Jsum K (fun b' => LT Bv' beta k (B' a') b') (subst_mon K Q b)) (subst_mon K Q a)
                = det3 Q * sum3 K (fun l => Q l k * LT Bv beta l (B a) b).
Proof.
  intros HC HB Hcov k a b. destruct (Lop_adjoint Bv' beta k) as [opT A]. unfold LT.
  rewrite (operator_covariant K Kf Q (Lop Bv' beta k) opT (fun l => Lop Bv beta l) (fun l => det3 Q * Q l k) B B' A).
  - unfold sum3. ring.
  - intros f J. rewrite (Lop_subst Q Bv Bv' beta k f J HC HB). unfold sum3. ring.
  - exact Hcov.
Qed.

(* the real matrix M_k of the angular-momentum integral -i M_k about the coordinate origin, component k *)
Definition angk (k : axis) : shell F -> shell F -> comp -> comp -> F -> F -> F :=
  match k with AX => ang_x_prim K | AY => ang_y_prim K | AZ => ang_z_prim K end.

(* the first moment about the coordinate origin raises the index of the right function: r = (r - B) + B *)
Lemma M1o_explicit A B alpha beta i j :
  M1o K A B alpha beta i j = S1 K A B alpha beta i (S j) + B * S1 K A B alpha beta i j.
Proof.
  unfold M1o, S1, Sfun, T1, T3. rewrite (S3_Sk K Kf), (S3_Sj K Kf).
  change (S3 K ?v ?a ?b (PC K A B 0 alpha beta) ?n 0 i j) with (S3 K v a b 0 n 0 i j).
  unfold PC, PB. ring.
Qed.

Theorem ang_prim_is_LT k sa sb ca cb alpha beta :
  angk k sa sb ca cb alpha beta
  = LT (centre sb) beta k (fun b => ovl_prim K sa sb ca b alpha beta) cb.
Proof.
  unfold LT. rewrite (Jsum_ext K _ _ (fun b => ovl_prim_S1 K Kf sa sb ca b alpha beta)).
  destruct k; unfold angk, ang_x_prim, ang_y_prim, ang_z_prim, D1; rewrite !M1o_explicit, !(Bop1_explicit K);
    unfold Lop, XG, gradop, mono3, S1, cx, cy, cz, centre, vecf;
    cbn [nxt fst snd dv mulv map app pscale3 plin3 Jsum bump mlower expo ax2nat vget]; ring.
Qed.

Hypothesis Hexp : forall x y, fexp K (x + y) = fexp K x * fexp K y.

(* GENERAL ROTATIONS, angular momentum of two primitives about the coordinate origin: D x D on the function indices,
   a PSEUDO-VECTOR (factor det R) on the component *)
Theorem angular_momentum_prim_rotation_covariant R k sa sb ca cb alpha beta :
  orthogonal K R -> psum K alpha beta <> 0 ->
  Jsum K (fun a' => Jsum K (fun b' =>
       angk k (rot_shell K R sa) (rot_shell K R sb) a' b' alpha beta)
     (rot_expand K R cb)) (rot_expand K R ca)
  = det3 (matf R) * sum3 K (fun l => matf R k l * angk l sa sb ca cb alpha beta).
Proof.
  intros HO Hp.
  rewrite (Jsum_ext K _ (fun a' => Jsum K (fun b' =>
             LT (centre (rot_shell K R sb)) beta k
                (fun b => ovl_prim K (rot_shell K R sa) (rot_shell K R sb) a' b alpha beta) b')
             (rot_expand K R cb))).
  2:{ intro a'. apply Jsum_ext. intro b'. apply ang_prim_is_LT. }
  unfold rot_expand.
  rewrite (LT_covariant (transpose (matf R)) (centre sb) (centre (rot_shell K R sb)) beta
           (fun a b => ovl_prim K sa sb a b alpha beta)
           (fun a b => ovl_prim K (rot_shell K R sa) (rot_shell K R sb) a b alpha beta)).
  - rewrite det3_transpose. unfold sum3, transpose. now rewrite !ang_prim_is_LT.
  - exact (orthogonal_rows K R HO).
  - intro n. rewrite centre_rot. unfold rotv, dot, sum3, transpose. reflexivity.
  - intros a b. now apply (overlap_prim_rotation_covariant K Kf Hexp).
Qed.

Hypothesis Hapx : forall x : F, fapx K x = x.
Hypothesis Hdf : forall c, dfnorm K c <> 0.
Hypothesis H2 : 1 + 1 <> 0.

Definition ang_ent (k : axis) : entry_fun (F:=F) := fun sa sb ma ia mb ib =>
  nth (ax2nat k) (nth ib (nth mb (nth ia (nth ma (angmom_block_re K sa sb) []) []) []) []) 0.

Lemma ang_entries_are k la lb : entries_are K la lb (ang_ent k) (angk k).
Proof.
  intros sa sb G ma ia mb ib Hma Hmb Hia Hib.
  destruct (good_pair_wf K la lb sa sb G) as (WSa & WSb & He & Ca & Cb).
  pose proof (angmom_block_correct K Kf Hapx H2 sa sb ma ia mb ib WSa WSb He Hma) as Hc.
  rewrite Ca, Cb in Hc. specialize (Hc Hia Hmb Hib). cbv zeta in Hc.
  unfold ang_ent. change (nth (ax2nat k) (CoreDiffP.get4 [] ma ia mb ib (angmom_block_re K sa sb)) 0
    = contracted K sa sb (cmpd la ia) (cmpd lb ib) ma mb (angk k sa sb (cmpd la ia) (cmpd lb ib))).
  rewrite Hc. fold (cmpd la ia) (cmpd lb ib). destruct k; reflexivity.
Qed.

(* GENERAL ROTATIONS, AngularMomentumIntegral.construct_array_contraction: det R times the rotated vector of the three
   component blocks of the original system obeys the two-index law against component k of the rotated system *)
Theorem angmom_block_rotation_law R k la lb : orthogonal K R ->
  block_law2 K R la lb
    (fun sa sb ma ia mb ib => det3 (matf R) * sum3 K (fun l => matf R k l * ang_ent l sa sb ma ia mb ib))
    (ang_ent k).
Proof.
  intro HO.
  apply (block_rotation_law_generic2 K Kf Hapx Hdf R la lb _ _
           (fun sa sb ca cb x y => det3 (matf R) * sum3 K (fun l => matf R k l * angk l sa sb ca cb x y)) (angk k)).
  - apply (entries_are_scale K Kf la lb (det3 (matf R)) _ _
             (entries_are_sum3 K Kf la lb (matf R k) ang_ent angk (fun l => ang_entries_are l la lb))).
  - apply ang_entries_are.
  - apply (prim_law_of_Jsum K Kf). intros sa sb ja jb alpha beta Hp.
    now apply angular_momentum_prim_rotation_covariant.
Qed.

End Ang.

(* Examples over Qc (stand-ins of Proofs/RotationMoreP.v / RotationMoreBlockP.v): det R345 = 1, det Rimp = -1 *)
From Coq Require Import ZArith QArith Qcanon.
Section Examples.
Let KQ : Fops Qc := exKQm.
Let KQf : is_field KQ := QcK_field _ _ _ _ _ _.
Let KB : Fops Qc := exKQb.
Let q (n : Z) (d : positive) : Qc := qc_of n d.

Example det_R345_Rimp :
  Qeq_bool (det3 KQ (matf R345)) (q 1 1) = true /\ Qeq_bool (det3 KQ (matf Rimp)) (q (-1) 1) = true.
Proof. split; vm_compute; reflexivity. Qed.

Example angular_momentum_rotation_improper :
  forall k ca cb,
  Jsum KQ (fun a' => Jsum KQ (fun b' =>
       angk KQ k (rot_shell KQ Rimp exA) (rot_shell KQ Rimp exB) a' b' (q 3 2) (q 2 3))
     (rot_expand KQ Rimp cb)) (rot_expand KQ Rimp ca)
  = fmul KQ (det3 KQ (matf Rimp))
      (sum3 KQ (fun l => fmul KQ (matf Rimp k l) (angk KQ l exA exB ca cb (q 3 2) (q 2 3)))).
Proof.
  intros. apply (angular_momentum_prim_rotation_covariant KQ KQf KQ_exp_hom Rimp k exA exB ca cb _ _
                   orthogonal_Rimp ex_psum).
Qed.

Definition ang_vec_check (R : @mat3 Qc) (k : axis) (ca cb : comp) : bool :=
  Qeq_bool
    (Jsum KQ (fun a' => Jsum KQ (fun b' =>
         angk KQ k (rot_shell KQ R exA) (rot_shell KQ R exB) a' b' (q 3 2) (q 2 3))
       (rot_expand KQ R cb)) (rot_expand KQ R ca))
    (fmul KQ (det3 KQ (matf R))
       (sum3 KQ (fun l => fmul KQ (matf R k l) (angk KQ l exA exB ca cb (q 3 2) (q 2 3))))).
Example angular_momentum_rotation_computed :
  forallb (fun R => forallb (fun k => forallb (fun t => ang_vec_check R k (fst t) (snd t)) ex_pairs)
     [AX; AY; AZ]) [R345; Rimp] = true.
Proof.
  apply forallb_forall. intros R HR. apply forallb_all. intro k. apply forallb_all. intros [ca cb].
  apply Qeq_bool_of_eq.
  apply (angular_momentum_prim_rotation_covariant KQ KQf KQ_exp_hom R k exA exB ca cb _ _
           (orthogonal_R345_Rimp _ _ _ _ _ _ R HR) ex_psum).
Qed.
(* the factor det R is needed: without it the law fails for the improper rotation *)
Example angular_momentum_vector_law_fails_improper :
  Qeq_bool
    (Jsum KQ (fun a' => Jsum KQ (fun b' =>
         angk KQ AX (rot_shell KQ Rimp exA) (rot_shell KQ Rimp exB) a' b' (q 3 2) (q 2 3))
       (rot_expand KQ Rimp (0, 1, 0)%nat)) (rot_expand KQ Rimp (1, 0, 0)%nat))
    (sum3 KQ (fun l => fmul KQ (matf Rimp AX l) (angk KQ l exA exB (1, 0, 0)%nat (0, 1, 0)%nat (q 3 2) (q 2 3))))
  = false.
Proof. vm_compute. reflexivity. Qed.

(* block level through the list-level model: contracted p (2 segments) x d *)
Definition exb_angmom_block : bool :=
  forallb (fun R =>
    let S := angmom_block_re KB exP exD in
    let S' := angmom_block_re KB (rot_shell KB R exP) (rot_shell KB R exD) in
    forallb (fun k => blk2_all R 2
      (fun ma ia mb ib => fmul KB (det3 KB (matf R))
         (sum3 KB (fun l => fmul KB (matf R k l) (e5 S (ax2nat l) ma ia mb ib))))
      (e5 S' (ax2nat k))) [AX; AY; AZ]) [R345; Rimp].
Example angmom_block_law_computed : exb_angmom_block = true.
Proof.
  destruct exKQb_hyps as (A & B & C & D & E).
  apply forallb_forall. intros R HR. apply forallb_all. intro k.
  apply (blk2_all_of_law R 2 exD
           (fun sa sb ma ia mb ib => fmul KB (det3 KB (matf R))
              (sum3 KB (fun l => fmul KB (matf R k l) (ang_ent KB l sa sb ma ia mb ib))))
           (ang_ent KB k) good_pair_ex (le_n 1)).
  apply (angmom_block_rotation_law KB (QcK_field _ _ _ _ _ _) E A B D), orthogonal_R345_Rimp, HR.
Qed.
End Examples.
