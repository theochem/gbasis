(* Proofs/AssembledSphOverlapP.v — the transformation law for scalar entries: the assembled matrix of a basis
   with ANY assignment of coordinate types is (+)_s T_s applied on both indices to the assembled matrix of the same
   basis with every shell taken Cartesian (to_cart), at ALL positions (both triangles),
       M[oidx i m q][oidx j m' q'] = sum_c sum_c' tco s_i q c * tco s_j q' c' * M_cart[gidx i m c][gidx j m' c'],
   tco s q c = T_s[q][c] (entry of Model/Spherical.shell_transform) for a spherical shell, delta_{q c} for a
   Cartesian one; [dsum] is this double sum.  It holds for every block function that does not look at the
   coordinate type (two_symm_mix_is_cart_transformed_scalar): over a field a transposed copy is the same double
   sum with the two finite sums exchanged (dsum_swap).  Overlap and kinetic energy are the instances. *)
From Coq Require Import List Arith Lia Bool Field.
From GB Require Import Base.Field Base.Tables Model.Shell Model.MomentInt Model.Spherical Model.Overlap Model.DiffOp
  Model.OneBody Proofs.CoreSumP Proofs.CoreBlockP Proofs.CoreDiffP Proofs.AssembledP
  Proofs.AssembledOverlapP Proofs.AssembledSphP.
Import ListNotations.

Definition to_cart {F} (s : shell F) : shell F :=
  mkShell F (s_l s) (s_x s) (s_y s) (s_z s) (s_exps s) (s_coeffs s) false (s_comps s) (s_labels s).

Lemma blocks_shaped_to_cart {F A} (blockf : shell F -> shell F -> list (list (list (list A)))) bs :
  (forall a b, blockf (to_cart a) (to_cart b) = blockf a b) ->
  blocks_shaped blockf bs bs -> blocks_shaped blockf (map to_cart bs) (map to_cart bs).
Proof.
  intros Hcart HB a b Ha Hb. apply in_map_iff in Ha. destruct Ha as [a0 [<- Ha0]].
  apply in_map_iff in Hb. destruct Hb as [b0 [<- Hb0]]. rewrite Hcart. exact (HB a0 b0 Ha0 Hb0).
Qed.

Section SphOverlap.
Context {F : Type} (K : Fops F) (Kf : is_field K).
Add Field KFsph : Kf.
Local Open Scope F_scope.
Notation "0" := (f0 K) : F_scope.
Notation "1" := (f1 K) : F_scope.
Infix "+" := (fadd K) : F_scope.
Infix "*" := (fmul K) : F_scope.
Notation fsum := (FNum.fsum K).

Definition tco (s : shell F) (q c : nat) : F :=
  if s_sph s then nth c (nth q (shell_transform K s) []) 0 else if Nat.eqb q c then 1 else 0.

Lemma fsum_delta L q (f : nat -> F) : q < L ->
  fsum (mk L (fun c => (if Nat.eqb q c then 1 else 0) * f c)) = f q.
Proof.
  induction L as [|L IH]; intros Hq; [lia|]. rewrite (fsum_mk_S K Kf).
  destruct (Nat.eq_dec q L) as [->|Hne].
  - rewrite Nat.eqb_refl.
    rewrite (fsum_mk_ext K L _ (fun _ => 0)).
    + rewrite (fsum_mk_zero K Kf). ring.
    + intros c Hc. destruct (Nat.eqb_spec L c); [lia|ring].
  - rewrite IH by lia. destruct (Nat.eqb_spec q L); [lia|ring].
Qed.

(* the action of T_s on one index, as a finite sum with coefficients tco *)
Lemma tsum_fsum (s : shell F) q (f : nat -> F) : q < osize s ->
  tsum K 0 (fadd K) (fmul K) (s_sph s) (shell_transform K s) (ncomp s) q f
  = fsum (mk (ncomp s) (fun c => tco s q c * f c)).
Proof.
  intros Hq. unfold tsum, tco, osize in *. destruct (s_sph s).
  - reflexivity.
  - symmetry. now apply fsum_delta.
Qed.

(* canonical double sum *)
Definition dsum (a b : shell F) (q q' : nat) (X : nat -> nat -> F) : F :=
  fsum (mk (ncomp a) (fun c => fsum (mk (ncomp b) (fun c' => tco a q c * tco b q' c' * X c c')))).

Lemma dsum_ext a b q q' X Y :
  (forall c c', c < ncomp a -> c' < ncomp b -> X c c' = Y c c') -> dsum a b q q' X = dsum a b q q' Y.
Proof.
  intros H. unfold dsum. apply fsum_mk_ext; intros c Hc. apply fsum_mk_ext; intros c' Hc'. now rewrite H.
Qed.

Lemma dsum_swap a b q q' X : dsum a b q q' X = dsum b a q' q (fun c' c => X c c').
Proof.
  unfold dsum. rewrite (fsum_mk_swap K Kf). apply fsum_mk_ext; intros c' _. apply fsum_mk_ext; intros c _. ring.
Qed.

Lemma dsum_zero a b q q' : dsum a b q q' (fun _ _ => 0) = 0.
Proof.
  unfold dsum. rewrite (fsum_mk_ext K _ _ (fun _ => 0)); [apply (fsum_mk_zero K Kf)|].
  intros c _. rewrite (fsum_mk_ext K _ _ (fun _ => 0)); [apply (fsum_mk_zero K Kf)|]. intros c' _. ring.
Qed.

Lemma dsum_opp a b q q' X : dsum a b q q' (fun c c' => fopp K (X c c')) = fopp K (dsum a b q q' X).
Proof.
  unfold dsum. rewrite (fsum_mk_opp K Kf). apply fsum_mk_ext; intros c _. rewrite (fsum_mk_opp K Kf).
  apply fsum_mk_ext; intros c' _. ring.
Qed.

(* T_b on the second index after T_a on the first = the double sum *)
Lemma tsum2_dsum a b q q' (X : nat -> nat -> F) : q < osize a -> q' < osize b ->
  tsum K 0 (fadd K) (fmul K) (s_sph b) (shell_transform K b) (ncomp b) q' (fun c' =>
    tsum K 0 (fadd K) (fmul K) (s_sph a) (shell_transform K a) (ncomp a) q (fun c => X c c'))
  = dsum a b q q' X.
Proof.
  intros H1 H2. rewrite tsum_fsum by exact H2.
  rewrite (fsum_mk_ext K _ _ (fun c' => fsum (mk (ncomp a) (fun c => tco a q c * tco b q' c' * X c c')))).
  - unfold dsum. apply (fsum_mk_swap K Kf).
  - intros c' Hc'. rewrite tsum_fsum by exact H1. rewrite (fsum_mk_scale_l K Kf).
    apply fsum_mk_ext. intros c Hc. ring.
Qed.

Lemma Emix_dsum (blockf : shell F -> shell F -> list (list (list (list F)))) a b m1 q1 m2 q2 :
  q1 < osize a -> q2 < osize b ->
  Emix K 0 (fadd K) (fmul K) blockf a b m1 q1 m2 q2
  = dsum a b q1 q2 (fun c1 c2 => ncont K a m1 c1 * ncont K b m2 c2 * get4 0 m1 c1 m2 c2 (blockf a b)).
Proof. intros H1 H2. unfold Emix. now apply tsum2_dsum. Qed.

Lemma to_cart_norm (s : shell F) : norm_cont K (to_cart s) = norm_cont K s.
Proof. reflexivity. Qed.
Lemma to_cart_ncont (s : shell F) m c : ncont K (to_cart s) m c = ncont K s m c.
Proof. reflexivity. Qed.

Lemma sh_at_to_cart (bs : list (shell F)) k : sh_at K (map to_cart bs) k = to_cart (sh_at K bs k).
Proof.
  unfold sh_at. destruct (Nat.lt_ge_cases k (length bs)) as [Hk|Hk].
  - now apply (sh_at_map K).
  - rewrite !nth_overflow by (rewrite ?map_length; lia). reflexivity.
Qed.

Lemma cart_basis_to_cart (bs : list (shell F)) : seg_basis bs -> cart_basis (map to_cart bs).
Proof.
  intros C s Hs. apply in_map_iff in Hs. destruct Hs as [s0 [<- Hs0]]. split; [reflexivity|exact (C s0 Hs0)].
Qed.
(* wf_shell and exps_ok do not look at the coordinate type *)
Lemma basis_wf_to_cart (bs : list (shell F)) : basis_wf bs -> basis_wf (map to_cart bs).
Proof. intros W s Hs. apply in_map_iff in Hs. destruct Hs as [s0 [<- Hs0]]. exact (W s0 Hs0). Qed.
Lemma basis_exps_to_cart (bs : list (shell F)) : basis_exps K bs bs -> basis_exps K (map to_cart bs) (map to_cart bs).
Proof.
  intros E a b Ha Hb. apply in_map_iff in Ha. destruct Ha as [a0 [<- Ha0]].
  apply in_map_iff in Hb. destruct Hb as [b0 [<- Hb0]]. exact (E a0 b0 Ha0 Hb0).
Qed.

Section Law.
Variable blockf : shell F -> shell F -> list (list (list (list F))).
(* the block function does not look at the coordinate type (true of every integral kernel: the blocks are
   computed in Cartesian components) *)
Hypothesis Hcart : forall a b, blockf (to_cart a) (to_cart b) = blockf a b.
Variable bs : list (shell F).
Hypothesis C : seg_basis bs.
Hypothesis HB : blocks_shaped blockf bs bs.
Notation s_ k := (sh_at K bs k).
Notation bsc := (map to_cart bs).

(* every entry of the assembled array, evaluated blocks and transposed copies alike, is (+)T on both indices
   of the assembled array of the same shells taken Cartesian *)
Theorem two_symm_mix_is_cart_transformed_scalar i j m q m' q' :
  i < length bs -> j < length bs ->
  m < nseg (s_ i) -> q < osize (s_ i) -> m' < nseg (s_ j) -> q' < osize (s_ j) ->
  nth (oidx K bs j m' q') (nth (oidx K bs i m q)
      (two_symm_integral K (f0 K) (fadd K) (fmul K) blockf bs None) []) (f0 K)
  = dsum (s_ i) (s_ j) q q' (fun c c' =>
      nth (gidx K bsc j m' c') (nth (gidx K bsc i m c)
          (two_symm_integral K (f0 K) (fadd K) (fmul K) blockf bsc None) []) (f0 K)).
Proof.
  intros Hi Hj Hm Hq Hm' Hq'.
  rewrite (two_symm_mixed_entry K 0 (fadd K) (fmul K) blockf bs C HB) by assumption.
  rewrite (dsum_ext _ _ _ _ _ (fun c c' =>
             if Nat.leb i j then ncont K (s_ i) m c * ncont K (s_ j) m' c' * get4 0 m c m' c' (blockf (s_ i) (s_ j))
             else ncont K (s_ j) m' c' * ncont K (s_ i) m c * get4 0 m' c' m c (blockf (s_ j) (s_ i)))).
  - destruct (Nat.leb i j); rewrite Emix_dsum by assumption; [reflexivity|apply dsum_swap].
  - intros c c' Hc Hc'.
    rewrite (two_symm_cart_entry K 0 (fadd K) (fmul K) blockf bsc (cart_basis_to_cart bs C)
               (blocks_shaped_to_cart blockf bs Hcart HB));
      rewrite ?map_length, ?sh_at_to_cart; try assumption.
    now rewrite !Hcart.
Qed.
End Law.

Hypothesis Hapx : forall x : F, fapx K x = x.
Hypothesis H2 : 1 + 1 <> 0.

Theorem overlap_asymm_is_offdiag_block_mixed (b1 b2 : list (shell F)) :
  seg_basis b1 -> seg_basis b2 -> 0 < length b2 ->
  overlap_integral_asymm K b1 b2 None None
  = map (skipn (ototal K b1)) (firstn (ototal K b1) (overlap_integral K (b1 ++ b2) None)).
Proof.
  intros C1 C2 Hn. unfold overlap_integral_asymm, overlap_integral.
  apply asymm_is_offdiag_block_mixed; auto. apply overlap_blocks_shaped.
Qed.

Section OneBasis.
Variable bs : list (shell F).
Hypothesis C : seg_basis bs.
Hypothesis W : basis_wf bs.
Hypothesis E : basis_exps K bs bs.
Notation s_ k := (sh_at K bs k).
Notation bsc := (map to_cart bs).

Theorem overlap_integral_mixed_entry i j m q m' q' :
  i < length bs -> j < length bs ->
  m < nseg (s_ i) -> q < osize (s_ i) -> m' < nseg (s_ j) -> q' < osize (s_ j) ->
  nth (oidx K bs j m' q') (nth (oidx K bs i m q) (overlap_integral K bs None) []) 0
  = dsum (s_ i) (s_ j) q q' (fun c c' =>
      ncont K (s_ i) m c * ncont K (s_ j) m' c'
      * contracted K (s_ i) (s_ j) (nth c (comps_of (s_ i)) (0,0,0)%nat) (nth c' (comps_of (s_ j)) (0,0,0)%nat) m m'
          (ovl_prim K (s_ i) (s_ j) (nth c (comps_of (s_ i)) (0,0,0)%nat) (nth c' (comps_of (s_ j)) (0,0,0)%nat))).
Proof.
  intros Hi Hj Hm Hq Hm' Hq'. unfold overlap_integral.
  rewrite (two_symm_mixed_entry K 0 (fadd K) (fmul K) (overlap_block K) bs C (overlap_blocks_shaped K bs bs))
    by assumption.
  assert (Ii : In (s_ i) bs) by (now apply nth_In). assert (Ij : In (s_ j) bs) by (now apply nth_In).
  destruct (Nat.leb i j); rewrite Emix_dsum by assumption; [|rewrite dsum_swap]; apply dsum_ext; intros c c' Hc Hc';
    rewrite <- nth4_get4.
  - now rewrite (overlap_block_correct K Kf Hapx H2) by auto.
  - rewrite (overlap_block_sym K Kf Hapx H2 (s_ i) (s_ j) m c m' c') by auto.
    rewrite (overlap_block_correct K Kf Hapx H2) by auto. ring.
Qed.

Theorem overlap_mixed_is_cart_transformed i j m q m' q' :
  i < length bs -> j < length bs ->
  m < nseg (s_ i) -> q < osize (s_ i) -> m' < nseg (s_ j) -> q' < osize (s_ j) ->
  nth (oidx K bs j m' q') (nth (oidx K bs i m q) (overlap_integral K bs None) []) 0
  = dsum (s_ i) (s_ j) q q' (fun c c' =>
      nth (gidx K bsc j m' c') (nth (gidx K bsc i m c) (overlap_integral K bsc None) []) 0).
Proof using Kf Hapx H2 C W E.
  exact (two_symm_mix_is_cart_transformed_scalar (overlap_block K) (fun _ _ => eq_refl) bs C
           (overlap_blocks_shaped K bs bs) i j m q m' q').
Qed.

Theorem kinetic_mixed_is_cart_transformed i j m q m' q' :
  i < length bs -> j < length bs ->
  m < nseg (s_ i) -> q < osize (s_ i) -> m' < nseg (s_ j) -> q' < osize (s_ j) ->
  nth (oidx K bs j m' q') (nth (oidx K bs i m q) (kinetic_integral K bs None) []) 0
  = dsum (s_ i) (s_ j) q q' (fun c c' =>
      nth (gidx K bsc j m' c') (nth (gidx K bsc i m c) (kinetic_integral K bsc None) []) 0).
Proof using Kf Hapx H2 C W E.
  exact (two_symm_mix_is_cart_transformed_scalar (kinetic_block K) (fun _ _ => eq_refl) bs C
           (fun sa sb _ _ => kinetic_block_shape K sa sb) i j m q m' q').
Qed.

Theorem overlap_integral_mixed_shape : 0 < length bs ->
  length (overlap_integral K bs None) = ototal K bs /\
  forall I, I < ototal K bs -> length (nth I (overlap_integral K bs None) []) = ototal K bs.
Proof.
  exact (two_symm_mixed_shape K 0 (fadd K) (fmul K) (overlap_block K) bs C (overlap_blocks_shaped K bs bs)).
Qed.
End OneBasis.
End SphOverlap.
