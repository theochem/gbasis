(* Proofs/CoreBlockP.v — block-level correctness of the multipole-moment / overlap kernels.

   SPEC (no tables, written with the abstract moment functional of Gauss/Moment1D.v):
     T1 A B C alpha beta k i j  = T3 (1/(2(alpha+beta))) (P-A) (P-B) (P-C) k i j
                                = normalised 1-D Gaussian integral of (x-C)^k (x-A)^i (x-B)^j
     KAB sa sb alpha beta       = product over the three axes of the s-s prefactor
                                  sqrt(pi/p) exp(-mu (A-B)^2)                       (p = alpha+beta)
     mom_prim C o sa sb ca cb   = KAB * T1_x(o_x, a_x, b_x) * T1_y(..) * T1_z(..)
     ovl_prim                   = mom_prim with order (0,0,0)
     contracted sa sb ca cb ma mb prim   (Proofs/CoreSumP.v)
                                = sum_k sum_k' d_a[k][ma] d_b[k'][mb] N(alpha_k,ca) N(beta_k',cb) prim(alpha_k,beta_k')

   Hypotheses (all stated): [fapx] is the identity; 1+1 <> 0; alpha+beta <> 0 for every pair of exponents;
   the coefficient matrix has one row per exponent; every Cartesian component of a shell is <= its
   angular momentum (true for the default component list: [default_comps_le]); indices in range. *)
From Coq Require Import List Arith Lia Field.
From GB Require Import Base.Field Base.FNum Base.Tables Gauss.Moment1D Model.Shell Model.MomentInt
  Model.Overlap Model.DiffOp Proofs.BlockP Proofs.MomentIntP Proofs.CoreSumP.
Import ListNotations.

Definition cx (c : comp) : nat := fst (fst c).
Definition cy (c : comp) : nat := snd (fst c).
Definition cz (c : comp) : nat := snd c.
Definition comp_le (l : nat) (c : comp) : Prop := cx c <= l /\ cy c <= l /\ cz c <= l.

Lemma default_comps_le l c : In c (default_comps l) -> comp_le l c.
Proof. intros H. apply default_comps_degree in H. unfold comp_le, cx, cy, cz. lia. Qed.

Section Spec.
Context {F : Type} (K : Fops F).
Local Open Scope F_scope.
Notation "0" := (f0 K) : F_scope.
Notation "1" := (f1 K) : F_scope.
Infix "+" := (fadd K) : F_scope.
Infix "*" := (fmul K) : F_scope.
Infix "-" := (fsub K) : F_scope.
Infix "/" := (fdiv K) : F_scope.

Definition T1 (A B C alpha beta : F) (k i j : nat) : F :=
  T3 K (1 / twop K alpha beta) (PA K A B alpha beta) (PB K A B alpha beta) (PC K A B C alpha beta) k i j.

Definition KAB (sa sb : shell F) (alpha beta : F) : F :=
  base K (s_x sa) (s_x sb) alpha beta * base K (s_y sa) (s_y sb) alpha beta
  * base K (s_z sa) (s_z sb) alpha beta.

Definition mom_prim (Cx Cy Cz : F) (o : comp) (sa sb : shell F) (ca cb : comp) (alpha beta : F) : F :=
  KAB sa sb alpha beta
  * (T1 (s_x sa) (s_x sb) Cx alpha beta (cx o) (cx ca) (cx cb)
     * T1 (s_y sa) (s_y sb) Cy alpha beta (cy o) (cy ca) (cy cb)
     * T1 (s_z sa) (s_z sb) Cz alpha beta (cz o) (cz ca) (cz cb)).

Definition ovl_prim (sa sb : shell F) (ca cb : comp) (alpha beta : F) : F :=
  mom_prim 0 0 0 (0, 0, 0)%nat sa sb ca cb alpha beta.

Definition wf_shell (s : shell F) : Prop :=
  wf_coeffs s /\ forall c, In c (comps_of s) -> comp_le (s_l s) c.
Definition exps_ok (sa sb : shell F) : Prop :=
  forall alpha beta, In alpha (s_exps sa) -> In beta (s_exps sb) -> psum K alpha beta <> 0.

Lemma wf_shell_default (s : shell F) : s_comps s = [] -> wf_coeffs s -> wf_shell s.
Proof.
  intros Hc Hw. split; [exact Hw|]. intros c Hin. unfold comps_of in Hin. rewrite Hc in Hin.
  now apply default_comps_le.
Qed.

Lemma wf_shell_nth (s : shell F) i : wf_shell s -> i < length (comps_of s) ->
  comp_le (s_l s) (nth i (comps_of s) (0, 0, 0)%nat).
Proof. intros [_ W] Hi. now apply W, nth_In. Qed.

Lemma omax_ge (orders : list comp) o : In o orders ->
  cx o <= omax orders /\ cy o <= omax orders /\ cz o <= omax orders.
Proof.
  induction orders as [|[[ox oy] oz] r IH]; intros H; [destruct H|].
  cbn [omax fold_right]. fold (omax r). destruct H as [E|H].
  - subst o. unfold cx, cy, cz. cbn [fst snd]. lia.
  - specialize (IH H). lia.
Qed.
End Spec.

Section P.
Context {F : Type} (K : Fops F) (Kf : is_field K).
Add Field KFc1 : Kf.
Local Open Scope F_scope.
Notation "0" := (f0 K) : F_scope.
Notation "1" := (f1 K) : F_scope.
Infix "+" := (fadd K) : F_scope.
Infix "*" := (fmul K) : F_scope.
Infix "-" := (fsub K) : F_scope.
Infix "/" := (fdiv K) : F_scope.
Notation "- x" := (fopp K x) : F_scope.

Hypothesis Hapx : forall x : F, fapx K x = x.
Hypothesis H2 : 1 + 1 <> 0.

Lemma table_T1 A B C alpha beta la lb km k j i :
  psum K alpha beta <> 0 -> k <= km -> j <= lb -> i <= la ->
  nth3 K k j i (table K A B C alpha beta la lb km) = base K A B alpha beta * T1 K A B C alpha beta k i j.
Proof. intros Hp Hk Hj Hi. exact (table_correct K Kf A B C alpha beta la lb km Hp H2 k j i Hk Hj Hi). Qed.

(* one primitive pair: the three tables of the code hold the three factors of the spec *)
Lemma prim3_tables Cx Cy Cz n o (sa sb : shell F) ca cb alpha beta :
  comp_le (s_l sa) ca -> comp_le (s_l sb) cb -> comp_le n o -> psum K alpha beta <> 0 ->
  prim3 K (table K (s_x sa) (s_x sb) Cx alpha beta (s_l sa) (s_l sb) n,
           table K (s_y sa) (s_y sb) Cy alpha beta (s_l sa) (s_l sb) n,
           table K (s_z sa) (s_z sb) Cz alpha beta (s_l sa) (s_l sb) n) o ca cb
  = mom_prim K Cx Cy Cz o sa sb ca cb alpha beta.
Proof.
  destruct ca as [[ax ay] az], cb as [[bx by_] bz], o as [[ox oy] oz].
  unfold comp_le, cx, cy, cz. cbn [fst snd]. intros Ha Hb Ho Hp.
  unfold prim3. rewrite Hapx, !table_T1 by (try assumption; lia).
  unfold mom_prim, KAB, cx, cy, cz. cbn [fst snd]. ring.
Qed.

Section MM.
Variables (Cx Cy Cz : F) (orders : list comp) (sa sb : shell F).
Hypothesis Wa : wf_shell sa.
Hypothesis Wb : wf_shell sb.
Hypothesis He : exps_ok K sa sb.

Lemma mm_block_nth d : d < length orders ->
  nth d (mm_block K Cx Cy Cz orders sa sb) []
  = block_of K sa sb (fun ca cb => map (map (fun t => prim3 K t (nth d orders (0,0,0)%nat) ca cb))
                                       (tabs K Cx Cy Cz orders sa sb)).
Proof.
  intros Hd. unfold mm_block. cbv zeta.
  now rewrite (nth_map_lt _ orders d (0,0,0)%nat) by exact Hd.
Qed.

Lemma mm_block_length : length (mm_block K Cx Cy Cz orders sa sb) = length orders.
Proof. unfold mm_block. cbv zeta. apply map_length. Qed.

Theorem mm_block_correct d ma ia mb ib :
  d < length orders ->
  ma < nseg sa -> ia < length (comps_of sa) -> mb < nseg sb -> ib < length (comps_of sb) ->
  nth4 K ma ia mb ib (nth d (mm_block K Cx Cy Cz orders sa sb) [])
  = contracted K sa sb (nth ia (comps_of sa) (0,0,0)%nat) (nth ib (comps_of sb) (0,0,0)%nat) ma mb
      (mom_prim K Cx Cy Cz (nth d orders (0,0,0)%nat) sa sb
                (nth ia (comps_of sa) (0,0,0)%nat) (nth ib (comps_of sb) (0,0,0)%nat)).
Proof.
  intros Hd Hma Hia Hmb Hib. rewrite mm_block_nth by exact Hd. unfold tabs.
  rewrite (kernel_block_entry K Kf) by (assumption || apply Wa || apply Wb).
  apply contracted_ext. intros alpha beta Ha Hb.
  apply prim3_tables; [now apply wf_shell_nth..| |now apply He]. now apply omax_ge, nth_In.
Qed.
End MM.

Theorem overlap_block_correct (sa sb : shell F) ma ia mb ib :
  wf_shell sa -> wf_shell sb -> exps_ok K sa sb ->
  ma < nseg sa -> ia < length (comps_of sa) -> mb < nseg sb -> ib < length (comps_of sb) ->
  nth4 K ma ia mb ib (overlap_block K sa sb)
  = contracted K sa sb (nth ia (comps_of sa) (0,0,0)%nat) (nth ib (comps_of sb) (0,0,0)%nat) ma mb
      (ovl_prim K sa sb (nth ia (comps_of sa) (0,0,0)%nat) (nth ib (comps_of sb) (0,0,0)%nat)).
Proof.
  intros Wa Wb He Hma Hia Hmb Hib. unfold overlap_block. rewrite hd_nth0.
  apply (mm_block_correct 0 0 0 [(0,0,0)%nat] sa sb Wa Wb He 0); [exact Nat.lt_0_1|assumption..].
Qed.

Lemma psum_sym alpha beta : psum K beta alpha = psum K alpha beta.
Proof. unfold psum. ring. Qed.
Lemma twop_sym alpha beta : twop K beta alpha = twop K alpha beta.
Proof. unfold twop. now rewrite (psum_sym alpha beta). Qed.
Lemma Pw_sym A B alpha beta : Pw K B A beta alpha = Pw K A B alpha beta.
Proof. unfold Pw. rewrite (psum_sym alpha beta). f_equal. ring. Qed.
Lemma base_sym A B alpha beta : base K B A beta alpha = base K A B alpha beta.
Proof.
  unfold base, hmean. rewrite (psum_sym alpha beta).
  replace (beta * alpha) with (alpha * beta) by ring.
  replace ((B - A) * (B - A)) with ((A - B) * (A - B)) by ring. reflexivity.
Qed.
Lemma T1_sym A B C alpha beta k i j : T1 K B A C beta alpha k j i = T1 K A B C alpha beta k i j.
Proof.
  unfold T1, PA, PB, PC. rewrite twop_sym, Pw_sym. apply (T3_swap K Kf).
Qed.
Lemma KAB_sym sa sb alpha beta : KAB K sb sa beta alpha = KAB K sa sb alpha beta.
Proof.
  unfold KAB. now rewrite (base_sym (s_x sa) (s_x sb)), (base_sym (s_y sa) (s_y sb)), (base_sym (s_z sa) (s_z sb)).
Qed.
Lemma mom_prim_sym Cx Cy Cz o sa sb ca cb alpha beta :
  mom_prim K Cx Cy Cz o sb sa cb ca beta alpha = mom_prim K Cx Cy Cz o sa sb ca cb alpha beta.
Proof.
  unfold mom_prim. rewrite (KAB_sym sa sb).
  now rewrite (T1_sym (s_x sa) (s_x sb)), (T1_sym (s_y sa) (s_y sb)), (T1_sym (s_z sa) (s_z sb)).
Qed.

Lemma exps_ok_sym sa sb : exps_ok K sa sb -> exps_ok K sb sa.
Proof. intros H beta alpha Hb Ha. rewrite psum_sym. now apply H. Qed.

Theorem mm_block_sym Cx Cy Cz orders (sa sb : shell F) d ma ia mb ib :
  wf_shell sa -> wf_shell sb -> exps_ok K sa sb -> d < length orders ->
  ma < nseg sa -> ia < length (comps_of sa) -> mb < nseg sb -> ib < length (comps_of sb) ->
  nth4 K mb ib ma ia (nth d (mm_block K Cx Cy Cz orders sb sa) [])
  = nth4 K ma ia mb ib (nth d (mm_block K Cx Cy Cz orders sa sb) []).
Proof.
  intros Wa Wb He Hd Hma Hia Hmb Hib.
  rewrite (mm_block_correct Cx Cy Cz orders sb sa Wb Wa (exps_ok_sym _ _ He)) by assumption.
  rewrite (mm_block_correct Cx Cy Cz orders sa sb Wa Wb He) by assumption.
  apply (contracted_swap_ext K Kf). intros alpha beta _ _. apply mom_prim_sym.
Qed.

Theorem overlap_block_sym (sa sb : shell F) ma ia mb ib :
  wf_shell sa -> wf_shell sb -> exps_ok K sa sb ->
  ma < nseg sa -> ia < length (comps_of sa) -> mb < nseg sb -> ib < length (comps_of sb) ->
  nth4 K mb ib ma ia (overlap_block K sb sa) = nth4 K ma ia mb ib (overlap_block K sa sb).
Proof.
  intros Wa Wb He Hma Hia Hmb Hib. unfold overlap_block. rewrite !hd_nth0.
  apply mm_block_sym; try assumption. exact Nat.lt_0_1.
Qed.

(* Moment.construct_array_contraction: the orders along the LAST axis, k-th slice <-> k-th requested
   triple (orders_axis_order), each slice the contracted three-factor moment spec *)
Theorem moment_block_correct Cx Cy Cz orders (sa sb : shell F) ma ia mb ib :
  wf_shell sa -> wf_shell sb -> exps_ok K sa sb -> orders <> [] ->
  ma < nseg sa -> ia < length (comps_of sa) -> mb < nseg sb -> ib < length (comps_of sb) ->
  let e := nth ib (nth mb (nth ia (nth ma (moment_block K Cx Cy Cz orders sa sb) []) []) []) [] in
  length e = length orders /\
  forall d, d < length orders ->
    nth d e 0
    = contracted K sa sb (nth ia (comps_of sa) (0,0,0)%nat) (nth ib (comps_of sb) (0,0,0)%nat) ma mb
        (mom_prim K Cx Cy Cz (nth d orders (0,0,0)%nat) sa sb
                  (nth ia (comps_of sa) (0,0,0)%nat) (nth ib (comps_of sb) (0,0,0)%nat)).
Proof.
  intros Wa Wb He Hne Hma Hia Hmb Hib. cbv zeta.
  assert (H0 : 0 < length orders) by (destruct orders; [congruence|cbn; lia]).
  pose proof (mm_block_correct Cx Cy Cz orders sa sb Wa Wb He) as Hcorr.
  pose proof (mm_block_length Cx Cy Cz orders sa sb) as Hlen.
  pose proof (mm_block_nth Cx Cy Cz orders sa sb 0 H0) as Hb0.
  unfold moment_block. cbv zeta.
  destruct (mm_block K Cx Cy Cz orders sa sb) as [|b0 rest] eqn:Eb; [cbn in Hlen; lia|].
  cbn [nth] in Hb0.
  destruct (block_of_shape K sa sb (fun ca cb => map (map (fun t => prim3 K t (nth 0 orders (0,0,0)%nat) ca cb))
                                       (tabs K Cx Cy Cz orders sa sb))) as [S1 S2].
  rewrite <- Hb0 in S1, S2.
  destruct (S2 ma Hma) as [S3 S4]. destruct (S4 ia Hia) as [S5 S6]. pose proof (S6 mb Hmb) as S7.
  rewrite S1, nth_mk by exact Hma. rewrite S3, nth_mk by exact Hia.
  rewrite S5, nth_mk by exact Hmb. rewrite S7, nth_mk by exact Hib.
  split; [now rewrite map_length|].
  intros d Hd. rewrite (nth_map_lt _ (b0 :: rest) d []) by (rewrite Hlen; exact Hd).
  apply (Hcorr d ma ia mb ib Hd Hma Hia Hmb Hib).
Qed.

End P.
