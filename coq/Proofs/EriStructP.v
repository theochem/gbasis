(* Proofs/EriStructP.v — structural lemmas for property C04 (electron-repulsion
   integrals): the physicist array is the chemist array with the middle axes
   exchanged (index statement, involution), the shape of the quartet block
   [eri_block], and the eight-fold fill of the four-index assembly: every cell
   (i, j, k, l) of the assembled array is one of the eight permuted images of a
   block that was actually computed for a canonical quartet
   (base_four_symm.py:434-539).  Nothing here depends on the field being a
   field: the statements hold for any carrier. *)
From Coq Require Import List Arith Lia Bool.
From GB Require Import Base.Field Base.Tables Base.Blocks Model.Shell Model.Assembly Model.Assembly14
  Model.Overlap Model.TwoElec Model.OneBody.
Import ListNotations.

Section Swap.
Context {A : Type} (azero : A).
Notation R4 := (list (list (list (list A)))).

(* the dimensions of the result are the exchanged dimensions; an index tuple in range of the
   RESULT reads the source at the exchanged tuple *)
Lemma get4_swapax (a b : nat) (blk : R4) x0 x1 x2 x3 :
  let ds := swapl a b (dims4 blk) 0 in
  x0 < nth 0 ds 0 -> x1 < nth 1 ds 0 -> x2 < nth 2 ds 0 -> x3 < nth 3 ds 0 ->
  get4 azero (swapax azero a b blk) x0 x1 x2 x3
  = (let ix := swapl a b [x0; x1; x2; x3] 0 in
     get4 azero blk (nth 0 ix 0) (nth 1 ix 0) (nth 2 ix 0) (nth 3 ix 0)).
Proof.
  intros ds H0 H1 H2 H3. unfold swapax. fold ds. unfold get4 at 1.
  rewrite (nth_mk _ _ _ _ H0), (nth_mk _ _ _ _ H1), (nth_mk _ _ _ _ H2), (nth_mk _ _ _ _ H3).
  reflexivity.
Qed.

(* the case of the physicist convention: axes 1 and 2 *)
Lemma get4_swapax_12 (blk : R4) i j k l :
  i < length blk -> k < length (hd [] blk) -> j < length (hd [] (hd [] blk)) ->
  l < length (hd [] (hd [] (hd [] blk))) ->
  get4 azero (swapax azero 1 2 blk) i j k l = get4 azero blk i k j l.
Proof. intros Hi Hk Hj Hl. now rewrite get4_swapax. Qed.

Lemma length_swapax a b (blk : R4) : length (swapax azero a b blk) = nth 0 (swapl a b (dims4 blk) 0) 0.
Proof. unfold swapax. now rewrite mk_length. Qed.

(* dimensions of the exchanged array (all of d0, d1, d2 positive: an empty axis loses the
   inner lengths in a nested-list representation) *)
Lemma dims4_swapax_12 (blk : R4) d0 d1 d2 d3 :
  dims4 blk = [d0; d1; d2; d3] -> 0 < d0 -> 0 < d1 -> 0 < d2 ->
  dims4 (swapax azero 1 2 blk) = [d0; d2; d1; d3].
Proof.
  intros Hd H0 H1 H2. unfold swapax. rewrite Hd.
  change (swapl 1 2 [d0; d1; d2; d3] 0) with [d0; d2; d1; d3]. cbn [nth].
  destruct d0 as [|d0]; [lia|]. destruct d1 as [|d1]; [lia|]. destruct d2 as [|d2]; [lia|].
  unfold dims4. rewrite !hd_mk, !mk_length by lia. reflexivity.
Qed.

Lemma get4_swapax_12_twice (blk : R4) i j k l :
  i < length blk -> j < length (hd [] blk) -> k < length (hd [] (hd [] blk)) ->
  l < length (hd [] (hd [] (hd [] blk))) ->
  get4 azero (swapax azero 1 2 (swapax azero 1 2 blk)) i j k l = get4 azero blk i j k l.
Proof.
  intros Hi Hj Hk Hl.
  pose proof (dims4_swapax_12 blk _ _ _ _ eq_refl ltac:(lia) ltac:(lia) ltac:(lia)) as Hd.
  unfold dims4 in Hd. injection Hd as E0 E1 E2 E3.
  rewrite get4_swapax_12 by (rewrite ?E0, ?E1, ?E2, ?E3; assumption).
  now rewrite get4_swapax_12.
Qed.

Definition rect4 (d0 d1 d2 d3 : nat) (b : R4) : Prop :=
  length b = d0 /\ Forall (fun x => length x = d1 /\
    Forall (fun y => length y = d2 /\ Forall (fun z => length z = d3) y) x) b.

Lemma rect4_dims d0 d1 d2 d3 b : rect4 d0 d1 d2 d3 b -> 0 < d0 -> 0 < d1 -> 0 < d2 ->
  dims4 b = [d0; d1; d2; d3].
Proof.
  intros [H0 HF] P0 P1 P2. unfold dims4.
  destruct b as [|x b]; [cbn in H0; lia|]. cbn [hd]. inversion HF as [|? ? [Hx HFx] _]; subst.
  destruct x as [|y x]; [cbn in P1; lia|]. cbn [hd]. inversion HFx as [|? ? [Hy HFy] _]; subst.
  destruct y as [|z y]; [cbn in P2; lia|]. cbn [hd]. inversion HFy as [|? ? Hz _]; subst.
  reflexivity.
Qed.

Lemma swapax_12_involutive d0 d1 d2 d3 (b : R4) :
  rect4 d0 d1 d2 d3 b -> 0 < d0 -> 0 < d1 -> 0 < d2 ->
  swapax azero 1 2 (swapax azero 1 2 b) = b.
Proof.
  intros HR P0 P1 P2. pose proof (rect4_dims _ _ _ _ _ HR P0 P1 P2) as Hd.
  pose proof (dims4_swapax_12 b _ _ _ _ Hd P0 P1 P2) as Hd'.
  destruct HR as [H0 HF]. rewrite Forall_forall in HF.
  assert (L0 : length (swapax azero 1 2 (swapax azero 1 2 b)) = d0).
  { rewrite length_swapax, Hd'. reflexivity. }
  apply (nth_ext _ _ [] []); [lia|]. intros i Hi. rewrite L0 in Hi.
  assert (Hin : In (nth i b []) b) by (apply nth_In; lia).
  destruct (HF _ Hin) as [H1 HF1]. rewrite Forall_forall in HF1.
  unfold swapax at 1. rewrite Hd'. change (swapl 1 2 [d0; d2; d1; d3] 0) with [d0; d1; d2; d3].
  cbn [nth]. rewrite nth_mk by assumption.
  apply (nth_ext _ _ [] []); [rewrite mk_length; lia|]. intros j Hj. rewrite mk_length in Hj.
  rewrite nth_mk by assumption.
  assert (Hin1 : In (nth j (nth i b []) []) (nth i b [])) by (apply nth_In; lia).
  destruct (HF1 _ Hin1) as [H2 HF2]. rewrite Forall_forall in HF2.
  apply (nth_ext _ _ [] []); [rewrite mk_length; lia|]. intros k Hk. rewrite mk_length in Hk.
  rewrite nth_mk by assumption.
  assert (Hin2 : In (nth k (nth j (nth i b []) []) []) (nth j (nth i b []) [])) by (apply nth_In; lia).
  pose proof (HF2 _ Hin2) as H3.
  apply (nth_ext _ _ azero azero); [rewrite mk_length; lia|]. intros l Hl. rewrite mk_length in Hl.
  rewrite nth_mk by assumption.
  change (swapl 1 2 [i; j; k; l] 0) with [i; k; j; l]. cbn [nth].
  injection Hd' as E0 E1 E2 E3.
  rewrite get4_swapax_12 by (rewrite ?E0, ?E1, ?E2, ?E3; injection Hd as F0 F1 F2 F3; lia).
  reflexivity.
Qed.
End Swap.

Section Phys.
Context {F : Type} (K : Fops F).

Lemma eri_physicist_is_swap (basis : list (shell F)) (T : option (list (list F))) :
  eri_integral K basis T true = swapax (f0 K) 1 2 (eri_integral K basis T false).
Proof. reflexivity. Qed.

Lemma eri_physicist_twice_entry (basis : list (shell F)) (T : option (list (list F))) i j k l :
  let chem := eri_integral K basis T false in
  i < length chem -> j < length (hd [] chem) -> k < length (hd [] (hd [] chem)) ->
  l < length (hd [] (hd [] (hd [] chem))) ->
  get4 (f0 K) (swapax (f0 K) 1 2 (eri_integral K basis T true)) i j k l = get4 (f0 K) chem i j k l.
Proof. intros chem Hi Hj Hk Hl. rewrite eri_physicist_is_swap. now apply get4_swapax_12_twice. Qed.
End Phys.

Section Shape.
Context {F : Type} (K : Fops F).

(* [M1][L1][M2][L2][M3][L3][M4][L4] with M = number of segmented contractions (columns of the
   coefficient matrix) and L = number of Cartesian components of the shell *)
Definition shape8 (d1 d2 d3 d4 d5 d6 d7 d8 : nat)
           (b : list (list (list (list (list (list (list (list F)))))))) : Prop :=
  length b = d1 /\ Forall (fun b1 => length b1 = d2 /\ Forall (fun b2 => length b2 = d3 /\
  Forall (fun b3 => length b3 = d4 /\ Forall (fun b4 => length b4 = d5 /\
  Forall (fun b5 => length b5 = d6 /\ Forall (fun b6 => length b6 = d7 /\
  Forall (fun b7 => length b7 = d8) b6) b5) b4) b3) b2) b1) b.

Lemma eri_block_shape (s1 s2 s3 s4 : shell F) :
  shape8 (nseg s1) (length (comps_of s1)) (nseg s2) (length (comps_of s2))
         (nseg s3) (length (comps_of s3)) (nseg s4) (length (comps_of s4))
         (eri_block K s1 s2 s3 s4).
Proof.
  unfold shape8, eri_block. cbv zeta.
  split; [apply mk_length|]. apply Forall_mk; intros m1 _.
  split; [apply mk_length|]. apply Forall_mk; intros i1 _.
  split; [apply mk_length|]. apply Forall_mk; intros m2 _.
  split; [apply mk_length|]. apply Forall_mk; intros i2 _.
  split; [apply mk_length|]. apply Forall_mk; intros m3 _.
  split; [apply mk_length|]. apply Forall_mk; intros i3 _.
  split; [apply mk_length|]. apply Forall_mk; intros m4 _.
  apply mk_length.
Qed.

(* with the default component order the component axes have (l+1)(l+2)/2 entries *)
Lemma length_default_comps_aux {B} l (g : nat -> nat -> B) n : n <= S l ->
  2 * length (flat_map (fun xx => map (g xx) (seq 0 (S (l - (l - xx))))) (seq 0 n)) = n * (n + 1).
Proof.
  induction n as [|n IH]; intros Hn; [reflexivity|].
  rewrite seq_S, flat_map_app, app_length. cbn [flat_map plus]. rewrite app_nil_r, map_length, seq_length.
  specialize (IH ltac:(lia)). replace (l - (l - n)) with n by lia. lia.
Qed.
Lemma length_default_comps l : 2 * length (default_comps l) = (l + 1) * (l + 2).
Proof.
  unfold default_comps. cbv zeta.
  pose proof (length_default_comps_aux l
    (fun xx yy => (l - xx, l - (l - xx) - yy, l - (l - xx) - (l - (l - xx) - yy))) (S l) (le_n _)) as H.
  transitivity (S l * (S l + 1)); [exact H | lia].
Qed.
End Shape.

Section Fill.
Context {A : Type} (azero : A).
Notation R4 := (list (list (list (list A)))).

Lemma key_eqb_eq (x y : key) : key_eqb x y = true <-> x = y.
Proof.
  destruct x as [[[a b] c] d], y as [[[a' b'] c'] d']. unfold key_eqb.
  rewrite !andb_true_iff, !Nat.eqb_eq. split.
  - intros [[[-> ->] ->] ->]. reflexivity.
  - intros E. injection E as -> -> -> ->. auto.
Qed.

Lemma pairs_in n i j : In (i, j) (pairs n) <-> i <= j < n.
Proof.
  unfold pairs. rewrite in_flat_map. split.
  - intros [i' [Hi Hj]]. apply in_seq in Hi. apply in_map_iff in Hj. destruct Hj as [j' [E Hj']].
    injection E as -> ->. apply in_seq in Hj'. lia.
  - intros H. exists i. split; [apply in_seq; lia|]. apply in_map_iff. exists j. split; [reflexivity|].
    apply in_seq. lia.
Qed.

Lemma tails_in {B} (l tl : list B) : In tl (tails l) -> tl <> [] /\ exists pre, l = pre ++ tl.
Proof.
  induction l as [|x r IH]; cbn [tails]; [intros []|]. intros [<-|H].
  - split; [discriminate|]. now exists [].
  - destruct (IH H) as [Hn [pre ->]]. split; [assumption|]. now exists (x :: pre).
Qed.

(* two members of a list: one of them heads a tail that contains the other *)
Lemma tails_cover {B} (l : list B) p q : In p l -> In q l ->
  exists r, (In (p :: r) (tails l) /\ In q (p :: r)) \/ (In (q :: r) (tails l) /\ In p (q :: r)).
Proof.
  induction l as [|x r IH]; [intros []|]. intros Hp Hq. cbn [tails].
  destruct Hp as [<-|Hp].
  - exists r. left. split; [now left|exact Hq].
  - destruct Hq as [<-|Hq].
    + exists r. right. split; [now left|now right].
    + destruct (IH Hp Hq) as [r' [[H1 H2]|[H1 H2]]]; exists r'; [left|right]; (split; [now right|assumption]).
Qed.

(* soundness: whatever is stored was written for a canonical quartet i <= j, k <= l *)
Lemma all_writes_in n (bf : nat -> nat -> nat -> nat -> R4) (x : key) (v : R4) :
  In (x, v) (all_writes azero n bf) ->
  exists i j k l, i <= j < n /\ k <= l < n /\ In (x, v) (writes8 azero i j k l (bf i j k l)).
Proof.
  unfold all_writes. rewrite in_flat_map. intros [tl [Htl Hin]].
  destruct (tails_in _ _ Htl) as [_ [pre Hpre]].
  destruct tl as [|[i j] r]; [destruct Hin|].
  rewrite in_flat_map in Hin. destruct Hin as [[k l] [Hkl Hw]].
  exists i, j, k, l. split; [|split; [|exact Hw]]; apply pairs_in; rewrite Hpre; apply in_or_app; right.
  - now left.
  - exact Hkl.
Qed.

Lemma minmax_cases a b : (a, b) = (Nat.min a b, Nat.max a b) \/ (a, b) = (Nat.max a b, Nat.min a b).
Proof.
  destruct (Nat.le_ge_cases a b);
    [left; rewrite Nat.min_l, Nat.max_r by assumption | right; rewrite Nat.min_r, Nat.max_l by assumption]; reflexivity.
Qed.

Lemma in_keys {X Y} (x : X) (l : list (X * Y)) : In x (map fst l) -> exists v, In (x, v) l.
Proof. intros H. apply in_map_iff in H. destruct H as [[x' v] [<- H]]. now exists v. Qed.

(* the keys written for a pair (k, l) in the tail headed by (i, j) *)
Lemma all_writes_tail n (bf : nat -> nat -> nat -> nat -> R4) i j k l r x :
  In ((i, j) :: r) (tails (pairs n)) -> In (k, l) ((i, j) :: r) ->
  In x (map fst (writes8 azero i j k l (bf i j k l))) -> In x (map fst (all_writes azero n bf)).
Proof.
  intros Ht Hq Hx. apply in_map_iff in Hx. destruct Hx as [p [<- Hp]]. apply in_map.
  unfold all_writes. apply in_flat_map. exists ((i, j) :: r). split; [exact Ht|].
  apply in_flat_map. exists (k, l). split; assumption.
Qed.

(* completeness: every key below n is written: with (i, j), (k, l) the ordered pairs of (a, b), (c, d), one of the
   two pairs heads a tail that contains the other, and (a, b, c, d) is among the eight keys of that write *)
Lemma all_writes_complete n (bf : nat -> nat -> nat -> nat -> R4) a b c d :
  a < n -> b < n -> c < n -> d < n ->
  exists v, In ((a, b, c, d), v) (all_writes azero n bf).
Proof.
  intros Ha Hb Hc Hd. apply in_keys.
  assert (Hij : In (Nat.min a b, Nat.max a b) (pairs n)) by (apply pairs_in; lia).
  assert (Hkl : In (Nat.min c d, Nat.max c d) (pairs n)) by (apply pairs_in; lia).
  pose proof (minmax_cases a b) as Eab. pose proof (minmax_cases c d) as Ecd. revert Hij Hkl Eab Ecd.
  generalize (Nat.min a b), (Nat.max a b), (Nat.min c d), (Nat.max c d). intros i j k l Hij Hkl Eab Ecd.
  destruct (tails_cover _ _ _ Hij Hkl) as [r [[Ht Hq]|[Ht Hq]]]; apply (all_writes_tail _ _ _ _ _ _ r _ Ht Hq);
    destruct Eab as [E1|E1], Ecd as [E2|E2]; injection E1 as -> ->; injection E2 as -> ->; cbn; auto 10.
Qed.

Lemma lookup_in (store : list (key * R4)) (x : key) :
  (exists v, In (x, v) store) -> In (x, lookup store x) store.
Proof.
  intros [v Hv]. unfold lookup.
  destruct (find (fun p => key_eqb (fst p) x) (rev store)) as [p|] eqn:E.
  - apply find_some in E. destruct E as [Hin Hk]. apply key_eqb_eq in Hk. apply in_rev in Hin.
    destruct p as [kx vx]. cbn [fst snd] in *. now subst kx.
  - exfalso. apply in_rev in Hv. pose proof (find_none _ _ E (x, v) Hv) as Hf.
    cbn [fst] in Hf. rewrite (proj2 (key_eqb_eq x x) eq_refl) in Hf. discriminate.
Qed.

(* the cell (a, b, c, d) of the store is one of the eight images of a computed block *)
Lemma lookup_all_writes n (bf : nat -> nat -> nat -> nat -> R4) a b c d :
  a < n -> b < n -> c < n -> d < n ->
  exists i j k l, i <= j < n /\ k <= l < n /\
    In ((a, b, c, d), lookup (all_writes azero n bf) (a, b, c, d)) (writes8 azero i j k l (bf i j k l)).
Proof.
  intros Ha Hb Hc Hd. apply all_writes_in. apply lookup_in. now apply all_writes_complete.
Qed.

(* the images, spelled out: the key is the permuted quartet and the value the block with the
   matching axes exchanged *)
Lemma writes8_images i j k l (blk : R4) x v : In (x, v) (writes8 azero i j k l blk) ->
  (x = (i, j, k, l) /\ v = blk) \/
  (x = (i, j, l, k) /\ v = swapax azero 2 3 blk) \/
  (x = (j, i, k, l) /\ v = swapax azero 0 1 blk) \/
  (x = (j, i, l, k) /\ v = swapax azero 0 1 (swapax azero 2 3 blk)) \/
  (x = (k, l, i, j) /\ v = swapax azero 0 2 (swapax azero 1 3 blk)) \/
  (x = (l, k, i, j) /\ v = swapax azero 0 1 (swapax azero 0 2 (swapax azero 1 3 blk))) \/
  (x = (k, l, j, i) /\ v = swapax azero 2 3 (swapax azero 0 2 (swapax azero 1 3 blk))) \/
  (x = (l, k, j, i) /\ v = swapax azero 0 3 (swapax azero 1 2 blk)).
Proof.
  unfold writes8. cbn [In].
  intros [E|[E|[E|[E|[E|[E|[E|[E|[]]]]]]]]]; injection E as <- <-; tauto.
Qed.
End Fill.

Section Asm.
Context {F : Type} (K : Fops F).

(* the processed block of the shells (i, j, k, l) of a basis *)
Definition eri_pblock (basis : list (shell F)) (i j k l : nat) : list (list (list (list F))) :=
  let ps := map (prep K) basis in
  let d := dummy_p K in
  let sh_of p := mkSh (s_sph (p_shell p)) (p_T p) (p_norm p) in
  let q x := nth x ps d in
  block4 (f0 K) (fadd K) (fmul K)
    (s_sph (p_shell (q i))) (s_sph (p_shell (q j))) (s_sph (p_shell (q k))) (s_sph (p_shell (q l)))
    (sh_of (q i)) (sh_of (q j)) (sh_of (q k)) (sh_of (q l))
    (eri_block K (p_shell (q i)) (p_shell (q j)) (p_shell (q k)) (p_shell (q l))).

Definition eri_cell (basis : list (shell F)) (a b c d : nat) : list (list (list (list F))) :=
  lookup (all_writes (f0 K) (length basis) (eri_pblock basis)) (a, b, c, d).

Lemma all_writes_ext {A} (az : A) n (f g : nat -> nat -> nat -> nat -> list (list (list (list A)))) :
  (forall i j k l, i < n -> j < n -> k < n -> l < n -> f i j k l = g i j k l) ->
  all_writes az n f = all_writes az n g.
Proof.
  intros H. unfold all_writes.
  assert (E : forall tl, In tl (tails (pairs n)) ->
    match tl with [] => [] | (i, j) :: _ => flat_map (fun '(k, l) => writes8 az i j k l (f i j k l)) tl end
    = match tl with [] => [] | (i, j) :: _ => flat_map (fun '(k, l) => writes8 az i j k l (g i j k l)) tl end).
  { intros tl Htl. destruct (tails_in _ _ Htl) as [_ [pre Hpre]].
    destruct tl as [|[i j] r]; [reflexivity|].
    assert (Hij : i <= j < n) by (apply pairs_in; rewrite Hpre; apply in_or_app; right; now left).
    assert (Hall : forall kl, In kl ((i, j) :: r) -> fst kl <= snd kl < n).
    { intros [k l] Hkl. apply pairs_in. rewrite Hpre. apply in_or_app. now right. }
    revert Hall. generalize ((i, j) :: r). intros L HL.
    induction L as [|[k l] L IH]; [reflexivity|]. cbn [flat_map].
    pose proof (HL (k, l) (or_introl eq_refl)) as Hkl. cbn [fst snd] in Hkl.
    rewrite (H i j k l) by lia. f_equal. apply IH. intros kl Hin. apply HL. now right. }
  induction (tails (pairs n)) as [|tl T IH]; [reflexivity|]. cbn [flat_map].
  rewrite E by now left. f_equal. apply IH. intros t Ht. apply E. now right.
Qed.

End Asm.

(* a 1 x 2 x 3 x 1 array of distinct numbers *)
Definition ex_arr : list (list (list (list nat))) := [[[[1]; [2]; [3]]; [[4]; [5]; [6]]]].
