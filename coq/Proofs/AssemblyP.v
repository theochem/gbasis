(* Proofs/AssemblyP.v — property C09 on the per-axis transcription Model/Assembly14.v, for any number of shells,
   block shapes and transforms.  Processing one axis of a shell's block (axis_tr) is the linear map (lin) of a
   block-diagonal matrix: I_M (x) T for a spherical shell, the identity for a Cartesian one (Ush, axis_tr_lin);
   a block-diagonal map acts block by block on a concatenation (lin_bdiag); assembling blocks commutes with
   block-diagonal maps on both indices (asm_blocks).  The entries are any module satisfying module_laws.
   The comments (a), (b), (c) name the three clauses of the property: (a) the mixed array is the Cartesian
   one with (+)_s T_s applied, (b) the Cartesian / spherical / mixed code paths are one function of the
   coordinate types, (c) lincomb applies a further matrix T. *)
From Coq Require Import List Arith Lia Bool Field.
From GB Require Import Base.Field Base.Tables Base.Blocks Model.Assembly Model.Assembly14.
Import ListNotations.

Lemma Forall2_map_same {B C D} (R : C -> D -> Prop) (g : B -> C) (h : B -> D) l :
  Forall (fun x => R (g x) (h x)) l -> Forall2 R (map g l) (map h l).
Proof. induction 1; cbn; constructor; assumption. Qed.

Lemma map2_combine {B C D} (f : B -> C -> D) a b :
  map (fun '(x, y) => f x y) (combine a b) = map2 f a b.
Proof. revert b; induction a as [|x a IH]; intros [|y b]; cbn; [reflexivity..|]. now rewrite IH. Qed.

Lemma mk_map2 {B C D} (f : B -> C -> D) n g h : map2 f (mk n g) (mk n h) = mk n (fun j => f (g j) (h j)).
Proof. unfold mk. apply map2_map_same. Qed.

Lemma Forall2_mk {B C} (R : B -> C -> Prop) n g h :
  (forall j, j < n -> R (g j) (h j)) -> Forall2 R (mk n g) (mk n h).
Proof. intros H. apply Forall2_map_same, Forall_forall. intros j Hj. apply in_seq in Hj. apply H. lia. Qed.

(* laws of the module of entries, relativised to the well-shaped entries P
   (P = fun _ => True for scalars; P = "has that shape" for rows / slabs of a
   fixed shape, where e.g. zero + x = x only holds for rows of the right width) *)
Definition module_laws {F} (K : Fops F) {A} (azero : A) (aadd : A -> A -> A) (ascale : F -> A -> A)
           (P : A -> Prop) : Prop :=
  P azero /\ (forall x y, P x -> P y -> P (aadd x y)) /\ (forall t x, P x -> P (ascale t x)) /\
  (forall x, P x -> aadd azero x = x) /\ (forall x, P x -> aadd x azero = x) /\
  (forall x, P x -> ascale (f0 K) x = azero) /\ (forall x, P x -> ascale (f1 K) x = x).

Section AxisP.
Context {F : Type} (K : Fops F).
Context {X : Type} (xzero : X) (xadd : X -> X -> X) (xscale : F -> X -> X).
Context (P : X -> Prop).
Hypothesis ML : module_laws K xzero xadd xscale P.

Lemma ml_zero : P xzero.
Proof. apply ML. Qed.
Lemma ml_add x y : P x -> P y -> P (xadd x y).
Proof. apply ML. Qed.
Lemma ml_scale t x : P x -> P (xscale t x).
Proof. apply ML. Qed.
Lemma ml_add_0_l x : P x -> xadd xzero x = x.
Proof. apply ML. Qed.
Lemma ml_add_0_r x : P x -> xadd x xzero = x.
Proof. apply ML. Qed.
Lemma ml_scale_0 x : P x -> xscale (f0 K) x = xzero.
Proof. apply ML. Qed.
Lemma ml_scale_1 x : P x -> xscale (f1 K) x = x.
Proof. apply ML. Qed.
#[local] Hint Resolve ml_zero ml_add ml_scale : core.

Notation dot' := (dot xzero xadd xscale).
Notation lin' := (lin xzero xadd xscale).
Notation axis_tr' := (axis_tr xzero xadd xscale).

Lemma dot_P t v : Forall P v -> P (dot' t v).
Proof. revert v; induction t as [|a t IH]; intros [|x v] H; cbn; auto. inversion H; subst. auto. Qed.

Lemma lin_P T v : Forall P v -> Forall P (lin' T v).
Proof. intros H. apply Forall_map, Forall_forall. intros t _. now apply dot_P. Qed.

Lemma lin_Prow U v : Forall P v -> Prow P (length U) (lin' U v).
Proof. intros H. split; [apply map_length | now apply lin_P]. Qed.

Lemma dot_zeros n v : Forall P v -> dot' (zeros K n) v = xzero.
Proof.
  revert v; induction n as [|n IH]; intros [|x v] H; cbn; auto.
  inversion H; subst. rewrite IH, ml_scale_0 by assumption. auto using ml_add_0_l.
Qed.

Lemma dot_app_zeros_r row k v1 v2 :
  length row = length v1 -> Forall P v2 -> dot' (row ++ zeros K k) (v1 ++ v2) = dot' row v1.
Proof.
  revert v1; induction row as [|a row IH]; intros [|x v1] H H2; cbn in *; try lia.
  - now apply dot_zeros.
  - now rewrite IH by (assumption || lia).
Qed.

Lemma dot_app_zeros_l c row v1 v2 :
  length v1 = c -> Forall P v1 -> Forall P v2 -> dot' (zeros K c ++ row) (v1 ++ v2) = dot' row v2.
Proof.
  revert v1; induction c as [|c IH]; intros [|x v1] H H1 H2; cbn in *; try lia; [reflexivity|].
  inversion H1; subst. rewrite IH, ml_scale_0 by (assumption || lia).
  apply ml_add_0_l. now apply dot_P.
Qed.

Definition fits (U : list (list F)) (v : list X) : Prop := length v = ncols U /\ rect U /\ Forall P v.

(* block-sum lemma: (+)_s U_s applied to the concatenation = concatenation of U_s v_s *)
Lemma lin_bdiag Us vs :
  Forall2 fits Us vs -> lin' (bdiag K Us) (concat vs) = concat (map2 lin' Us vs).
Proof.
  induction 1 as [|U v Us vs [H1 [H2 H3]] HF IH]; [reflexivity|].
  assert (H4 : Forall P (concat vs)).
  { apply Forall_concat. clear IH. induction HF as [|? ? ? ? [_ [_ H4]] _ IH']; constructor; assumption. }
  cbn [concat map2 bdiag]. rewrite <- IH. unfold lin. rewrite map_app, !map_map. f_equal.
  - apply map_ext_in. intros row Hin. apply dot_app_zeros_r; [|assumption].
    unfold rect in H2. rewrite Forall_forall in H2. rewrite (H2 _ Hin). lia.
  - apply map_ext. intros row. now apply dot_app_zeros_l.
Qed.

Lemma lin_ident v : Forall P v -> lin' (ident K (length v)) v = v.
Proof.
  induction 1 as [|x v Hx Hv IH]; [reflexivity|].
  cbn [length ident]. unfold lin in *. cbn [map]. f_equal.
  - cbn [dot]. rewrite dot_zeros, ml_scale_1 by assumption. now apply ml_add_0_r.
  - rewrite map_map. rewrite <- IH at 2. apply map_ext. intros t.
    cbn [dot]. rewrite ml_scale_0 by assumption. apply ml_add_0_l. now apply dot_P.
Qed.

(* the module of rows of width w: its laws, relativised to "has width w and entries in P" *)
Lemma module_laws_rows w : module_laws K (rzero xzero w) (radd xadd) (rscale xscale) (Prow P w).
Proof.
  unfold rzero, radd, rscale. repeat apply conj.
  - apply repeat_length.
  - apply Forall_forall. intros x Hx. apply repeat_spec in Hx. now subst.
  - intros x y [Lx Hx] [Ly Hy]. split; [rewrite map2_length; lia|].
    clear Lx Ly. revert y Hy. induction Hx; intros [|b y] Hy; cbn; constructor; inversion Hy; subst; auto.
  - intros t x [Lx Hx]. split; [now rewrite map_length|].
    apply Forall_map. eapply Forall_impl; [|exact Hx]. auto.
  - intros x [<- Hx]. induction Hx as [|a x Ha Hx IH]; cbn; [reflexivity|]. now rewrite IH, ml_add_0_l.
  - intros x [<- Hx]. induction Hx as [|a x Ha Hx IH]; cbn; [reflexivity|]. now rewrite IH, ml_add_0_r.
  - intros x [<- Hx]. induction Hx as [|a x Ha Hx IH]; cbn; [reflexivity|]. now rewrite IH, ml_scale_0.
  - intros x [_ Hx]. induction Hx as [|a x Ha Hx IH]; cbn; [reflexivity|]. now rewrite IH, ml_scale_1.
Qed.

(* T_s of the property for one shell whose (normalised) block is nb[m][c]:
   identity for a Cartesian shell, I_M (x) T for a spherical one *)
Definition Ush (sph : bool) (T : list (list F)) (nb : list (list X)) : list (list F) :=
  if sph then bdiag K (repeat T (length nb)) else ident K (length (concat nb)).

Definition ax_ok (sph : bool) (T : list (list F)) (nb : list (list X)) : Prop :=
  Forall (Forall P) nb /\
  (sph = true -> T <> [] /\ rect T /\ Forall (fun r => length r = ncols T) nb).

Lemma axis_tr_lin sph T nb : ax_ok sph T nb ->
  axis_tr' sph T nb = lin' (Ush sph T nb) (concat nb).
Proof.
  intros [HP Hs]. unfold axis_tr, Ush. destruct sph.
  - destruct (Hs eq_refl) as [Hne [HT Hr]]. rewrite lin_bdiag; [now rewrite map2_repeat|].
    clear Hs. induction nb as [|r nb IH]; cbn; constructor; inversion HP; inversion Hr; subst.
    + repeat split; assumption.
    + apply IH; assumption.
  - symmetry. apply lin_ident. now apply Forall_concat.
Qed.

Lemma Ush_fits sph T nb : ax_ok sph T nb -> fits (Ush sph T nb) (concat nb).
Proof.
  intros [HP Hs]. unfold Ush, fits, rect. apply Forall_concat in HP. destruct sph.
  - destruct (Hs eq_refl) as [Hne [HT Hr]].
    destruct (bdiag_repeat_shape K T (length nb) Hne HT) as [E1 E2].
    rewrite E1. repeat split; [|assumption..]. now apply concat_length_const.
  - destruct (ident_shape K (length (concat nb))) as [E1 E2]. rewrite E1.
    repeat split; assumption.
Qed.
End AxisP.

(* T on index 0 of a matrix whose rows have width w *)
Section MatLeft.
Context {F A : Type} (azero : A) (aadd : A -> A -> A) (ascale : F -> A -> A).
Definition mat_left_w (w : nat) (T : list (list F)) (m : list (list A)) : list (list A) :=
  lin (rzero azero w) (radd aadd) (rscale ascale) T m.

Lemma mat_left_is_w T m : mat_left azero aadd ascale T m = mat_left_w (length (hd [] m)) T m.
Proof. reflexivity. Qed.
End MatLeft.

Lemma hcat_cons {B} (m : list (list B)) rest : rest <> [] ->
  hcat (m :: rest) = map2 (@app B) m (hcat rest).
Proof. intros H. destruct rest as [|m' r]; [congruence|]. cbn [hcat]. now rewrite map2_combine. Qed.

Lemma hcat_length {B} R (Ms : list (list (list B))) : Ms <> [] ->
  Forall (fun M => length M = R) Ms -> length (hcat Ms) = R.
Proof.
  intros Hne H. induction H as [|M Ms HM HF IH]; [congruence|].
  destruct Ms as [|M' Ms']; [exact HM|]. rewrite hcat_cons by discriminate.
  rewrite map2_length; [exact HM|]. rewrite IH by discriminate. exact HM.
Qed.

(* row a of hcat Ms is the concatenation of the rows a of the blocks *)
Lemma hcat_row {B} R (Ms : list (list (list B))) a : Ms <> [] ->
  Forall (fun M => length M = R) Ms -> a < R ->
  nth a (hcat Ms) [] = concat (map (fun M => nth a M []) Ms).
Proof.
  intros Hne H Ha. induction H as [|M Ms HM HF IH]; [congruence|].
  destruct Ms as [|M' Ms']; [cbn; now rewrite app_nil_r|].
  assert (HL : length (hcat (M' :: Ms')) = R) by (now apply hcat_length).
  rewrite hcat_cons, (nth_map2 (@app B) M _ [] [] []), IH by (discriminate || lia). reflexivity.
Qed.

Lemma hcat_mk {B} R n (f : nat -> list (list B)) : 0 < n -> (forall j, j < n -> length (f j) = R) ->
  hcat (mk n f) = mk R (fun a => concat (mk n (fun j => nth a (f j) []))).
Proof.
  intros Hn Hf. assert (Hne := mk_nonempty n f Hn). apply (Forall_mk (fun M => length M = R)) in Hf.
  apply (nth_ext _ _ [] []); rewrite (hcat_length R) by assumption; [now rewrite mk_length|].
  intros a Ha. rewrite (hcat_row R), nth_mk, map_mk by assumption. reflexivity.
Qed.

Lemma two_asymm_blocks_ext {B} n1 n2 (f g : nat -> nat -> list (list B)) :
  (forall i j, i < n1 -> j < n2 -> f i j = g i j) -> two_asymm_blocks n1 n2 f = two_asymm_blocks n1 n2 g.
Proof.
  intros H. unfold two_asymm_blocks. f_equal. apply mk_ext. intros i Hi. f_equal.
  apply mk_ext. intros j Hj. now apply H.
Qed.

Lemma two_symm_blocks_t_asymm {B} (z : B) n bf :
  two_symm_blocks_t z n bf = two_asymm_blocks n n (fun i j => if i <? j then bf i j else transpose z (bf j i)).
Proof. reflexivity. Qed.

Section OneP.
Context {F : Type} (K : Fops F).
Context {A : Type} (azero : A) (aadd : A -> A -> A) (ascale : F -> A -> A).
Context (P : A -> Prop).
Hypothesis ML : module_laws K azero aadd ascale P.

Notation shb := (@sh F * list (list A))%type.
Definition nb_of (p : shb) : list (list A) := norm_axis ascale (sh_n (fst p)) (snd p).
Definition set_sph (v : bool) (p : shb) : shb := (mkSh v (sh_T (fst p)) (sh_n (fst p)), snd p).

(* hypothesis of the theorems: entries well-shaped; for a spherical shell the
   transform is a non-empty rectangular matrix whose width is the number of
   components of every segment row of the normalised block *)
Definition shell_ok (p : shb) : Prop := ax_ok P (sh_sph (fst p)) (sh_T (fst p)) (nb_of p).

(* (+)_s T_s *)
Definition Ubasis (l : list shb) : list (list F) :=
  bdiag K (map (fun p => Ush K (sh_sph (fst p)) (sh_T (fst p)) (nb_of p)) l).

(* (a) one index *)
Lemma one_mix_is_cart_transformed l : Forall shell_ok l ->
  one_mix azero aadd ascale l = lin azero aadd ascale (Ubasis l) (one_cartesian ascale l).
Proof.
  intros H. unfold one_mix, one_cartesian, Ubasis. rewrite (lin_bdiag K azero aadd ascale P ML).
  - rewrite map2_map_same. f_equal. apply map_ext_Forall. eapply Forall_impl; [|exact H].
    intros [s b]. apply (axis_tr_lin K azero aadd ascale P ML).
  - apply Forall2_map_same. eapply Forall_impl; [|exact H]. intros [s b]. apply (Ush_fits K P).
Qed.

(* (b) the three code paths agree *)
Lemma one_spherical_is_mix l :
  one_spherical azero aadd ascale l = one_mix azero aadd ascale (map (set_sph true) l).
Proof. unfold one_spherical, one_mix. f_equal. rewrite map_map. apply map_ext. now intros [s b]. Qed.

Lemma one_cartesian_is_mix l :
  one_cartesian ascale l = one_mix azero aadd ascale (map (set_sph false) l).
Proof. unfold one_cartesian, one_mix. f_equal. rewrite map_map. apply map_ext. now intros [s b]. Qed.

Lemma set_sph_id v l : (forall p : shb, In p l -> sh_sph (fst p) = v) -> map (set_sph v) l = l.
Proof.
  intros H. rewrite <- (map_id l) at 2. apply map_ext_in. intros [[sp T n] b] Hp.
  unfold set_sph. cbn. now rewrite <- (H _ Hp).
Qed.

(* (c) one index: lincomb = T applied to the array of the given types, entry-wise a dot product *)
Lemma one_lincomb_is_T_applied T l :
  one_lincomb azero aadd ascale T l = lin azero aadd ascale T (one_mix azero aadd ascale l).
Proof.
  unfold one_lincomb. f_equal.
  destruct (forallb (fun p : shb => negb (sh_sph (fst p))) l) eqn:E1.
  - rewrite forallb_forall in E1. rewrite one_cartesian_is_mix, set_sph_id; [reflexivity|].
    intros p Hp. now apply negb_true_iff, E1.
  - destruct (forallb (fun p : shb => sh_sph (fst p)) l) eqn:E2; [|reflexivity].
    rewrite forallb_forall in E2. now rewrite one_spherical_is_mix, set_sph_id.
Qed.

Lemma lin_entry T (v : list A) i : i < length T ->
  nth i (lin azero aadd ascale T v) azero = dot azero aadd ascale (nth i T []) v.
Proof. apply (nth_map_lt (fun t => dot azero aadd ascale t v)). Qed.

Lemma length_bdiag_repeat (T : list (list F)) M : length (bdiag K (repeat T M)) = M * length T.
Proof. induction M as [|M IH]; [reflexivity|]. cbn [repeat bdiag]. rewrite app_length, !map_length, IH. lia. Qed.
Lemma length_ident n : length (ident K n) = n.
Proof. induction n as [|n IH]; [reflexivity|]. cbn [ident length]. now rewrite map_length, IH. Qed.
(* T_s by shapes: M segments, n Cartesian functions *)
Definition Ushape (sph : bool) (T : list (list F)) (M n : nat) : list (list F) :=
  if sph then bdiag K (repeat T M) else ident K n.
Lemma length_Ushape sph T M n : length (Ushape sph T M n) = if sph then M * length T else n.
Proof. destruct sph; [apply length_bdiag_repeat | apply length_ident]. Qed.

End OneP.

Section TwoP.
Context {F : Type} (K : Fops F).
Context {A : Type} (azero : A) (aadd : A -> A -> A) (ascale : F -> A -> A).
Context (P : A -> Prop).
Hypothesis ML : module_laws K azero aadd ascale P.

Notation linA := (lin azero aadd ascale).
Notation trA := (axis_tr azero aadd ascale).
Notation mat_right' := (mat_right azero aadd ascale).
Notation mat_left_w' := (mat_left_w azero aadd ascale).
Notation ML_rows := (module_laws_rows K azero aadd ascale P ML).

(* shape hypothesis on one (M2, L2) slab of a normalised block *)
Definition slab_ok (sph2 : bool) (T2 : list (list F)) (M2 n2 : nat) (slab : list (list A)) : Prop :=
  ax_ok P sph2 T2 slab /\ length slab = M2 /\ length (concat slab) = n2.

Lemma block2_core sph1 sph2 T1 T2 M2 n2 (b : list (list (list (list A)))) :
  Forall (Forall (slab_ok sph2 T2 M2 n2)) b ->
  (sph1 = true -> T1 <> [] /\ rect T1 /\ Forall (fun r => length r = ncols T1) b) ->
  let U2 := Ushape K sph2 T2 M2 n2 in
  axis_tr (rzero azero (length U2)) (radd aadd) (rscale ascale) sph1 T1 (map (map (trA sph2 T2)) b)
  = mat_left_w' (length U2) (Ushape K sph1 T1 (length b) (length (concat b)))
      (mat_right' U2 (map (@concat A) (concat b))).
Proof.
  intros Hb H1 U2.
  assert (Hin : map (map (trA sph2 T2)) b = map (map (fun slab => linA U2 (concat slab))) b).
  { apply map_ext_Forall. eapply Forall_impl; [|exact Hb]. intros r Hr.
    apply map_ext_Forall. eapply Forall_impl; [|exact Hr]. intros slab [Hok [<- <-]].
    now apply (axis_tr_lin K azero aadd ascale P ML). }
  rewrite Hin, (axis_tr_lin K _ _ _ (Prow P (length U2)) (ML_rows (length U2))).
  - unfold mat_left_w, mat_right, Ush, Ushape. now rewrite map_length, <- !concat_map, map_length, map_map.
  - split.
    + apply Forall_map. eapply Forall_impl; [|exact Hb]. intros r Hr.
      apply Forall_map. eapply Forall_impl; [|exact Hr]. intros slab [[HP _] _].
      now apply (lin_Prow K azero aadd ascale P ML), Forall_concat.
    + intros Hs. destruct (H1 Hs) as [Hne [HT Hr]]. repeat split; auto.
      apply Forall_map. eapply Forall_impl; [|exact Hr]. intros r Hr'. now rewrite map_length.
Qed.

(* hypothesis on a block of shells (s1, s2) for the given types *)
Definition block2_ok (sph1 sph2 : bool) (s1 s2 : @sh F) (blk : list (list (list (list A)))) : Prop :=
  let b := normalise2 ascale (sh_n s1) (sh_n s2) blk in
  Forall (Forall (slab_ok sph2 (sh_T s2) (length (sh_n s2)) (length (concat (sh_n s2))))) b /\
  (sph1 = true -> sh_T s1 <> [] /\ rect (sh_T s1) /\ Forall (fun r => length r = ncols (sh_T s1)) b).

(* T_s of shell s1 for a block with shells (s1, s2) *)
Definition U_left (sph1 : bool) (s1 s2 : @sh F) (blk : list (list (list (list A)))) :=
  let b := normalise2 ascale (sh_n s1) (sh_n s2) blk in
  Ushape K sph1 (sh_T s1) (length b) (length (concat b)).
Definition U_of (sph : bool) (s : @sh F) :=
  Ushape K sph (sh_T s) (length (sh_n s)) (length (concat (sh_n s))).

Lemma axis_width_U sph s : axis_width sph s = length (U_of sph s).
Proof. unfold axis_width, U_of. rewrite length_Ushape. now destruct sph. Qed.

(* per-block form of (a) for two indices *)
Lemma block2_is_cart_transformed sph1 sph2 s1 s2 blk :
  block2_ok sph1 sph2 s1 s2 blk ->
  block2 azero aadd ascale sph1 sph2 s1 s2 blk
  = mat_left_w' (axis_width sph2 s2) (U_left sph1 s1 s2 blk)
      (mat_right' (U_of sph2 s2) (block2 azero aadd ascale false false s1 s2 blk)).
Proof.
  intros [Hb H1]. unfold block2 at 1. rewrite axis_width_U. unfold r1add, r1scale, U_of.
  rewrite (block2_core sph1 sph2 (sh_T s1) (sh_T s2) (length (sh_n s2)) (length (concat (sh_n s2)))); auto.
  unfold U_left. f_equal. f_equal. unfold block2, axis_tr. rewrite <- concat_map. reflexivity.
Qed.

End TwoP.

Section AsmP.
Context {F : Type} (K : Fops F).
Context {A : Type} (azero : A) (aadd : A -> A -> A) (ascale : F -> A -> A).
Context (P : A -> Prop).
Hypothesis ML : module_laws K azero aadd ascale P.

Notation mat_right' := (mat_right azero aadd ascale).
Notation mat_left_w' := (mat_left_w azero aadd ascale).
Notation dotR w := (dot (rzero azero w) (radd aadd) (rscale ascale)).
Notation block2' := (block2 azero aadd ascale).
Notation ML_rows := (module_laws_rows K azero aadd ascale P ML).

(* a matrix all of whose rows have width w and entries in P *)
Definition mat_ok (w : nat) (m : list (list A)) : Prop := Forall (Prow P w) m.

Lemma mat_ok_nth w m a : mat_ok w m -> a < length m -> Prow P w (nth a m []).
Proof. intros H Ha. unfold mat_ok in H. rewrite Forall_forall in H. now apply H, nth_In. Qed.

Lemma mat_right_ok w U C : mat_ok w C -> mat_ok (length U) (mat_right' U C).
Proof. intros H. apply Forall_map. eapply Forall_impl; [|exact H]. intros r [_ Hr]. now apply (lin_Prow K azero aadd ascale P ML). Qed.

Lemma Prow_concat ws rs : Forall2 (Prow P) ws rs -> Prow P (fold_right plus 0 ws) (concat rs).
Proof.
  induction 1 as [|w r ws rs [L Hr] _ [IL IH]]; [split; constructor|].
  split; cbn; [rewrite app_length; lia | now apply Forall_app].
Qed.

Lemma hcat_ok R n (w : nat -> nat) (f : nat -> list (list A)) : 0 < n ->
  (forall j, j < n -> length (f j) = R /\ mat_ok (w j) (f j)) ->
  mat_ok (fold_right plus 0 (mk n w)) (hcat (mk n f)).
Proof.
  intros Hn H. rewrite (hcat_mk R) by (assumption || intros j Hj; now apply H).
  apply Forall_mk. intros a Ha. apply Prow_concat, Forall2_mk. intros j Hj.
  destruct (H j Hj) as [HL HM]. apply mat_ok_nth; [assumption|lia].
Qed.

(* T on index 1 acts block by block: per row it is the block-sum lemma *)
Lemma mat_right_blocks (R : nat -> nat) n1 n2 (U2 : nat -> list (list F)) (Cf : nat -> nat -> list (list A)) :
  0 < n2 -> (forall j, j < n2 -> rect (U2 j)) ->
  (forall i j, i < n1 -> j < n2 -> length (Cf i j) = R i /\ mat_ok (ncols (U2 j)) (Cf i j)) ->
  mat_right' (bdiag K (mk n2 U2)) (two_asymm_blocks n1 n2 Cf)
  = two_asymm_blocks n1 n2 (fun i j => mat_right' (U2 j) (Cf i j)).
Proof.
  intros Hn HU HC. unfold two_asymm_blocks, vcat, mat_right at 1. rewrite concat_map, map_mk. f_equal.
  apply mk_ext. intros i Hi.
  rewrite (hcat_mk (R i)), (hcat_mk (R i)), map_mk;
    [|assumption|intros j Hj; unfold mat_right; rewrite map_length; now apply HC|assumption|intros j Hj; now apply HC].
  apply mk_ext. intros a Ha. rewrite (lin_bdiag K azero aadd ascale P ML), mk_map2.
  - f_equal. apply mk_ext. intros j Hj. symmetry. apply nth_map_lt. destruct (HC i j Hi Hj) as [-> _]. exact Ha.
  - apply Forall2_mk. intros j Hj. destruct (HC i j Hi Hj) as [HL HM].
    destruct (mat_ok_nth _ _ a HM) as [L Pv]; [lia|]. repeat split; auto.
Qed.

Lemma dotR_length w t m : mat_ok w m -> length (dotR w t m) = w.
Proof. intros H. exact (proj1 (dot_P K _ _ _ _ (ML_rows w) t m H)). Qed.

Lemma dotR_app w1 w2 t m1 m2 : length m1 = length m2 -> mat_ok w1 m1 ->
  dotR (w1 + w2) t (map2 (@app A) m1 m2) = dotR w1 t m1 ++ dotR w2 t m2.
Proof.
  revert m1 m2. induction t as [|a t IH]; intros [|r1 m1] [|r2 m2] HL H1; cbn in HL; try lia;
    cbn [map2 dot]; try apply repeat_app.
  inversion H1 as [|? ? [L1 _] H1']; subst. rewrite IH by (assumption || lia).
  unfold radd, rscale. rewrite map_app. apply map2_app.
  rewrite map_length. symmetry. now apply dotR_length.
Qed.

Lemma mat_left_app w1 w2 U m1 m2 : length m1 = length m2 -> mat_ok w1 m1 ->
  mat_left_w' (w1 + w2) U (map2 (@app A) m1 m2) = map2 (@app A) (mat_left_w' w1 U m1) (mat_left_w' w2 U m2).
Proof.
  intros HL H1. unfold mat_left_w, lin. rewrite map2_map_same. apply map_ext. intros t. now apply dotR_app.
Qed.

(* T on index 0 distributes over horizontal concatenation *)
Lemma mat_left_hcat U R ws Ms :
  Forall (fun M => length M = R) Ms -> Forall2 mat_ok ws Ms -> Ms <> [] ->
  mat_left_w' (fold_right plus 0 ws) U (hcat Ms) = hcat (map2 (fun w M => mat_left_w' w U M) ws Ms).
Proof.
  intros HR HF. induction HF as [|w M ws Ms HM HF IH]; [congruence|]. intros _.
  inversion HR as [|? ? HRM HR']; subst.
  destruct HF as [|w' M' ws' Ms' HM' HF'].
  - cbn. now rewrite Nat.add_0_r.
  - cbn [fold_right map2] in IH |- *. rewrite hcat_cons by discriminate.
    rewrite mat_left_app, IH by (assumption || discriminate || now rewrite (hcat_length (length M))).
    now rewrite (hcat_cons (mat_left_w' w U M)) by discriminate.
Qed.

Lemma mat_left_blocks n1 n2 (U1 : nat -> list (list F)) (w : nat -> nat) (Df : nat -> nat -> list (list A)) :
  0 < n2 -> (forall i, i < n1 -> rect (U1 i)) ->
  (forall i j, i < n1 -> j < n2 -> length (Df i j) = ncols (U1 i) /\ mat_ok (w j) (Df i j)) ->
  mat_left_w' (fold_right plus 0 (mk n2 w)) (bdiag K (mk n1 U1)) (two_asymm_blocks n1 n2 Df)
  = two_asymm_blocks n1 n2 (fun i j => mat_left_w' (w j) (U1 i) (Df i j)).
Proof.
  intros Hn HU HD. set (W := fold_right plus 0 (mk n2 w)). unfold two_asymm_blocks, vcat, mat_left_w at 1.
  rewrite (lin_bdiag K _ _ _ (Prow P W) (ML_rows W)), mk_map2.
  - f_equal. apply mk_ext. intros i Hi.
    transitivity (hcat (map2 (fun w M => mat_left_w' w (U1 i) M) (mk n2 w) (mk n2 (Df i)))); [|now rewrite mk_map2].
    apply (mat_left_hcat (U1 i) (ncols (U1 i))); [| |now apply mk_nonempty].
    + apply Forall_mk. intros j Hj. now apply HD.
    + apply Forall2_mk. intros j Hj. now apply HD.
  - apply Forall2_mk. intros i Hi. repeat split; [|now apply HU|apply (hcat_ok (ncols (U1 i))); auto].
    apply hcat_length; [now apply mk_nonempty|]. apply Forall_mk. intros j Hj. now apply HD.
Qed.

(* Assembling blocks commutes with block-diagonal maps: if every block B i j is
   U1 i applied on index 0 and U2 j on index 1 of the block C i j, the assembled
   array of the B's is (+)U1 on index 0 and (+)U2 on index 1 of the assembled C's. *)
Lemma asm_blocks n1 n2 (U1 U2 : nat -> list (list F)) (Cf Bf : nat -> nat -> list (list A)) :
  0 < n2 ->
  (forall i j, i < n1 -> j < n2 ->
     Bf i j = mat_left_w' (length (U2 j)) (U1 i) (mat_right' (U2 j) (Cf i j))) ->
  (forall i, i < n1 -> rect (U1 i)) -> (forall j, j < n2 -> rect (U2 j)) ->
  (forall i j, i < n1 -> j < n2 -> length (Cf i j) = ncols (U1 i) /\ mat_ok (ncols (U2 j)) (Cf i j)) ->
  two_asymm_blocks n1 n2 Bf
  = mat_left_w' (fold_right plus 0 (mk n2 (fun j => length (U2 j)))) (bdiag K (mk n1 U1))
      (mat_right' (bdiag K (mk n2 U2)) (two_asymm_blocks n1 n2 Cf)).
Proof.
  intros Hn2 HB HU1 HU2 HC.
  rewrite (mat_right_blocks (fun i => ncols (U1 i))), mat_left_blocks; try assumption.
  - now apply two_asymm_blocks_ext.
  - intros i j Hi Hj. destruct (HC i j Hi Hj) as [HL HM].
    split; [unfold mat_right; now rewrite map_length | now apply mat_right_ok with (w := ncols (U2 j))].
Qed.

Let d0 : @sh F := mkSh false [] [].
Definition Ui (ss : list (@sh F)) (i : nat) : list (list F) :=
  U_of K (sh_sph (nth i ss d0)) (nth i ss d0).
(* (+)_s T_s for a list of shells *)
Definition Ulist (ss : list (@sh F)) : list (list F) := bdiag K (mk (length ss) (Ui ss)).
Definition Wlist (ss : list (@sh F)) : nat := fold_right plus 0 (mk (length ss) (fun j => length (Ui ss j))).

(* shape hypotheses on the block of shells (s1, s2) *)
Definition pair_ok (s1 s2 : @sh F) (blk : list (list (list (list A)))) : Prop :=
  block2_ok ascale P (sh_sph s1) (sh_sph s2) s1 s2 blk /\
  U_left K ascale (sh_sph s1) s1 s2 blk = U_of K (sh_sph s1) s1 /\
  rect (U_of K (sh_sph s1) s1) /\ rect (U_of K (sh_sph s2) s2) /\
  length (block2' false false s1 s2 blk) = ncols (U_of K (sh_sph s1) s1) /\
  mat_ok (ncols (U_of K (sh_sph s2) s2)) (block2' false false s1 s2 blk).

Lemma pair_law s1 s2 blk : pair_ok s1 s2 blk ->
  block2' (sh_sph s1) (sh_sph s2) s1 s2 blk
  = mat_left_w' (length (U_of K (sh_sph s2) s2)) (U_of K (sh_sph s1) s1)
      (mat_right' (U_of K (sh_sph s2) s2) (block2' false false s1 s2 blk)).
Proof.
  intros (Hok & HU & _). rewrite (block2_is_cart_transformed K azero aadd ascale P ML) by assumption.
  now rewrite HU, (axis_width_U K).
Qed.

(* (a) two indices, asymmetric class (both lists non-empty, as the constructor demands) *)
Lemma two_asymm_mix_is_cart_transformed ss1 ss2 bf :
  0 < length ss1 -> 0 < length ss2 ->
  (forall i j, i < length ss1 -> j < length ss2 -> pair_ok (nth i ss1 d0) (nth j ss2 d0) (bf i j)) ->
  two_asymm_n azero aadd ascale 2 ss1 ss2 bf
  = mat_left_w' (Wlist ss2) (Ulist ss1) (mat_right' (Ulist ss2) (two_asymm_n azero aadd ascale 0 ss1 ss2 bf)).
Proof.
  intros Hn1 Hn H. unfold two_asymm_n, Ulist, Wlist.
  apply (asm_blocks (length ss1) (length ss2) (Ui ss1) (Ui ss2)); auto.
  - intros i j Hi Hj. now apply pair_law, H.
  - intros i Hi. destruct (H i 0 Hi Hn) as (_ & _ & HR & _). exact HR.
  - intros j Hj. destruct (H 0 j Hn1 Hj) as (_ & _ & _ & HR & _). exact HR.
  - intros i j Hi Hj. destruct (H i j Hi Hj) as (_ & _ & _ & _ & HL & HM). split; assumption.
Qed.

(* (a) two indices, symmetric class.  The upper blocks (i < j) are processed blocks, every other
   block is the transpose of the mirrored processed block (two_symm_blocks_t).  PARTIAL: the law
   "transposition exchanges the roles of the two transforms" for the mirrored blocks,
     transpose (L_Uj (R_Ui C)) = L_Ui (R_Uj (transpose C)),
   is taken as hypothesis [Hlow] here (its proof needs additivity / commutativity laws of the
   module that the other theorems do not need); everything else is proved. *)
Lemma two_symm_mix_is_cart_transformed_partial ss bf :
  0 < length ss ->
  (forall i j, i < length ss -> j < length ss -> pair_ok (nth i ss d0) (nth j ss d0) (bf i j)) ->
  (forall i j, j <= i -> i < length ss ->
     let C := block2' false false (nth j ss d0) (nth i ss d0) (bf j i) in
     transpose azero (mat_left_w' (length (Ui ss i)) (Ui ss j) (mat_right' (Ui ss i) C))
     = mat_left_w' (length (Ui ss j)) (Ui ss i) (mat_right' (Ui ss j) (transpose azero C)) /\
     length (transpose azero C) = ncols (Ui ss i) /\ mat_ok (ncols (Ui ss j)) (transpose azero C)) ->
  two_symm_n azero aadd ascale 2 ss bf
  = mat_left_w' (Wlist ss) (Ulist ss) (mat_right' (Ulist ss) (two_symm_n azero aadd ascale 0 ss bf)).
Proof.
  intros Hn H Hlow. unfold two_symm_n, Ulist, Wlist. rewrite !two_symm_blocks_t_asymm.
  apply (asm_blocks (length ss) (length ss) (Ui ss) (Ui ss)); auto.
  - intros i j Hi Hj. cbv beta. fold d0. destruct (Nat.ltb_spec i j) as [Hij|Hij].
    + now apply pair_law, H.
    + rewrite (pair_law _ _ _ (H j i Hj Hi)). now apply (Hlow i j Hij Hi).
  - intros i Hi. destruct (H i 0 Hi Hn) as (_ & _ & HR & _). exact HR.
  - intros j Hj. destruct (H 0 j Hn Hj) as (_ & _ & _ & HR & _). exact HR.
  - intros i j Hi Hj. cbv beta. fold d0. destruct (Nat.ltb_spec i j) as [Hij|Hij].
    + destruct (H i j Hi Hj) as (_ & _ & _ & _ & HL & HM). split; assumption.
    + destruct (Hlow i j Hij Hi) as (_ & HL & HM). split; assumption.
Qed.

(* the type a code path (0 Cartesian, 1 spherical, else mixed) assigns to a shell whose type agrees with it;
   (b) for two indices is stated from this in Props/C09.v *)
Lemma mode_ty mode (s : @sh F) :
  (mode = 0 -> sh_sph s = false) -> (mode = 1 -> sh_sph s = true) ->
  match mode with 0 => false | 1 => true | _ => sh_sph s end = sh_sph s.
Proof. intros H0 H1. destruct mode as [|[|m]]; [symmetry; now apply H0 | symmetry; now apply H1 | reflexivity]. Qed.

(* four indices, first index only: the block after normalisation and the processing of indices 2, 3, 4:
   b2[m1][c1] is an (n2, n3, n4) array *)
Definition b2_of (t2 t3 t4 : bool) (s1 s2 s3 s4 : @sh F)
           (blk : list (list (list (list (list (list (list (list A)))))))) :=
  let b := normalise4 ascale (sh_n s1) (sh_n s2) (sh_n s3) (sh_n s4) blk in
  let w4 := axis_width t4 s4 in let w3 := axis_width t3 s3 in
  let z1 := rzero azero w4 in let z2 := rzero z1 w3 in
  let b4 := map (map (map (map (map (map (axis_tr azero aadd ascale t4 (sh_T s4))))))) b in
  let b3 := map (map (map (map (axis_tr z1 (r1add aadd) (r1scale ascale) t3 (sh_T s3))))) b4 in
  map (map (axis_tr z2 (r2add aadd) (r2scale ascale) t2 (sh_T s2))) b3.

Definition P3 (t2 t3 t4 : bool) (s2 s3 s4 : @sh F) : list (list (list A)) -> Prop :=
  Prow (Prow (Prow P (axis_width t4 s4)) (axis_width t3 s3)) (axis_width t2 s2).

End AsmP.

From GB Require Import Model.Shell Model.Spherical.

Definition flip_label (flip : bool) (lb : label) : label :=
  let '(neg, sine, m) := lb in (xorb neg flip, sine, m).

Section ConvP.
Context {F : Type} (K : Fops F) (Kf : is_field K).
Add Field KF_conv : Kf.
Definition sgn (flip : bool) : F := if flip then fopp K (f1 K) else f1 K.

(* A shell reporting its Cartesian components in the order carts[pi[0]], carts[pi[1]], ... and
   its spherical labels as (+/-) labels[sg[0]], ... gets the transform of the reference
   convention with columns permuted by pi and rows permuted / signed by sg. *)
Lemma sph_transform_convention l (carts : list comp) (labels : list label)
      (pi : list nat) (sg : list (nat * bool)) dc dl :
  Forall (fun k => k < length carts) pi -> Forall (fun p => fst p < length labels) sg ->
  sph_transform K l (map (fun k => nth k carts dc) pi)
                    (map (fun p => flip_label (snd p) (nth (fst p) labels dl)) sg)
  = map (fun p => map (fun k => fmul K (sgn (snd p))
                                  (nth k (nth (fst p) (sph_transform K l carts labels) []) (f0 K))) pi) sg.
Proof.
  intros Hpi Hsg. unfold sph_transform. rewrite map_map. apply map_ext_Forall.
  eapply Forall_impl; [|exact Hsg]. intros [k flip] Hk. cbn [fst snd] in *.
  rewrite (nth_map_lt _ labels k dl) by exact Hk.
  destruct (nth k labels dl) as [[neg sine] m]. cbn [flip_label].
  rewrite map_map. apply map_ext_Forall. eapply Forall_impl; [|exact Hpi]. intros kc Hkc.
  rewrite (nth_map_lt _ carts kc dc) by exact Hkc. unfold sgn.
  destruct neg, flip; cbn [xorb]; ring.
Qed.
End ConvP.

Section ConvOut.
Context {F : Type} (K : Fops F).
Context {A : Type} (azero : A) (aadd : A -> A -> A) (ascale : F -> A -> A).
Hypothesis Sz : forall s, ascale s azero = azero.
Hypothesis Sadd : forall s x y, ascale s (aadd x y) = aadd (ascale s x) (ascale s y).
Hypothesis Smul : forall s a x, ascale (fmul K s a) x = ascale s (ascale a x).

Lemma dot_scaled s t (v : list A) :
  dot azero aadd ascale (map (fmul K s) t) v = ascale s (dot azero aadd ascale t v).
Proof.
  revert v; induction t as [|a t IH]; intros [|x v]; cbn; try (now rewrite Sz).
  now rewrite IH, Sadd, Smul.
Qed.

(* the output of a spherical shell follows the rows of its transform: rows permuted and
   signed by sg give outputs permuted and signed by sg (any block v, any T) *)
Lemma lin_rows_convention (T : list (list F)) (sg : list (nat * F)) (v : list A) :
  lin azero aadd ascale (map (fun p => map (fmul K (snd p)) (nth (fst p) T [])) sg) v
  = map (fun p => ascale (snd p) (nth (fst p) (lin azero aadd ascale T v) (dot azero aadd ascale [] v))) sg.
Proof.
  unfold lin. rewrite map_map. apply map_ext. intros [k s]. cbn [fst snd].
  rewrite dot_scaled. f_equal. now rewrite (map_nth (fun t => dot azero aadd ascale t v)).
Qed.
End ConvOut.

(* the hypotheses are satisfiable: the scalars themselves, over any field *)
Section MLF.
Context {F : Type} (K : Fops F) (Kf : is_field K).
Add Field KF_mlf : Kf.
Lemma module_laws_field : module_laws K (f0 K) (fadd K) (fmul K) (fun _ => True).
Proof. repeat split; auto; intros; ring. Qed.
(* the three extra laws used by lin_rows_convention *)
Lemma scaling_laws_field :
  (forall s, fmul K s (f0 K) = f0 K) /\
  (forall s x y, fmul K s (fadd K x y) = fadd K (fmul K s x) (fmul K s y)) /\
  (forall s a x, fmul K (fmul K s a) x = fmul K s (fmul K a x)).
Proof. repeat split; intros; ring. Qed.
End MLF.

