(* Proofs/DiagSphP.v — property C01, diag_one_sph: the diagonal of the assembled overlap matrix is 1 for
   SPHERICAL shells.

   In any field K the self-overlap block of a shell with homogeneous components factorises,
       overlap_block(s,s)[m][c][m][c'] = Rad(s,m) * G(c,c') / (sqrt D_c sqrt D_c'),
   into a RADIAL part Rad(s,m) (a sum over the primitives that does not depend on the components) and
   G(c,c') = prod_axis g(c_i + c'_i), g(n) = (n-1)!! for even n, 0 for odd n, D_c = prod (2c_i-1)!!.  As G(c,c) = D_c,
   every diagonal entry of the block is Rad(s,m) and norm_cont[m][c] = 1/sqrt(Rad(s,m)) is COMPONENT-INDEPENDENT;
   so the assembled entry of a spherical shell at (segment m, rows q, q') is
       Orth(q,q') = sum_cc' T[q][c] T[q'][c'] G(c,c') / (sqrt D_c sqrt D_c'),
   and the diagonal is 1 as soon as the rows of the transformation are unit vectors for the overlap of
   unit-normalised Cartesians of one shell.
   The rows of Model/Spherical.sph_transform (the transform the assembled models use) are
       T[q][c] / sqrt D_c = sign * h_c * sqrt(rad_q) / sqrt((2l-1)!!)
   with h_c, rad_q RATIONAL expressions (hcoef, hrad: no square root), so
       Orth(q,q) = rad_q / (2l-1)!! * sum_cc' h_c G(c,c') h_c'  =: Eorth.
   Eorth = 1 is checked over Qc for l <= 10 in Proofs/DiagSphCheckP.v (on the sparse form HGHt of the double sum),
   transported to any field of characteristic 0 in Proofs/SphLinkP.v [Eorth_le10], and Proofs/DiagSphRealP.v
   concludes over the reals.
   Relation to C10: Props/C10.v proves orthonormality on the EXACT model Model/SphExact.v (entries r*sqrt q), and
   Proofs/SphLinkP.v (C10_link_entry) proves that Model/Spherical.sph_transform K is the interpretation of
   SphExact.left_form in K.  The check of Eorth = 1 does not go through that link: it establishes the unit norm of
   the rows of Model/Spherical itself, on the same finite domain l <= 10. *)
From Coq Require Import List Arith Lia Bool Field.
From GB Require Import Base.Field Base.FNum Base.Tables Base.Sums Base.Blocks Gauss.Moment1D Model.Shell Model.MomentInt
  Model.Spherical Model.Assembly Model.Overlap Model.DiffOp Model.OneBody
  Proofs.BlockP Proofs.CoreSumP Proofs.CoreBlockP Proofs.CoreDiffP Proofs.CoreNormP Proofs.AssemblyP Proofs.OverlapP
  Proofs.BlockMatP Proofs.AssembledP Proofs.AssembledOverlapP Proofs.AssembledRealP Proofs.AssembledSphP
  Proofs.AssembledSphOverlapP.
Import ListNotations.

Lemma even_double a : Nat.even (a + a) = true.
Proof. replace (a + a) with (2 * a) by lia. rewrite Nat.even_mul. reflexivity. Qed.
Lemma div2_double a : (a + a) / 2 = a.
Proof. replace (a + a) with (a * 2) by lia. apply Nat.div_mul. lia. Qed.
Lemma even_true_half n : Nat.even n = true -> n = n / 2 + n / 2.
Proof.
  intro H. apply Nat.even_spec in H. destruct H as [t ->].
  replace (2 * t) with (t * 2) by lia. rewrite Nat.div_mul by lia. lia.
Qed.

Section Generic.
Context {F : Type} (K : Fops F) (Kf : is_field K).
Add Field KFds : Kf.
Local Open Scope F_scope.
Notation "0" := (f0 K) : F_scope.
Notation "1" := (f1 K) : F_scope.
Infix "+" := (fadd K) : F_scope.
Infix "*" := (fmul K) : F_scope.
Infix "-" := (fsub K) : F_scope.
Infix "/" := (fdiv K) : F_scope.
Notation "- x" := (fopp K x) : F_scope.
Notation fpow := (FNum.fpow K).
Notation fsum := (FNum.fsum K).

Hypothesis Hapx : forall x : F, fapx K x = x.
Hypothesis H2 : 1 + 1 <> 0.

Definition dfp (c : comp) : F := fdf_odd K (cx c) * fdf_odd K (cy c) * fdf_odd K (cz c).
Definition gk (n : nat) : F := if Nat.even n then fdf_odd K (n / 2) else 0.
Definition Gk (a b : comp) : F := gk (cx a + cx b)%nat * gk (cy a + cy b)%nat * gk (cz a + cz b)%nat.
Definition rs (c : comp) : F := 1 / fsqrt K (dfp c).

Lemma mom_gk v n : mom K v n = gk n * fpow v (n / 2).
Proof.
  unfold gk. destruct (Nat.even n) eqn:E.
  - apply Nat.even_spec in E. destruct E as [t ->].
    replace (2 * t / 2)%nat with t by (replace (2 * t)%nat with (t * 2)%nat by lia; now rewrite Nat.div_mul by lia).
    apply (mom_even_odd K Kf).
  - assert (O : Nat.odd n = true) by (unfold Nat.odd; now rewrite E).
    apply Nat.odd_spec in O. destruct O as [t ->]. replace (2 * t + 1)%nat with (S (2 * t)) by lia.
    rewrite (proj2 (mom_even_odd K Kf v t)). ring.
Qed.

Lemma Gk_sym a b : Gk a b = Gk b a.
Proof. unfold Gk. now rewrite (Nat.add_comm (cx a)), (Nat.add_comm (cy a)), (Nat.add_comm (cz a)). Qed.

Lemma Gk_diag c : Gk c c = dfp c.
Proof. unfold Gk, gk, dfp. now rewrite !even_double, !div2_double. Qed.

Lemma Gk_pow v (a b : comp) l : (cx a + cy a + cz a = l)%nat -> (cx b + cy b + cz b = l)%nat ->
  (gk (cx a + cx b)%nat * fpow v ((cx a + cx b) / 2)) * (gk (cy a + cy b)%nat * fpow v ((cy a + cy b) / 2))
  * (gk (cz a + cz b)%nat * fpow v ((cz a + cz b) / 2))
  = Gk a b * fpow v l.
Proof.
  intros Ha Hb. unfold Gk, gk.
  destruct (Nat.even (cx a + cx b)) eqn:E1; [|ring].
  destruct (Nat.even (cy a + cy b)) eqn:E2; [|ring].
  destruct (Nat.even (cz a + cz b)) eqn:E3; [|ring].
  pose proof (even_true_half _ E1). pose proof (even_true_half _ E2). pose proof (even_true_half _ E3).
  replace l with ((cx a + cx b) / 2 + ((cy a + cy b) / 2 + (cz a + cz b) / 2))%nat by lia.
  rewrite !(fpow_add K Kf). ring.
Qed.

Lemma T1_same_centre (A C alpha beta : F) i j : psum K alpha beta <> 0 ->
  T1 K A A C alpha beta 0 i j = mom K (1 / twop K alpha beta) (i + j).
Proof.
  intros Hp. unfold T1, T3.
  assert (E : PA K A A alpha beta = 0).
  { unfold PA, Pw. unfold psum in *. field. exact Hp. }
  change (PB K A A alpha beta) with (PA K A A alpha beta). rewrite E. now rewrite (S3_centre K Kf).
Qed.

Lemma ovl_prim_same (s : shell F) (ca cb : comp) alpha beta l : psum K alpha beta <> 0 ->
  (cx ca + cy ca + cz ca = l)%nat -> (cx cb + cy cb + cz cb = l)%nat ->
  ovl_prim K s s ca cb alpha beta
  = KAB K s s alpha beta * fpow (1 / twop K alpha beta) l * Gk ca cb.
Proof.
  intros Hp Ha Hb. unfold ovl_prim, mom_prim.
  change (cx (0, 0, 0)%nat) with 0%nat. change (cy (0, 0, 0)%nat) with 0%nat. change (cz (0, 0, 0)%nat) with 0%nat.
  rewrite !T1_same_centre by exact Hp. rewrite !mom_gk.
  rewrite (Gk_pow (1 / twop K alpha beta) ca cb l Ha Hb). ring.
Qed.

(* primitive norm = N0(l, alpha) / sqrt D_c *)
Definition N0 (l : nat) (alpha : F) : F :=
  pow34 K ((1 + 1) * alpha / fpi K) * fsqrt K (fpow ((1 + 1 + 1 + 1) * alpha) l).

Lemma norm_prim_split l c alpha : norm_prim K l c alpha = N0 l alpha * rs c.
Proof.
  destruct c as [[ax ay] az]. unfold norm_prim, N0, rs, dfp. cbn [cx cy cz fst snd]. rewrite Hapx.
  rewrite !(Fdiv_def Kf). ring.
Qed.

Definition Rad (s : shell F) (m : nat) : F :=
  fsum (mk (length (s_exps s)) (fun ka => fsum (mk (length (s_exps s)) (fun kb =>
    nth m (nth ka (s_coeffs s) []) 0 * nth m (nth kb (s_coeffs s) []) 0
    * N0 (s_l s) (nth ka (s_exps s) 0) * N0 (s_l s) (nth kb (s_exps s) 0)
    * (KAB K s s (nth ka (s_exps s) 0) (nth kb (s_exps s) 0)
       * fpow (1 / twop K (nth ka (s_exps s) 0) (nth kb (s_exps s) 0)) (s_l s)))))).

Section OneShell.
Variable s : shell F.
Hypothesis Ws : wf_shell s.
Hypothesis Hs : comps_homog s.
Hypothesis Es : exps_ok K s s.
Notation compi c := (nth c (comps_of s) (0, 0, 0)%nat).

Lemma compi_homog c : (c < ncomp s)%nat -> (cx (compi c) + cy (compi c) + cz (compi c) = s_l s)%nat.
Proof. intro Hc. apply Hs. now apply nth_In. Qed.

Theorem self_block_factor m c c' : (m < nseg s)%nat -> (c < ncomp s)%nat -> (c' < ncomp s)%nat ->
  nth4 K m c m c' (overlap_block K s s)
  = Rad s m * (Gk (compi c) (compi c') * (rs (compi c) * rs (compi c'))).
Proof.
  intros Hm Hc Hc'.
  rewrite (overlap_block_correct K Kf Hapx H2 s s m c m c' Ws Ws Es Hm Hc Hm Hc').
  unfold contracted, Rad. rewrite (fsum_mk_scale_r K Kf). apply fsum_mk_ext. intros ka Hka.
  rewrite (fsum_mk_scale_r K Kf). apply fsum_mk_ext. intros kb Hkb.
  rewrite (ovl_prim_same s (compi c) (compi c') _ _ (s_l s)).
  - rewrite !norm_prim_split. ring.
  - apply Es; now apply nth_In.
  - now apply compi_homog.
  - now apply compi_homog.
Qed.

(* what is needed of the square-root oracle, at the double-factorial products and the radial parts *)
Definition sqrt_ok (x : F) : Prop := fsqrt K x * fsqrt K x = x /\ x <> 0.

Lemma sqrt_ok_nz x : sqrt_ok x -> fsqrt K x <> 0.
Proof. intros [Hq Hx] E0. apply Hx. rewrite <- Hq, E0. ring. Qed.

Lemma rs_sq c : sqrt_ok (dfp c) -> dfp c * (rs c * rs c) = 1.
Proof.
  intros Hd. pose proof (sqrt_ok_nz _ Hd) as Hn. destruct Hd as [Hq _]. unfold rs.
  rewrite <- Hq at 1. field. exact Hn.
Qed.

Theorem self_block_diag m c : (m < nseg s)%nat -> (c < ncomp s)%nat -> sqrt_ok (dfp (compi c)) ->
  nth4 K m c m c (overlap_block K s s) = Rad s m.
Proof.
  intros Hm Hc Hd. rewrite self_block_factor by assumption. rewrite Gk_diag, (rs_sq _ Hd). ring.
Qed.

Theorem ncont_component_independent m c : (m < nseg s)%nat -> (c < ncomp s)%nat -> sqrt_ok (dfp (compi c)) ->
  ncont K s m c = 1 / fsqrt K (Rad s m).
Proof. intros Hm Hc Hd. rewrite ncont_eq by assumption. now rewrite Hapx, self_block_diag. Qed.

(* Gram matrix of the rows of the shell's transformation for the overlap of unit-normalised Cartesians *)
Definition Orth (q q' : nat) : F :=
  dsum K s s q q' (fun c c' => Gk (compi c) (compi c') * (rs (compi c) * rs (compi c'))).

(* a Cartesian shell: T_s = identity, Orth(q,q) = G(c,c) / D_c = 1 *)
Lemma Orth_cart q : s_sph s = false -> (q < ncomp s)%nat -> sqrt_ok (dfp (compi q)) -> Orth q q = 1.
Proof.
  intros Hsph Hq Hd. unfold Orth, dsum, tco. rewrite Hsph.
  rewrite (fsum_mk_ext K _ _ (fun c => (if Nat.eqb q c then 1 else 0)
             * (Gk (compi c) (compi q) * (rs (compi c) * rs (compi q))))).
  - rewrite (fsum_delta K Kf _ q _ Hq), Gk_diag. now apply rs_sq.
  - intros c _.
    rewrite (fsum_mk_ext K _ _ (fun c' => (if Nat.eqb q c' then 1 else 0)
               * ((if Nat.eqb q c then 1 else 0) * (Gk (compi c) (compi c') * (rs (compi c) * rs (compi c')))))).
    + now rewrite (fsum_delta K Kf _ q _ Hq).
    + intros c' _. ring.
Qed.

Lemma normalised_entry m c c' :
  (m < nseg s)%nat -> (c < ncomp s)%nat -> (c' < ncomp s)%nat ->
  sqrt_ok (dfp (compi c)) -> sqrt_ok (dfp (compi c')) -> sqrt_ok (Rad s m) ->
  ncont K s m c * ncont K s m c' * nth4 K m c m c' (overlap_block K s s)
  = Gk (compi c) (compi c') * (rs (compi c) * rs (compi c')).
Proof.
  intros Hm Hc Hc' Hd Hd' Hr. rewrite !ncont_component_independent by assumption.
  rewrite self_block_factor by assumption.
  pose proof (sqrt_ok_nz _ Hr) as Hn. destruct Hr as [Hq _].
  rewrite <- Hq at 3. field. exact Hn.
Qed.
End OneShell.

Section Assembled.
Variable bs : list (shell F).
Hypothesis C : seg_basis bs.
Hypothesis W : basis_wf bs.
Hypothesis E : basis_exps K bs bs.
Notation s_ k := (sh_at K bs k).

Theorem sph_diag_block_is_Orth i m q q' :
  (i < length bs)%nat -> comps_homog (s_ i) ->
  (m < nseg (s_ i))%nat -> (q < osize (s_ i))%nat -> (q' < osize (s_ i))%nat ->
  (forall c, (c < ncomp (s_ i))%nat -> sqrt_ok (dfp (nth c (comps_of (s_ i)) (0, 0, 0)%nat))) ->
  sqrt_ok (Rad (s_ i) m) ->
  nth (oidx K bs i m q') (nth (oidx K bs i m q) (overlap_integral K bs None) []) 0 = Orth (s_ i) q q'.
Proof.
  intros Hi Hh Hm Hq Hq' Hd Hr.
  rewrite (overlap_integral_mixed_entry K Kf Hapx H2 bs C W E i i m q m q') by assumption.
  assert (Ii : In (s_ i) bs) by (now apply nth_In).
  unfold Orth. apply dsum_ext. intros c c' Hc Hc'.
  rewrite <- (overlap_block_correct K Kf Hapx H2 (s_ i) (s_ i) m c m c') by auto.
  apply normalised_entry; auto.
Qed.

Theorem diag_one_sph_of_orthonormal i m q :
  (i < length bs)%nat -> comps_homog (s_ i) ->
  (m < nseg (s_ i))%nat -> (q < osize (s_ i))%nat ->
  (forall c, (c < ncomp (s_ i))%nat -> sqrt_ok (dfp (nth c (comps_of (s_ i)) (0, 0, 0)%nat))) ->
  sqrt_ok (Rad (s_ i) m) ->
  Orth (s_ i) q q = 1 ->
  nth (oidx K bs i m q) (nth (oidx K bs i m q) (overlap_integral K bs None) []) 0 = 1.
Proof. intros Hi Hh Hm Hq Hd Hr HO. rewrite sph_diag_block_is_Orth by assumption. exact HO. Qed.
End Assembled.

(* rational factor and radicand of harmonic_norm (spherical.py:122-128) *)
Definition hnr (l m : nat) : F := 1 / (fpow (1 + 1) m * ffact K l).
Definition hrad (l m : nat) : F :=
  ((1 + 1) * ffact K (l + m) * ffact K (l - m)) / (if Nat.eqb m 0 then 1 + 1 else 1).

Lemma harmonic_norm_split l m : harmonic_norm K l m = hnr l m * fsqrt K (hrad l m).
Proof. reflexivity. Qed.

(* the coefficient of component c in R_{l,m} without the square root *)
Definition hterm (l m : nat) (sine : bool) (c : comp) (t : nat * nat * nat) : F :=
  let s := if sine then 1%nat else 0%nat in
  let i := fst (fst t) in let j := snd (fst t) in let z := snd t in
  let ay := (2 * j + 2 * z + s)%nat in
  if Nat.leb ay (2 * i + m) then
    let ax := (2 * i + m - ay)%nat in
    let az := (l - 2 * i - m)%nat in
    if comp_eqb c (ax, ay, az) then expansion_coeff K l m sine i j z * hnr l m else 0
  else 0.
Definition hcoef (l m : nat) (sine : bool) (c : comp) : F := fsum (map (hterm l m sine c) (triples l m)).

(* [hcoef] for evaluation: the (component, coefficient) list of the triples is built once for all components, and
   the coefficient [e] is a parameter (over Qc: factorials in Z, and the normalisation hnr kept out of the sums) *)
Definition hterms (e : nat -> nat -> nat -> F) (l m : nat) (sine : bool) : list (comp * F) :=
  map (fun t =>
    let s := if sine then 1%nat else 0%nat in
    let i := fst (fst t) in let j := snd (fst t) in let z := snd t in
    let ay := (2 * j + 2 * z + s)%nat in
    (((2 * i + m - ay)%nat, ay, (l - 2 * i - m)%nat), if Nat.leb ay (2 * i + m) then e i j z else 0)) (triples l m).

Definition hcoef_with (e : nat -> nat -> nat -> F) (l m : nat) (sine : bool) : comp -> F :=
  let ts := hterms e l m sine in
  fun c => fsum (map snd (filter (fun kv => comp_eqb c (fst kv)) ts)).

Lemma fsum_if_filter {A} (p : A -> bool) (f : A -> F) l :
  fsum (map (fun x => if p x then f x else 0) l) = fsum (map f (filter p l)).
Proof.
  induction l as [|a l IH]; [reflexivity|]. cbn [map filter]. rewrite (fsum_cons K), IH.
  destruct (p a); [reflexivity|ring].
Qed.

Lemma hcoef_with_eq e k l m sine c :
  (forall i j z, e i j z * k = expansion_coeff K l m sine i j z * hnr l m) ->
  hcoef_with e l m sine c * k = hcoef l m sine c.
Proof.
  intro He. unfold hcoef_with, hterms, hcoef. cbv zeta.
  rewrite <- fsum_if_filter, map_map, <- (fsum_map_scale_r K Kf). f_equal. apply map_ext.
  intros [[i j] z]. unfold hterm. cbn [fst snd]. rewrite <- He.
  destruct (Nat.leb _ _); destruct (comp_eqb _ _); ring.
Qed.

Lemma harmonic_coeff_split l m sine c :
  harmonic_coeff K l m sine c = hcoef l m sine c * fsqrt K (hrad l m).
Proof.
  unfold harmonic_coeff, hcoef. cbv zeta. rewrite <- (fsum_map_scale_r K Kf). f_equal. apply map_ext.
  intros [[i j] z]. unfold hterm. cbn [fst snd]. rewrite harmonic_norm_split.
  destruct (Nat.leb _ _); [|ring]. destruct (comp_eqb _ _); ring.
Qed.

Lemma comp_scale_eq l c : comp_scale K l c = fsqrt K (dfp c) / fsqrt K (fdf_odd K l).
Proof. destruct c as [[ax ay] az]. reflexivity. Qed.

Definition sgnF (neg : bool) : F := if neg then - (1) else 1.

Lemma tco_sph (s : shell F) q c : s_sph s = true -> (q < nlab s)%nat -> (c < ncomp s)%nat ->
  let lb := nth q (labels_of s) (false, false, 0%nat) in
  let cc := nth c (comps_of s) (0, 0, 0)%nat in
  tco K s q c
  = sgnF (fst (fst lb)) * harmonic_coeff K (s_l s) (snd lb) (snd (fst lb)) cc * comp_scale K (s_l s) cc.
Proof.
  intros Hsph Hq Hc lb cc. unfold tco. rewrite Hsph. unfold shell_transform, sph_transform.
  rewrite (nth_map_lt _ _ q []) by (rewrite List.map_length; exact Hq).
  rewrite (nth_map_lt _ _ q (false, false, 0%nat)) by exact Hq. unfold lb. clear lb.
  change (@nth (bool * bool * nat) q (labels_of s) (false, false, 0%nat))
    with (@nth label q (labels_of s) (false, false, 0%nat)).
  destruct (@nth label q (labels_of s) (false, false, 0%nat)) as [[neg sine] mm]. cbn [fst snd].
  rewrite (nth_map_lt _ _ c 0) by (rewrite List.map_length; exact Hc).
  rewrite (nth_map_lt _ _ c (0, 0, 0)%nat) by exact Hc. fold cc. rewrite Hapx. reflexivity.
Qed.

Definition HGH (l m : nat) (sine : bool) (comps : list comp) : F :=
  fsum (map (fun c => fsum (map (fun c' => hcoef l m sine c * Gk c c' * hcoef l m sine c') comps)) comps).

Lemma fsum_mk_nth {A} (f : A -> F) (l : list A) d : fsum (mk (length l) (fun k => f (nth k l d))) = fsum (map f l).
Proof. now rewrite (Tables.map_as_mk f l d). Qed.

Theorem Orth_rational (s : shell F) q : s_sph s = true -> (q < nlab s)%nat ->
  let lb := nth q (labels_of s) (false, false, 0%nat) in
  (forall c, (c < ncomp s)%nat -> sqrt_ok (dfp (nth c (comps_of s) (0, 0, 0)%nat))) ->
  sqrt_ok (fdf_odd K (s_l s)) ->
  fsqrt K (hrad (s_l s) (snd lb)) * fsqrt K (hrad (s_l s) (snd lb)) = hrad (s_l s) (snd lb) ->
  Orth s q q = hrad (s_l s) (snd lb) / fdf_odd K (s_l s) * HGH (s_l s) (snd lb) (snd (fst lb)) (comps_of s).
Proof.
  intros Hsph Hq lb Hd Hl Hr. unfold Orth, dsum, HGH.
  pose proof (sqrt_ok_nz _ Hl) as Hln. destruct Hl as [Hlq Hl0].
  rewrite <- (fsum_mk_nth _ (comps_of s) (0,0,0)%nat). fold (ncomp s).
  rewrite (fsum_mk_scale_l K Kf). apply fsum_mk_ext. intros c Hc.
  rewrite <- (fsum_mk_nth _ (comps_of s) (0,0,0)%nat). fold (ncomp s).
  rewrite (fsum_mk_scale_l K Kf). apply fsum_mk_ext. intros c' Hc'.
  rewrite (tco_sph s q c Hsph Hq Hc), (tco_sph s q c' Hsph Hq Hc'). cbv zeta. fold lb.
  rewrite !harmonic_coeff_split, !comp_scale_eq.
  pose proof (sqrt_ok_nz _ (Hd c Hc)) as Hn. pose proof (sqrt_ok_nz _ (Hd c' Hc')) as Hn'.
  set (cc := nth c (comps_of s) (0,0,0)%nat) in *. set (cc' := nth c' (comps_of s) (0,0,0)%nat) in *.
  unfold rs.
  transitivity (sgnF (fst (fst lb)) * sgnF (fst (fst lb))
                * (fsqrt K (hrad (s_l s) (snd lb)) * fsqrt K (hrad (s_l s) (snd lb)))
                / (fsqrt K (fdf_odd K (s_l s)) * fsqrt K (fdf_odd K (s_l s)))
                * (hcoef (s_l s) (snd lb) (snd (fst lb)) cc * Gk cc cc' * hcoef (s_l s) (snd lb) (snd (fst lb)) cc')).
  { field. repeat split; assumption. }
  rewrite Hr, Hlq.
  assert (Es : sgnF (fst (fst lb)) * sgnF (fst (fst lb)) = 1) by (unfold sgnF; destruct (fst (fst lb)); ring).
  rewrite Es. field. exact Hl0.
Qed.
End Generic.

(* [HGH] for evaluation.  Most components have h_c = 0: the double sum runs over the others only, over unordered
   pairs (G is symmetric), and G may be computed by any function [G] equal to Gk (over Qc: in Z). *)
Section Fast.
Context {F : Type} (K : Fops F) (Kf : is_field K).
Add Field KFfast : Kf.
Notation fsum := (FNum.fsum K).

Definition Eorth (l m : nat) (sine : bool) : F :=
  fmul K (fdiv K (hrad K l m) (fdf_odd K l)) (HGH K l m sine (default_comps l)).

Lemma fsum_filter {A} (keep : A -> bool) (f : A -> F) l :
  (forall x, keep x = false -> f x = f0 K) -> fsum (map f (filter keep l)) = fsum (map f l).
Proof.
  intro H. rewrite <- (fsum_if_filter K Kf). f_equal. apply map_ext. intro x.
  destruct (keep x) eqn:E; [reflexivity|]. symmetry. now apply H.
Qed.

Variable nz : F -> bool.
Variable G : comp -> comp -> F.
Hypothesis Hnz : forall x, nz x = false -> x = f0 K.
Hypothesis HG : forall a b, G a b = Gk K a b.

Fixpoint qform (ch : list (comp * F)) : F :=
  match ch with
  | [] => f0 K
  | p :: r =>
      fadd K (fmul K (snd p) (fadd K (fmul K (G (fst p) (fst p)) (snd p))
                (fmul K (fadd K (f1 K) (f1 K)) (fsum (map (fun p' => fmul K (G (fst p) (fst p')) (snd p')) r)))))
             (qform r)
  end.

Lemma qform_eq ch :
  qform ch = fsum (map (fun p => fmul K (snd p) (fsum (map (fun p' => fmul K (Gk K (fst p) (fst p')) (snd p')) ch))) ch).
Proof.
  induction ch as [|a r IH]; [reflexivity|]. cbn [qform]. rewrite IH, HG.
  rewrite (map_ext _ (fun p' => fmul K (Gk K (fst a) (fst p')) (snd p'))) by (intro; now rewrite HG).
  rewrite map_cons, (fsum_cons K), map_cons, (fsum_cons K).
  rewrite (map_ext (fun p => fmul K (snd p) (fsum (map _ (a :: r))))
             (fun p => fadd K (fmul K (fmul K (Gk K (fst a) (fst p)) (snd p)) (snd a))
                              (fmul K (snd p) (fsum (map (fun p' => fmul K (Gk K (fst p) (fst p')) (snd p')) r))))).
  - rewrite (fsum_map_add K Kf), (fsum_map_scale_r K Kf). ring.
  - intro p. rewrite map_cons, (fsum_cons K), (Gk_sym K (fst p) (fst a)). ring.
Qed.

Definition HGHt (tab : list (comp * F)) : F := qform (filter (fun p => nz (snd p)) tab).

Lemma HGHt_eq (hb : comp -> F) k l m sine comps : (forall c, hcoef K l m sine c = fmul K (hb c) k) ->
  fmul K (fmul K k k) (HGHt (map (fun c => (c, hb c)) comps)) = HGH K l m sine comps.
Proof.
  intro Hh. unfold HGHt, HGH. rewrite qform_eq. set (ch := filter _ _).
  assert (Hin : forall c, fsum (map (fun p' => fmul K (Gk K c (fst p')) (snd p')) ch)
                          = fsum (map (fun c' => fmul K (Gk K c c') (hb c')) comps)).
  { intro c. unfold ch. rewrite fsum_filter by (intros p Hp; rewrite (Hnz _ Hp); ring). now rewrite map_map. }
  rewrite (map_ext _ _ (fun p => f_equal (fmul K (snd p)) (Hin (fst p)))).
  unfold ch. rewrite fsum_filter by (intros p Hp; rewrite (Hnz _ Hp); ring).
  rewrite map_map, <- (fsum_map_scale K Kf). f_equal. apply map_ext. intro c. cbn [fst snd].
  rewrite <- !(fsum_map_scale K Kf). f_equal. apply map_ext. intro c'. rewrite !Hh. ring.
Qed.
End Fast.
