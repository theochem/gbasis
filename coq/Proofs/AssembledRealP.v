(* Proofs/AssembledRealP.v — the premises of [diag_one_cart] discharged over the reals (RK = the model's
   number interface at R with the real sqrt / exp / PI, Proofs/ScreeningP.v).

     diag_one_cart_R              any Cartesian basis with positive exponents: the only premise left is
                                  0 < x for the self-overlaps x (sqrt x * sqrt x = x and x <> 0 follow).
                                  [0 < x is the positivity of the L2 norm of a contracted function; for a
                                  general contraction it is part of the analytic bridge (B3), not of algebra.]
     self_overlap_uncontracted_R  a shell with ONE primitive (alpha > 0, components of degree l):
                                  x = overlap_block(s,s)[m][c][m][c] = d_m^2  (uses CoreNormP.norm_prim_self_overlap)
     diag_one_uncontracted_R      hence, for every basis of uncontracted shells with non-zero coefficients,
                                  the diagonal of the assembled overlap matrix is 1 with NO premise left.
     ex_basis_R / diag_one_example_R   a concrete basis (s shell at the origin, generalized p shell M = 2 off
                                  centre) satisfying all hypotheses. *)
From Coq Require Import List Arith Lia Bool Reals Lra.
From GB Require Import Base.Field Model.Shell Model.MomentInt Model.Overlap Proofs.CoreSumP
  Proofs.CoreBlockP Proofs.CoreNormP Proofs.ScreeningP Proofs.AssembledP Proofs.AssembledOverlapP.
Import ListNotations.
Local Open Scope R_scope.

Definition pos_exps_basis (bs : list (shell R)) : Prop :=
  forall s, In s bs -> forall x, In x (s_exps s) -> 0 < x.

Lemma basis_exps_pos_R (b1 b2 : list (shell R)) :
  pos_exps_basis b1 -> pos_exps_basis b2 -> basis_exps RK b1 b2.
Proof. intros H1 H2 sa sb Ha Hb. apply exps_ok_pos_R; [now apply H1 | now apply H2]. Qed.

Theorem diag_one_cart_R (bs : list (shell R)) :
  cart_basis bs -> basis_wf bs -> pos_exps_basis bs ->
  (forall i m c, (i < length bs)%nat -> (m < nseg (sh_at RK bs i))%nat -> (c < ncomp (sh_at RK bs i))%nat ->
     0 < nth4 RK m c m c (overlap_block RK (sh_at RK bs i) (sh_at RK bs i))) ->
  forall I, (I < btotal RK bs)%nat -> nth I (nth I (overlap_integral RK bs None) []) 0 = 1.
Proof.
  intros C W Hp Hx.
  apply (diag_one_cart_all RK RK_field fapx_id_R two_neq_0_R bs C W (basis_exps_pos_R bs bs Hp Hp)).
  intros i m c Hi Hm Hc. cbv zeta. specialize (Hx i m c Hi Hm Hc).
  set (x := nth4 RK m c m c (overlap_block RK (sh_at RK bs i) (sh_at RK bs i))) in *.
  split.
  - change (sqrt x * sqrt x = x). apply sqrt_sqrt. lra.
  - change (x <> 0). lra.
Qed.

(* homogeneous components: a_x + a_y + a_z = l *)
Definition comps_homog {F} (s : shell F) : Prop :=
  forall c, In c (comps_of s) -> (cx c + cy c + cz c = s_l s)%nat.

Lemma default_comps_sum l c : In c (default_comps l) -> (cx c + cy c + cz c = l)%nat.
Proof. apply BlockP.default_comps_degree. Qed.

Lemma comps_homog_default {F} (s : shell F) : s_comps s = [] -> comps_homog s.
Proof. intros Hc c Hin. unfold comps_of in Hin. rewrite Hc in Hin. now apply default_comps_sum. Qed.

Lemma comps_homog_le {F} (s : shell F) : comps_homog s -> forall c, In c (comps_of s) -> comp_le (s_l s) c.
Proof. intros H c Hin. specialize (H c Hin). unfold comp_le. lia. Qed.

(* an uncontracted shell *)
Definition uncontracted (s : shell R) (alpha : R) (row : list R) : Prop :=
  s_exps s = [alpha] /\ s_coeffs s = [row] /\ 0 < alpha /\ comps_homog s.

Lemma uncontracted_wf s alpha row : uncontracted s alpha row -> wf_shell s.
Proof.
  intros (He & Hc & _ & Hh). split; [unfold wf_coeffs; now rewrite He, Hc|]. now apply comps_homog_le.
Qed.

Theorem self_overlap_uncontracted_R (s : shell R) alpha row m c :
  uncontracted s alpha row -> (m < nseg s)%nat -> (c < ncomp s)%nat ->
  nth4 RK m c m c (overlap_block RK s s) = nth m row 0 * nth m row 0.
Proof.
  intros Hu Hm Hc. pose proof (uncontracted_wf s alpha row Hu) as Wf.
  destruct Hu as (He & Hco & Ha & Hh).
  assert (Hex : exps_ok RK s s).
  { apply exps_ok_pos_R; intros x Hx; rewrite He in Hx; destruct Hx as [<-|[]]; exact Ha. }
  rewrite (overlap_block_correct RK RK_field fapx_id_R two_neq_0_R s s m c m c Wf Wf Hex Hm Hc Hm Hc).
  set (cc := nth c (comps_of s) (0, 0, 0)%nat).
  assert (Hl : (cx cc + cy cc + cz cc = s_l s)%nat) by (apply Hh, nth_In; exact Hc).
  pose proof (norm_prim_self_overlap s cc alpha Ha Hl) as E1.
  unfold contracted. rewrite He, Hco. unfold mk. cbn [length seq map FNum.fsum fold_right nth].
  change (fadd RK) with Rplus. change (fmul RK) with Rmult. change (f0 RK) with 0.
  set (d := nth m row 0) in *. set (N := norm_prim RK (s_l s) cc alpha) in *.
  set (O := ovl_prim RK s s cc cc alpha alpha) in *.
  replace (d * d * N * N * O + 0 + 0) with (d * d * (N * N * O)) by ring.
  rewrite E1. ring.
Qed.

Definition uncontracted_basis (bs : list (shell R)) : Prop :=
  forall s, In s bs -> exists alpha row, uncontracted s alpha row /\ forall d, In d row -> d <> 0.

Theorem diag_one_uncontracted_R (bs : list (shell R)) :
  cart_basis bs -> uncontracted_basis bs ->
  forall I, (I < btotal RK bs)%nat -> nth I (nth I (overlap_integral RK bs None) []) 0 = 1.
Proof.
  intros C U. apply diag_one_cart_R; [exact C| | |].
  - intros s Hs. destruct (U s Hs) as (alpha & row & Hu & _). now apply (uncontracted_wf s alpha row).
  - intros s Hs x Hx. destruct (U s Hs) as (alpha & row & (He & _ & Ha & _) & _).
    rewrite He in Hx. destruct Hx as [<-|[]]. exact Ha.
  - intros i m c Hi Hm Hc. destruct (U (sh_at RK bs i) ltac:(now apply nth_In)) as (alpha & row & Hu & Hd).
    rewrite (self_overlap_uncontracted_R _ alpha row m c Hu Hm Hc).
    assert (Hnz : nth m row 0 <> 0).
    { apply Hd, nth_In. destruct Hu as (_ & Hco & _). unfold nseg in Hm. rewrite Hco in Hm. exact Hm. }
    nra.
Qed.

(* ---- a concrete basis satisfying every hypothesis ---- *)
Definition ex_s_R : shell R := mkShell R 0 0 0 0 [1 / 2] [[1]] false [] [].
Definition ex_p_R : shell R := mkShell R 1 1 0 (-1 / 2) [3 / 2] [[2; -1]] false [] [].
Definition ex_basis_R : list (shell R) := [ex_s_R; ex_p_R].

Lemma ex_basis_R_ok : cart_basis ex_basis_R /\ uncontracted_basis ex_basis_R /\ btotal RK ex_basis_R = 7%nat.
Proof.
  split; [|split].
  - intros s [<-|[<-|[]]]; split; try reflexivity; cbn; lia.
  - intros s [<-|[<-|[]]].
    + exists (1 / 2), [1]. split.
      * repeat split; try reflexivity; [lra|now apply comps_homog_default].
      * intros d [<-|[]]. lra.
    + exists (3 / 2), [2; -1]. split.
      * repeat split; try reflexivity; [lra|now apply comps_homog_default].
      * intros d [<-|[<-|[]]]; lra.
  - reflexivity.
Qed.

Example diag_one_example_R :
  forall I, (I < 7)%nat -> nth I (nth I (overlap_integral RK ex_basis_R None) []) 0 = 1.
Proof.
  destruct ex_basis_R_ok as (C & U & Ht). intros I HI. apply (diag_one_uncontracted_R ex_basis_R C U).
  rewrite Ht. exact HI.
Qed.
