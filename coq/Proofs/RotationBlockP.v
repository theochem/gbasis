(* Proofs/RotationBlockP.v — general rotations for the overlap and kinetic-energy blocks of the list-level model (C12).

   Proofs/RotationP.v proves the covariance of the primitive specification, the representation matrix of R being read
   off the entries of the multiplied-out polynomial (R^T u)^a.  Here
     1. the entries are collected into a matrix indexed by the Cartesian components of a shell,
          rep_mat R i j = coefficient of u^i in (R^T u)^j        ([rep_mat_mono_rep]: it satisfies RigidP.mono_rep),
        using that (R^T u)^j is homogeneous of degree |j| and that [default_comps l] lists every exponent triple of
        degree l exactly once;
     2. the primitive law is lifted through the contraction and the normalisation constants (dfnorm c * norm_prim l c
        alpha does not depend on the component c) to the entries of [overlap_block] =
        Overlap.construct_array_contraction and [kinetic_block] = KineticEnergyIntegral.construct_array_contraction
        ([block_rotation_law_generic]: any kernel whose block entries are contracted primitive values obeying the
        primitive matrix law): for every orthogonal R (proper or improper) and all l_a, l_b there are matrices Ma, Mb
        representing R on the monomials of degree l_a, l_b such that for all well-formed Cartesian shells of these
        angular momenta (any centres, exponents, contraction coefficients, any number of segments)
           dfnorm(ja) dfnorm(jb) S[ma, ja, mb, jb]
             = sum_ia sum_ib Ma[ia, ja] Mb[ib, jb] dfnorm(ia) dfnorm(ib) S'[ma, ia, mb, ib]
        S = blk sa sb, S' = blk (rot_shell R sa) (rot_shell R sb)   ([block_eq], [block_law]).

   This is the conclusion of [RigidP.rotation_law_overlap] word for word; the hypotheses are those of
   [rotation_law_overlap] plus the two of the block theorem [CoreBlockP.overlap_block_correct] it goes through:
   1 + 1 <> 0 and "one coefficient row per exponent" ([wf_coeffs]) for both shells. *)
From Coq Require Import List Arith Lia Field Bool.
From GB Require Import Base.Field Base.FNum Base.Tables Gauss.Moment1D Gauss.Poly3 Model.Shell Model.MomentInt
  Model.Overlap Model.DiffOp Proofs.CoreSumP Proofs.CoreBlockP Proofs.CoreDiffP Proofs.RigidP Proofs.RotationP.
Import ListNotations.

Lemma NoDup_app_disj {A} (l1 l2 : list A) :
  NoDup l1 -> NoDup l2 -> (forall x, In x l1 -> ~ In x l2) -> NoDup (l1 ++ l2).
Proof.
  induction l1 as [|a l1 IH]; intros H1 H2 HD; cbn [app]; [exact H2|].
  inversion H1 as [|? ? Ha H1']; subst. constructor.
  - intro Hin. apply in_app_or in Hin. destruct Hin as [Hin|Hin]; [now apply Ha|].
    apply (HD a); [now left|exact Hin].
  - apply IH; [exact H1'|exact H2|]. intros x Hx. apply HD. now right.
Qed.
Lemma NoDup_map_inj_in {A B} (f : A -> B) (l : list A) :
  (forall x y, In x l -> In y l -> f x = f y -> x = y) -> NoDup l -> NoDup (map f l).
Proof.
  induction l as [|a l IH]; intros Hinj Hnd; cbn [map]; [constructor|].
  inversion Hnd as [|? ? Ha Hnd']; subst. constructor.
  - intro Hin. apply in_map_iff in Hin. destruct Hin as [y [Hy Hyin]].
    apply Ha. rewrite <- (Hinj y a); [exact Hyin|now right|now left|exact Hy].
  - apply IH; [|exact Hnd']. intros x y Hx Hy. apply Hinj; now right.
Qed.
Lemma NoDup_flat_map_disj {A B} (f : A -> list B) (l : list A) :
  NoDup l -> (forall a, In a l -> NoDup (f a)) ->
  (forall a a' b, In a l -> In a' l -> In b (f a) -> In b (f a') -> a = a') ->
  NoDup (flat_map f l).
Proof.
  induction l as [|a l IH]; intros Hnd Hf Hd; cbn [flat_map]; [constructor|].
  inversion Hnd as [|? ? Ha Hnd']; subst. apply NoDup_app_disj.
  - apply Hf. now left.
  - apply IH; [exact Hnd'| |].
    + intros a' Ha'. apply Hf. now right.
    + intros a1 a2 b H1 H2. apply Hd; now right.
  - intros b Hb Hin. apply in_flat_map in Hin. destruct Hin as [a' [Ha' Hb']].
    apply Ha. rewrite (Hd a a' b); [exact Ha'|now left|now right|exact Hb|exact Hb'].
Qed.

Lemma default_comps_NoDup l : NoDup (default_comps l).
Proof.
  unfold default_comps. apply NoDup_flat_map_disj.
  - apply seq_NoDup.
  - intros xx Hxx. cbv zeta. apply NoDup_map_inj_in; [|apply seq_NoDup].
    intros y1 y2 H1 H2 E. apply in_seq in H1. apply in_seq in H2. apply in_seq in Hxx.
    injection E as E1 E2. lia.
  - intros x1 x2 b H1 H2 Hb1 Hb2. cbv zeta in Hb1, Hb2.
    apply in_map_iff in Hb1. destruct Hb1 as [y1 [E1 _]].
    apply in_map_iff in Hb2. destruct Hb2 as [y2 [E2 _]].
    apply in_seq in H1. apply in_seq in H2. rewrite <- E2 in E1. injection E1 as E _ _. lia.
Qed.

Lemma comps_of_default {F : Type} (s : shell F) : s_comps s = [] -> comps_of s = default_comps (s_l s).
Proof. intro H. unfold comps_of. now rewrite H. Qed.

Section Block.
Context {F : Type} (K : Fops F) (Kf : is_field K).
Add Field KFrb : Kf.
Local Open Scope F_scope.
Notation "0" := (f0 K) : F_scope.
Notation "1" := (f1 K) : F_scope.
Infix "+" := (fadd K) : F_scope.
Infix "*" := (fmul K) : F_scope.
Infix "-" := (fsub K) : F_scope.
Infix "/" := (fdiv K) : F_scope.
Notation fsum := (FNum.fsum K).

Definition mdeg (m : mon) : nat := fst (fst m) + snd (fst m) + snd m.
Definition homog (l : nat) (f : poly3 (F:=F)) : Prop := Forall (fun mc => mdeg (fst mc) = l) f.
Definition mon_eqb (m i : mon) : bool :=
  Nat.eqb (fst (fst m)) (fst (fst i)) && Nat.eqb (snd (fst m)) (snd (fst i)) && Nat.eqb (snd m) (snd i).
Lemma mon_eqb_spec m i : reflect (m = i) (mon_eqb m i).
Proof.
  destruct m as [[a b] c], i as [[a' b'] c']. unfold mon_eqb. cbn [fst snd].
  destruct (Nat.eqb_spec a a'); [|constructor; congruence].
  destruct (Nat.eqb_spec b b'); [|constructor; congruence].
  destruct (Nat.eqb_spec c c'); constructor; congruence.
Qed.
(* coefficient of the monomial i in f (all its occurrences collected) *)
Definition coef (i : mon) (f : poly3 (F:=F)) : F := Jsum K (fun m => if mon_eqb m i then 1 else 0) f.

Lemma homog_app l f g : homog l f -> homog l g -> homog l (f ++ g).
Proof. intros Hf Hg. apply Forall_app. now split. Qed.
Lemma homog_pscale3 l c f : homog l f -> homog l (pscale3 K c f).
Proof. unfold homog, pscale3. rewrite Forall_map. cbn [fst]. exact (fun H => H). Qed.
Lemma homog_mulv l i f : homog l f -> homog (S l) (mulv i f).
Proof.
  unfold homog, mulv. rewrite Forall_map. apply Forall_impl. intros [[[a b] c] k] H.
  unfold mdeg in *. destruct i; cbn [bump fst snd] in *; lia.
Qed.
Lemma homog_mullin l c f : homog l f -> homog (S l) (mullin K c f).
Proof. intro H. unfold mullin. repeat apply homog_app; apply homog_pscale3, homog_mulv, H. Qed.
Lemma homog_powop_mullin l c n f : homog l f -> homog (n + l)%nat (powop (mullin K c) n f).
Proof. intro H. induction n as [|n IH]; cbn [powop Nat.add]; [exact H|]. now apply homog_mullin. Qed.
Lemma homog_subst_mon R m : homog (mdeg m) (subst_mon K R m).
Proof.
  destruct m as [[a b] c]. unfold subst_mon, mdeg. cbn [expo fst snd].
  replace (a + b + c)%nat with (a + (b + (c + 0)))%nat by lia.
  repeat apply homog_powop_mullin. unfold homog, one3, mono3. constructor; [reflexivity|constructor].
Qed.

Lemma delta_sum_out (J : mon -> F) k m (L : list mon) : ~ In m L ->
  fsum (map (fun i => k * (if mon_eqb m i then 1 else 0) * J i) L) = 0.
Proof.
  intro H. transitivity (fsum (map (fun _ : mon => 0) L)); [|apply (fsum_map_zero K Kf)].
  apply fsum_map_ext_in. intros i Hi.
  destruct (mon_eqb_spec m i) as [->|_]; [contradiction|cbv iota; ring].
Qed.
Lemma delta_sum (J : mon -> F) k m (L : list mon) : NoDup L -> In m L ->
  fsum (map (fun i => k * (if mon_eqb m i then 1 else 0) * J i) L) = k * J m.
Proof.
  induction L as [|i0 L IH]; intros Hnd Hin; [destruct Hin|].
  inversion Hnd as [|? ? Hni Hnd']; subst. cbn [map FNum.fsum fold_right].
  fold (fsum (map (fun i => k * (if mon_eqb m i then 1 else 0) * J i) L)).
  destruct (mon_eqb_spec m i0) as [->|Hne].
  - rewrite delta_sum_out by exact Hni. cbv iota. ring.
  - destruct Hin as [E|Hin]; [congruence|]. rewrite IH by assumption. cbv iota. ring.
Qed.

(* a polynomial all of whose monomials lie in L (each once in L) is the sum of its collected terms *)
Lemma Jsum_collect (J : mon -> F) (L : list mon) f : NoDup L ->
  Forall (fun mc => In (fst mc) L) f ->
  Jsum K J f = fsum (map (fun i => coef i f * J i) L).
Proof.
  intros Hnd Hf. induction f as [|[m k] f IH].
  - cbn [Jsum]. unfold coef. cbn [Jsum]. symmetry.
    transitivity (fsum (map (fun _ : mon => 0) L)); [|apply (fsum_map_zero K Kf)].
    apply fsum_map_ext_in. intros; ring.
  - inversion Hf as [|? ? Hm Hf']; subst. cbn [fst] in Hm. cbn [Jsum fst snd]. rewrite (IH Hf').
    rewrite <- (delta_sum J k m L Hnd Hm), <- (fsum_map_add K Kf). apply fsum_map_ext_in. intros i _.
    unfold coef. cbn [Jsum fst snd]. ring.
Qed.

Lemma Jsum_collect_homog (J : mon -> F) l f : homog l f ->
  Jsum K J f = fsum (map (fun i => coef i f * J i) (default_comps l)).
Proof.
  intro H. apply Jsum_collect; [apply default_comps_NoDup|].
  revert H. apply Forall_impl. intros [[[a b] c] k] E. unfold mdeg in E. cbn [fst snd] in *.
  now apply BlockP.default_comps_all.
Qed.

Definition rep_mat (R : @mat3 F) (i j : comp) : F := coef i (rot_expand K R j).

Lemma rep_mat_000 R : rep_mat R (0, 0, 0)%nat (0, 0, 0)%nat = 1.
Proof. unfold rep_mat, coef, rot_expand, subst_mon. cbn. ring. Qed.

Lemma Jsum_rot_expand (J : mon -> F) R l j : In j (default_comps l) ->
  Jsum K J (rot_expand K R j) = fsum (map (fun i => rep_mat R i j * J i) (default_comps l)).
Proof.
  intro Hj. apply Jsum_collect_homog. unfold rot_expand.
  replace l with (mdeg j) by (apply BlockP.default_comps_degree, Hj). apply homog_subst_mon.
Qed.

Lemma Jsum_rot_expand_idx (J : mon -> F) R l j : In j (default_comps l) ->
  Jsum K J (rot_expand K R j)
  = fsum (mk (length (default_comps l)) (fun i =>
      rep_mat R (nth i (default_comps l) (0, 0, 0)%nat) j * J (nth i (default_comps l) (0, 0, 0)%nat))).
Proof.
  intro Hj. rewrite (Jsum_rot_expand J R l j Hj). now rewrite (map_as_mk _ (default_comps l) (0, 0, 0)%nat).
Qed.

Theorem rep_mat_mono_rep R l : mono_rep K R l (rep_mat R).
Proof.
  intros j Hj u. rewrite <- (rot_expand_eval K Kf R j u). now apply Jsum_rot_expand.
Qed.

Hypothesis Hexp : forall x y, fexp K (x + y) = fexp K x * fexp K y.

(* from the entries of (R^T u)^a to the collected matrix, for any pair of index-pair functions *)
Lemma matrix_form R la lb (P P' : comp -> comp -> F) ja jb :
  In ja (default_comps la) -> In jb (default_comps lb) ->
  Jsum K (fun a' => Jsum K (fun b' => P' a' b') (rot_expand K R jb)) (rot_expand K R ja) = P ja jb ->
  fsum (map (fun ia => fsum (map (fun ib => rep_mat R ia ja * rep_mat R ib jb * P' ia ib)
    (default_comps lb))) (default_comps la)) = P ja jb.
Proof.
  intros Hja Hjb <-.
  rewrite (Jsum_rot_expand _ R la ja Hja). apply fsum_map_ext_in. intros ia _.
  rewrite (Jsum_rot_expand _ R lb jb Hjb), <- (fsum_map_scale K Kf). apply fsum_map_ext_in. intros ib _. ring.
Qed.

Theorem overlap_prim_rotation_matrix R la lb sa sb ja jb alpha beta :
  orthogonal K R -> psum K alpha beta <> 0 ->
  In ja (default_comps la) -> In jb (default_comps lb) ->
  fsum (map (fun ia => fsum (map (fun ib =>
      rep_mat R ia ja * rep_mat R ib jb
      * ovl_prim K (rot_shell K R sa) (rot_shell K R sb) ia ib alpha beta)
    (default_comps lb))) (default_comps la))
  = ovl_prim K sa sb ja jb alpha beta.
Proof.
  intros HO Hp Hja Hjb.
  apply (matrix_form R la lb (fun a b => ovl_prim K sa sb a b alpha beta)
           (fun a b => ovl_prim K (rot_shell K R sa) (rot_shell K R sb) a b alpha beta) ja jb Hja Hjb).
  now apply overlap_prim_rotation_covariant.
Qed.
Theorem kinetic_prim_rotation_matrix R la lb sa sb ja jb alpha beta :
  orthogonal K R -> psum K alpha beta <> 0 ->
  In ja (default_comps la) -> In jb (default_comps lb) ->
  fsum (map (fun ia => fsum (map (fun ib =>
      rep_mat R ia ja * rep_mat R ib jb
      * kin_prim K (rot_shell K R sa) (rot_shell K R sb) ia ib alpha beta)
    (default_comps lb))) (default_comps la))
  = kin_prim K sa sb ja jb alpha beta.
Proof.
  intros HO Hp Hja Hjb.
  apply (matrix_form R la lb (fun a b => kin_prim K sa sb a b alpha beta)
           (fun a b => kin_prim K (rot_shell K R sa) (rot_shell K R sb) a b alpha beta) ja jb Hja Hjb).
  now apply kinetic_prim_rotation_covariant.
Qed.

Hypothesis Hapx : forall x : F, fapx K x = x.
Hypothesis H2 : 1 + 1 <> 0.
Hypothesis Hdf : forall c, dfnorm K c <> 0.

(* the part of the primitive normalisation that does not depend on the component *)
Definition gnorm (l : nat) (alpha : F) : F :=
  pow34 K ((1 + 1) * alpha / fpi K) * fsqrt K (FNum.fpow K ((1 + 1 + 1 + 1) * alpha) l).

Lemma dfnorm_norm_prim l c alpha : dfnorm K c * norm_prim K l c alpha = gnorm l alpha.
Proof.
  destruct c as [[ax ay] az]. pose proof (Hdf (ax, ay, az)) as Hc.
  unfold norm_prim, dfnorm, gnorm in *. cbn [fst snd] in *. rewrite Hapx. field. exact Hc.
Qed.

(* the contraction with component-independent weights *)
Definition W (sa sb : shell F) (ma mb : nat) (p : F -> F -> F) : F :=
  fsum (mk (length (s_exps sa)) (fun ka => fsum (mk (length (s_exps sb)) (fun kb =>
    nth ma (nth ka (s_coeffs sa) []) 0 * nth mb (nth kb (s_coeffs sb) []) 0
    * gnorm (s_l sa) (nth ka (s_exps sa) 0) * gnorm (s_l sb) (nth kb (s_exps sb) 0)
    * p (nth ka (s_exps sa) 0) (nth kb (s_exps sb) 0))))).

Lemma contracted_W sa sb ca cb ma mb p :
  dfnorm K ca * dfnorm K cb * contracted K sa sb ca cb ma mb p = W sa sb ma mb p.
Proof.
  unfold contracted, W. rewrite (fsum_mk_scale_l K Kf). apply fsum_mk_ext; intros ka _.
  rewrite (fsum_mk_scale_l K Kf). apply fsum_mk_ext; intros kb _.
  rewrite <- (dfnorm_norm_prim (s_l sa) ca), <- (dfnorm_norm_prim (s_l sb) cb). ring.
Qed.
Lemma W_ext sa sb ma mb p q :
  (forall alpha beta, In alpha (s_exps sa) -> In beta (s_exps sb) -> p alpha beta = q alpha beta) ->
  W sa sb ma mb p = W sa sb ma mb q.
Proof.
  intros H. unfold W. apply fsum_mk_ext; intros ka Hka. apply fsum_mk_ext; intros kb Hkb.
  rewrite H by (apply nth_In; assumption). reflexivity.
Qed.
Lemma W_add sa sb ma mb p q :
  W sa sb ma mb (fun x y => p x y + q x y) = W sa sb ma mb p + W sa sb ma mb q.
Proof.
  unfold W. rewrite (fsum_mk_add K Kf). apply fsum_mk_ext; intros ka _.
  rewrite (fsum_mk_add K Kf). apply fsum_mk_ext; intros kb _. ring.
Qed.
Lemma W_scale sa sb ma mb c p : W sa sb ma mb (fun x y => c * p x y) = c * W sa sb ma mb p.
Proof.
  unfold W. rewrite (fsum_mk_scale_l K Kf). apply fsum_mk_ext; intros ka _.
  rewrite (fsum_mk_scale_l K Kf). apply fsum_mk_ext; intros kb _. ring.
Qed.
Lemma W_zero sa sb ma mb : W sa sb ma mb (fun _ _ => 0) = 0.
Proof.
  unfold W. transitivity (fsum (mk (length (s_exps sa)) (fun _ => 0))); [|apply (fsum_mk_zero K Kf)].
  apply fsum_mk_ext; intros ka _.
  transitivity (fsum (mk (length (s_exps sb)) (fun _ => 0))); [|apply (fsum_mk_zero K Kf)].
  apply fsum_mk_ext; intros kb _. ring.
Qed.
Lemma W_fsum sa sb ma mb n (c : nat -> F) (p : nat -> F -> F -> F) :
  W sa sb ma mb (fun x y => fsum (mk n (fun i => c i * p i x y)))
  = fsum (mk n (fun i => c i * W sa sb ma mb (p i))).
Proof.
  induction n as [|n IH].
  - rewrite (fsum_mk_0 K). apply W_zero.
  - rewrite (fsum_mk_S K Kf), <- IH, <- W_scale, <- W_add. apply W_ext. intros x y _ _.
    apply (fsum_mk_S K Kf).
Qed.

(* the lifting through the contraction: a primitive matrix law between prim (original system) and prim' (rotated
   system), at the exponents of the two shells, gives the same law for the contracted, normalised values *)
Lemma contracted_rotation_law R (prim prim' : shell F -> shell F -> comp -> comp -> F -> F -> F)
      la lb sa sb ma mb ja jb :
  let cmp l i := nth i (default_comps l) (0, 0, 0)%nat in
  let sa' := rot_shell K R sa in let sb' := rot_shell K R sb in
  (forall alpha beta, In alpha (s_exps sa) -> In beta (s_exps sb) ->
     fsum (map (fun ia => fsum (map (fun ib =>
         rep_mat R ia (cmp la ja) * rep_mat R ib (cmp lb jb) * prim' sa' sb' ia ib alpha beta)
       (default_comps lb))) (default_comps la))
     = prim sa sb (cmp la ja) (cmp lb jb) alpha beta) ->
  dfnorm K (cmp la ja) * dfnorm K (cmp lb jb)
    * contracted K sa sb (cmp la ja) (cmp lb jb) ma mb (prim sa sb (cmp la ja) (cmp lb jb))
  = fsum (map (fun ia => fsum (map (fun ib =>
      rep_mat R (cmp la ia) (cmp la ja) * rep_mat R (cmp lb ib) (cmp lb jb)
      * dfnorm K (cmp la ia) * dfnorm K (cmp lb ib)
      * contracted K sa' sb' (cmp la ia) (cmp lb ib) ma mb (prim' sa' sb' (cmp la ia) (cmp lb ib)))
      (seq 0 (length (default_comps lb))))) (seq 0 (length (default_comps la)))).
Proof.
  intros cmp sa' sb' Hprim. rewrite contracted_W. symmetry.
  transitivity (fsum (mk (length (default_comps la)) (fun ia => rep_mat R (cmp la ia) (cmp la ja) *
     W sa sb ma mb (fun x y => fsum (mk (length (default_comps lb)) (fun ib =>
        rep_mat R (cmp lb ib) (cmp lb jb) * prim' sa' sb' (cmp la ia) (cmp lb ib) x y)))))).
  { apply fsum_mk_ext. intros ia _. rewrite W_fsum, (fsum_mk_scale_l K Kf).
    apply fsum_mk_ext. intros ib _.
    change (W sa sb ma mb) with (W sa' sb' ma mb).
    rewrite <- (contracted_W sa' sb' (cmp la ia) (cmp lb ib)).
    change (fun x y : F => prim' sa' sb' (cmp la ia) (cmp lb ib) x y)
      with (prim' sa' sb' (cmp la ia) (cmp lb ib)). ring. }
  rewrite <- W_fsum. apply W_ext. intros alpha beta Ha Hb.
  rewrite <- (Hprim alpha beta Ha Hb).
  rewrite (map_as_mk _ (default_comps la) (0, 0, 0)%nat). apply fsum_mk_ext. intros ia _.
  fold (cmp la ia). rewrite (map_as_mk _ (default_comps lb) (0, 0, 0)%nat), (fsum_mk_scale_l K Kf).
  apply fsum_mk_ext. intros ib _. fold (cmp lb ib). ring.
Qed.

(* the equation of the block laws: entry (ma, ja, mb, jb) of [blk sa sb] against the entries of the rotated pair combined
   with matrices Ma, Mb; la, lb are the angular momenta of the two shells *)
Definition block_eq (blk : shell F -> shell F -> list (list (list (list F)))) (R : @mat3 F) (Ma Mb : comp -> comp -> F)
    (la lb : nat) (sa sb : shell F) (ma mb ja jb : nat) : Prop :=
  let cmp l i := nth i (default_comps l) (0, 0, 0)%nat in
  dfnorm K (cmp la ja) * dfnorm K (cmp lb jb)
    * nth jb (nth mb (nth ja (nth ma (blk sa sb) []) []) []) 0
  = FNum.fsum K (map (fun ia => FNum.fsum K (map (fun ib =>
      Ma (cmp la ia) (cmp la ja) * Mb (cmp lb ib) (cmp lb jb)
      * dfnorm K (cmp la ia) * dfnorm K (cmp lb ib)
      * nth ib (nth mb (nth ia (nth ma
           (blk (rot_shell K R sa) (rot_shell K R sb)) []) []) []) 0)
      (seq 0 (length (default_comps lb))))) (seq 0 (length (default_comps la)))).

(* the law with the explicit matrices [rep_mat R], for Cartesian shells in the default component order *)
Definition block_law_rep (blk : shell F -> shell F -> list (list (list (list F)))) : Prop :=
  forall R sa sb, orthogonal K R -> s_comps sa = [] -> s_comps sb = [] -> wf_coeffs sa -> wf_coeffs sb ->
    (forall a b, In a (s_exps sa) -> In b (s_exps sb) -> a + b <> 0) ->
    forall ma mb ja jb, (ma < nseg sa)%nat -> (mb < nseg sb)%nat ->
      (ja < length (default_comps (s_l sa)))%nat -> (jb < length (default_comps (s_l sb)))%nat ->
      block_eq blk R (rep_mat R) (rep_mat R) (s_l sa) (s_l sb) sa sb ma mb ja jb.

(* one representation matrix per angular momentum: the form of [RigidP.rotation_law_overlap] *)
Definition block_law (blk : shell F -> shell F -> list (list (list (list F)))) : Prop :=
  forall R, orthogonal K R -> forall la lb, exists Ma Mb : comp -> comp -> F,
    mono_rep K R la Ma /\ mono_rep K R lb Mb /\
    forall sa sb, s_l sa = la -> s_l sb = lb -> s_comps sa = [] -> s_comps sb = [] ->
      wf_coeffs sa -> wf_coeffs sb ->
      (forall a b, In a (s_exps sa) -> In b (s_exps sb) -> a + b <> 0) ->
      forall ma mb ja jb, (ma < nseg sa)%nat -> (mb < nseg sb)%nat ->
        (ja < length (default_comps la))%nat -> (jb < length (default_comps lb))%nat ->
        block_eq blk R Ma Mb la lb sa sb ma mb ja jb.

Lemma block_law_of_rep blk : block_law_rep blk -> block_law blk.
Proof.
  intros H R HO la lb. exists (rep_mat R), (rep_mat R).
  split; [apply rep_mat_mono_rep|]. split; [apply rep_mat_mono_rep|].
  intros sa sb <- <-. now apply H.
Qed.

(* any two-index kernel whose block entries are contracted primitive values obeying the primitive matrix law *)
Section Generic.
Variables (blk : shell F -> shell F -> list (list (list (list F))))
          (prim : shell F -> shell F -> comp -> comp -> F -> F -> F).
Hypothesis blk_correct : forall sa sb ma ia mb ib,
  wf_shell sa -> wf_shell sb -> exps_ok K sa sb ->
  (ma < nseg sa)%nat -> (ia < length (comps_of sa))%nat -> (mb < nseg sb)%nat -> (ib < length (comps_of sb))%nat ->
  nth4 K ma ia mb ib (blk sa sb)
  = contracted K sa sb (nth ia (comps_of sa) (0,0,0)%nat) (nth ib (comps_of sb) (0,0,0)%nat) ma mb
      (prim sa sb (nth ia (comps_of sa) (0,0,0)%nat) (nth ib (comps_of sb) (0,0,0)%nat)).
Hypothesis prim_matrix : forall R la lb sa sb ja jb alpha beta,
  orthogonal K R -> psum K alpha beta <> 0 -> In ja (default_comps la) -> In jb (default_comps lb) ->
  fsum (map (fun ia => fsum (map (fun ib =>
      rep_mat R ia ja * rep_mat R ib jb * prim (rot_shell K R sa) (rot_shell K R sb) ia ib alpha beta)
    (default_comps lb))) (default_comps la))
  = prim sa sb ja jb alpha beta.

Lemma default_entry sa sb ma mb ia ib :
  s_comps sa = [] -> s_comps sb = [] -> wf_coeffs sa -> wf_coeffs sb -> exps_ok K sa sb ->
  (ma < nseg sa)%nat -> (mb < nseg sb)%nat ->
  (ia < length (default_comps (s_l sa)))%nat -> (ib < length (default_comps (s_l sb)))%nat ->
  let cmp l i := nth i (default_comps l) (0, 0, 0)%nat in
  nth ib (nth mb (nth ia (nth ma (blk sa sb) []) []) []) 0
  = contracted K sa sb (cmp (s_l sa) ia) (cmp (s_l sb) ib) ma mb (prim sa sb (cmp (s_l sa) ia) (cmp (s_l sb) ib)).
Proof.
  intros Hca Hcb Wa Wb He Hma Hmb Hia Hib cmp.
  pose proof (comps_of_default sa Hca) as Ca. pose proof (comps_of_default sb Hcb) as Cb.
  change (nth ib (nth mb (nth ia (nth ma (blk sa sb) []) []) []) 0) with (nth4 K ma ia mb ib (blk sa sb)).
  rewrite blk_correct by (rewrite ?Ca, ?Cb; assumption || now apply wf_shell_default).
  now rewrite Ca, Cb.
Qed.

Theorem block_rotation_law_generic : block_law_rep blk.
Proof.
  intros R sa sb HO Hca Hcb Wa Wb Hex ma mb ja jb Hma Hmb Hja Hjb. unfold block_eq.
  assert (He : exps_ok K sa sb) by (intros a b Ha Hb; unfold psum; now apply Hex).
  rewrite (default_entry sa sb ma mb ja jb) by assumption.
  etransitivity; [apply (contracted_rotation_law R prim prim (s_l sa) (s_l sb) sa sb ma mb ja jb)|].
  - intros alpha beta Ha Hb.
    apply prim_matrix; [exact HO|exact (He alpha beta Ha Hb)|apply nth_In; exact Hja|apply nth_In; exact Hjb].
  - apply (fsum_map_ext_in K). intros ia Hia. apply (fsum_map_ext_in K). intros ib Hib.
    apply in_seq in Hia. apply in_seq in Hib. destruct Hia as [_ Hia], Hib as [_ Hib].
    (* the rotated shells keep l, exponents, coefficients and components: the hypotheses apply as they stand *)
    now rewrite (default_entry (rot_shell K R sa) (rot_shell K R sb) ma mb ia ib) by assumption.
Qed.
End Generic.

Theorem overlap_block_rotation_law_rep : block_law_rep (overlap_block K).
Proof.
  apply (block_rotation_law_generic (overlap_block K) (ovl_prim K)).
  - intros. now apply (overlap_block_correct K Kf Hapx H2).
  - intros. now apply overlap_prim_rotation_matrix.
Qed.

Theorem kinetic_block_rotation_law_rep : block_law_rep (kinetic_block K).
Proof.
  apply (block_rotation_law_generic (kinetic_block K) (kin_prim K)).
  - intros. now apply (kinetic_block_correct K Kf Hapx H2).
  - intros. now apply kinetic_prim_rotation_matrix.
Qed.

End Block.

(* Examples over Qc.  The transcendental closures are stand-ins (sqrt = exp = 1, which satisfy every hypothesis);
   the theorem assumes nothing else about them. *)
From Coq Require Import ZArith QArith Qcanon.
Definition exKQ : Fops Qc := QcK true (Q2Qc 3) (fun _ => Q2Qc 1) (fun _ => Q2Qc 1) (fun x => x) (fun _ x => x).
Section Examples.
Let KQ : Fops Qc := exKQ.
Let KQf : is_field KQ := QcK_field _ _ _ _ _ _.
Let q (n : Z) (d : positive) : Qc := qc_of n d.
Definition exP : shell Qc :=
  mkShell Qc 1 (q 1 2) (q (-1) 1) (q 2 1) [q 3 2; q 1 4] [[q 1 1; q 2 1]; [q (-1) 3; q 1 2]] false [] [].
Definition exD : shell Qc :=
  mkShell Qc 2 (q 0 1) (q 1 3) (q (-1) 1) [q 2 3] [[q 5 7]] false [] [].

Lemma KQ_hyps :
  (forall x y, fexp KQ (fadd KQ x y) = fmul KQ (fexp KQ x) (fexp KQ y)) /\ (forall x, fapx KQ x = x)
  /\ fadd KQ (f1 KQ) (f1 KQ) <> f0 KQ /\ (forall c, dfnorm KQ c <> f0 KQ).
Proof.
  split; [intros; apply Qc_is_canon; vm_compute; reflexivity|]. split; [reflexivity|].
  split; intros; apply qc_neq; vm_compute; reflexivity.
Qed.

(* the hypotheses of [overlap_block_rotation_law_rep] hold for a contracted p shell (2 primitives, 2 segments) and a
   d shell *)
Example block_law_hypotheses_satisfiable :
  orthogonal KQ R345 /\ wf_coeffs exP /\ wf_coeffs exD /\ s_comps exP = [] /\ s_comps exD = []
  /\ (forall a b, In a (s_exps exP) -> In b (s_exps exD) -> fadd KQ a b <> f0 KQ).
Proof.
  split; [apply orthogonal_R345|]. split; [reflexivity|]. split; [reflexivity|].
  split; [reflexivity|]. split; [reflexivity|].
  intros a b Ha Hb. cbn [exP exD s_exps In] in Ha, Hb.
  destruct Ha as [<-|[<-|[]]]; destruct Hb as [<-|[]]; apply qc_neq; vm_compute; reflexivity.
Qed.

(* the block law on the list-level model in boolean form (executable): every segment pair and
   every (p component, d component) *)
Definition block_law_check (R : @mat3 Qc) (la lb : nat) (S S' : list (list (list (list Qc))))
  (ma mb ja jb : nat) : bool :=
  let cmp l i := nth i (default_comps l) (0, 0, 0)%nat in
  Qeq_bool
    (fmul KQ (fmul KQ (dfnorm KQ (cmp la ja)) (dfnorm KQ (cmp lb jb)))
       (nth jb (nth mb (nth ja (nth ma S []) []) []) (f0 KQ)))
    (FNum.fsum KQ (map (fun ia => FNum.fsum KQ (map (fun ib =>
        fmul KQ (fmul KQ (fmul KQ (fmul KQ (rep_mat KQ R (cmp la ia) (cmp la ja))
                                           (rep_mat KQ R (cmp lb ib) (cmp lb jb)))
                                  (dfnorm KQ (cmp la ia))) (dfnorm KQ (cmp lb ib)))
          (nth ib (nth mb (nth ia (nth ma S' []) []) []) (f0 KQ)))
        (seq 0 (length (default_comps lb))))) (seq 0 (length (default_comps la))))).
(* all entries of the (contracted p, 2 segments) x d block, both rotations; the two blocks are shared by all entries *)
Definition block_law_all (blk : shell Qc -> shell Qc -> list (list (list (list Qc)))) : bool :=
  forallb (fun R =>
    let S := blk exP exD in let S' := blk (rot_shell KQ R exP) (rot_shell KQ R exD) in
    forallb (fun ma => forallb (fun ja => forallb (fun jb =>
      block_law_check R 1 2 S S' ma 0 ja jb) (seq 0 6)) (seq 0 3)) (seq 0 2)) [R345; Rimp].
Lemma block_law_all_of_rep blk : block_law_rep KQ blk -> block_law_all blk = true.
Proof.
  intros H. destruct block_law_hypotheses_satisfiable as (_ & Wa & Wb & Ca & Cb & Hex).
  apply forallb_forall. intros R HR. cbv zeta.
  apply forallb_seq. intros ma Hma. apply forallb_seq. intros ja Hja. apply forallb_seq. intros jb Hjb.
  apply Qeq_bool_of_eq.
  apply (H R exP exD (orthogonal_R345_Rimp _ _ _ _ _ _ R HR) Ca Cb Wa Wb Hex ma 0%nat ja jb); cbn; lia.
Qed.
Example block_law_computed : block_law_all (overlap_block KQ) = true.
Proof.
  destruct KQ_hyps as (A & B & C & D). apply block_law_all_of_rep, (overlap_block_rotation_law_rep KQ KQf A B C D).
Qed.
Example kinetic_block_law_computed : block_law_all (kinetic_block KQ) = true.
Proof.
  destruct KQ_hyps as (A & B & C & D). apply block_law_all_of_rep, (kinetic_block_rotation_law_rep KQ KQf A B C D).
Qed.
(* not vacuous: the kinetic block does change under the rotation *)
Example kinetic_block_not_invariant :
  Qeq_bool (nth 1 (nth 0 (nth 0 (nth 0 (kinetic_block KQ exP exD) []) []) []) (f0 KQ))
           (nth 1 (nth 0 (nth 0 (nth 0 (kinetic_block KQ (rot_shell KQ R345 exP) (rot_shell KQ R345 exD)) []) []) [])
                (f0 KQ)) = false.
Proof. vm_compute. reflexivity. Qed.
End Examples.

(* [RigidP.rotation_law_overlap] with the two extra hypotheses of the block theorem written in: what is PROVED. *)
Definition rotation_law_overlap_wf {F : Type} (K : Fops F) : Prop :=
  (forall x, fapx K x = x) -> (forall x y, fexp K (fadd K x y) = fmul K (fexp K x) (fexp K y)) ->
  (forall c, dfnorm K c <> f0 K) ->
  fadd K (f1 K) (f1 K) <> f0 K ->                                               (* extra 1 *)
  forall R, orthogonal K R -> forall la lb, exists Ma Mb : comp -> comp -> F,
    mono_rep K R la Ma /\ mono_rep K R lb Mb /\
    forall sa sb, s_l sa = la -> s_l sb = lb -> s_comps sa = [] -> s_comps sb = [] ->
      wf_coeffs sa -> wf_coeffs sb ->                                           (* extra 2 *)
      (forall a b, In a (s_exps sa) -> In b (s_exps sb) -> fadd K a b <> f0 K) ->
      forall ma mb ja jb, (ma < nseg sa)%nat -> (mb < nseg sb)%nat ->
        (ja < length (default_comps la))%nat -> (jb < length (default_comps lb))%nat ->
        let cmp l i := nth i (default_comps l) (0, 0, 0)%nat in
        fmul K (fmul K (dfnorm K (cmp la ja)) (dfnorm K (cmp lb jb)))
          (nth jb (nth mb (nth ja (nth ma (overlap_block K sa sb) []) []) []) (f0 K))
        = FNum.fsum K (map (fun ia => FNum.fsum K (map (fun ib =>
            fmul K (fmul K (fmul K (fmul K (Ma (cmp la ia) (cmp la ja)) (Mb (cmp lb ib) (cmp lb jb)))
                                   (dfnorm K (cmp la ia))) (dfnorm K (cmp lb ib)))
              (nth ib (nth mb (nth ia (nth ma
                 (overlap_block K (rot_shell K R sa) (rot_shell K R sb)) []) []) []) (f0 K)))
            (seq 0 (length (default_comps lb))))) (seq 0 (length (default_comps la)))).
