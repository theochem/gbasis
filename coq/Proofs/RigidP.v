(* Proofs/RigidP.v — lemmas behind property C12 (rigid motions), about the executable models.

   Translation: every model sees the centres (and points, charges, moment origin) only through differences with the
   weighted centre or with each other ([wc_shift_c], [diff_shift]); for exp / Boys arguments the argument itself is
   unchanged.
   Origin laws: binomial shift of the moment origin; angular momentum about a displaced origin = angular momentum - d x p.
   Signed axis permutations (one reflection and two transpositions generate all 48): reflection parity of the 1-D
   tables; the 3-D primitive is a product over the axes, so exchanging two axes exchanges the component indices.  For
   the Boys-type integrals the law is stated at spec level: the per-axis s-polynomial of SPoly has parity (-1)^a and
   the 3-D quantity is Phi of a product of per-axis polynomials, which is symmetric in the axes.
   Block level: an entry of a contracted block is one double sum [ksum] over the primitives of the two shells, linear
   in the primitive integrals and blind to the centres; the block laws are the primitive laws carried through it.
   The law for general rotations is written down ([rotation_law_overlap]); it is proved, with two further hypotheses,
   in Proofs/RotationBlockP.v. *)
From Coq Require Import List Arith Lia Field.
From GB Require Import Base.Field Base.FNum Base.Tables Gauss.Moment1D Gauss.SPoly Model.Shell
  Model.MomentInt Model.DiffOp Model.OneElec Model.TwoElec Model.Eval Model.Overlap Model.OneBody
  Proofs.MomentIntP Proofs.DiffOpP Proofs.EvalP Proofs.BlockP Proofs.OverlapP Proofs.CoreShiftP.
Import ListNotations.

Section Rigid.
Context {F : Type} (K : Fops F) (Kf : is_field K).
Add Field KFr : Kf.
Local Open Scope F_scope.
Notation "0" := (f0 K) : F_scope.
Notation "1" := (f1 K) : F_scope.
Infix "+" := (fadd K) : F_scope.
Infix "*" := (fmul K) : F_scope.
Infix "-" := (fsub K) : F_scope.
Infix "/" := (fdiv K) : F_scope.
Notation "- x" := (fopp K x) : F_scope.
Notation "# n" := (ofnat K n) (at level 5) : F_scope.
Notation fpow := (FNum.fpow K).
Notation sumn := (Tables.sumn 0 (fadd K)).

Lemma wc_shift_c a b x y c t : a + b <> 0 ->
  (a * (x + t) + b * (y + t)) / (a + b) - (c + t) = (a * x + b * y) / (a + b) - c.
Proof. intros H. field. exact H. Qed.
Lemma wc_shift_pq a b c d x y z w t : a + b <> 0 -> c + d <> 0 ->
  (a * (x + t) + b * (y + t)) / (a + b) - (c * (z + t) + d * (w + t)) / (c + d)
  = (a * x + b * y) / (a + b) - (c * z + d * w) / (c + d).
Proof. intros H1 H2. field. split; assumption. Qed.
Lemma diff_shift x y t : (x + t) - (y + t) = x - y.
Proof. ring. Qed.

Section Axis.
Variables (Ax Bx Cx alpha beta t : F) (la lb km : nat).
Hypothesis Hp : psum K alpha beta <> 0.

Lemma row_a_shift : row_a K (Ax + t) (Bx + t) alpha beta la = row_a K Ax Bx alpha beta la.
Proof. unfold row_a, step_a, PA, Pw, base. rewrite wc_shift_c by exact Hp. now rewrite diff_shift. Qed.
Lemma plane0_shift :
  plane0 K (Ax + t) (Bx + t) alpha beta la lb = plane0 K Ax Bx alpha beta la lb.
Proof. unfold plane0, step_b, PB, Pw. rewrite wc_shift_c by exact Hp. now rewrite row_a_shift. Qed.
Theorem table_shift :
  table K (Ax + t) (Bx + t) (Cx + t) alpha beta la lb km = table K Ax Bx Cx alpha beta la lb km.
Proof. unfold table, step_c, PC, Pw. rewrite wc_shift_c by exact Hp. now rewrite plane0_shift. Qed.
End Axis.

Theorem dtable_shift Ax Bx alpha beta t la lb D : psum K alpha beta <> 0 ->
  dtable K (Ax + t) (Bx + t) alpha beta la lb D = dtable K Ax Bx alpha beta la lb D.
Proof. intros Hp. unfold dtable, dtable_full. now rewrite plane0_shift. Qed.

Theorem vrr_prim_shift L Ax Ay Az Bx By Bz Cx Cy Cz alpha beta tx ty tz : alpha + beta <> 0 ->
  vrr_prim K L (Ax + tx) (Ay + ty) (Az + tz) (Bx + tx) (By + ty) (Bz + tz)
           (Cx + tx) (Cy + ty) (Cz + tz) alpha beta
  = vrr_prim K L Ax Ay Az Bx By Bz Cx Cy Cz alpha beta.
Proof.
  intros Hp. unfold vrr_prim. cbv zeta.
  rewrite !(wc_shift_c alpha beta) by exact Hp.
  rewrite !diff_shift. reflexivity.
Qed.

Theorem eri_prim_shift L Lc Ax Ay Az Bx By Bz Cx Cy Cz Dx Dy Dz alpha beta gamma delta tx ty tz :
  alpha + beta <> 0 -> gamma + delta <> 0 ->
  eri_prim K L Lc (Ax + tx, Ay + ty, Az + tz) (Bx + tx, By + ty, Bz + tz)
           (Cx + tx, Cy + ty, Cz + tz) (Dx + tx, Dy + ty, Dz + tz) alpha beta gamma delta
  = eri_prim K L Lc (Ax, Ay, Az) (Bx, By, Bz) (Cx, Cy, Cz) (Dx, Dy, Dz) alpha beta gamma delta.
Proof.
  intros Hp Hq. unfold eri_prim. cbv beta iota zeta.
  rewrite !(wc_shift_c alpha beta) by exact Hp.
  rewrite !(wc_shift_c gamma delta) by exact Hq.
  rewrite !(wc_shift_pq alpha beta gamma delta) by assumption.
  rewrite !diff_shift. reflexivity.
Qed.

Definition shift_shell (tx ty tz : F) (s : shell F) : shell F :=
  mkShell F (s_l s) (s_x s + tx) (s_y s + ty) (s_z s + tz) (s_exps s) (s_coeffs s)
          (s_sph s) (s_comps s) (s_labels s).
Definition shift_point (tx ty tz : F) (p : F * F * F) : F * F * F :=
  (fst (fst p) + tx, snd (fst p) + ty, snd p + tz).

Theorem prim_data_shift md ef s o tx ty tz p alpha :
  prim_data K md ef (shift_shell tx ty tz s) o (shift_point tx ty tz p) alpha
  = prim_data K md ef s o p alpha.
Proof.
  destruct p as [[px py] pz]. destruct o as [[ox oy] oz].
  unfold prim_data, shift_point, shift_shell. cbn [fst snd s_x s_y s_z s_l].
  rewrite !diff_shift. reflexivity.
Qed.

(* holds for positive exponents *)
Definition exps_ok (sa sb : shell F) : Prop :=
  forall a b, In a (s_exps sa) -> In b (s_exps sb) -> a + b <> 0.

Lemma tabs_shift Cx Cy Cz orders sa sb tx ty tz : exps_ok sa sb ->
  tabs K (Cx + tx) (Cy + ty) (Cz + tz) orders (shift_shell tx ty tz sa) (shift_shell tx ty tz sb)
  = tabs K Cx Cy Cz orders sa sb.
Proof.
  intros H. unfold tabs. cbn [shift_shell s_x s_y s_z s_l s_exps].
  apply map_ext_in; intros b Hb. apply map_ext_in; intros a Ha.
  now rewrite !table_shift by exact (H a b Ha Hb).
Qed.

Theorem mm_block_shift Cx Cy Cz orders sa sb tx ty tz : exps_ok sa sb ->
  mm_block K (Cx + tx) (Cy + ty) (Cz + tz) orders (shift_shell tx ty tz sa) (shift_shell tx ty tz sb)
  = mm_block K Cx Cy Cz orders sa sb.
Proof. intros H. unfold mm_block. cbv zeta. now rewrite tabs_shift by exact H. Qed.

Theorem moment_block_shift Cx Cy Cz orders sa sb tx ty tz : exps_ok sa sb ->
  moment_block K (Cx + tx) (Cy + ty) (Cz + tz) orders (shift_shell tx ty tz sa) (shift_shell tx ty tz sb)
  = moment_block K Cx Cy Cz orders sa sb.
Proof. intros H. unfold moment_block. now rewrite mm_block_shift. Qed.

(* the tables of order 0 never reach the step that uses the origin: any origin will do *)
Lemma overlap_block_origin Cx Cy Cz sa sb :
  overlap_block K sa sb = nth 0 (mm_block K Cx Cy Cz [(0, 0, 0)%nat] sa sb) [].
Proof. reflexivity. Qed.

Theorem overlap_block_shift sa sb tx ty tz : exps_ok sa sb ->
  overlap_block K (shift_shell tx ty tz sa) (shift_shell tx ty tz sb) = overlap_block K sa sb.
Proof.
  intros H. rewrite (overlap_block_origin (0 + tx) (0 + ty) (0 + tz)), (overlap_block_origin 0 0 0 sa sb).
  now rewrite mm_block_shift.
Qed.

Lemma dtabs_shift D sa sb tx ty tz : exps_ok sa sb ->
  dtabs K D (shift_shell tx ty tz sa) (shift_shell tx ty tz sb) = dtabs K D sa sb.
Proof.
  intros H. unfold dtabs. cbn [shift_shell s_x s_y s_z s_l s_exps].
  apply map_ext_in; intros b Hb. apply map_ext_in; intros a Ha.
  now rewrite !dtable_shift by exact (H a b Ha Hb).
Qed.

Theorem diffop_block_shift orders sa sb tx ty tz : exps_ok sa sb ->
  diffop_block K orders (shift_shell tx ty tz sa) (shift_shell tx ty tz sb) = diffop_block K orders sa sb.
Proof. intros H. unfold diffop_block. cbv zeta. now rewrite dtabs_shift by exact H. Qed.

Theorem kinetic_block_shift sa sb tx ty tz : exps_ok sa sb ->
  kinetic_block K (shift_shell tx ty tz sa) (shift_shell tx ty tz sb) = kinetic_block K sa sb.
Proof. intros H. unfold kinetic_block. now rewrite diffop_block_shift. Qed.

Theorem momentum_block_shift sa sb tx ty tz : exps_ok sa sb ->
  momentum_block_re K (shift_shell tx ty tz sa) (shift_shell tx ty tz sb) = momentum_block_re K sa sb.
Proof. intros H. unfold momentum_block_re. now rewrite diffop_block_shift. Qed.

Theorem one_elec_point_shift Cx Cy Cz sa sb tx ty tz : exps_ok sa sb ->
  one_elec_point K (Cx + tx) (Cy + ty) (Cz + tz) (shift_shell tx ty tz sa) (shift_shell tx ty tz sb)
  = one_elec_point K Cx Cy Cz sa sb.
Proof.
  intros H. unfold one_elec_point. cbv zeta. cbn [shift_shell s_x s_y s_z s_l s_exps s_coeffs].
  rewrite !diff_shift.
  (* only the array of primitive cubes mentions the centres: replace it entry by entry *)
  erewrite (map_ext_in _ _ (s_exps sb)); [reflexivity|].
  intros b Hb. apply map_ext_in; intros a Ha. apply vrr_prim_shift, (H a b Ha Hb).
Qed.

Definition shift_charge (tx ty tz : F) (p : F * F * F * F) : F * F * F * F :=
  (fst (fst (fst p)) + tx, snd (fst (fst p)) + ty, snd (fst p) + tz, snd p).

Lemma exps_ok_sym sa sb : exps_ok sa sb -> exps_ok sb sa.
Proof. intros H a b Ha Hb. specialize (H b a Hb Ha). intro E. apply H. rewrite <- E. ring. Qed.

Theorem point_charge_block_shift points sa sb tx ty tz : exps_ok sa sb ->
  point_charge_block K (map (shift_charge tx ty tz) points)
                     (shift_shell tx ty tz sa) (shift_shell tx ty tz sb)
  = point_charge_block K points sa sb.
Proof.
  intros H. pose proof (exps_ok_sym _ _ H) as H'. unfold point_charge_block. cbv zeta.
  rewrite map_map.
  apply mk_ext; intros ma _. apply mk_ext; intros ia _. apply mk_ext; intros mb _.
  apply mk_ext; intros ib _. rewrite !map_map.
  apply map_ext. intros [[[cx cy] cz] q]. unfold shift_charge. cbn [fst snd].
  now rewrite !one_elec_point_shift by assumption.
Qed.

Theorem eri_block_shift s1 s2 s3 s4 tx ty tz : exps_ok s1 s2 -> exps_ok s3 s4 ->
  eri_block K (shift_shell tx ty tz s1) (shift_shell tx ty tz s2)
              (shift_shell tx ty tz s3) (shift_shell tx ty tz s4)
  = eri_block K s1 s2 s3 s4.
Proof.
  intros H12 H34. unfold eri_block. cbv zeta.
  unfold coord3. cbn [shift_shell s_x s_y s_z s_l s_exps s_coeffs].
  rewrite !diff_shift.
  erewrite (map_ext_in _ _ (s_exps s1)); [reflexivity|].
  intros a Ha. apply map_ext_in; intros b Hb. apply map_ext_in; intros c Hc. apply map_ext_in; intros d Hd.
  apply eri_prim_shift; [exact (H12 a b Ha Hb)|exact (H34 c d Hc Hd)].
Qed.

Theorem block_with_shift md cm ef s o pts tx ty tz :
  block_with K md cm ef (shift_shell tx ty tz s) o (map (shift_point tx ty tz) pts)
  = block_with K md cm ef s o pts.
Proof.
  unfold block_with. cbv zeta. rewrite map_map.
  apply mk_ext; intros m _. apply mk_ext; intros c _. f_equal. apply map_ext; intros p.
  unfold pt_mat, pt_vals. cbv zeta.
  now rewrite (map_ext _ _ (prim_data_shift md ef s o tx ty tz p)).
Qed.

Theorem eval_block_shift s pts o bk tx ty tz :
  eval_block K (shift_shell tx ty tz s) (map (shift_point tx ty tz) pts) o bk = eval_block K s pts o bk.
Proof. unfold eval_block. now rewrite <- (block_with_shift _ _ _ s o pts tx ty tz). Qed.

Notation Bn := (pbin K).

Definition bsum (t : F) (k : nat) (f : nat -> F) : F :=
  sumn (S k) (fun m => Bn k m * fpow t (k - m) * f m).

(* [pbin] is Pascal's triangle in the field, so [bsum] is CoreShiftP's binomial sum ([bsum_binom]) *)
Lemma pbin_binom n : forall k, Bn n k = #(binom n k).
Proof.
  induction n as [|n IH]; intros [|k]; cbn [pbin binom ofnat]; try ring.
  now rewrite (ofnat_add K Kf), !IH.
Qed.

Lemma bsum_binom t k f : bsum t k f = CoreShiftP.bsum K t k f.
Proof.
  unfold bsum, CoreShiftP.bsum. rewrite (sumn_fsum K Kf). apply fsum_mk_ext. intros m _.
  unfold bterm. now rewrite pbin_binom.
Qed.

Lemma bsum_ext t k f g : (forall m, (m <= k)%nat -> f m = g m) -> bsum t k f = bsum t k g.
Proof. intros H. unfold bsum. apply Tables.sumn_ext. intros i Hi. rewrite H by lia. reflexivity. Qed.
Lemma bsum_mult t k c f : bsum t k (fun m => c * f m) = c * bsum t k f.
Proof. unfold bsum. rewrite <- (sumn_scale K Kf). apply Tables.sumn_ext. intros. ring. Qed.

(* moments about a displaced origin: (y + c + t)^k = sum_m binom(k,m) t^(k-m) (y + c)^m under E,
   whatever the other two linear factors and the auxiliary index are *)
Theorem S3_origin_shift v a b c t : forall k n i j,
  S3 K v a b (c + t) n k i j = bsum t k (fun m => S3 K v a b c n m i j).
Proof. intros k n i j. rewrite bsum_binom. apply (S3_shift K Kf). Qed.

Theorem T3_origin_shift v a b c t k i j :
  T3 K v a b (c + t) k i j = bsum t k (fun m => T3 K v a b c m i j).
Proof. apply S3_origin_shift. Qed.

(* the same law for the table the code builds: moving the moment origin from Cx to Cx - t *)
Theorem table_origin_shift Ax Bx Cx alpha beta t la lb km k j i :
  psum K alpha beta <> 0 -> 1 + 1 <> 0 -> (k <= km)%nat -> (j <= lb)%nat -> (i <= la)%nat ->
  nth3 K k j i (table K Ax Bx (Cx - t) alpha beta la lb km)
  = bsum t k (fun m => nth3 K m j i (table K Ax Bx Cx alpha beta la lb km)).
Proof.
  intros Hp H2 Hk Hj Hi. rewrite (table_correct K Kf) by assumption.
  replace (PC K Ax Bx (Cx - t) alpha beta) with (PC K Ax Bx Cx alpha beta + t) by (unfold PC; ring).
  rewrite T3_origin_shift, <- bsum_mult. apply bsum_ext. intros m Hm.
  symmetry. apply (table_correct K Kf); try assumption. lia.
Qed.

(* Angular momentum about a displaced origin: L' = L - d x p.  The angular-momentum model takes its first moments
   about the coordinate origin.  Moving the whole system by t (equivalently: moving the origin by d = -t) leaves the
   derivative tables unchanged and changes the first-moment tables by t times the overlap tables; the primitive
   products the block model contracts therefore change by (t x p), p the primitive products of the momentum model. *)
Section AngmomAxis.
Variables (Ax Bx alpha beta t : F) (la lb : nat).
Hypothesis Hp : psum K alpha beta <> 0.
Hypothesis H2 : 1 + 1 <> 0.

(* moving the system with the origin fixed is moving the origin the other way *)
Lemma mtable_shift k j i : (k <= 1)%nat -> (j <= lb)%nat -> (i <= la)%nat ->
  nth3 K k j i (table K (Ax + t) (Bx + t) 0 alpha beta la lb 1)
  = bsum t k (fun m => nth3 K m j i (table K Ax Bx 0 alpha beta la lb 1)).
Proof.
  intros Hk Hj Hi. replace 0 with ((0 - t) + t) at 1 by ring. rewrite table_shift by exact Hp.
  now apply table_origin_shift.
Qed.

Lemma dtable_order0 j i : (j <= lb)%nat -> (i <= la)%nat ->
  nth3 K 0 j i (dtable K Ax Bx alpha beta la lb 1)
  = nth3 K 0 j i (table K Ax Bx 0 alpha beta la lb 1).
Proof.
  intros Hj Hi. rewrite (diffop_slice_valid K Kf) by (assumption || lia).
  rewrite (table_correct K Kf) by (assumption || lia). reflexivity.
Qed.
End AngmomAxis.

Definition cross3 (u w : F * F * F) : list F :=
  let '(ux, uy, uz) := u in let '(wx, wy, wz) := w in
  [uy * wz - uz * wy; uz * wx - ux * wz; ux * wy - uy * wx].

Theorem angmom_prim_shift Ax Ay Az Bx By Bz alpha beta tx ty tz la lb (ca cb : comp) :
  (forall x, fapx K x = x) ->
  alpha + beta <> 0 -> 1 + 1 <> 0 ->
  (fst (fst ca) <= la /\ snd (fst ca) <= la /\ snd ca <= la)%nat ->
  (fst (fst cb) <= lb /\ snd (fst cb) <= lb /\ snd cb <= lb)%nat ->
  let d := (dtable K Ax Bx alpha beta la lb 1, dtable K Ay By alpha beta la lb 1,
            dtable K Az Bz alpha beta la lb 1) in
  let m0 := (table K Ax Bx 0 alpha beta la lb 1, table K Ay By 0 alpha beta la lb 1,
             table K Az Bz 0 alpha beta la lb 1) in
  let mt := (table K (Ax + tx) (Bx + tx) 0 alpha beta la lb 1,
             table K (Ay + ty) (By + ty) 0 alpha beta la lb 1,
             table K (Az + tz) (Bz + tz) 0 alpha beta la lb 1) in
  let p := (prim3 K d (1, 0, 0)%nat ca cb, prim3 K d (0, 1, 0)%nat ca cb, prim3 K d (0, 0, 1)%nat ca cb) in
  angmom_prim K d mt ca cb
  = map (fun '(l, x) => l + x) (combine (angmom_prim K d m0 ca cb) (cross3 (tx, ty, tz) p)).
Proof.
  intros Hapx Hp H2 Ha Hb.
  destruct ca as [[ax ay] az]. destruct cb as [[bx by_] bz]. cbn [fst snd] in Ha, Hb.
  destruct Ha as (Hax & Hay & Haz). destruct Hb as (Hbx & Hby & Hbz).
  cbv zeta. unfold angmom_prim, prim3, cross3. cbn [map combine].
  rewrite !Hapx.
  rewrite !mtable_shift, !dtable_order0 by (assumption || lia).
  unfold bsum. cbn [Tables.sumn pbin Nat.sub FNum.fpow].
  f_equal; [ring|]. f_equal; [ring|]. f_equal. ring.
Qed.

Definition sg (n : nat) : F := fpow (fopp K (f1 K)) n.
Lemma sg_S n : sg (S n) = - sg n.
Proof. unfold sg. cbn [FNum.fpow]. ring. Qed.
Lemma sg_SS n : sg (S (S n)) = sg n.
Proof. rewrite !sg_S. ring. Qed.
Lemma sg_add n m : sg (n + m) = sg n * sg m.
Proof. induction n as [|n IH]; cbn [Nat.add]; [unfold sg; cbn [FNum.fpow]; ring|]. rewrite !sg_S, IH. ring. Qed.
Lemma sg_sq n : sg n * sg n = 1.
Proof. induction n as [|n IH]; [unfold sg; cbn [FNum.fpow]; ring|]. rewrite sg_S.
  transitivity (sg n * sg n); [ring|exact IH]. Qed.

(* m_n = (-1)^n m_n: the odd moments of the centred Gaussian are their own negatives (stated for n and
   n + 1 together, which is what the induction needs) *)
Lemma mom_parity v : forall n, mom K v n = sg n * mom K v n /\ mom K v (S n) = sg (S n) * mom K v (S n).
Proof.
  induction n as [|n [IH1 IH2]].
  - split; [unfold sg; cbn [FNum.fpow]; rewrite mom_0; ring|rewrite mom_1; ring].
  - split; [exact IH2|]. rewrite mom_SS, sg_SS. rewrite IH1 at 1. ring.
Qed.

Theorem S3_parity v a b c : forall k i j n,
  S3 K v (- a) (- b) (- c) n k i j = sg (n + k + i + j) * S3 K v a b c n k i j.
Proof.
  induction k as [|k IHk].
  - induction i as [|i IHi].
    + induction j as [|j IHj]; intros n.
      * unfold S3, g3. cbn [plin_pow Eaux]. rewrite !Nat.add_0_r.
        destruct (mom_parity v n) as [E _]. rewrite E at 1. ring.
      * rewrite (S3_Sj K Kf v (- a) (- b) (- c)), (S3_Sj K Kf v a b c), (IHj n), (IHj (S n)).
        rewrite !sg_add, !sg_S. ring.
    + intros j n.
      rewrite (S3_Si K Kf v (- a) (- b) (- c)), (S3_Si K Kf v a b c), (IHi j n), (IHi j (S n)).
      rewrite !sg_add, !sg_S. ring.
  - intros i j n.
    rewrite (S3_Sk K Kf v (- a) (- b) (- c)), (S3_Sk K Kf v a b c), (IHk i j n), (IHk i j (S n)).
    rewrite !sg_add, !sg_S. ring.
Qed.

Theorem T3_parity v a b c k i j :
  T3 K v (- a) (- b) (- c) k i j = sg (k + i + j) * T3 K v a b c k i j.
Proof. unfold T3. apply (S3_parity v a b c k i j 0%nat). Qed.

Lemma wc_neg a b x y c : a + b <> 0 ->
  (a * - x + b * - y) / (a + b) - - c = - ((a * x + b * y) / (a + b) - c).
Proof. intros H. field. exact H. Qed.

Section ParityAxis.
Variables (Ax Bx Cx alpha beta : F) (la lb : nat).
Hypothesis Hp : psum K alpha beta <> 0.
Hypothesis H2 : 1 + 1 <> 0.

Lemma base_neg : base K (- Ax) (- Bx) alpha beta = base K Ax Bx alpha beta.
Proof. unfold base. replace ((- Ax - - Bx) * (- Ax - - Bx)) with ((Ax - Bx) * (Ax - Bx)) by ring.
  reflexivity. Qed.

Theorem table_parity km k j i : (k <= km)%nat -> (j <= lb)%nat -> (i <= la)%nat ->
  nth3 K k j i (table K (- Ax) (- Bx) (- Cx) alpha beta la lb km)
  = sg (k + i + j) * nth3 K k j i (table K Ax Bx Cx alpha beta la lb km).
Proof.
  intros Hk Hj Hi. rewrite !(table_correct K Kf) by assumption.
  unfold PA, PB, PC, Pw, psum. rewrite !wc_neg by exact Hp. rewrite base_neg, T3_parity. ring.
Qed.

Lemma Sfun_neg i j : Sfun K (- Ax) (- Bx) alpha beta i j = sg (i + j) * Sfun K Ax Bx alpha beta i j.
Proof.
  unfold Sfun, PA, PB, Pw, psum. rewrite !wc_neg by exact Hp. rewrite base_neg.
  replace 0 with (- 0) at 1 by ring. rewrite T3_parity. cbn [Nat.add]. ring.
Qed.

Lemma negA_parity (T T' : nat -> nat -> F) k :
  (forall i j, T' i j = sg (k + i + j) * T i j) ->
  forall i j, negA K alpha T' i j = sg (S k + i + j) * negA K alpha T i j.
Proof.
  intros H i j. unfold negA. rewrite !H. destruct i as [|i'].
  - cbn [ofnat]. rewrite !sg_add, !sg_S. ring.
  - replace (S i' - 1)%nat with i' by lia. rewrite !sg_add, !sg_S. ring.
Qed.

Lemma iter_negA_parity k : forall i j,
  iterop (negA K alpha) k (Sfun K (- Ax) (- Bx) alpha beta) i j
  = sg (k + i + j) * iterop (negA K alpha) k (Sfun K Ax Bx alpha beta) i j.
Proof.
  induction k as [|k IH]; intros i j.
  - cbn [iterop Nat.add]. apply Sfun_neg.
  - cbn [iterop]. apply (negA_parity _ _ k IH).
Qed.

Theorem dtable_parity D k j i : (k <= D)%nat -> (j <= lb)%nat -> (i <= la)%nat ->
  nth3 K k j i (dtable K (- Ax) (- Bx) alpha beta la lb D)
  = sg (k + i + j) * nth3 K k j i (dtable K Ax Bx alpha beta la lb D).
Proof.
  intros Hk Hj Hi. rewrite !(diffop_slice_valid K Kf) by assumption. apply iter_negA_parity.
Qed.
End ParityAxis.

Definition swap_xy {A} (c : A * A * A) : A * A * A := (snd (fst c), fst (fst c), snd c).
Definition swap_yz {A} (c : A * A * A) : A * A * A := (fst (fst c), snd c, snd (fst c)).

Theorem prim3_swap_xy (t : table3 (F:=F)) (o ca cb : comp) :
  prim3 K (swap_xy t) (swap_xy o) (swap_xy ca) (swap_xy cb) = prim3 K t o ca cb.
Proof.
  destruct t as [[tx ty] tz], o as [[ox oy] oz], ca as [[ax ay] az], cb as [[bx by_] bz].
  unfold swap_xy, prim3. cbn [fst snd]. f_equal. ring.
Qed.
Theorem prim3_swap_yz (t : table3 (F:=F)) (o ca cb : comp) :
  prim3 K (swap_yz t) (swap_yz o) (swap_yz ca) (swap_yz cb) = prim3 K t o ca cb.
Proof.
  destruct t as [[tx ty] tz], o as [[ox oy] oz], ca as [[ax ay] az], cb as [[bx by_] bz].
  unfold swap_yz, prim3. cbn [fst snd]. f_equal. ring.
Qed.

Lemma norm_prim_swap_xy l (c : comp) alpha : norm_prim K l (swap_xy c) alpha = norm_prim K l c alpha.
Proof.
  destruct c as [[ax ay] az]. unfold swap_xy, norm_prim. cbn [fst snd].
  replace (fdf_odd K ay * fdf_odd K ax * fdf_odd K az) with (fdf_odd K ax * fdf_odd K ay * fdf_odd K az)
    by ring. reflexivity.
Qed.
Lemma norm_prim_swap_yz l (c : comp) alpha : norm_prim K l (swap_yz c) alpha = norm_prim K l c alpha.
Proof.
  destruct c as [[ax ay] az]. unfold swap_yz, norm_prim. cbn [fst snd].
  replace (fdf_odd K ax * fdf_odd K az * fdf_odd K ay) with (fdf_odd K ax * fdf_odd K ay * fdf_odd K az)
    by ring. reflexivity.
Qed.

(* the shell with two coordinate axes exchanged / one axis reflected (same exponents, coefficients,
   type and component conventions: the conventions are those of the frame, not of the molecule) *)
Definition swap_xy_shell (s : shell F) : shell F :=
  mkShell F (s_l s) (s_y s) (s_x s) (s_z s) (s_exps s) (s_coeffs s) (s_sph s) (s_comps s) (s_labels s).
Definition swap_yz_shell (s : shell F) : shell F :=
  mkShell F (s_l s) (s_x s) (s_z s) (s_y s) (s_exps s) (s_coeffs s) (s_sph s) (s_comps s) (s_labels s).
Definition reflect_x_shell (s : shell F) : shell F :=
  mkShell F (s_l s) (- s_x s) (s_y s) (s_z s) (s_exps s) (s_coeffs s) (s_sph s) (s_comps s) (s_labels s).

Theorem prim3_reflect_x Ax Bx Cx alpha beta la lb km (ty tz : list (list (list F))) (o ca cb : comp) :
  (forall x, fapx K x = x) -> psum K alpha beta <> 0 -> 1 + 1 <> 0 ->
  (fst (fst o) <= km)%nat -> (fst (fst ca) <= la)%nat -> (fst (fst cb) <= lb)%nat ->
  prim3 K (table K (- Ax) (- Bx) (- Cx) alpha beta la lb km, ty, tz) o ca cb
  = sg (fst (fst o) + fst (fst ca) + fst (fst cb))
    * prim3 K (table K Ax Bx Cx alpha beta la lb km, ty, tz) o ca cb.
Proof.
  intros Hapx Hp H2 Ho Ha Hb.
  destruct o as [[ox oy] oz], ca as [[ax ay] az], cb as [[bx by_] bz]. cbn [fst snd] in *.
  unfold prim3. rewrite !Hapx. rewrite table_parity by assumption. ring.
Qed.
Theorem dprim3_reflect_x Ax Bx alpha beta la lb D (ty tz : list (list (list F))) (o ca cb : comp) :
  (forall x, fapx K x = x) -> psum K alpha beta <> 0 -> 1 + 1 <> 0 ->
  (fst (fst o) <= D)%nat -> (fst (fst ca) <= la)%nat -> (fst (fst cb) <= lb)%nat ->
  prim3 K (dtable K (- Ax) (- Bx) alpha beta la lb D, ty, tz) o ca cb
  = sg (fst (fst o) + fst (fst ca) + fst (fst cb))
    * prim3 K (dtable K Ax Bx alpha beta la lb D, ty, tz) o ca cb.
Proof.
  intros Hapx Hp H2 Ho Ha Hb.
  destruct o as [[ox oy] oz], ca as [[ax ay] az], cb as [[bx by_] bz]. cbn [fst snd] in *.
  unfold prim3. rewrite !Hapx. rewrite dtable_parity by assumption. ring.
Qed.

(* Boys-type integrals, at the level of the specification (Gauss/SPoly.v).  The one-axis factor is the s-polynomial
   [Pc pa pc v a]; the array entry is Phi_m of it for ANY sequence beta ([V_is_Phi]).  Reflection of the axis
   (pa, pc -> -pa, -pc) multiplies the polynomial by (-1)^a: seen through every Phi_m and through every evaluation. *)
Theorem Vf_parity pa pc v (beta : nat -> F) : forall a m,
  Vf K (- pa) (- pc) v beta a m = sg a * Vf K pa pc v beta a m
  /\ Vf K (- pa) (- pc) v beta (S a) m = sg (S a) * Vf K pa pc v beta (S a) m.
Proof.
  induction a as [|a IH]; intros m.
  - split; [rewrite !Vf_0|rewrite !Vf_1]; unfold sg; cbn [FNum.fpow]; ring.
  - split; [apply IH|]. rewrite !Vf_SS.
    destruct (IH m) as [E0 E1]. destruct (IH (S m)) as [E0' E1'].
    rewrite E0, E1, E0', E1'. rewrite !sg_S. ring.
Qed.

Theorem Pc_parity_Phi pa pc v (beta : nat -> F) a m :
  Phi K beta m (Pc K (- pa) (- pc) v a) = sg a * Phi K beta m (Pc K pa pc v a).
Proof.
  destruct (V_is_Phi K Kf (- pa) (- pc) v beta a m) as [E1 _].
  destruct (V_is_Phi K Kf pa pc v beta a m) as [E2 _].
  rewrite <- E1, <- E2. apply Vf_parity.
Qed.

Theorem Pc_parity_eval pa pc v a s :
  peval K (Pc K (- pa) (- pc) v a) s = sg a * peval K (Pc K pa pc v a) s.
Proof.
  destruct (Pc_eval K Kf (- pa) (- pc) v a s) as [E1 _].
  destruct (Pc_eval K Kf pa pc v a s) as [E2 _].
  rewrite E1, E2. unfold Gs.
  replace (- pa - s * - pc) with (- (pa - s * pc)) by ring.
  replace 0 with (- 0) at 1 2 by ring.
  rewrite S3_parity. cbn [Nat.add]. rewrite Nat.add_0_r. reflexivity.
Qed.

Fixpoint pmul (f g : list F) : list F :=
  match f with
  | [] => []
  | c :: f' => Moment1D.padd K (Moment1D.pscale K c g) (0 :: pmul f' g)
  end.

Lemma peval_pmul f g s : peval K (pmul f g) s = peval K f s * peval K g s.
Proof.
  induction f as [|c f IH]; cbn [pmul peval]; [ring|].
  rewrite (peval_padd K Kf), (peval_pscale K Kf), (peval_shift K Kf), IH. ring.
Qed.

Lemma Phi_pmul_l beta g : forall f m,
  Phi K beta m (pmul f g) = Phi K (fun n => Phi K beta n g) m f.
Proof.
  induction f as [|c f IH]; intros m; cbn [pmul Phi]; [reflexivity|].
  rewrite (Phi_padd K Kf), (Phi_pscale K Kf), (Phi_shift K Kf), IH. reflexivity.
Qed.

Lemma Phi_pmul_nil_r beta : forall f m, Phi K beta m (pmul f []) = 0.
Proof.
  induction f as [|c f IH]; intros m; cbn [pmul Moment1D.pscale map Moment1D.padd]; [reflexivity|].
  rewrite (Phi_shift K Kf). apply IH.
Qed.

Lemma Phi_pmul_cons_r beta : forall f d g m,
  Phi K beta m (pmul f (d :: g)) = d * Phi K beta m f + Phi K beta (S m) (pmul f g).
Proof.
  induction f as [|c f IH]; intros d g m.
  - cbn [pmul Phi]. ring.
  - cbn [pmul]. rewrite !(Phi_padd K Kf), !(Phi_pscale K Kf), !(Phi_shift K Kf), IH.
    cbn [Phi]. ring.
Qed.

Lemma Phi_ext (b1 b2 : nat -> F) : (forall n, b1 n = b2 n) -> forall f m, Phi K b1 m f = Phi K b2 m f.
Proof. intros H. induction f as [|c f IH]; intros m; cbn [Phi]; [reflexivity|]. now rewrite H, IH. Qed.

Theorem Phi_pmul_comm beta : forall f g m, Phi K beta m (pmul f g) = Phi K beta m (pmul g f).
Proof.
  induction f as [|c f IH]; intros g m.
  - rewrite Phi_pmul_nil_r. reflexivity.
  - rewrite Phi_pmul_cons_r. cbn [pmul].
    rewrite (Phi_padd K Kf), (Phi_pscale K Kf), (Phi_shift K Kf), IH. reflexivity.
Qed.

(* the specification of the primitive Coulomb-type integral [a|0]^(m): Phi_m of the product of the
   three per-axis polynomials; each axis has its own (PA, PC) and the common v = 1/(2p) *)
Definition boys_spec (beta : nat -> F) (v : F) (pa pc : F * F * F) (a : comp) (m : nat) : F :=
  Phi K beta m (pmul (Pc K (fst (fst pa)) (fst (fst pc)) v (fst (fst a)))
                     (pmul (Pc K (snd (fst pa)) (snd (fst pc)) v (snd (fst a)))
                           (Pc K (snd pa) (snd pc) v (snd a)))).

Theorem boys_spec_swap_xy beta v pa pc a m :
  boys_spec beta v (swap_xy pa) (swap_xy pc) (swap_xy a) m = boys_spec beta v pa pc a m.
Proof.
  destruct pa as [[pax pay] paz], pc as [[pcx pcy] pcz], a as [[ax ay] az].
  unfold boys_spec, swap_xy. cbn [fst snd].
  set (X := Pc K pax pcx v ax). set (Y := Pc K pay pcy v ay). set (Z := Pc K paz pcz v az).
  (* Phi_m (Y * (X * Z)) = Phi_m (X * (Y * Z)) *)
  rewrite (Phi_pmul_comm beta Y (pmul X Z)).
  rewrite (Phi_pmul_l beta Y (pmul X Z) m), (Phi_pmul_l _ Z X m).
  rewrite (Phi_pmul_l beta (pmul Y Z) X m).
  apply Phi_ext. intros n. rewrite (Phi_pmul_comm beta Y Z), (Phi_pmul_l beta Y Z). reflexivity.
Qed.

Theorem boys_spec_swap_yz beta v pa pc a m :
  boys_spec beta v (swap_yz pa) (swap_yz pc) (swap_yz a) m = boys_spec beta v pa pc a m.
Proof.
  destruct pa as [[pax pay] paz], pc as [[pcx pcy] pcz], a as [[ax ay] az].
  unfold boys_spec, swap_yz. cbn [fst snd].
  rewrite !(Phi_pmul_comm beta (Pc K pax pcx v ax)).
  rewrite !(Phi_pmul_l beta (Pc K pax pcx v ax)).
  apply Phi_pmul_comm.
Qed.

Theorem boys_spec_reflect_x beta v pa pc a m :
  boys_spec beta v (- fst (fst pa), snd (fst pa), snd pa) (- fst (fst pc), snd (fst pc), snd pc) a m
  = sg (fst (fst a)) * boys_spec beta v pa pc a m.
Proof.
  unfold boys_spec. cbn [fst snd]. rewrite !Phi_pmul_l. apply Pc_parity_Phi.
Qed.

Notation fsum := (FNum.fsum K).

Definition get4 (ma ia mb ib : nat) (blk : list (list (list (list F)))) : F :=
  nth ib (nth mb (nth ia (nth ma blk []) []) []) 0.

Lemma nth_norms (s : shell F) i : (i < length (comps_of s))%nat ->
  nth i (norms K s) [] = map (norm_prim K (s_l s) (nth i (comps_of s) (0, 0, 0)%nat)) (s_exps s).
Proof. intros Hi. apply (nth_map_lt (fun c => map (norm_prim K (s_l s) c) (s_exps s))), Hi. Qed.

(* a quantity tabulated over the pairs of exponents of two shells, laid out [kb][ka] as in every block model *)
Definition tab {X} (sa sb : shell F) (T : F -> F -> X) : list (list X) :=
  map (fun beta => map (fun alpha => T alpha beta) (s_exps sa)) (s_exps sb).

Lemma map_tab {X Y} (g : X -> Y) sa sb T : map (map g) (tab sa sb T) = tab sa sb (fun a b => g (T a b)).
Proof. unfold tab. rewrite map_map. apply map_ext; intros b. apply map_map. Qed.

Definition tab3 (Cx Cy Cz : F) (km : nat) (sa sb : shell F) (alpha beta : F) : table3 (F:=F) :=
  (table K (s_x sa) (s_x sb) Cx alpha beta (s_l sa) (s_l sb) km,
   table K (s_y sa) (s_y sb) Cy alpha beta (s_l sa) (s_l sb) km,
   table K (s_z sa) (s_z sb) Cz alpha beta (s_l sa) (s_l sb) km).
Definition dtab3 (D : nat) (sa sb : shell F) (alpha beta : F) : table3 (F:=F) :=
  (dtable K (s_x sa) (s_x sb) alpha beta (s_l sa) (s_l sb) D,
   dtable K (s_y sa) (s_y sb) alpha beta (s_l sa) (s_l sb) D,
   dtable K (s_z sa) (s_z sb) alpha beta (s_l sa) (s_l sb) D).

Lemma tabs_tab Cx Cy Cz orders sa sb :
  tabs K Cx Cy Cz orders sa sb = tab sa sb (tab3 Cx Cy Cz (omax orders) sa sb).
Proof. reflexivity. Qed.
Lemma dtabs_tab D sa sb : dtabs K D sa sb = tab sa sb (dtab3 D sa sb).
Proof. reflexivity. Qed.

(* The entry (ma, ia, mb, ib) of the block whose primitive integrals are [H alpha beta ca cb]: the contraction
   over the primitives of the two shells.  It sees the shells through their exponents, coefficients, l and
   components only, so it is the same (by computation) for shells that differ in their centres; every law
   below is a law about H carried through this sum. *)
Definition ksum (sa sb : shell F) (H : F -> F -> comp -> comp -> F) (ma ia mb ib : nat) : F :=
  entry_sum K sa sb
    (tab sa sb (fun a b => H a b (nth ia (comps_of sa) (0, 0, 0)%nat) (nth ib (comps_of sb) (0, 0, 0)%nat)))
    (nth ia (norms K sa) []) (nth ib (norms K sb) []) ma mb.

Section Entries.
Variables (sa sb : shell F) (ma ia mb ib : nat).
Hypothesis (Hma : (ma < nseg sa)%nat) (Hia : (ia < length (comps_of sa))%nat).
Hypothesis (Hmb : (mb < nseg sb)%nat) (Hib : (ib < length (comps_of sb))%nat).

Lemma kblock_entry {X} (T : F -> F -> X) (g : X -> comp -> comp -> F) :
  get4 ma ia mb ib (block_of K sa sb (fun ca cb => map (map (fun t => g t ca cb)) (tab sa sb T)))
  = ksum sa sb (fun a b => g (T a b)) ma ia mb ib.
Proof. unfold get4, ksum. rewrite block_of_entry by assumption. now rewrite map_tab. Qed.

Lemma mm_block_entry Cx Cy Cz orders io : (io < length orders)%nat ->
  get4 ma ia mb ib (nth io (mm_block K Cx Cy Cz orders sa sb) [])
  = ksum sa sb (fun a b => prim3 K (tab3 Cx Cy Cz (omax orders) sa sb a b) (nth io orders (0, 0, 0)%nat))
         ma ia mb ib.
Proof.
  intros Hio. unfold mm_block. cbv zeta. rewrite (nth_map_lt _ orders io (0, 0, 0)%nat), tabs_tab by exact Hio.
  exact (kblock_entry _ (fun t => prim3 K t (nth io orders (0, 0, 0)%nat))).
Qed.

Lemma diffop_block_entry orders io : (io < length orders)%nat ->
  get4 ma ia mb ib (nth io (diffop_block K orders sa sb) [])
  = ksum sa sb (fun a b => prim3 K (dtab3 (omax orders) sa sb a b) (nth io orders (0, 0, 0)%nat)) ma ia mb ib.
Proof.
  intros Hio. unfold diffop_block. cbv zeta. rewrite (nth_map_lt _ orders io (0, 0, 0)%nat), dtabs_tab by exact Hio.
  exact (kblock_entry _ (fun t => prim3 K t (nth io orders (0, 0, 0)%nat))).
Qed.
End Entries.

(* the double sum written over the primitives (exponent, (norm, coefficient row)) of each shell *)
Definition prims (s : shell F) (n : list F) : list (F * (F * list F)) := combine (s_exps s) (combine n (s_coeffs s)).
Definition term (g : F -> F) (m : nat) (q : F * (F * list F)) : F := g (fst q) * fst (snd q) * nth m (snd (snd q)) 0.

Lemma entry_sum_tab sa sb (G : F -> F -> F) na nb ma mb :
  entry_sum K sa sb (tab sa sb G) na nb ma mb
  = fsum (map (term (fun b => fsum (map (term (fun a => G a b) ma) (prims sa na))) mb) (prims sb nb)).
Proof.
  unfold entry_sum, tab, prims. rewrite combine_map_l, map_map. f_equal. apply map_ext. intros [b [n crow]].
  unfold term. cbn [fst snd]. rewrite combine_map_l, map_map. reflexivity.
Qed.

Lemma fsum_term_lin l m (g g1 g2 g3 : F -> F) c1 c2 c3 :
  (forall q, In q l -> g (fst q) = c1 * g1 (fst q) + c2 * g2 (fst q) + c3 * g3 (fst q)) ->
  fsum (map (term g m) l)
  = c1 * fsum (map (term g1 m) l) + c2 * fsum (map (term g2 m) l) + c3 * fsum (map (term g3 m) l).
Proof.
  induction l as [|q l IH]; intros H; cbn [map FNum.fsum fold_right]; [ring|].
  unfold FNum.fsum in IH. rewrite IH by (intros; apply H; now right).
  unfold term. rewrite (H q (or_introl eq_refl)). ring.
Qed.

Section Laws.
Variables (sa sb : shell F) (ma ia mb ib : nat).
Let ca := nth ia (comps_of sa) (0, 0, 0)%nat.
Let cb := nth ib (comps_of sb) (0, 0, 0)%nat.

Lemma ksum_lin (H H1 H2 H3 : F -> F -> comp -> comp -> F) c1 c2 c3 :
  (forall a b, In a (s_exps sa) -> In b (s_exps sb) ->
     H a b ca cb = c1 * H1 a b ca cb + c2 * H2 a b ca cb + c3 * H3 a b ca cb) ->
  ksum sa sb H ma ia mb ib
  = c1 * ksum sa sb H1 ma ia mb ib + c2 * ksum sa sb H2 ma ia mb ib + c3 * ksum sa sb H3 ma ia mb ib.
Proof.
  intros Hl. unfold ksum. rewrite !entry_sum_tab.
  apply fsum_term_lin. intros [b wb] Hp. cbn [fst].
  apply fsum_term_lin. intros [a wa] Hq. cbn [fst].
  apply Hl; [exact (in_combine_l _ _ _ _ Hq)|exact (in_combine_l _ _ _ _ Hp)].
Qed.

Lemma ksum_add (H H1 H2 H3 : F -> F -> comp -> comp -> F) c2 c3 :
  (forall a b, In a (s_exps sa) -> In b (s_exps sb) ->
     H a b ca cb = H1 a b ca cb + c2 * H2 a b ca cb + c3 * H3 a b ca cb) ->
  ksum sa sb H ma ia mb ib
  = ksum sa sb H1 ma ia mb ib + c2 * ksum sa sb H2 ma ia mb ib + c3 * ksum sa sb H3 ma ia mb ib.
Proof.
  intros Hl. rewrite (ksum_lin H H1 H2 H3 1 c2 c3) by (intros a b Ha Hb; rewrite (Hl a b Ha Hb); ring). ring.
Qed.

Lemma ksum_scale (H H1 : F -> F -> comp -> comp -> F) c :
  (forall a b, In a (s_exps sa) -> In b (s_exps sb) -> H a b ca cb = c * H1 a b ca cb) ->
  ksum sa sb H ma ia mb ib = c * ksum sa sb H1 ma ia mb ib.
Proof.
  intros Hl. rewrite (ksum_lin H H1 H1 H1 c 0 0) by (intros a b Ha Hb; rewrite (Hl a b Ha Hb); ring). ring.
Qed.

(* relabelling the components by p: primitive integrals that follow the relabelling give the same entry at the
   relabelled positions, provided the primitive norms do not see p *)
Lemma ksum_perm (p : comp -> comp) (H H' : F -> F -> comp -> comp -> F) ia' ib' :
  (forall l c alpha, norm_prim K l (p c) alpha = norm_prim K l c alpha) ->
  (forall a b c d, H' a b (p c) (p d) = H a b c d) ->
  (ia < length (comps_of sa))%nat -> (ia' < length (comps_of sa))%nat ->
  (ib < length (comps_of sb))%nat -> (ib' < length (comps_of sb))%nat ->
  nth ia' (comps_of sa) (0, 0, 0)%nat = p ca -> nth ib' (comps_of sb) (0, 0, 0)%nat = p cb ->
  ksum sa sb H' ma ia' mb ib' = ksum sa sb H ma ia mb ib.
Proof.
  intros Hn HH Hia Hia' Hib Hib' Ea Eb. unfold ksum. rewrite !nth_norms by assumption. rewrite Ea, Eb.
  fold ca cb. rewrite (map_ext _ _ (Hn (s_l sa) ca)), (map_ext _ _ (Hn (s_l sb) cb)).
  f_equal. unfold tab. apply map_ext; intros b. apply map_ext; intros a. apply HH.
Qed.
End Laws.

Lemma omax_swap_xy orders : omax (map swap_xy orders) = omax orders.
Proof.
  induction orders as [|[[ox oy] oz] os IH]; [reflexivity|].
  cbn [map omax fold_right swap_xy fst snd] in *. unfold omax in IH. rewrite IH. lia.
Qed.
Lemma omax_swap_yz orders : omax (map swap_yz orders) = omax orders.
Proof.
  induction orders as [|[[ox oy] oz] os IH]; [reflexivity|].
  cbn [map omax fold_right swap_yz fst snd] in *. unfold omax in IH. rewrite IH. lia.
Qed.

(* multipole-moment / overlap blocks: the block of the x<->y exchanged system (origin and orders
   exchanged along) holds, at the exchanged component positions, the entries of the original block *)
Theorem mm_block_swap_xy Cx Cy Cz orders sa sb io ma ia ia' mb ib ib' :
  (io < length orders)%nat -> (ma < nseg sa)%nat -> (mb < nseg sb)%nat ->
  (ia < length (comps_of sa))%nat -> (ia' < length (comps_of sa))%nat ->
  (ib < length (comps_of sb))%nat -> (ib' < length (comps_of sb))%nat ->
  nth ia' (comps_of sa) (0, 0, 0)%nat = swap_xy (nth ia (comps_of sa) (0, 0, 0)%nat) ->
  nth ib' (comps_of sb) (0, 0, 0)%nat = swap_xy (nth ib (comps_of sb) (0, 0, 0)%nat) ->
  get4 ma ia' mb ib'
    (nth io (mm_block K Cy Cx Cz (map swap_xy orders) (swap_xy_shell sa) (swap_xy_shell sb)) [])
  = get4 ma ia mb ib (nth io (mm_block K Cx Cy Cz orders sa sb) []).
Proof.
  intros Hio Hma Hmb Hia Hia' Hib Hib' Ea Eb.
  rewrite !mm_block_entry by (rewrite ?map_length; assumption).
  rewrite omax_swap_xy, (nth_map_lt swap_xy orders io (0, 0, 0)%nat) by exact Hio.
  change (ksum (swap_xy_shell sa) (swap_xy_shell sb)) with (ksum sa sb).
  apply (ksum_perm sa sb ma ia mb ib swap_xy); try assumption.
  - intros l c alpha. apply norm_prim_swap_xy.
  - intros a b c d. apply (prim3_swap_xy (tab3 Cx Cy Cz (omax orders) sa sb a b)).
Qed.
Theorem mm_block_swap_yz Cx Cy Cz orders sa sb io ma ia ia' mb ib ib' :
  (io < length orders)%nat -> (ma < nseg sa)%nat -> (mb < nseg sb)%nat ->
  (ia < length (comps_of sa))%nat -> (ia' < length (comps_of sa))%nat ->
  (ib < length (comps_of sb))%nat -> (ib' < length (comps_of sb))%nat ->
  nth ia' (comps_of sa) (0, 0, 0)%nat = swap_yz (nth ia (comps_of sa) (0, 0, 0)%nat) ->
  nth ib' (comps_of sb) (0, 0, 0)%nat = swap_yz (nth ib (comps_of sb) (0, 0, 0)%nat) ->
  get4 ma ia' mb ib'
    (nth io (mm_block K Cx Cz Cy (map swap_yz orders) (swap_yz_shell sa) (swap_yz_shell sb)) [])
  = get4 ma ia mb ib (nth io (mm_block K Cx Cy Cz orders sa sb) []).
Proof.
  intros Hio Hma Hmb Hia Hia' Hib Hib' Ea Eb.
  rewrite !mm_block_entry by (rewrite ?map_length; assumption).
  rewrite omax_swap_yz, (nth_map_lt swap_yz orders io (0, 0, 0)%nat) by exact Hio.
  change (ksum (swap_yz_shell sa) (swap_yz_shell sb)) with (ksum sa sb).
  apply (ksum_perm sa sb ma ia mb ib swap_yz); try assumption.
  - intros l c alpha. apply norm_prim_swap_yz.
  - intros a b c d. apply (prim3_swap_yz (tab3 Cx Cy Cz (omax orders) sa sb a b)).
Qed.

Theorem overlap_block_swap_xy sa sb ma ia ia' mb ib ib' :
  (ma < nseg sa)%nat -> (mb < nseg sb)%nat ->
  (ia < length (comps_of sa))%nat -> (ia' < length (comps_of sa))%nat ->
  (ib < length (comps_of sb))%nat -> (ib' < length (comps_of sb))%nat ->
  nth ia' (comps_of sa) (0, 0, 0)%nat = swap_xy (nth ia (comps_of sa) (0, 0, 0)%nat) ->
  nth ib' (comps_of sb) (0, 0, 0)%nat = swap_xy (nth ib (comps_of sb) (0, 0, 0)%nat) ->
  get4 ma ia' mb ib' (overlap_block K (swap_xy_shell sa) (swap_xy_shell sb))
  = get4 ma ia mb ib (overlap_block K sa sb).
Proof. rewrite !(overlap_block_origin 0 0 0). apply (mm_block_swap_xy 0 0 0 [(0, 0, 0)%nat] sa sb 0), Nat.lt_0_1. Qed.
Theorem overlap_block_swap_yz sa sb ma ia ia' mb ib ib' :
  (ma < nseg sa)%nat -> (mb < nseg sb)%nat ->
  (ia < length (comps_of sa))%nat -> (ia' < length (comps_of sa))%nat ->
  (ib < length (comps_of sb))%nat -> (ib' < length (comps_of sb))%nat ->
  nth ia' (comps_of sa) (0, 0, 0)%nat = swap_yz (nth ia (comps_of sa) (0, 0, 0)%nat) ->
  nth ib' (comps_of sb) (0, 0, 0)%nat = swap_yz (nth ib (comps_of sb) (0, 0, 0)%nat) ->
  get4 ma ia' mb ib' (overlap_block K (swap_yz_shell sa) (swap_yz_shell sb))
  = get4 ma ia mb ib (overlap_block K sa sb).
Proof. rewrite !(overlap_block_origin 0 0 0). apply (mm_block_swap_yz 0 0 0 [(0, 0, 0)%nat] sa sb 0), Nat.lt_0_1. Qed.

(* derivative blocks (kinetic energy: orders (2,0,0),(0,2,0),(0,0,2); momentum: (1,0,0),...) *)
Theorem diffop_block_swap_xy orders sa sb io ma ia ia' mb ib ib' :
  (io < length orders)%nat -> (ma < nseg sa)%nat -> (mb < nseg sb)%nat ->
  (ia < length (comps_of sa))%nat -> (ia' < length (comps_of sa))%nat ->
  (ib < length (comps_of sb))%nat -> (ib' < length (comps_of sb))%nat ->
  nth ia' (comps_of sa) (0, 0, 0)%nat = swap_xy (nth ia (comps_of sa) (0, 0, 0)%nat) ->
  nth ib' (comps_of sb) (0, 0, 0)%nat = swap_xy (nth ib (comps_of sb) (0, 0, 0)%nat) ->
  get4 ma ia' mb ib'
    (nth io (diffop_block K (map swap_xy orders) (swap_xy_shell sa) (swap_xy_shell sb)) [])
  = get4 ma ia mb ib (nth io (diffop_block K orders sa sb) []).
Proof.
  intros Hio Hma Hmb Hia Hia' Hib Hib' Ea Eb.
  rewrite !diffop_block_entry by (rewrite ?map_length; assumption).
  rewrite omax_swap_xy, (nth_map_lt swap_xy orders io (0, 0, 0)%nat) by exact Hio.
  change (ksum (swap_xy_shell sa) (swap_xy_shell sb)) with (ksum sa sb).
  apply (ksum_perm sa sb ma ia mb ib swap_xy); try assumption.
  - intros l c alpha. apply norm_prim_swap_xy.
  - intros a b c d. apply (prim3_swap_xy (dtab3 (omax orders) sa sb a b)).
Qed.
Theorem diffop_block_swap_yz orders sa sb io ma ia ia' mb ib ib' :
  (io < length orders)%nat -> (ma < nseg sa)%nat -> (mb < nseg sb)%nat ->
  (ia < length (comps_of sa))%nat -> (ia' < length (comps_of sa))%nat ->
  (ib < length (comps_of sb))%nat -> (ib' < length (comps_of sb))%nat ->
  nth ia' (comps_of sa) (0, 0, 0)%nat = swap_yz (nth ia (comps_of sa) (0, 0, 0)%nat) ->
  nth ib' (comps_of sb) (0, 0, 0)%nat = swap_yz (nth ib (comps_of sb) (0, 0, 0)%nat) ->
  get4 ma ia' mb ib'
    (nth io (diffop_block K (map swap_yz orders) (swap_yz_shell sa) (swap_yz_shell sb)) [])
  = get4 ma ia mb ib (nth io (diffop_block K orders sa sb) []).
Proof.
  intros Hio Hma Hmb Hia Hia' Hib Hib' Ea Eb.
  rewrite !diffop_block_entry by (rewrite ?map_length; assumption).
  rewrite omax_swap_yz, (nth_map_lt swap_yz orders io (0, 0, 0)%nat) by exact Hio.
  change (ksum (swap_yz_shell sa) (swap_yz_shell sb)) with (ksum sa sb).
  apply (ksum_perm sa sb ma ia mb ib swap_yz); try assumption.
  - intros l c alpha. apply norm_prim_swap_yz.
  - intros a b c d. apply (prim3_swap_yz (dtab3 (omax orders) sa sb a b)).
Qed.

Lemma omax_ge orders o : In o orders ->
  (fst (fst o) <= omax orders /\ snd (fst o) <= omax orders /\ snd o <= omax orders)%nat.
Proof.
  induction orders as [|[[px py] pz] os IH]; intros Hin; [destruct Hin|].
  destruct Hin as [<-|Hin]; cbn [omax fold_right fst snd].
  - lia.
  - specialize (IH Hin). unfold omax in IH. lia.
Qed.

Definition comps_within (s : shell F) : Prop :=
  forall c, In c (comps_of s) -> (fst (fst c) <= s_l s /\ snd (fst c) <= s_l s /\ snd c <= s_l s)%nat.

Theorem mm_block_reflect_x Cx Cy Cz orders sa sb io ma ia mb ib :
  (forall x, fapx K x = x) -> 1 + 1 <> 0 -> exps_ok sa sb -> comps_within sa -> comps_within sb ->
  (io < length orders)%nat -> (ma < nseg sa)%nat -> (mb < nseg sb)%nat ->
  (ia < length (comps_of sa))%nat -> (ib < length (comps_of sb))%nat ->
  get4 ma ia mb ib (nth io (mm_block K (- Cx) Cy Cz orders (reflect_x_shell sa) (reflect_x_shell sb)) [])
  = sg (fst (fst (nth io orders (0, 0, 0)%nat)) + fst (fst (nth ia (comps_of sa) (0, 0, 0)%nat))
        + fst (fst (nth ib (comps_of sb) (0, 0, 0)%nat)))
    * get4 ma ia mb ib (nth io (mm_block K Cx Cy Cz orders sa sb) []).
Proof.
  intros Hapx H2 Hexp Hca Hcb Hio Hma Hmb Hia Hib.
  rewrite !mm_block_entry by assumption.
  change (ksum (reflect_x_shell sa) (reflect_x_shell sb)) with (ksum sa sb).
  apply ksum_scale. intros a b Ha Hb.
  apply prim3_reflect_x; try assumption.
  - exact (Hexp a b Ha Hb).
  - apply (omax_ge orders), nth_In, Hio.
  - apply Hca, nth_In, Hia.
  - apply Hcb, nth_In, Hib.
Qed.

Theorem overlap_block_reflect_x sa sb ma ia mb ib :
  (forall x, fapx K x = x) -> 1 + 1 <> 0 -> exps_ok sa sb -> comps_within sa -> comps_within sb ->
  (ma < nseg sa)%nat -> (mb < nseg sb)%nat ->
  (ia < length (comps_of sa))%nat -> (ib < length (comps_of sb))%nat ->
  get4 ma ia mb ib (overlap_block K (reflect_x_shell sa) (reflect_x_shell sb))
  = sg (fst (fst (nth ia (comps_of sa) (0, 0, 0)%nat)) + fst (fst (nth ib (comps_of sb) (0, 0, 0)%nat)))
    * get4 ma ia mb ib (overlap_block K sa sb).
Proof.
  intros Hapx H2 Hexp Hca Hcb Hma Hmb Hia Hib.
  rewrite (overlap_block_origin (- 0) 0 0), (overlap_block_origin 0 0 0 sa sb).
  now rewrite (mm_block_reflect_x 0 0 0 [(0, 0, 0)%nat] sa sb 0 ma ia mb ib) by (assumption || apply Nat.lt_0_1).
Qed.

Theorem diffop_block_reflect_x orders sa sb io ma ia mb ib :
  (forall x, fapx K x = x) -> 1 + 1 <> 0 -> exps_ok sa sb -> comps_within sa -> comps_within sb ->
  (io < length orders)%nat -> (ma < nseg sa)%nat -> (mb < nseg sb)%nat ->
  (ia < length (comps_of sa))%nat -> (ib < length (comps_of sb))%nat ->
  get4 ma ia mb ib (nth io (diffop_block K orders (reflect_x_shell sa) (reflect_x_shell sb)) [])
  = sg (fst (fst (nth io orders (0, 0, 0)%nat)) + fst (fst (nth ia (comps_of sa) (0, 0, 0)%nat))
        + fst (fst (nth ib (comps_of sb) (0, 0, 0)%nat)))
    * get4 ma ia mb ib (nth io (diffop_block K orders sa sb) []).
Proof.
  intros Hapx H2 Hexp Hca Hcb Hio Hma Hmb Hia Hib.
  rewrite !diffop_block_entry by assumption.
  change (ksum (reflect_x_shell sa) (reflect_x_shell sb)) with (ksum sa sb).
  apply ksum_scale. intros a b Ha Hb.
  apply dprim3_reflect_x; try assumption.
  - exact (Hexp a b Ha Hb).
  - apply (omax_ge orders), nth_In, Hio.
  - apply Hca, nth_In, Hia.
  - apply Hcb, nth_In, Hib.
Qed.

Lemma default_comps_within (s : shell F) : s_comps s = [] -> comps_within s.
Proof.
  intros Hs c Hc. unfold comps_of in Hc. rewrite Hs in Hc. unfold default_comps in Hc.
  apply in_flat_map in Hc. destruct Hc as [xx [Hxx Hc]]. apply in_map_iff in Hc.
  destruct Hc as [yy [<- Hyy]]. apply in_seq in Hxx. apply in_seq in Hyy. cbn [fst snd]. lia.
Qed.

(* one Cartesian component of the angular-momentum block, exactly as angmom_block_re builds it *)
Definition angmom_comp_block (sa sb : shell F) (c : nat) : list (list (list (list F))) :=
  block_of K sa sb (fun ca cb =>
    map (fun '(drow, mrow) => map (fun '(d, m) => nth c (angmom_prim K d m ca cb) 0) (combine drow mrow))
        (combine (dtabs K 1 sa sb) (tabs K 0 0 0 [(1, 0, 0)%nat] sa sb))).
Lemma angmom_block_re_comps sa sb :
  angmom_block_re K sa sb
  = zip4 (fun xy z => xy ++ [z])
         (zip4 (fun x y => [x; y]) (angmom_comp_block sa sb 0) (angmom_comp_block sa sb 1))
         (angmom_comp_block sa sb 2).
Proof. reflexivity. Qed.
(* one component of the momentum block (what momentum_block_re zips together) *)
Definition momentum_comp_block (sa sb : shell F) (c : nat) : list (list (list (list F))) :=
  nth c (diffop_block K [(1, 0, 0); (0, 1, 0); (0, 0, 1)]%nat sa sb) [].
Lemma momentum_block_re_comps sa sb :
  momentum_block_re K sa sb
  = zip4 (fun xy z => xy ++ [z])
         (zip4 (fun x y => [x; y]) (momentum_comp_block sa sb 0) (momentum_comp_block sa sb 1))
         (momentum_comp_block sa sb 2).
Proof. reflexivity. Qed.

Definition tget (t : F * F * F) (c : nat) : F :=
  match c with O => fst (fst t) | S O => snd (fst t) | _ => snd t end.

Lemma angmom_comp_entry sa sb c ma ia mb ib :
  (ma < nseg sa)%nat -> (ia < length (comps_of sa))%nat -> (mb < nseg sb)%nat -> (ib < length (comps_of sb))%nat ->
  get4 ma ia mb ib (angmom_comp_block sa sb c)
  = ksum sa sb (fun a b ca cb => nth c (angmom_prim K (dtab3 1 sa sb a b) (tab3 0 0 0 1 sa sb a b) ca cb) 0)
         ma ia mb ib.
Proof.
  intros Hma Hia Hmb Hib. unfold get4, ksum, angmom_comp_block. rewrite block_of_entry by assumption.
  f_equal. rewrite dtabs_tab, tabs_tab. unfold tab. rewrite combine_map_same, map_map. apply map_ext; intros b.
  now rewrite combine_map_same, map_map.
Qed.

Theorem angmom_block_shift sa sb tx ty tz c ma ia mb ib :
  (forall x, fapx K x = x) -> 1 + 1 <> 0 -> exps_ok sa sb -> comps_within sa -> comps_within sb ->
  (c < 3)%nat -> (ma < nseg sa)%nat -> (mb < nseg sb)%nat ->
  (ia < length (comps_of sa))%nat -> (ib < length (comps_of sb))%nat ->
  let t := (tx, ty, tz) in
  let p k := get4 ma ia mb ib (momentum_comp_block sa sb k) in
  get4 ma ia mb ib (angmom_comp_block (shift_shell tx ty tz sa) (shift_shell tx ty tz sb) c)
  = get4 ma ia mb ib (angmom_comp_block sa sb c)
    + tget t ((c + 1) mod 3) * p ((c + 2) mod 3) + (- tget t ((c + 2) mod 3)) * p ((c + 1) mod 3).
Proof.
  intros Hapx H2 Hexp Hca Hcb Hc Hma Hmb Hia Hib. cbv zeta. unfold momentum_comp_block.
  rewrite !angmom_comp_entry by assumption.
  rewrite !diffop_block_entry by (assumption || (apply Nat.mod_upper_bound; discriminate)).
  change (ksum (shift_shell tx ty tz sa) (shift_shell tx ty tz sb)) with (ksum sa sb).
  apply ksum_add. intros a b Ha Hb.
  (* the primitive products: the derivative tables do not move, the moment tables follow angmom_prim_shift *)
  unfold dtab3, tab3. cbn [shift_shell s_x s_y s_z s_l].
  rewrite !dtable_shift by exact (Hexp a b Ha Hb).
  rewrite angmom_prim_shift; try assumption;
    [|exact (Hexp a b Ha Hb)|apply Hca, nth_In, Hia|apply Hcb, nth_In, Hib].
  destruct (nth ia (comps_of sa) (0, 0, 0)%nat) as [[ax ay] az], (nth ib (comps_of sb) (0, 0, 0)%nat) as [[bx by_] bz].
  change (omax [(1, 0, 0); (0, 1, 0); (0, 0, 1)]%nat) with 1%nat.
  destruct c as [|[|[|c]]]; try lia.
  all: cbn [Nat.add Nat.modulo Nat.divmod Nat.sub fst snd nth tget].
  all: unfold angmom_prim, cross3, prim3; cbn [map combine nth fst snd]; ring.
Qed.

Lemma norm_cont_shift tx ty tz s : exps_ok s s ->
  norm_cont K (shift_shell tx ty tz s) = norm_cont K s.
Proof.
  intros H. unfold norm_cont. cbv zeta. rewrite overlap_block_shift by exact H. reflexivity.
Qed.

Definition basis_ok (basis : list (shell F)) : Prop :=
  forall s1 s2, In s1 basis -> In s2 basis -> exps_ok s1 s2.

Section WholeBasis.
Context {A : Type} (azero : A) (aadd : A -> A -> A) (ascale : F -> A -> A).
Variables (tx ty tz : F).
(* the block functions of the moved and of the original system (they may differ: moved origin,
   moved point charges) *)
Variables blockf' blockf : shell F -> shell F -> list (list (list (list A))).
Variable basis : list (shell F).
Hypothesis Hok : basis_ok basis.
Hypothesis Hblock : forall s1 s2, exps_ok s1 s2 ->
  blockf' (shift_shell tx ty tz s1) (shift_shell tx ty tz s2) = blockf s1 s2.

Lemma pblock_shift i j : (i < length basis)%nat -> (j < length basis)%nat ->
  pblock K azero aadd ascale blockf' (nth i (map (prep K) (map (shift_shell tx ty tz) basis)) (dummy_p K))
         (nth j (map (prep K) (map (shift_shell tx ty tz) basis)) (dummy_p K))
  = pblock K azero aadd ascale blockf (nth i (map (prep K) basis) (dummy_p K)) (nth j (map (prep K) basis) (dummy_p K)).
Proof.
  intros Hi Hj. set (d0 := mkShell F 0 0 0 0 [] [] false [] []).
  rewrite !map_map, !(nth_map_lt _ basis _ d0) by assumption.
  pose proof (nth_In basis d0 Hi) as Ii. pose proof (nth_In basis d0 Hj) as Ij.
  unfold pblock, prep. cbn [p_shell p_norm p_T].
  now rewrite !norm_cont_shift, Hblock by auto.
Qed.

Theorem two_symm_integral_shift T :
  two_symm_integral K azero aadd ascale blockf' (map (shift_shell tx ty tz) basis) T
  = two_symm_integral K azero aadd ascale blockf basis T.
Proof.
  rewrite !two_symm_integral_unfold. cbv zeta. rewrite !map_length.
  destruct T; [f_equal|]; apply two_symm_blocks_ext_le; intros i j Hi Hj _; now apply pblock_shift.
Qed.
End WholeBasis.

Theorem overlap_integral_shift tx ty tz basis T : basis_ok basis ->
  overlap_integral K (map (shift_shell tx ty tz) basis) T = overlap_integral K basis T.
Proof.
  intros H. unfold overlap_integral. apply two_symm_integral_shift; [exact H|].
  intros s1 s2. apply overlap_block_shift.
Qed.

Theorem kinetic_integral_shift tx ty tz basis T : basis_ok basis ->
  kinetic_integral K (map (shift_shell tx ty tz) basis) T = kinetic_integral K basis T.
Proof.
  intros H. unfold kinetic_integral. apply two_symm_integral_shift; [exact H|].
  intros s1 s2. apply kinetic_block_shift.
Qed.

Theorem moment_integral_shift tx ty tz Cx Cy Cz orders basis T : basis_ok basis ->
  moment_integral K (Cx + tx) (Cy + ty) (Cz + tz) orders (map (shift_shell tx ty tz) basis) T
  = moment_integral K Cx Cy Cz orders basis T.
Proof.
  intros H. unfold moment_integral. apply two_symm_integral_shift; [exact H|].
  intros s1 s2. apply moment_block_shift.
Qed.

Theorem point_charge_integral_shift tx ty tz points basis T : basis_ok basis ->
  point_charge_integral K (map (shift_charge tx ty tz) points) (map (shift_shell tx ty tz) basis) T
  = point_charge_integral K points basis T.
Proof.
  intros H. unfold point_charge_integral. apply two_symm_integral_shift; [exact H|].
  intros s1 s2. apply point_charge_block_shift.
Qed.

Theorem nuclear_attraction_integral_shift tx ty tz points basis T : basis_ok basis ->
  nuclear_attraction_integral K (map (shift_charge tx ty tz) points) (map (shift_shell tx ty tz) basis) T
  = nuclear_attraction_integral K points basis T.
Proof. intros H. unfold nuclear_attraction_integral. now rewrite point_charge_integral_shift. Qed.

Lemma one_index_shift tabs tx ty tz (blk' blk : shell F -> list (list (list F))) basis T :
  (forall s, In s basis -> exps_ok s s) -> (forall s, blk' (shift_shell tx ty tz s) = blk s) ->
  one_index K tabs (map (fun s => (prep_fast K s, blk' s)) (map (shift_shell tx ty tz) basis)) T
  = one_index K tabs (map (fun s => (prep_fast K s, blk s)) basis) T.
Proof.
  intros H Hb. unfold one_index. cbv zeta. rewrite !map_map.
  erewrite (map_ext_in _ _ basis); [reflexivity|].
  intros s Hs. unfold prep_fast, norm_cont_diag. cbn [p_shell p_T p_norm].
  now rewrite norm_cont_shift, Hb by (now apply H).
Qed.

Theorem evaluate_deriv_basis_shift tx ty tz basis pts o T bk :
  (forall s, In s basis -> exps_ok s s) ->
  evaluate_deriv_basis_model K (map (shift_shell tx ty tz) basis) (map (shift_point tx ty tz) pts) o T bk
  = evaluate_deriv_basis_model K basis pts o T bk.
Proof.
  intros H. unfold evaluate_deriv_basis_model. destruct (accepts bk o); [|reflexivity].
  f_equal. apply one_index_shift; [exact H|]. intros s. apply block_with_shift.
Qed.

Theorem evaluate_basis_shift tx ty tz basis pts T :
  (forall s, In s basis -> exps_ok s s) ->
  evaluate_basis_model K (map (shift_shell tx ty tz) basis) (map (shift_point tx ty tz) pts) T
  = evaluate_basis_model K basis pts T.
Proof.
  intros H. apply one_index_shift; [exact H|]. intros s. apply block_with_shift.
Qed.

End Rigid.

Section FullStatement.
Context {F : Type} (K : Fops F).
Local Open Scope F_scope.
Notation "0" := (f0 K) : F_scope.
Notation "1" := (f1 K) : F_scope.
Infix "+" := (fadd K) : F_scope.
Infix "*" := (fmul K) : F_scope.

Definition vec3 := (F * F * F)%type.
Definition mat3 := (vec3 * vec3 * vec3)%type.                (* rows *)
Definition dot3 (u w : vec3) : F :=
  fst (fst u) * fst (fst w) + snd (fst u) * snd (fst w) + snd u * snd w.
Definition mrow (R : mat3) (k : nat) : vec3 :=
  match k with O => fst (fst R) | S O => snd (fst R) | _ => snd R end.
Definition vget (u : vec3) (k : nat) : F :=
  match k with O => fst (fst u) | S O => snd (fst u) | _ => snd u end.
Definition mcol (R : mat3) (k : nat) : vec3 := (vget (mrow R 0) k, vget (mrow R 1) k, vget (mrow R 2) k).
Definition mapply (R : mat3) (u : vec3) : vec3 := (dot3 (mrow R 0) u, dot3 (mrow R 1) u, dot3 (mrow R 2) u).
Definition mapply_t (R : mat3) (u : vec3) : vec3 := (dot3 (mcol R 0) u, dot3 (mcol R 1) u, dot3 (mcol R 2) u).
Definition delta (i j : nat) : F := if Nat.eqb i j then 1 else 0.
(* proper and improper rotations alike: R R^T = R^T R = 1 *)
Definition orthogonal (R : mat3) : Prop :=
  forall i j, (i < 3)%nat -> (j < 3)%nat ->
    dot3 (mrow R i) (mrow R j) = delta i j /\ dot3 (mcol R i) (mcol R j) = delta i j.

Definition rot_shell (R : mat3) (s : shell F) : shell F :=
  let c := mapply R (s_x s, s_y s, s_z s) in
  mkShell F (s_l s) (fst (fst c)) (snd (fst c)) (snd c) (s_exps s) (s_coeffs s)
          (s_sph s) (s_comps s) (s_labels s).

Definition monomial (u : vec3) (c : comp) : F :=
  FNum.fpow K (fst (fst u)) (fst (fst c)) * FNum.fpow K (snd (fst u)) (snd (fst c))
  * FNum.fpow K (snd u) (snd c).
(* M represents R on the homogeneous polynomials of degree l: (R^T u)^j = sum_i M i j u^i *)
Definition mono_rep (R : mat3) (l : nat) (M : comp -> comp -> F) : Prop :=
  forall j, In j (default_comps l) -> forall u,
    monomial (mapply_t R u) j = FNum.fsum K (map (fun i => M i j * monomial u i) (default_comps l)).
Definition dfnorm (c : comp) : F :=
  fsqrt K (fdf_odd K (fst (fst c)) * fdf_odd K (snd (fst c)) * fdf_odd K (snd c)).

(* The overlap block of the rotated pair and of the original pair are related by the
   representation matrices of the two shells (gbasis' per-component normalisation 1/sqrt((2a-1)!!..)
   makes the matrices D_ij = M_ij dfnorm(i)/dfnorm(j); written without division).  The same shape of
   law - one representation matrix per basis index, vector/tensor components rotating with R - is
   what property C12 demands of every integral and evaluation. *)
Definition rotation_law_overlap : Prop :=
  (forall x, fapx K x = x) -> (forall x y, fexp K (x + y) = fexp K x * fexp K y) ->
  (forall c, dfnorm c <> 0) ->
  forall R, orthogonal R -> forall la lb, exists Ma Mb : comp -> comp -> F,
    mono_rep R la Ma /\ mono_rep R lb Mb /\
    forall sa sb, s_l sa = la -> s_l sb = lb -> s_comps sa = [] -> s_comps sb = [] ->
      (forall a b, In a (s_exps sa) -> In b (s_exps sb) -> a + b <> 0) ->
      forall ma mb ja jb, (ma < nseg sa)%nat -> (mb < nseg sb)%nat ->
        (ja < length (default_comps la))%nat -> (jb < length (default_comps lb))%nat ->
        let cmp l i := nth i (default_comps l) (0, 0, 0)%nat in
        dfnorm (cmp la ja) * dfnorm (cmp lb jb)
          * nth jb (nth mb (nth ja (nth ma (overlap_block K sa sb) []) []) []) 0
        = FNum.fsum K (map (fun ia => FNum.fsum K (map (fun ib =>
            Ma (cmp la ia) (cmp la ja) * Mb (cmp lb ib) (cmp lb jb)
            * dfnorm (cmp la ia) * dfnorm (cmp lb ib)
            * nth ib (nth mb (nth ia (nth ma
                 (overlap_block K (rot_shell R sa) (rot_shell R sb)) []) []) []) 0)
            (seq 0 (length (default_comps lb))))) (seq 0 (length (default_comps la)))).
End FullStatement.

(* the field, 1 + 1 <> 0, fapx, basis_ok, exps_ok and psum hypotheses of the theorems above hold together
   at the executable instance Qc, for two shells with exponents {1, 2} and {3} (comps_within and the
   premises of rotation_law_overlap are not part of the example) *)
Section HypExample.
Import ZArith QArith Qcanon.
Definition hypK (opi : Qc) (osqrt oexp oln : Qc -> Qc) (oboys : nat -> Qc -> Qc) : Fops Qc :=
  QcK true opi osqrt oexp oln oboys.
Definition hq (n : Z) : Qc := qc_of n 1.
Definition hyp_shA : shell Qc :=
  mkShell Qc 1 (hq 0) (hq 1) (hq 2) [hq 1; hq 2] [[hq 1]; [hq 1]] false [] [].
Definition hyp_shB : shell Qc := mkShell Qc 2 (hq 1) (hq 0) (hq 3) [hq 3] [[hq 1]] true [] [].
Variables (opi : Qc) (osqrt oexp oln : Qc -> Qc) (oboys : nat -> Qc -> Qc).
Notation KQ := (hypK opi osqrt oexp oln oboys).
Notation q := hq.
Notation shA := hyp_shA.
Notation shB := hyp_shB.

Lemma hyp_example :
  is_field KQ /\ fadd KQ (f1 KQ) (f1 KQ) <> f0 KQ /\ (forall x, fapx KQ x = x)
  /\ basis_ok KQ [shA; shB] /\ exps_ok KQ shA shB /\ psum KQ (q 1) (q 3) <> f0 KQ.
Proof.
  assert (Hall : forall a b, In a [q 1; q 2; q 3] -> In b [q 1; q 2; q 3] -> fadd KQ a b <> f0 KQ).
  { intros a b Ha Hb. cbn [In] in Ha, Hb.
    destruct Ha as [<-|[<-|[<-|[]]]]; destruct Hb as [<-|[<-|[<-|[]]]];
      apply qc_neq; vm_compute; reflexivity. }
  assert (Hin : forall s, In s [shA; shB] -> incl (s_exps s) [q 1; q 2; q 3]).
  { intros s [<-|[<-|[]]] a Ha; cbn [In hyp_shA hyp_shB s_exps] in *; tauto. }
  assert (Hbo : basis_ok KQ [shA; shB]).
  { intros s1 s2 H1 H2 a b Ha Hb. exact (Hall a b (Hin s1 H1 a Ha) (Hin s2 H2 b Hb)). }
  split; [apply QcK_field|]. split; [apply qc_neq; vm_compute; reflexivity|].
  split; [intros x; reflexivity|]. split; [exact Hbo|].
  split; [apply Hbo|apply (Hall (q 1) (q 3))]; cbn [In]; tauto.
Qed.
End HypExample.
