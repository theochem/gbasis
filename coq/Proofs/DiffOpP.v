(* Proofs/DiffOpP.v — the padded derivative recursion of _diff_operator_int.py.

   [negA] is minus the derivative of the LEFT primitive with respect to x
   (d/dx [x^i e^{-alpha x^2}] = (i x^{i-1} - 2 alpha x^{i+1}) e^{-alpha x^2}),
   [Bop] the derivative of the RIGHT primitive, both acting on tables
   T : nat -> nat -> F of one-dimensional integrals indexed (i, j).

   diffop_valid : entry (k, j, i) of the table the code builds equals
                  (negA^k S)(i, j) for every i with i + k <= la + D — in
                  particular on the whole returned slice i <= la (the padding
                  argument, for every la, lb, D);
   ibp_iter     : negA^k S = Bop^k S (integration by parts), so the entry is
                  the integral of  phi_a  d^k/dx^k phi_b. *)
From Coq Require Import List Arith Lia Field.
From GB Require Import Base.Field Base.Tables Gauss.Moment1D Model.Shell Model.MomentInt
  Model.DiffOp Proofs.MomentIntP.
Import ListNotations.

Section P.
Context {F : Type} (K : Fops F) (Kf : is_field K).
Add Field KF2 : Kf.
Local Open Scope F_scope.
Notation "0" := (f0 K) : F_scope.
Notation "1" := (f1 K) : F_scope.
Infix "+" := (fadd K) : F_scope.
Infix "*" := (fmul K) : F_scope.
Infix "-" := (fsub K) : F_scope.
Infix "/" := (fdiv K) : F_scope.
Notation "- x" := (fopp K x) : F_scope.
Notation "# n" := (ofnat K n) (at level 5) : F_scope.

Definition tfun := nat -> nat -> F.
Definition negA (alpha : F) (T : tfun) : tfun :=
  fun i j => (1 + 1) * alpha * T (S i) j - #i * T (i - 1)%nat j.
Definition Bop (beta : F) (T : tfun) : tfun :=
  fun i j => #j * T i (j - 1)%nat - (1 + 1) * beta * T i (S j).
Fixpoint iterop (op : tfun -> tfun) (k : nat) (T : tfun) : tfun :=
  match k with O => T | S k' => op (iterop op k' T) end.

Definition peq (T1 T2 : tfun) : Prop := forall i j, T1 i j = T2 i j.

Lemma negA_ext alpha T1 T2 : peq T1 T2 -> peq (negA alpha T1) (negA alpha T2).
Proof. intros H i j. unfold negA. now rewrite !H. Qed.
Lemma Bop_ext beta T1 T2 : peq T1 T2 -> peq (Bop beta T1) (Bop beta T2).
Proof. intros H i j. unfold Bop. now rewrite !H. Qed.
Lemma iterop_ext op k T1 T2 :
  (forall U1 U2, peq U1 U2 -> peq (op U1) (op U2)) -> peq T1 T2 -> peq (iterop op k T1) (iterop op k T2).
Proof. intros Hop H. induction k as [|k IH]; cbn [iterop]; [exact H|]. now apply Hop. Qed.

Lemma negA_Bop_comm alpha beta T : peq (negA alpha (Bop beta T)) (Bop beta (negA alpha T)).
Proof. intros i j. unfold negA, Bop. ring. Qed.

Lemma iterop_shift op k T : iterop op (S k) T = iterop op k (op T).
Proof. induction k as [|k IH]; [reflexivity|]. cbn [iterop] in *. now rewrite IH. Qed.

Lemma negA_iterB_comm alpha beta k T :
  peq (negA alpha (iterop (Bop beta) k T)) (iterop (Bop beta) k (negA alpha T)).
Proof.
  induction k as [|k IH]; cbn [iterop]; [intros i j; reflexivity|].
  intros i j. rewrite negA_Bop_comm. apply Bop_ext. exact IH.
Qed.

(* ---- one axis, one primitive pair ---- *)
Variables (Ax Bx alpha beta : F) (la lb D : nat).
Hypothesis Hp : psum K alpha beta <> 0.
Hypothesis H2 : 1 + 1 <> 0.

Let tp := twop K alpha beta.
Let v := 1 / tp.
Let a := PA K Ax Bx alpha beta.
Let b := PB K Ax Bx alpha beta.
Let B0 := base K Ax Bx alpha beta.
(* the 1-D overlap integrals (moment order 0; the moment centre plays no role) *)
Definition Sfun : tfun := fun i j => B0 * T3 K v a b 0 0 i j.

Lemma ibp : peq (negA alpha Sfun) (Bop beta Sfun).
Proof.
  intros i j. unfold negA, Bop.
  rewrite (dn_read K Kf Ax Bx alpha beta (Sfun (i - 1)%nat j) (fun i' => S3 K v a b 0 0 0 i' j) i) by reflexivity.
  rewrite (dn_read K Kf Ax Bx alpha beta (Sfun i (j - 1)%nat) (fun j' => S3 K v a b 0 0 0 i j') j) by reflexivity.
  unfold Sfun, T3. rewrite (OS3_a K Kf), (OS3_b K Kf). unfold lower. rewrite (dn_0 K).
  assert (Htp : tp <> 0) by (apply (tp_nz K Kf alpha beta Hp H2)).
  assert (Hps : alpha + beta <> 0) by exact Hp.
  unfold B0, v, a, b, tp, PA, PB, Pw, twop, psum. field. split; assumption.
Qed.

Theorem ibp_iter k : peq (iterop (negA alpha) k Sfun) (iterop (Bop beta) k Sfun).
Proof.
  induction k as [|k IH]; [intros i j; reflexivity|].
  intros i j. cbn [iterop].
  rewrite (negA_ext alpha _ _ IH i j).
  rewrite (negA_iterB_comm alpha beta k Sfun i j).
  rewrite (iterop_ext (Bop beta) k _ _ (Bop_ext beta) ibp i j).
  now rewrite <- iterop_shift.
Qed.

(* ---- the table ---- *)
Lemma iter_S {A} (f : A -> A) n x : Nat.iter (S n) f x = f (Nat.iter n f x).
Proof. reflexivity. Qed.
Lemma iter_succ_r {A} (f : A -> A) n x : Nat.iter (S n) f x = Nat.iter n f (f x).
Proof. induction n as [|n IH]; [reflexivity|]. rewrite iter_S, IH. reflexivity. Qed.

Lemma diter_nth n cur k : k <= n ->
  nth k (diter K alpha la D n cur) [] = Nat.iter k (dstep K alpha la D) cur.
Proof.
  revert cur k; induction n as [|n IH]; intros cur k Hk.
  - assert (k = 0%nat) by lia. subst. reflexivity.
  - destruct k as [|k]; cbn [diter nth]; [reflexivity|].
    rewrite IH by lia. symmetry. apply iter_succ_r.
Qed.

Lemma diter_length n cur : length (diter K alpha la D n cur) = S n.
Proof. revert cur; induction n as [|n IHn]; intros c; cbn [diter length]; [reflexivity|]. now rewrite IHn. Qed.

Lemma dstep_length cur : length (dstep K alpha la D cur) = length cur.
Proof. unfold dstep. apply map_length. Qed.

Lemma dstep_nth2 cur j i : j < length cur -> i < ncol la D ->
  nth2 K j i (dstep K alpha la D cur) =
  if Nat.eqb i (la + D) then 0
  else (1 + 1) * alpha * nth2 K j (S i) cur - #i * nth2 K j (i - 1) cur.
Proof.
  intros Hj Hi. unfold nth2, dstep.
  rewrite (nth_map_lt _ cur j []) by exact Hj. now rewrite nth_mk by exact Hi.
Qed.

Lemma plane0_len : length (plane0 K Ax Bx alpha beta (la + D) lb) = S lb.
Proof. unfold plane0. apply iter2_length. Qed.

Lemma iter_dstep_len k : length (Nat.iter k (dstep K alpha la D) (plane0 K Ax Bx alpha beta (la + D) lb)) = S lb.
Proof. induction k as [|k IH]; [apply plane0_len|]. rewrite iter_S. now rewrite dstep_length. Qed.

Lemma iter_dstep_correct k : forall j i, j <= lb -> i + k <= la + D ->
  nth2 K j i (Nat.iter k (dstep K alpha la D) (plane0 K Ax Bx alpha beta (la + D) lb))
  = iterop (negA alpha) k Sfun i j.
Proof.
  induction k as [|k IH]; intros j i Hj Hi.
  - cbn [iterop]. change (Nat.iter 0 ?f ?x) with x. unfold nth2, Sfun.
    pose proof (plane0_correct K Kf Ax Bx 0 alpha beta (la + D) lb Hp H2 j Hj i ltac:(lia)) as E.
    rewrite E. reflexivity.
  - cbn [iterop]. rewrite iter_S.
    rewrite dstep_nth2 by (rewrite ?iter_dstep_len; unfold ncol; lia).
    destruct (Nat.eqb_spec i (la + D)) as [E|_]; [lia|].
    rewrite (IH j (S i)) by lia. rewrite (IH j (i - 1)%nat) by lia.
    reflexivity.
Qed.

Theorem diffop_valid k j i : k <= D -> j <= lb -> i + k <= la + D ->
  nth3 K k j i (dtable_full K Ax Bx alpha beta la lb D) = iterop (negA alpha) k Sfun i j.
Proof.
  intros Hk Hj Hi. unfold nth3, dtable_full. rewrite diter_nth by exact Hk.
  now apply iter_dstep_correct.
Qed.

(* the returned slice [:, :, : la+1] is entirely valid, at every order k <= D *)
Theorem diffop_slice_valid k j i : k <= D -> j <= lb -> i <= la ->
  nth3 K k j i (dtable K Ax Bx alpha beta la lb D) = iterop (negA alpha) k Sfun i j.
Proof.
  intros Hk Hj Hi. rewrite <- diffop_valid by lia.
  unfold nth3, nth2, dtable.
  assert (Hlen : length (dtable_full K Ax Bx alpha beta la lb D) = S D).
  { unfold dtable_full. apply diter_length. }
  rewrite (nth_map_lt _ _ k []) by lia.
  set (pl := nth k (dtable_full K Ax Bx alpha beta la lb D) []).
  destruct (Nat.lt_ge_cases j (length pl)) as [Hlt|Hge].
  - rewrite (nth_map_lt _ pl j []) by exact Hlt. apply nth_firstn. lia.
  - rewrite (nth_overflow (map _ pl)) by (now rewrite map_length).
    rewrite (nth_overflow pl) by assumption. reflexivity.
Qed.

(* ... and equals the integral of phi_a times the k-th derivative of phi_b *)
Corollary diffop_slice_is_deriv_b k j i : k <= D -> j <= lb -> i <= la ->
  nth3 K k j i (dtable K Ax Bx alpha beta la lb D) = iterop (Bop beta) k Sfun i j.
Proof. intros. rewrite diffop_slice_valid by assumption. apply ibp_iter. Qed.

End P.
