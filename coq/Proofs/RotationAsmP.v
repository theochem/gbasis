(* Proofs/RotationAsmP.v — GENERAL ROTATIONS (proper and improper) at the level of the WHOLE-BASIS functions (C12):
   overlap_integral, kinetic_integral, evaluate_basis_model and the density bilinear form, for a basis of any number
   of Cartesian shells (default component order), any l, any number of primitives and segments.

   gbasis multiplies every contracted Cartesian function (shell s, segment m, component c) by its own constant
        n_s[m][c] = norm_cont = 1 / sqrt(overlap_block(s, s)[m][c][m][c])                 (contractions.py:523-524),
   and the primitive normalisation carries the component-dependent factor 1 / dfnorm(c), dfnorm(c) =
   sqrt((2cx-1)!!(2cy-1)!!(2cz-1)!!).  The rotated components of an l >= 2 shell are combinations of the original
   ones, so the matrix under which the ASSEMBLED arrays transform is the representation matrix D = rep_mat R
   conjugated with these per-function constants:

        wrot R s m a a' = n_s[m][a] / dfnorm(a) * D[a', a] * dfnorm(a') / n_s[m][a']

   (W = N^-1 D^T N, N = diag(dfnorm / norm_cont)).  When sqrt is exact on the double factorials n_s[m][c] does not
   depend on c and W = dfnorm(a') / dfnorm(a) * D[a', a]  ([wrot_simpl], under that hypothesis).

   The rotated shell is a translate, so norm_cont (rot_shell R s) = norm_cont s.  With S = overlap_integral bs (or
   kinetic_integral bs) and S' the same of the rotated basis map (rot_shell R) bs,
        sum_{a', b'} W_i[a, a'] W_j[b, b'] S'[gidx(i, m, a'), gidx(j, m', b')] = S[gidx(i, m, a), gidx(j, m', b)]
   (RotationBlockP.contracted_rotation_law lifted to the assembled arrays); for the rows of evaluate_basis_model, E' those
   of the rotated basis at the rotated points,
        sum_{a'} W_i[a, a'] E'[gidx(i, m, a')][p] = E[gidx(i, m, a)][p];
   and with P' = W^T P W (block-wise over gidx, [rot_density]) the density bilinear form over these rows is invariant,
        sum_IJ P'_IJ phi'_I(R r) phi'_J(R r) = sum_IJ P_IJ phi_I(r) phi_J(r)
   (the sums enumerate the functions as (shell, segment, component) = every position below btotal once, [bsum]).
   NOT YET: the same sentence for the density model itself (Gauss/DensityJets.v)
   (needs the reindexing sum_{I < btotal} f I = bsum (f o gidx) and the unfolding of the density model into this
   bilinear form).
   Hypotheses: R orthogonal; fapx = id; exp(x + y) = exp x exp y (two-index laws only); 1 + 1 <> 0; dfnorm <> 0;
   one coefficient row per exponent; exponent sums non-zero; norm_cont entries non-zero (they are divided by). *)
From Coq Require Import List Arith Lia Field Bool.
From GB Require Import Base.Field Base.FNum Base.Tables Base.Blocks Gauss.Moment1D Gauss.Poly3 Model.Shell
  Model.MomentInt Model.Overlap Model.DiffOp Model.OneBody Model.Eval
  Proofs.CoreSumP Proofs.CoreBlockP Proofs.CoreDiffP Proofs.RigidP Proofs.RotationP Proofs.RotationBlockP
  Proofs.BlockMatP Proofs.AssembledP Proofs.AssembledOverlapP Proofs.SameFunP Proofs.RotationEvalP.
Import ListNotations.

Section RotAsm.
Context {F : Type} (K : Fops F) (Kf : is_field K).
Add Field KFrasm : Kf.
Local Open Scope F_scope.
Notation "0" := (f0 K) : F_scope.
Notation "1" := (f1 K) : F_scope.
Infix "+" := (fadd K) : F_scope.
Infix "*" := (fmul K) : F_scope.
Infix "-" := (fsub K) : F_scope.
Infix "/" := (fdiv K) : F_scope.
Notation fsum := (FNum.fsum K).

Lemma rot_shell_is_shift R (s : shell F) :
  rot_shell K R s
  = shift_shell K (fst (fst (mapply K R (s_x s, s_y s, s_z s))) - s_x s)
                  (snd (fst (mapply K R (s_x s, s_y s, s_z s))) - s_y s)
                  (snd (mapply K R (s_x s, s_y s, s_z s)) - s_z s) s.
Proof.
  unfold rot_shell, shift_shell. cbv zeta.
  set (c := mapply K R (s_x s, s_y s, s_z s)).
  replace (s_x s + (fst (fst c) - s_x s)) with (fst (fst c)) by ring.
  replace (s_y s + (snd (fst c) - s_y s)) with (snd (fst c)) by ring.
  replace (s_z s + (snd c - s_z s)) with (snd c) by ring.
  reflexivity.
Qed.

Lemma self_overlap_rotation_invariant R (s : shell F) :
  (forall a b, In a (s_exps s) -> In b (s_exps s) -> a + b <> 0) ->
  overlap_block K (rot_shell K R s) (rot_shell K R s) = overlap_block K s s.
Proof.
  intros He. rewrite rot_shell_is_shift. apply (overlap_block_shift K Kf). exact He.
Qed.

Theorem norm_cont_rotation_invariant R (s : shell F) :
  (forall a b, In a (s_exps s) -> In b (s_exps s) -> a + b <> 0) ->
  norm_cont K (rot_shell K R s) = norm_cont K s.
Proof.
  intros He. unfold norm_cont. cbv zeta. rewrite (self_overlap_rotation_invariant R s He). reflexivity.
Qed.

Corollary ncont_rotation_invariant R (s : shell F) m c :
  (forall a b, In a (s_exps s) -> In b (s_exps s) -> a + b <> 0) ->
  ncont K (rot_shell K R s) m c = ncont K s m c.
Proof. intros He. unfold ncont. now rewrite norm_cont_rotation_invariant. Qed.

Hypothesis Hapx : forall x : F, fapx K x = x.
Hypothesis H2 : 1 + 1 <> 0.
Hypothesis Hdf : forall c, dfnorm K c <> 0.

Definition cmpl (l i : nat) : comp := nth i (default_comps l) (0, 0, 0)%nat.
Definition ncd (l : nat) : nat := length (default_comps l).

Definition wrot (R : @mat3 F) (s : shell F) (m a a' : nat) : F :=
  ncont K s m a / dfnorm K (cmpl (s_l s) a) * rep_mat K R (cmpl (s_l s) a') (cmpl (s_l s) a)
  * dfnorm K (cmpl (s_l s) a') / ncont K s m a'.

(* if the contraction norm does not depend on the component (true when sqrt is exact on the double factorials),
   W is the representation matrix conjugated with the primitive component norms only *)
Lemma wrot_simpl R (s : shell F) m a a' :
  ncont K s m a' = ncont K s m a -> ncont K s m a' <> 0 ->
  wrot R s m a a'
  = dfnorm K (cmpl (s_l s) a') / dfnorm K (cmpl (s_l s) a) * rep_mat K R (cmpl (s_l s) a') (cmpl (s_l s) a).
Proof.
  intros E Hn. unfold wrot. rewrite <- E. field. split; [apply Hdf|exact Hn].
Qed.

(* W carries the contraction norm of the rotated function to that of the original one *)
Lemma wrot_ncont R (s : shell F) m a a' x : ncont K s m a' <> 0 ->
  wrot R s m a a' * (ncont K s m a' * x)
  = ncont K s m a / dfnorm K (cmpl (s_l s) a)
    * (rep_mat K R (cmpl (s_l s) a') (cmpl (s_l s) a) * dfnorm K (cmpl (s_l s) a') * x).
Proof. intro Hn. unfold wrot. field. split; [apply Hdf|exact Hn]. Qed.

(* the basis: Cartesian shells in the default component order, one coefficient row per exponent, at least one
   segment, exponent sums non-zero *)
Definition rot_basis_ok (bs : list (shell F)) : Prop :=
  (forall s, In s bs -> s_sph s = false /\ (0 < nseg s)%nat /\ s_comps s = [] /\ wf_coeffs s)
  /\ (forall sa sb, In sa bs -> In sb bs -> forall a b, In a (s_exps sa) -> In b (s_exps sb) -> a + b <> 0).
Definition rot_basis (R : @mat3 F) (bs : list (shell F)) : list (shell F) := map (rot_shell K R) bs.

Section Basis.
Variable R : @mat3 F.
Hypothesis HO : orthogonal K R.
Variable bs : list (shell F).
Hypothesis OK : rot_basis_ok bs.
Notation s_ k := (sh_at K bs k).
Notation bs' := (rot_basis R bs).
Notation rs_ k := (rot_shell K R (sh_at K bs k)).

Lemma sh_in' k : (k < length bs)%nat -> In (s_ k) bs.
Proof. intros H. now apply nth_In. Qed.

Lemma sh_at_rot k : (k < length bs)%nat -> sh_at K bs' k = rs_ k.
Proof. apply (sh_at_map K). Qed.

(* a rotation keeps the number of segments and of components, hence the index map *)
Lemma gidx_rot k m c : (k < length bs)%nat -> gidx K bs' k m c = gidx K bs k m c.
Proof. exact (xidx_map K ncomp (rot_shell K R) bs k m c (fun s => conj eq_refl eq_refl)). Qed.

Lemma btotal_rot : btotal K bs' = btotal K bs.
Proof.
  unfold btotal, rot_basis. rewrite map_length.
  exact (xoff_map K ncomp (rot_shell K R) bs _ (fun s => conj eq_refl eq_refl) (le_n _)).
Qed.

Lemma rot_in s' : In s' bs' -> exists s, In s bs /\ s' = rot_shell K R s.
Proof. unfold rot_basis. rewrite in_map_iff. intros (s & E & H). exists s. now split. Qed.

Lemma rot_cart_basis : cart_basis bs'.
Proof.
  intros s' Hs'. destruct (rot_in s' Hs') as (s & Hs & ->). destruct OK as [A _].
  destruct (A s Hs) as (H1 & H2' & _). split; [exact H1|exact H2'].
Qed.
Lemma rot_basis_wf : basis_wf bs'.
Proof.
  intros s' Hs'. destruct (rot_in s' Hs') as (s & Hs & ->). destruct OK as [A _].
  destruct (A s Hs) as (_ & _ & H3 & H4). apply wf_shell_default; [exact H3|exact H4].
Qed.
Lemma rot_basis_exps : basis_exps K bs' bs'.
Proof.
  intros sa' sb' Ha' Hb'. destruct (rot_in sa' Ha') as (sa & Ha & ->). destruct (rot_in sb' Hb') as (sb & Hb & ->).
  destruct OK as [_ B]. intros a b Hia Hib. unfold psum. exact (B sa sb Ha Hb a b Hia Hib).
Qed.
Lemma orig_cart_basis : cart_basis bs.
Proof. intros s Hs. destruct OK as [A _]. destruct (A s Hs) as (H1 & H2' & _). now split. Qed.
Lemma orig_basis_wf : basis_wf bs.
Proof.
  intros s Hs. destruct OK as [A _]. destruct (A s Hs) as (_ & _ & H3 & H4). now apply wf_shell_default.
Qed.
Lemma orig_basis_exps : basis_exps K bs bs.
Proof. intros sa sb Ha Hb. destruct OK as [_ B]. intros a b Hia Hib. unfold psum. exact (B sa sb Ha Hb a b Hia Hib). Qed.

Lemma comps_default k : (k < length bs)%nat -> comps_of (s_ k) = default_comps (s_l (s_ k)).
Proof.
  intros Hk. destruct OK as [A _]. destruct (A (s_ k) (sh_in' k Hk)) as (_ & _ & H3 & _).
  exact (comps_of_default (s_ k) H3).
Qed.
Lemma ncomp_default k : (k < length bs)%nat -> AssembledP.ncomp (s_ k) = ncd (s_l (s_ k)).
Proof. intros Hk. unfold AssembledP.ncomp, ncd. now rewrite comps_default. Qed.
Lemma self_exps k : (k < length bs)%nat ->
  forall a b, In a (s_exps (s_ k)) -> In b (s_exps (s_ k)) -> a + b <> 0.
Proof. intros Hk. destruct OK as [_ B]. apply B; now apply sh_in'. Qed.

(* norm_cont entries are divided by *)
Definition ncont_nonzero : Prop :=
  forall k m c, (k < length bs)%nat -> (m < nseg (s_ k))%nat -> (c < ncd (s_l (s_ k)))%nat -> ncont K (s_ k) m c <> 0.

(* the array S holds, at the positions of the functions of bs, the contracted values of prim between the shells
   sh k, times the contraction norms of bs *)
Definition entries_of (prim : shell F -> shell F -> comp -> comp -> F -> F -> F) (sh : nat -> shell F)
  (S : list (list F)) : Prop :=
  forall i j m c m' c', (i < length bs)%nat -> (j < length bs)%nat ->
  (m < nseg (s_ i))%nat -> (c < ncd (s_l (s_ i)))%nat -> (m' < nseg (s_ j))%nat -> (c' < ncd (s_l (s_ j)))%nat ->
  nth (gidx K bs j m' c') (nth (gidx K bs i m c) S []) 0
  = ncont K (s_ i) m c * ncont K (s_ j) m' c'
    * contracted K (sh i) (sh j) (cmpl (s_l (s_ i)) c) (cmpl (s_l (s_ j)) c') m m'
        (prim (sh i) (sh j) (cmpl (s_l (s_ i)) c) (cmpl (s_l (s_ j)) c')).

Section GenericAsm.
Variable prim : shell F -> shell F -> comp -> comp -> F -> F -> F.
Hypothesis prim_matrix : forall R la lb sa sb ja jb alpha beta,
  orthogonal K R -> psum K alpha beta <> 0 -> In ja (default_comps la) -> In jb (default_comps lb) ->
  fsum (map (fun ia => fsum (map (fun ib =>
      rep_mat K R ia ja * rep_mat K R ib jb * prim (rot_shell K R sa) (rot_shell K R sb) ia ib alpha beta)
    (default_comps lb))) (default_comps la))
  = prim sa sb ja jb alpha beta.
Variables S S' : list (list F).
Hypothesis HS : entries_of prim (sh_at K bs) S.
Hypothesis HS' : entries_of prim (fun k => rs_ k) S'.

Lemma two_index_rotation_law_generic : ncont_nonzero ->
  forall i j m a m' b, (i < length bs)%nat -> (j < length bs)%nat ->
  (m < nseg (s_ i))%nat -> (a < ncd (s_l (s_ i)))%nat -> (m' < nseg (s_ j))%nat -> (b < ncd (s_l (s_ j)))%nat ->
  fsum (mk (ncd (s_l (s_ i))) (fun a' => fsum (mk (ncd (s_l (s_ j))) (fun b' =>
    wrot R (s_ i) m a a' * wrot R (s_ j) m' b b'
    * nth (gidx K bs j m' b') (nth (gidx K bs i m a') S' []) 0))))
  = nth (gidx K bs j m' b) (nth (gidx K bs i m a) S []) 0.
Proof.
  intros Hn i j m a m' b Hi Hj Hm Ha Hm' Hb.
  set (li := s_l (s_ i)). set (lj := s_l (s_ j)).
  assert (L : dfnorm K (cmpl li a) * dfnorm K (cmpl lj b)
               * contracted K (s_ i) (s_ j) (cmpl li a) (cmpl lj b) m m' (prim (s_ i) (s_ j) (cmpl li a) (cmpl lj b))
             = fsum (mk (ncd li) (fun a' => fsum (mk (ncd lj) (fun b' =>
                 rep_mat K R (cmpl li a') (cmpl li a) * rep_mat K R (cmpl lj b') (cmpl lj b)
                 * dfnorm K (cmpl li a') * dfnorm K (cmpl lj b')
                 * contracted K (rs_ i) (rs_ j) (cmpl li a') (cmpl lj b') m m'
                     (prim (rs_ i) (rs_ j) (cmpl li a') (cmpl lj b'))))))).
  { apply (contracted_rotation_law K Kf Hapx Hdf R prim prim li lj (s_ i) (s_ j) m m' a b).
    intros alpha beta Hal Hbe.
    apply prim_matrix; [exact HO|exact (proj2 OK _ _ (sh_in' i Hi) (sh_in' j Hj) _ _ Hal Hbe)| |]; apply nth_In; assumption. }
  rewrite (HS i j m a m' b) by assumption. fold li lj.
  transitivity ((ncont K (s_ i) m a / dfnorm K (cmpl li a)) * (ncont K (s_ j) m' b / dfnorm K (cmpl lj b))
    * (dfnorm K (cmpl li a) * dfnorm K (cmpl lj b)
       * contracted K (s_ i) (s_ j) (cmpl li a) (cmpl lj b) m m' (prim (s_ i) (s_ j) (cmpl li a) (cmpl lj b))));
    [|field; split; apply Hdf].
  rewrite L. rewrite (fsum_mk_scale_l K Kf). apply fsum_mk_ext. intros a' Ha'.
  rewrite (fsum_mk_scale_l K Kf). apply fsum_mk_ext. intros b' Hb'.
  rewrite (HS' i j m a' m' b') by assumption. cbv beta. fold li lj.
  set (C' := contracted K (rs_ i) (rs_ j) (cmpl li a') (cmpl lj b') m m' (prim (rs_ i) (rs_ j) (cmpl li a') (cmpl lj b'))).
  transitivity (wrot R (s_ i) m a a' * (ncont K (s_ i) m a' * (wrot R (s_ j) m' b b' * (ncont K (s_ j) m' b' * C'))));
    [ring|].
  rewrite !wrot_ncont by (apply Hn; assumption). fold li lj. ring.
Qed.
End GenericAsm.

Hypothesis Hexp : forall x y, fexp K (x + y) = fexp K x * fexp K y.

Lemma entry_rot_generic (Mx : list (shell F) -> list (list F))
  (prim : shell F -> shell F -> comp -> comp -> F -> F -> F) :
  (forall b : list (shell F), cart_basis b -> basis_wf b -> basis_exps K b b ->
     forall i j m c m' c', (i < length b)%nat -> (j < length b)%nat ->
     (m < nseg (sh_at K b i))%nat -> (c < AssembledP.ncomp (sh_at K b i))%nat ->
     (m' < nseg (sh_at K b j))%nat -> (c' < AssembledP.ncomp (sh_at K b j))%nat ->
     let sa := sh_at K b i in let sb := sh_at K b j in
     let ca := nth c (comps_of sa) (0, 0, 0)%nat in let cb := nth c' (comps_of sb) (0, 0, 0)%nat in
     nth (gidx K b j m' c') (nth (gidx K b i m c) (Mx b) []) 0
     = ncont K sa m c * ncont K sb m' c' * contracted K sa sb ca cb m m' (prim sa sb ca cb)) ->
  entries_of prim (sh_at K bs) (Mx bs) /\ entries_of prim (fun k => rs_ k) (Mx bs').
Proof.
  intros HE. split; intros i j m c m' c' Hi Hj Hm Hc Hm' Hc'.
  - pose proof (HE bs orig_cart_basis orig_basis_wf orig_basis_exps i j m c m' c' Hi Hj Hm
                  ltac:(rewrite ncomp_default by exact Hi; exact Hc) Hm'
                  ltac:(rewrite ncomp_default by exact Hj; exact Hc')) as E.
    cbv zeta in E. rewrite (comps_default i Hi), (comps_default j Hj) in E. exact E.
  - assert (Hi' : (i < length bs')%nat) by (unfold rot_basis; now rewrite map_length).
    assert (Hj' : (j < length bs')%nat) by (unfold rot_basis; now rewrite map_length).
    pose proof (HE bs' rot_cart_basis rot_basis_wf rot_basis_exps i j m c m' c' Hi' Hj') as E.
    cbv zeta in E. rewrite !(sh_at_rot i Hi), !(sh_at_rot j Hj), (gidx_rot i m c Hi), (gidx_rot j m' c' Hj) in E.
    change (nseg (rs_ i)) with (nseg (s_ i)) in E. change (nseg (rs_ j)) with (nseg (s_ j)) in E.
    change (AssembledP.ncomp (rs_ i)) with (AssembledP.ncomp (s_ i)) in E.
    change (AssembledP.ncomp (rs_ j)) with (AssembledP.ncomp (s_ j)) in E.
    change (comps_of (rs_ i)) with (comps_of (s_ i)) in E. change (comps_of (rs_ j)) with (comps_of (s_ j)) in E.
    rewrite (ncomp_default i Hi), (ncomp_default j Hj), (comps_default i Hi), (comps_default j Hj) in E.
    rewrite (ncont_rotation_invariant R (s_ i) m c (self_exps i Hi)),
            (ncont_rotation_invariant R (s_ j) m' c' (self_exps j Hj)) in E.
    exact (E Hm Hc Hm' Hc').
Qed.

Theorem overlap_integral_rotation_law : ncont_nonzero ->
  forall i j m a m' b, (i < length bs)%nat -> (j < length bs)%nat ->
  (m < nseg (s_ i))%nat -> (a < ncd (s_l (s_ i)))%nat -> (m' < nseg (s_ j))%nat -> (b < ncd (s_l (s_ j)))%nat ->
  fsum (mk (ncd (s_l (s_ i))) (fun a' => fsum (mk (ncd (s_l (s_ j))) (fun b' =>
    wrot R (s_ i) m a a' * wrot R (s_ j) m' b b'
    * nth (gidx K bs j m' b') (nth (gidx K bs i m a') (overlap_integral K bs' None) []) 0))))
  = nth (gidx K bs j m' b) (nth (gidx K bs i m a) (overlap_integral K bs None) []) 0.
Proof.
  destruct (entry_rot_generic (fun b => overlap_integral K b None) (ovl_prim K)) as [E1 E2].
  { intros b Cb Wb Eb i j m c m' c' Hi Hj Hm Hc Hm' Hc'.
    exact (overlap_integral_entry K Kf Hapx H2 b Cb Wb Eb i j m c m' c' Hi Hj Hm Hc Hm' Hc'). }
  apply (two_index_rotation_law_generic (ovl_prim K)); [|exact E1|exact E2].
  intros. now apply (overlap_prim_rotation_matrix K Kf Hexp).
Qed.

Theorem kinetic_integral_rotation_law : ncont_nonzero ->
  forall i j m a m' b, (i < length bs)%nat -> (j < length bs)%nat ->
  (m < nseg (s_ i))%nat -> (a < ncd (s_l (s_ i)))%nat -> (m' < nseg (s_ j))%nat -> (b < ncd (s_l (s_ j)))%nat ->
  fsum (mk (ncd (s_l (s_ i))) (fun a' => fsum (mk (ncd (s_l (s_ j))) (fun b' =>
    wrot R (s_ i) m a a' * wrot R (s_ j) m' b b'
    * nth (gidx K bs j m' b') (nth (gidx K bs i m a') (kinetic_integral K bs' None) []) 0))))
  = nth (gidx K bs j m' b) (nth (gidx K bs i m a) (kinetic_integral K bs None) []) 0.
Proof.
  destruct (entry_rot_generic (fun b => kinetic_integral K b None) (kin_prim K)) as [E1 E2].
  { intros b Cb Wb Eb i j m c m' c' Hi Hj Hm Hc Hm' Hc'.
    exact (kinetic_integral_entry K Kf Hapx H2 b i j m c m' c' Cb Wb Eb Hi Hj Hm Hc Hm' Hc'). }
  apply (two_index_rotation_law_generic (kin_prim K)); [|exact E1|exact E2].
  intros. now apply (kinetic_prim_rotation_matrix K Kf Hexp).
Qed.

Lemma descr_len_bdim (b : list (shell F)) : (forall s, In s b -> s_sph s = false) ->
  forall t, (t < length b)%nat -> length (descr K (nth t b (SameFunP.dshell K))) = bdim (sh_at K b t).
Proof.
  intros Hs t Ht. rewrite descr_length, nrows_eq.
  change (nth t b (SameFunP.dshell K)) with (sh_at K b t).
  rewrite (Hs (sh_at K b t)) by (now apply nth_In). reflexivity.
Qed.

Lemma descr_basis_length (b : list (shell F)) : (forall s, In s b -> s_sph s = false) ->
  length (descr_basis K b) = btotal K b.
Proof.
  intros Hs. rewrite descr_basis_mk. unfold btotal, boff.
  apply (length_concat_mk (length b) (fun i => descr K (nth i b (SameFunP.dshell K)))
           (fun t => bdim (sh_at K b t))). now apply descr_len_bdim.
Qed.

Lemma descr_basis_gidx (b : list (shell F)) k m c : (forall s, In s b -> s_sph s = false) ->
  (k < length b)%nat -> (m < nseg (sh_at K b k))%nat -> (c < AssembledP.ncomp (sh_at K b k))%nat ->
  nth (gidx K b k m c) (descr_basis K b) ([] : fdesc (F:=F)) = cart_desc K (sh_at K b k) m c.
Proof.
  intros Hs Hk Hm Hc. rewrite descr_basis_mk. unfold gidx, boff.
  rewrite (nth_concat_mk (length b) (fun i => descr K (nth i b (SameFunP.dshell K)))
             (fun t => bdim (sh_at K b t)) ([] : fdesc (F:=F)) k _ (descr_len_bdim b Hs) Hk)
    by (unfold bdim; now apply idx_lt).
  change (nth k b (SameFunP.dshell K)) with (sh_at K b k).
  set (s := sh_at K b k) in *.
  assert (Hsph : s_sph s = false) by (apply Hs; now apply nth_In).
  assert (Hnr : nrows K s = AssembledP.ncomp s) by (rewrite nrows_eq, Hsph; reflexivity).
  rewrite descr_mk, Hnr.
  rewrite (nth_concat_uniform (AssembledP.ncomp s) (mk (nseg s) (fun m0 => mk (AssembledP.ncomp s) (dd K s m0)))
             ([] : fdesc (F:=F)) m c).
  - rewrite nth_mk by exact Hm. rewrite nth_mk by exact Hc. unfold dd. now rewrite Hsph.
  - apply Forall_forall. intros r Hr. unfold mk in Hr. apply in_map_iff in Hr. destruct Hr as (m0 & <- & _).
    apply mk_length.
  - exact Hc.
Qed.

(* every entry of evaluate_basis_model of a Cartesian basis: contraction norm x un-normalised descriptor *)
Lemma eval_entry_gidx (b : list (shell F)) (pts : list (point (F:=F))) k m c p :
  (forall s, In s b -> s_sph s = false /\ s_comps s = []) ->
  (k < length b)%nat -> (m < nseg (sh_at K b k))%nat -> (c < AssembledP.ncomp (sh_at K b k))%nat ->
  (p < length pts)%nat ->
  nth p (nth (gidx K b k m c) (evaluate_basis_model K b pts None) []) 0
  = ncont K (sh_at K b k) m c * eval_spec K (cart_desc_raw K (sh_at K b k) m c) (nth p pts (0, 0, 0)).
Proof.
  intros Hb Hk Hm Hc Hp.
  assert (Hs : forall s, In s b -> s_sph s = false) by (intros s Hs; now destruct (Hb s Hs)).
  rewrite (same_function_eval_values K Kf)
    by (apply Forall_forall; intros s Hs'; apply default_comps_ok; now destruct (Hb s Hs')).
  set (f := fun d : fdesc (F:=F) => map (eval_spec K d) pts).
  rewrite (nth_indep _ [] (f [])) by (rewrite map_length, (descr_basis_length b Hs); now apply gidx_lt).
  rewrite (map_nth f), (descr_basis_gidx b k m c Hs Hk Hm Hc). unfold f.
  rewrite (nth_indep _ 0 (eval_spec K (cart_desc K (sh_at K b k) m c) (0, 0, 0)))
    by (now rewrite map_length).
  rewrite (map_nth (eval_spec K (cart_desc K (sh_at K b k) m c))).
  unfold eval_spec. rewrite (cart_desc_is_scaled_raw K Kf). reflexivity.
Qed.

Theorem evaluate_basis_rotation_law (pts : list (point (F:=F))) : ncont_nonzero ->
  forall i m a p, (i < length bs)%nat -> (m < nseg (s_ i))%nat -> (a < ncd (s_l (s_ i)))%nat ->
  (p < length pts)%nat ->
  fsum (mk (ncd (s_l (s_ i))) (fun a' =>
    wrot R (s_ i) m a a'
    * nth p (nth (gidx K bs i m a') (evaluate_basis_model K bs' (map (mapply K R) pts) None) []) 0))
  = nth p (nth (gidx K bs i m a) (evaluate_basis_model K bs pts None) []) 0.
Proof.
  intros Hn i m a p Hi Hm Ha Hp.
  assert (Hb : forall s, In s bs -> s_sph s = false /\ s_comps s = []).
  { intros s Hs. destruct OK as [A _]. destruct (A s Hs) as (H1 & _ & H3 & _). now split. }
  assert (Hb' : forall s, In s bs' -> s_sph s = false /\ s_comps s = []).
  { intros s' Hs'. destruct (rot_in s' Hs') as (s & Hs & ->). exact (Hb s Hs). }
  assert (Hi' : (i < length bs')%nat) by (unfold rot_basis; now rewrite map_length).
  set (l := s_l (s_ i)) in *. set (r := @nth (@point F) p pts (0, 0, 0)).
  assert (L : dfnorm K (cmpl l a) * eval_spec K (cart_desc_raw K (s_ i) m a) r
              = fsum (mk (ncd l) (fun a' => rep_mat K R (cmpl l a') (cmpl l a) * dfnorm K (cmpl l a')
                                           * eval_spec K (cart_desc_raw K (rs_ i) m a') (mapply K R r))))
    by exact (eval_spec_rotation_law K Kf Hapx Hdf R HO (s_ i) (proj2 (Hb _ (sh_in' i Hi))) m a r Ha).
  rewrite (eval_entry_gidx bs pts i m a p Hb Hi Hm) by (try (rewrite ncomp_default by exact Hi); assumption).
  fold r.
  transitivity (ncont K (s_ i) m a / dfnorm K (cmpl l a)
                * (dfnorm K (cmpl l a) * eval_spec K (cart_desc_raw K (s_ i) m a) r)); [|field; apply Hdf].
  rewrite L, (fsum_mk_scale_l K Kf). apply fsum_mk_ext. intros a' Ha'.
  rewrite <- (gidx_rot i m a' Hi).
  rewrite (eval_entry_gidx bs' (map (mapply K R) pts) i m a' p Hb' Hi')
    by (rewrite ?(sh_at_rot i Hi), ?map_length; try assumption;
        change (AssembledP.ncomp (rs_ i)) with (AssembledP.ncomp (s_ i)); rewrite ncomp_default by exact Hi;
        exact Ha').
  rewrite (sh_at_rot i Hi), (ncont_rotation_invariant R (s_ i) m a' (self_exps i Hi)).
  rewrite (nth_indep _ (0, 0, 0) (mapply K R (0, 0, 0))) by (now rewrite map_length).
  rewrite (map_nth (mapply K R)). change (@nth (@vec3 F) p pts (0, 0, 0)) with r.
  apply wrot_ncont, Hn; assumption.
Qed.

End Basis.

End RotAsm.

Section Density.
Context {F : Type} (K : Fops F) (Kf : is_field K).
Add Field KFrdens : Kf.
Local Open Scope F_scope.
Notation "0" := (f0 K) : F_scope.
Infix "+" := (fadd K) : F_scope.
Infix "*" := (fmul K) : F_scope.
Notation fsum := (FNum.fsum K).
Hypothesis Hapx : forall x : F, fapx K x = x.
Hypothesis Hdf : forall c, dfnorm K c <> 0.
Variable R : @mat3 F.
Hypothesis HO : orthogonal K R.
Variable bs : list (shell F).
Hypothesis OK : rot_basis_ok K bs.
Hypothesis Hn : ncont_nonzero K bs.
Variable pts : list (point (F:=F)).
Notation s_ k := (sh_at K bs k).
Notation g_ := (gidx K bs).

(* sum over all functions of the basis, enumerated as (shell, segment, component); by gidx_surj / gidx_inj every
   position below btotal occurs exactly once *)
Definition bsum (f : nat -> nat -> nat -> F) : F :=
  fsum (mk (length bs) (fun i => fsum (mk (nseg (s_ i)) (fun m => fsum (mk (ncd (s_l (s_ i))) (fun a => f i m a)))))).

Lemma bsum_ext f g :
  (forall i m a, (i < length bs)%nat -> (m < nseg (s_ i))%nat -> (a < ncd (s_l (s_ i)))%nat -> f i m a = g i m a) ->
  bsum f = bsum g.
Proof.
  intros H. unfold bsum. apply fsum_mk_ext; intros i Hi. apply fsum_mk_ext; intros m Hm.
  apply fsum_mk_ext; intros a Ha. now apply H.
Qed.
Lemma bsum_scale_l c f : c * bsum f = bsum (fun i m a => c * f i m a).
Proof.
  unfold bsum. rewrite (fsum_mk_scale_l K Kf). apply fsum_mk_ext; intros i _.
  rewrite (fsum_mk_scale_l K Kf). apply fsum_mk_ext; intros m _. now rewrite (fsum_mk_scale_l K Kf).
Qed.
Lemma bsum_swap_fsum n (f : nat -> nat -> nat -> nat -> F) :
  fsum (mk n (fun a => bsum (f a))) = bsum (fun i m b => fsum (mk n (fun a => f a i m b))).
Proof.
  unfold bsum. rewrite (fsum_mk_swap K Kf). apply fsum_mk_ext; intros i _.
  rewrite (fsum_mk_swap K Kf). apply fsum_mk_ext; intros m _. now rewrite (fsum_mk_swap K Kf).
Qed.

Section Point.
Variable p : nat.
Hypothesis Hp : (p < length pts)%nat.
Let phi (I : nat) : F := nth p (nth I (evaluate_basis_model K bs pts None) []) 0.
Let phi' (I : nat) : F :=
  nth p (nth I (evaluate_basis_model K (rot_basis K R bs) (map (mapply K R) pts) None) []) 0.

Lemma phi_rot i m a : (i < length bs)%nat -> (m < nseg (s_ i))%nat -> (a < ncd (s_l (s_ i)))%nat ->
  phi (g_ i m a) = fsum (mk (ncd (s_l (s_ i))) (fun a' => wrot K R (s_ i) m a a' * phi' (g_ i m a'))).
Proof.
  intros Hi Hm Ha. symmetry.
  exact (evaluate_basis_rotation_law K Kf Hapx Hdf R HO bs OK pts Hn i m a p Hi Hm Ha Hp).
Qed.

(* one index: sum_I g_I phi_I = sum_I' (sum_a g_(i,m,a) W[a,a']) phi'_I' *)
Lemma transfer (g : nat -> nat -> nat -> F) :
  bsum (fun i m a => g i m a * phi (g_ i m a))
  = bsum (fun i m a' => fsum (mk (ncd (s_l (s_ i))) (fun a => g i m a * wrot K R (s_ i) m a a')) * phi' (g_ i m a')).
Proof.
  unfold bsum. apply fsum_mk_ext; intros i Hi. apply fsum_mk_ext; intros m Hm.
  transitivity (fsum (mk (ncd (s_l (s_ i))) (fun a => fsum (mk (ncd (s_l (s_ i))) (fun a' =>
                  g i m a * wrot K R (s_ i) m a a' * phi' (g_ i m a')))))).
  { apply fsum_mk_ext; intros a Ha. rewrite (phi_rot i m a Hi Hm Ha), (fsum_mk_scale_l K Kf).
    apply fsum_mk_ext; intros a' _. ring. }
  rewrite (fsum_mk_swap K Kf). apply fsum_mk_ext; intros a' _.
  now rewrite (fsum_mk_scale_r K Kf).
Qed.

(* the density matrix of the rotated basis: P' = W^T P W, block-wise *)
Definition rot_density (P : nat -> nat -> F) (i m a' j m' b' : nat) : F :=
  fsum (mk (ncd (s_l (s_ i))) (fun a => fsum (mk (ncd (s_l (s_ j))) (fun b =>
    wrot K R (s_ i) m a a' * P (g_ i m a) (g_ j m' b) * wrot K R (s_ j) m' b b')))).

Theorem density_rotation_invariant_at (P : nat -> nat -> F) :
  bsum (fun i m a' => bsum (fun j m' b' =>
    rot_density P i m a' j m' b' * phi' (g_ i m a') * phi' (g_ j m' b')))
  = bsum (fun i m a => bsum (fun j m' b => P (g_ i m a) (g_ j m' b) * phi (g_ i m a) * phi (g_ j m' b))).
Proof.
  symmetry.
  transitivity (bsum (fun i m a => bsum (fun j m' b' =>
     fsum (mk (ncd (s_l (s_ j))) (fun b => P (g_ i m a) (g_ j m' b) * wrot K R (s_ j) m' b b')) * phi' (g_ j m' b'))
     * phi (g_ i m a))).
  { apply bsum_ext; intros i m a _ _ _. rewrite <- (transfer (fun j m' b => P (g_ i m a) (g_ j m' b))).
    transitivity (phi (g_ i m a) * bsum (fun j m' b => P (g_ i m a) (g_ j m' b) * phi (g_ j m' b))); [|ring].
    rewrite bsum_scale_l. apply bsum_ext; intros j m' b _ _ _. ring. }
  rewrite (transfer (fun i m a => bsum (fun j m' b' =>
     fsum (mk (ncd (s_l (s_ j))) (fun b => P (g_ i m a) (g_ j m' b) * wrot K R (s_ j) m' b b')) * phi' (g_ j m' b')))).
  apply bsum_ext; intros i m a' _ _ _.
  rewrite (fsum_mk_scale_r K Kf).
  transitivity (fsum (mk (ncd (s_l (s_ i))) (fun a => bsum (fun j m' b' =>
     (wrot K R (s_ i) m a a' * phi' (g_ i m a'))
     * (fsum (mk (ncd (s_l (s_ j))) (fun b => P (g_ i m a) (g_ j m' b) * wrot K R (s_ j) m' b b')) * phi' (g_ j m' b')))))).
  { apply fsum_mk_ext; intros a _. rewrite <- bsum_scale_l. ring. }
  rewrite bsum_swap_fsum. apply bsum_ext; intros j m' b' _ _ _.
  unfold rot_density.
  transitivity (fsum (mk (ncd (s_l (s_ i))) (fun a => fsum (mk (ncd (s_l (s_ j))) (fun b =>
      wrot K R (s_ i) m a a' * P (g_ i m a) (g_ j m' b) * wrot K R (s_ j) m' b b'))))
    * (phi' (g_ i m a') * phi' (g_ j m' b'))); [|ring].
  rewrite (fsum_mk_scale_r K Kf). apply fsum_mk_ext; intros a _.
  transitivity ((wrot K R (s_ i) m a a' * (phi' (g_ i m a') * phi' (g_ j m' b')))
                * fsum (mk (ncd (s_l (s_ j))) (fun b => P (g_ i m a) (g_ j m' b) * wrot K R (s_ j) m' b b')));
    [ring|].
  rewrite (fsum_mk_scale_l K Kf), (fsum_mk_scale_r K Kf). apply fsum_mk_ext; intros b _. ring.
Qed.
End Point.

(* density_rotation_invariant: at every point r_p, with P' = W^T P W,
     sum_{I', J'} P'_{I'J'} phi'_{I'}(R r_p) phi'_{J'}(R r_p) = sum_{I, J} P_{IJ} phi_I(r_p) phi_J(r_p),
   phi, phi' the rows of evaluate_basis_model of the basis at the points / of the rotated basis at the rotated points *)
Theorem density_rotation_invariant (P : nat -> nat -> F) p : (p < length pts)%nat ->
  let E := evaluate_basis_model K bs pts None in
  let E' := evaluate_basis_model K (rot_basis K R bs) (map (mapply K R) pts) None in
  bsum (fun i m a' => bsum (fun j m' b' =>
    rot_density P i m a' j m' b' * nth p (nth (g_ i m a') E' []) 0 * nth p (nth (g_ j m' b') E' []) 0))
  = bsum (fun i m a => bsum (fun j m' b =>
    P (g_ i m a) (g_ j m' b) * nth p (nth (g_ i m a) E []) 0 * nth p (nth (g_ j m' b) E []) 0)).
Proof. intros Hp. exact (density_rotation_invariant_at p Hp P). Qed.
End Density.

(* Examples over Qc: an s + p (2 primitives, 2 segments) + d basis, the 3-4-5 rotation and an improper rotation.
   The transcendental closures are stand-ins (sqrt = exp = 1), which satisfy every hypothesis. *)
From Coq Require Import ZArith QArith Qcanon.
Section Examples.
Let KQ : Fops Qc := exKQ.
Let KQf : is_field KQ := QcK_field _ _ _ _ _ _.
Let q (n : Z) (d : positive) : Qc := qc_of n d.
Definition exS : shell Qc :=
  mkShell Qc 0 (q 1 1) (q 0 1) (q (-1) 2) [q 5 4; q 1 3] [[q 1 2]; [q 2 3]] false [] [].
Definition exbasis : list (shell Qc) := [exS; exP; exD].
Definition expts : list (Qc * Qc * Qc) := [(q 1 3, q 1 2, q (-1) 4); (q (-2) 1, q 0 1, q 1 5)].

Example rot_basis_ok_ex : rot_basis_ok KQ exbasis.
Proof.
  split.
  - intros s [<-|[<-|[<-|[]]]]; repeat split; cbn; lia.
  - intros sa sb Ha Hb a b Hia Hib.
    destruct Ha as [<-|[<-|[<-|[]]]]; destruct Hb as [<-|[<-|[<-|[]]]];
      cbn [exS exP exD s_exps In] in Hia, Hib;
      repeat match goal with
             | H : _ \/ _ |- _ => destruct H as [<-|H]
             | H : False |- _ => destruct H
             end;
      intro H; apply (f_equal this) in H; vm_compute in H; discriminate H.
Qed.

Example ncont_nonzero_ex : ncont_nonzero KQ exbasis.
Proof.
  intros k m c Hk Hm Hc.
  destruct k as [|[|[|k]]]; try (exfalso; cbn in Hk; lia); vm_compute in Hm, Hc;
    destruct m as [|[|m]]; try (exfalso; lia);
    destruct c as [|[|[|[|[|[|c]]]]]]; try (exfalso; lia);
    intro H; apply (f_equal this) in H; vm_compute in H; discriminate H.
Qed.

(* the assembled law on the list-level model in boolean form, every pair of functions of the basis, both rotations *)
Definition asm_law_all (Mx : list (shell Qc) -> list (list Qc)) : bool :=
  forallb (fun R =>
    let S := Mx exbasis in let S' := Mx (rot_basis KQ R exbasis) in
    let W := mk 3 (fun i => let si := sh_at KQ exbasis i in
               mk (nseg si) (fun m => mk (ncd (s_l si)) (fun a => mk (ncd (s_l si)) (fun a' => wrot KQ R si m a a')))) in
    let w i m a a' := nth a' (nth a (nth m (nth i W []) []) []) (f0 KQ) in
    forallb (fun i => forallb (fun j =>
      let si := sh_at KQ exbasis i in let sj := sh_at KQ exbasis j in
      forallb (fun m => forallb (fun a => forallb (fun m' => forallb (fun b =>
        Qeq_bool
          (FNum.fsum KQ (mk (ncd (s_l si)) (fun a' => FNum.fsum KQ (mk (ncd (s_l sj)) (fun b' =>
             fmul KQ (fmul KQ (w i m a a') (w j m' b b'))
               (nth (gidx KQ exbasis j m' b') (nth (gidx KQ exbasis i m a') S' []) (f0 KQ)))))))
          (nth (gidx KQ exbasis j m' b) (nth (gidx KQ exbasis i m a) S []) (f0 KQ)))
        (seq 0 (ncd (s_l sj)))) (seq 0 (nseg sj))) (seq 0 (ncd (s_l si)))) (seq 0 (nseg si)))
      (seq 0 3)) (seq 0 3)) [R345; Rimp].
(* [asm_law_all] tabulates [wrot] and checks the two-index law at every pair of functions of [exbasis] *)
Lemma asm_law_all_of_law (Mx : list (shell Qc) -> list (list Qc)) :
  (forall R, orthogonal KQ R -> forall i j m a m' b, (i < 3)%nat -> (j < 3)%nat ->
     let si := sh_at KQ exbasis i in let sj := sh_at KQ exbasis j in
     (m < nseg si)%nat -> (a < ncd (s_l si))%nat -> (m' < nseg sj)%nat -> (b < ncd (s_l sj))%nat ->
     FNum.fsum KQ (mk (ncd (s_l si)) (fun a' => FNum.fsum KQ (mk (ncd (s_l sj)) (fun b' =>
       fmul KQ (fmul KQ (wrot KQ R si m a a') (wrot KQ R sj m' b b'))
         (nth (gidx KQ exbasis j m' b') (nth (gidx KQ exbasis i m a') (Mx (rot_basis KQ R exbasis)) []) (f0 KQ))))))
     = nth (gidx KQ exbasis j m' b) (nth (gidx KQ exbasis i m a) (Mx exbasis) []) (f0 KQ)) ->
  asm_law_all Mx = true.
Proof.
  intros H. unfold asm_law_all. apply forallb_forall. intros R HR. cbv zeta.
  apply forallb_seq. intros i Hi. apply forallb_seq. intros j Hj.
  apply forallb_seq. intros m Hm. apply forallb_seq. intros a Ha.
  apply forallb_seq. intros m' Hm'. apply forallb_seq. intros b Hb. apply Qeq_bool_of_eq.
  rewrite <- (H R (orthogonal_R345_Rimp _ _ _ _ _ _ R HR) i j m a m' b) by assumption.
  apply (fsum_mk_ext KQ). intros a' Ha'. apply (fsum_mk_ext KQ). intros b' Hb'.
  repeat (rewrite nth_mk by lia; cbv beta). reflexivity.
Qed.
Example overlap_integral_law_computed : asm_law_all (fun b => overlap_integral KQ b None) = true.
Proof.
  destruct KQ_hyps as (A & B & C & D). apply asm_law_all_of_law. intros R HO i j m a m' b Hi Hj si sj.
  apply (overlap_integral_rotation_law KQ KQf B C D R HO exbasis rot_basis_ok_ex A ncont_nonzero_ex); assumption.
Qed.
Example kinetic_integral_law_computed : asm_law_all (fun b => kinetic_integral KQ b None) = true.
Proof.
  destruct KQ_hyps as (A & B & C & D). apply asm_law_all_of_law. intros R HO i j m a m' b Hi Hj si sj.
  apply (kinetic_integral_rotation_law KQ KQf B C D R HO exbasis rot_basis_ok_ex A ncont_nonzero_ex); assumption.
Qed.

Definition eval_law_all_asm : bool :=
  forallb (fun R =>
    let E := evaluate_basis_model KQ exbasis expts None in
    let E' := evaluate_basis_model KQ (rot_basis KQ R exbasis) (map (mapply KQ R) expts) None in
    forallb (fun i => let si := sh_at KQ exbasis i in
      forallb (fun m => forallb (fun a => forallb (fun p =>
        Qeq_bool
          (FNum.fsum KQ (mk (ncd (s_l si)) (fun a' =>
             fmul KQ (wrot KQ R si m a a') (nth p (nth (gidx KQ exbasis i m a') E' []) (f0 KQ)))))
          (nth p (nth (gidx KQ exbasis i m a) E []) (f0 KQ)))
        (seq 0 2)) (seq 0 (ncd (s_l si)))) (seq 0 (nseg si))) (seq 0 3)) [R345; Rimp].
Example evaluate_basis_law_computed : eval_law_all_asm = true.
Proof.
  destruct KQ_hyps as (A & B & C & D). apply forallb_forall. intros R HR. cbv zeta.
  apply forallb_seq. intros i Hi. apply forallb_seq. intros m Hm. apply forallb_seq. intros a Ha.
  apply forallb_seq. intros p Hp. apply Qeq_bool_of_eq.
  apply (evaluate_basis_rotation_law KQ KQf B D R (orthogonal_R345_Rimp _ _ _ _ _ _ R HR) exbasis rot_basis_ok_ex
           expts ncont_nonzero_ex i m a p); assumption.
Qed.

(* not vacuous: a d-d entry of the overlap matrix does change under the rotation *)
Example overlap_integral_not_invariant :
  Qeq_bool (nth (gidx KQ exbasis 2 0 1) (nth (gidx KQ exbasis 1 0 0) (overlap_integral KQ exbasis None) []) (f0 KQ))
           (nth (gidx KQ exbasis 2 0 1) (nth (gidx KQ exbasis 1 0 0)
                 (overlap_integral KQ (rot_basis KQ R345 exbasis) None) []) (f0 KQ)) = false.
Proof. vm_compute. reflexivity. Qed.
End Examples.

Lemma asm_rotation_hypotheses_satisfiable :
  exists (F : Type) (K : Fops F) (R1 R2 : @mat3 F) (bs : list (shell F)),
    is_field K /\ (forall x y, fexp K (fadd K x y) = fmul K (fexp K x) (fexp K y)) /\ (forall x, fapx K x = x)
    /\ fadd K (f1 K) (f1 K) <> f0 K /\ (forall c, dfnorm K c <> f0 K)
    /\ orthogonal K R1 /\ orthogonal K R2 /\ rot_basis_ok K bs /\ ncont_nonzero K bs /\ length bs = 3%nat.
Proof.
  exists Qc, exKQ, R345, Rimp, exbasis.
  split; [apply QcK_field|]. destruct KQ_hyps as (A & B & C & D).
  split; [exact A|]. split; [exact B|]. split; [exact C|]. split; [exact D|].
  split; [apply orthogonal_R345|]. split; [apply orthogonal_Rimp|].
  split; [exact rot_basis_ok_ex|]. split; [exact ncont_nonzero_ex|reflexivity].
Qed.
