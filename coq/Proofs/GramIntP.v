(* Bridge B3 of DESIGN.md 2.6 turned into THEOREMS for the overlap and the
   kinetic-energy matrices of the executable model over the reals (property C17).

   Setting.  [RK] is the instance of the number interface at the real numbers (Proofs/ScreeningP.v);
   [gint3 F l] (Gauss/Bridge3D.v) says that the ITERATED improper Riemann integral of F over R^3 exists and
   is l; [cfun s m c] is the contracted, primitive-normalised Cartesian basis function of segment m,
   component c of the shell s.  A basis function is named by a triple [bidx] = (shell, segment, index of the
   component in [comps_of]); it is [bvalid] when the shell is well formed ([wf_shell]), its exponents are
   positive and the two indices are in range.  Shells may sit at ANY centres, have any angular momentum,
   any number of primitives and segments.
       Sov a b  = entry [seg a][comp a][seg b][comp b] of  overlap_block RK (shell a) (shell b)
       Tkin a b = the same entry of                        kinetic_block RK (shell a) (shell b)
   (the numbers the model computes, before the constant contraction norms are applied; a diagonal
   rescaling n_a n_b G_ab keeps every statement below, [psd_on_scale]).

   Proved here, with no hypothesis left about positivity of a bilinear form: sum_a sum_b c_a c_b Sov a b is the
   iterated integral of (sum_a c_a chi_a)^2 and sum_a sum_b c_a c_b Tkin a b that of
   1/2 |grad (sum_a c_a chi_a)|^2 (integration by parts on each axis, from DiffOpP.ibp_iter and
   Bridge3D.deriv_1d_integral); hence both matrices are symmetric and positive semi-definite on valid
   functions, every symmetric PSD matrix is the Gram matrix of an [ipspace], and the overlap and kinetic
   hypotheses of GramP.all_bounds_from_B3 are discharged (all_bounds_S_T_proved).

   What remains trusted for these two matrices: that the iterated improper Riemann integral [gint3] is THE
   integral over R^3 (Fubini-Tonelli for continuous absolutely integrable functions) — nothing about
   positivity.  Still resting on B3 (with B2): the point-charge form and the Coulomb form.
   Assumptions: the classical real numbers of the standard library only. *)
From Coq Require Import Reals Lra Lia List.
From Coquelicot Require Import Coquelicot.
From GB Require Import Base.Field Base.FNum Base.Tables Gauss.Moment1D Gauss.Bridge Gauss.DerivBridge
  Gauss.BridgeR Gauss.GaussInt Model.Eval Model.Shell Model.MomentInt Model.Overlap Model.DiffOp Proofs.DiffOpP
  Proofs.CoreSumP Proofs.CoreBlockP Proofs.CoreDiffP Proofs.ScreeningP Proofs.CoreNormP Gauss.Bridge3D
  Proofs.GramP.
Import ListNotations.
Open Scope R_scope.

Lemma gint_nonneg (g : R -> R) (l : R) : (forall x, 0 <= g x) -> gint g l -> 0 <= l.
Proof.
  intros Hg H. destruct (Rle_lt_dec 0 l) as [Hl|Hl]; [exact Hl|exfalso].
  assert (He : 0 < - l / 2) by lra.
  destruct (proj1 (gint_spelled_out g l) H (mkposreal _ He)) as [M HM]. cbn [pos] in HM.
  pose proof (Rle_abs M) as HaM. pose proof (Rabs_pos M) as HaM0.
  destruct (HM (- (Rabs M + 1)) (Rabs M + 1)) as [y [Hy Hd]]; [lra | lra |].
  assert (H0 : 0 <= y).
  { apply (is_RInt_ge_0 g (- (Rabs M + 1)) (Rabs M + 1) y); [lra | exact Hy | intros x _; apply Hg]. }
  apply Rabs_def2 in Hd. lra.
Qed.

Lemma gint_le (f g : R -> R) (lf lg : R) : (forall x, f x <= g x) -> gint f lf -> gint g lg -> lf <= lg.
Proof.
  intros H Hf Hg.
  pose proof (gint_nonneg (fun x => g x - f x) (lg - lf)
                (fun x => ltac:(pose proof (H x); lra)) (gint_minus _ _ _ _ Hg Hf)). lra.
Qed.

Theorem gint3_nonneg (F : R -> R -> R -> R) (l : R) :
  (forall x y z, 0 <= F x y z) -> gint3 F l -> 0 <= l.
Proof.
  intros HF [Iz [Iyz [H1 [H2 H3]]]].
  assert (P1 : forall x y, 0 <= Iz x y)
    by (intros x y; exact (gint_nonneg _ _ (fun z => HF x y z) (H1 x y))).
  assert (P2 : forall x, 0 <= Iyz x)
    by (intro x; exact (gint_nonneg _ _ (fun y => P1 x y) (H2 x))).
  exact (gint_nonneg _ _ P2 H3).
Qed.

Lemma rsum_fsum (l : list R) : rsum l = fsumR l.
Proof. induction l as [|a l IH]; [reflexivity|]. cbn [rsum]. now rewrite IH. Qed.

Lemma gint3_rsum {A} (l : list A) (G : A -> R -> R -> R -> R) (v : A -> R) :
  (forall a, In a l -> gint3 (G a) (v a)) ->
  gint3 (fun x y z => rsum (map (fun a => G a x y z) l)) (rsum (map v l)).
Proof.
  intro H.
  exact (gint3_ext _ _ _ _ (fun x y z => eq_sym (rsum_fsum _)) (eq_sym (rsum_fsum _)) (gint3_fsum_map l G v H)).
Qed.

Definition lc {I} (f : I -> R) (l : list (R * I)) : R := rsum (map (fun p => fst p * f (snd p)) l).

Lemma rsum_map_scal_r {A} (c : R) (f : A -> R) l :
  rsum (map (fun x => f x * c) l) = rsum (map f l) * c.
Proof.
  rewrite (rsum_map_ext (fun x => f x * c) (fun x => c * f x)) by (intro; ring).
  rewrite rsum_map_scal. ring.
Qed.

Lemma qf_rank1 {I} (f : I -> R) (l : list (R * I)) : qf (fun a b => f a * f b) l = lc f l * lc f l.
Proof.
  unfold qf, lc. rewrite <- rsum_map_scal_r. apply rsum_map_ext. intro p.
  rewrite <- rsum_map_scal. apply rsum_map_ext. intro q. ring.
Qed.

Lemma qf_map {I J} (h : I -> J) (G : J -> J -> R) (l : list (R * I)) :
  qf (fun a b => G (h a) (h b)) l = qf G (map (fun p => (fst p, h (snd p))) l).
Proof.
  unfold qf. rewrite map_map. apply rsum_map_ext. intro p. rewrite map_map. reflexivity.
Qed.

(* positivity / symmetry restricted to a set of indices *)
Definition psd_on {I} (ok : I -> Prop) (G : I -> I -> R) : Prop :=
  forall l : list (R * I), (forall p, In p l -> ok (snd p)) -> 0 <= qf G l.
Definition symm_on {I} (ok : I -> Prop) (G : I -> I -> R) : Prop :=
  forall a b, ok a -> ok b -> G a b = G b a.

(* diagonal rescaling (contraction norms, any other constant factors) keeps positivity *)
Lemma qf_scale {I} (n : I -> R) (G : I -> I -> R) (l : list (R * I)) :
  qf (fun a b => n a * n b * G a b) l = qf G (map (fun p => (fst p * n (snd p), snd p)) l).
Proof.
  unfold qf. rewrite map_map. apply rsum_map_ext. intro p. rewrite map_map.
  apply rsum_map_ext. intro q. cbn [fst snd]. ring.
Qed.

Lemma psd_on_scale {I} (ok : I -> Prop) (n : I -> R) (G : I -> I -> R) :
  psd_on ok G -> psd_on ok (fun a b => n a * n b * G a b).
Proof.
  intros H l Hl. rewrite qf_scale. apply H. intros p Hp.
  apply in_map_iff in Hp. destruct Hp as [q [<- Hq]]. cbn [snd]. now apply Hl.
Qed.

(* the subtype of valid indices carries a genuine [psd] / [symm] matrix *)
Lemma psd_on_sig {I} (ok : I -> Prop) (G : I -> I -> R) :
  psd_on ok G -> psd (fun a b : {a : I | ok a} => G (proj1_sig a) (proj1_sig b)).
Proof.
  intros H l. rewrite (qf_map (fun a : {a : I | ok a} => proj1_sig a) G). apply H.
  intros p Hp. apply in_map_iff in Hp. destruct Hp as [q [<- Hq]]. cbn [snd]. exact (proj2_sig (snd q)).
Qed.

Lemma symm_on_sig {I} (ok : I -> Prop) (G : I -> I -> R) :
  symm_on ok G -> symm (fun a b : {a : I | ok a} => G (proj1_sig a) (proj1_sig b)).
Proof. intros H u v. exact (H _ _ (proj2_sig u) (proj2_sig v)). Qed.

Lemma psd_on_schwarz {I} (ok : I -> Prop) (G : I -> I -> R) a b :
  symm_on ok G -> psd_on ok G -> ok a -> ok b -> G a b * G a b <= G a a * G b b.
Proof.
  intros Hs Hp Ha Hb.
  exact (psd_schwarz _ (exist _ a Ha) (exist _ b Hb) (symm_on_sig ok G Hs) (psd_on_sig ok G Hp)).
Qed.

Lemma psd_on_unit_bound {I} (ok : I -> Prop) (G : I -> I -> R) a b :
  symm_on ok G -> psd_on ok G -> ok a -> ok b -> G a a = 1 -> G b b = 1 -> Rabs (G a b) <= 1.
Proof.
  intros Hs Hp Ha Hb Da Db.
  exact (psd_unit_diag_bound _ (exist _ a Ha) (exist _ b Hb) (symm_on_sig ok G Hs) (psd_on_sig ok G Hp) Da Db).
Qed.

(* a family of integrals B a b -> G a b gives the integral of every quadratic form *)
Section QFInt.
Context {I : Type}.
Variables (B : I -> I -> R -> R -> R -> R) (G : I -> I -> R) (ok : I -> Prop).
Hypothesis HB : forall a b, ok a -> ok b -> gint3 (B a b) (G a b).

Lemma gint3_qf (l : list (R * I)) : (forall p, In p l -> ok (snd p)) ->
  gint3 (fun x y z => qf (fun a b => B a b x y z) l) (qf G l).
Proof.
  intro Hl. unfold qf. apply gint3_rsum. intros p Hp. apply gint3_rsum. intros q Hq.
  apply gint3_scal. apply HB; now apply Hl.
Qed.

Lemma gint3_symm_on :
  (forall a b x y z, B a b x y z = B b a x y z) -> symm_on ok G.
Proof.
  intros Hsym a b Ha Hb. apply (gint3_unique (B a b)); [now apply HB|].
  apply (gint3_ext (B b a) _ (G b a) _); [intros; symmetry; apply Hsym | reflexivity | now apply HB].
Qed.

Lemma gint3_psd_on :
  (forall l x y z, 0 <= qf (fun a b => B a b x y z) l) -> psd_on ok G.
Proof.
  intros Hpos l Hl. exact (gint3_nonneg _ _ (fun x y z => Hpos l x y z) (gint3_qf l Hl)).
Qed.
End QFInt.

Section GramSpace.
Context {J : Type}.
Variable G : J -> J -> R.
Hypothesis Gs : symm G.
Hypothesis Gp : psd G.

Definition bil (u v : list (R * J)) : R :=
  rsum (map (fun p => rsum (map (fun q => fst p * fst q * G (snd p) (snd q)) v)) u).

Lemma rsum_swap {A B} (h : A -> B -> R) (u : list A) (v : list B) :
  rsum (map (fun p => rsum (map (fun q => h p q) v)) u)
  = rsum (map (fun q => rsum (map (fun p => h p q) u)) v).
Proof.
  induction u as [|a u IH]; cbn [map rsum].
  - induction v as [|b v IHv]; cbn [map rsum]; [reflexivity|]. rewrite <- IHv. ring.
  - rewrite IH, <- rsum_map_add. reflexivity.
Qed.

Lemma bil_sym u v : bil u v = bil v u.
Proof.
  unfold bil. rewrite rsum_swap. apply rsum_map_ext. intro q. apply rsum_map_ext. intro p.
  rewrite (Gs (snd p) (snd q)). ring.
Qed.

Lemma rsum_app (l1 l2 : list R) : rsum (l1 ++ l2) = rsum l1 + rsum l2.
Proof. induction l1 as [|a l1 IH]; cbn [app rsum]; [ring|]. rewrite IH. ring. Qed.

Lemma bil_add_l u v w : bil (u ++ v) w = bil u w + bil v w.
Proof. unfold bil. now rewrite map_app, rsum_app. Qed.

Lemma bil_scal_l c u w : bil (map (fun p => (c * fst p, snd p)) u) w = c * bil u w.
Proof.
  unfold bil. rewrite map_map, <- rsum_map_scal. apply rsum_map_ext. intro p. cbn [fst snd].
  rewrite <- rsum_map_scal. apply rsum_map_ext. intro q. ring.
Qed.

Definition gram_space : ipspace :=
  mkIP (list (R * J)) (@app _) (fun c u => map (fun p => (c * fst p, snd p)) u) [] bil
       bil_sym bil_add_l bil_scal_l (fun _ => eq_refl) (fun v => Gp v).

Lemma gram_space_entry a b : G a b = ip gram_space [(1, a)] [(1, b)].
Proof. cbn [ip gram_space]. unfold bil. cbn [map rsum fst snd]. ring. Qed.
End GramSpace.

Theorem psd_symm_is_gram {J} (G : J -> J -> R) : symm G -> psd G ->
  exists (S : ipspace) (phi : J -> vec S), forall a b, G a b = ip S (phi a) (phi b).
Proof.
  intros Gs Gp. exists (gram_space G Gs Gp), (fun a => [(1, a)]). apply gram_space_entry.
Qed.

(* a basis function: (shell, segment, index of the Cartesian component in [comps_of]) *)
Definition bidx : Type := (shell R * nat * nat)%type.
Definition bsh (a : bidx) : shell R := fst (fst a).
Definition bseg (a : bidx) : nat := snd (fst a).
Definition bci (a : bidx) : nat := snd a.
Definition bcomp (a : bidx) : Shell.comp := nth (bci a) (comps_of (bsh a)) (0, 0, 0)%nat.

Definition bvalid (a : bidx) : Prop :=
  wf_shell (bsh a) /\ pos_exps3 (bsh a) /\ (bseg a < nseg (bsh a))%nat /\ (bci a < length (comps_of (bsh a)))%nat.

Definition chi (a : bidx) : R -> R -> R -> R := cfun (bsh a) (bseg a) (bcomp a).

Definition Sov (a b : bidx) : R :=
  Overlap.nth4 RK (bseg a) (bci a) (bseg b) (bci b) (overlap_block RK (bsh a) (bsh b)).
Definition Tkin (a b : bidx) : R :=
  Overlap.nth4 RK (bseg a) (bci a) (bseg b) (bci b) (kinetic_block RK (bsh a) (bsh b)).

Definition lcf (l : list (R * bidx)) (x y z : R) : R := lc (fun a => chi a x y z) l.

Lemma overlap_pair_is_integral (a b : bidx) : bvalid a -> bvalid b ->
  gint3 (fun x y z => chi a x y z * chi b x y z) (Sov a b).
Proof.
  intros [Wa [Pa [Hma Hia]]] [Wb [Pb [Hmb Hib]]].
  exact (overlap_block_is_integral (bsh a) (bsh b) (bseg a) (bci a) (bseg b) (bci b) Wa Wb Pa Pb Hma Hia Hmb Hib).
Qed.

Theorem overlap_quadratic_form_is_integral (l : list (R * bidx)) :
  (forall p, In p l -> bvalid (snd p)) ->
  gint3 (fun x y z => lcf l x y z * lcf l x y z) (qf Sov l).
Proof.
  intro Hl.
  refine (gint3_ext _ _ _ _ _ eq_refl
            (gint3_qf _ _ _ overlap_pair_is_integral l Hl)).
  intros x y z. apply (qf_rank1 (fun a => chi a x y z)).
Qed.

Theorem overlap_model_psd : psd_on bvalid Sov.
Proof.
  intros l Hl. apply (gint3_nonneg _ _ (fun x y z => Rle_0_sqr (lcf l x y z))
                        (overlap_quadratic_form_is_integral l Hl)).
Qed.

Theorem overlap_model_symm : symm_on bvalid Sov.
Proof.
  apply (gint3_symm_on _ _ _ overlap_pair_is_integral).
  intros. ring.
Qed.

Theorem overlap_model_schwarz (a b : bidx) : bvalid a -> bvalid b ->
  Sov a b * Sov a b <= Sov a a * Sov b b.
Proof. apply psd_on_schwarz; [exact overlap_model_symm | exact overlap_model_psd]. Qed.

(* the subtype of valid basis functions; the overlap matrix on it IS a Gram matrix *)
Definition vidx : Type := {a : bidx | bvalid a}.
Definition SovV (a b : vidx) : R := Sov (proj1_sig a) (proj1_sig b).
Definition TkinV (a b : vidx) : R := Tkin (proj1_sig a) (proj1_sig b).

Lemma SovV_symm : symm SovV.
Proof. exact (symm_on_sig bvalid Sov overlap_model_symm). Qed.
Lemma SovV_psd : psd SovV.
Proof. exact (psd_on_sig bvalid Sov overlap_model_psd). Qed.

Lemma Derive_n_1 (f : R -> R) x : Derive_n f 1 x = Derive f x.
Proof. reflexivity. Qed.
Lemma Derive_n_0 (f : R -> R) x : Derive_n f 0 x = f x.
Proof. reflexivity. Qed.

(* d/dx [(x-A)^i e^{-al (x-A)^2}] = i (x-A)^(i-1) e^.. - 2 al (x-A)^(i+1) e^.. *)
Lemma cg1_Derive1 al A i x :
  Derive (cg1 al A i) x = INR i * cg1 al A (i - 1) x - 2 * al * cg1 al A (S i) x.
Proof.
  change (Derive (cg1 al A i) x) with (Derive_n (cg1 al A i) 1 x).
  rewrite cg1_Derive_n, uR_S. destruct i as [|i']; rewrite !uR_0; unfold cg1.
  - cbn [INR]. ring.
  - rewrite DerivBridge.ofnat_INR. replace (S i' - 1)%nat with i' by lia. ring.
Qed.

(* int f' g' dx = - int f g'' dx  for f = (x-A)^i e^{-al (x-A)^2}, g = (x-B)^j e^{-be (x-B)^2}:
   the left side by linearity from  int (x-A)^k e^.. g' dx  (Bridge3D.deriv_1d_integral, k = 1), the equality
   of the two VALUES by the algebraic integration-by-parts identity of the moment functional
   (DiffOpP.ibp, ibp_iter: negA^2 S = Bop^2 S) *)
Theorem grad_1d_integral (al be A B : R) (i j : nat) : 0 < al -> 0 < be ->
  gint (fun x => Derive (cg1 al A i) x * Derive (cg1 be B j) x) (- D1 RK A B al be 2 i j).
Proof.
  intros Ha Hb.
  pose proof (deriv_1d_integral al be A B 1 (i - 1) j Ha Hb) as H1.
  pose proof (deriv_1d_integral al be A B 1 (S i) j Ha Hb) as H2.
  refine (gint_ext _ _ _ _ _ _ (gint_minus _ _ _ _ (gint_scal (INR i) _ _ H1) (gint_scal (2 * al) _ _ H2))).
  - intro x. cbv beta. rewrite cg1_Derive1.
    change (Derive_n (cg1 be B j) 1 x) with (Derive (cg1 be B j) x). ring.
  - assert (Hp : psum RK al be <> f0 RK) by (change (al + be <> 0); lra).
    pose proof (ibp_iter RK RK_field A B al be Hp two_neq_0_R 2 i j) as E2. cbn [iterop] in E2.
    unfold D1. cbn [iterop]. rewrite <- E2. unfold negA at 1.
    rewrite !(ibp RK RK_field A B al be Hp two_neq_0_R). rewrite ofnat_R.
    cbn [RK fmul fadd fsub f1]. ring.
Qed.

(* kinetic energy in three dimensions: T_ab = 1/2 int grad chi_a . grad chi_b *)
Definition gdot (F G : R -> R -> R -> R) (x y z : R) : R :=
  pd3 1 0 0 F x y z * pd3 1 0 0 G x y z + pd3 0 1 0 F x y z * pd3 0 1 0 G x y z
  + pd3 0 0 1 F x y z * pd3 0 0 1 G x y z.

Theorem kinetic_prim_grad_integral (sa sb : shell R) (ca cb : Shell.comp) (al be : R) :
  0 < al -> 0 < be ->
  gint3 (fun x y z => 1 / 2 * gdot (gprim sa al ca) (gprim sb be cb) x y z) (kin_prim RK sa sb ca cb al be).
Proof.
  intros Ha Hb.
  pose proof (fun A B i j => grad_1d_integral al be A B i j Ha Hb) as HG.
  pose proof (fun A B i j => Sfun_integral al be A B i j Ha Hb) as HS.
  pose proof (gint3_prod _ _ _ _ _ _ (HG (s_x sa) (s_x sb) (cx ca) (cx cb)) (HS (s_y sa) (s_y sb) (cy ca) (cy cb))
                (HS (s_z sa) (s_z sb) (cz ca) (cz cb))) as X.
  pose proof (gint3_prod _ _ _ _ _ _ (HS (s_x sa) (s_x sb) (cx ca) (cx cb)) (HG (s_y sa) (s_y sb) (cy ca) (cy cb))
                (HS (s_z sa) (s_z sb) (cz ca) (cz cb))) as Y.
  pose proof (gint3_prod _ _ _ _ _ _ (HS (s_x sa) (s_x sb) (cx ca) (cx cb)) (HS (s_y sa) (s_y sb) (cy ca) (cy cb))
                (HG (s_z sa) (s_z sb) (cz ca) (cz cb))) as Z.
  refine (gint3_ext _ _ _ _ _ _ (gint3_scal (1 / 2) _ _ (gint3_plus _ _ _ _ (gint3_plus _ _ _ _ X Y) Z))).
  - intros x y z. cbv beta. unfold gdot, gprim. rewrite !pd3_cprim, !Derive_n_1, !Derive_n_0. ring.
  - unfold kin_prim, S1.
    cbn [RK fmul fadd fdiv fopp f1]. field.
Qed.

Lemma pd3_pair_cfun (sa sb : shell R) (ca cb : Shell.comp) (ma mb ox oy oz : nat) (x y z : R) :
  pd3 ox oy oz (cfun sa ma ca) x y z * pd3 ox oy oz (cfun sb mb cb) x y z
  = fsumR (Tables.mk (length (s_exps sa)) (fun ka =>
      fsumR (Tables.mk (length (s_exps sb)) (fun kb =>
        cw sa ma ca ka * cw sb mb cb kb
        * (pd3 ox oy oz (gprim sa (nth ka (s_exps sa) 0) ca) x y z
           * pd3 ox oy oz (gprim sb (nth kb (s_exps sb) 0) cb) x y z))))).
Proof.
  rewrite !pd3_cfun. unfold Tables.mk. rewrite fsumR_mul.
  apply fsumR_ext_in. intros ka _. apply fsumR_ext_in. intros kb _. ring.
Qed.

Lemma gdot_cfun (sa sb : shell R) (ca cb : Shell.comp) (ma mb : nat) (w : R) (x y z : R) :
  w * gdot (cfun sa ma ca) (cfun sb mb cb) x y z
  = fsumR (Tables.mk (length (s_exps sa)) (fun ka =>
      fsumR (Tables.mk (length (s_exps sb)) (fun kb =>
        cw sa ma ca ka * cw sb mb cb kb
        * (w * gdot (gprim sa (nth ka (s_exps sa) 0) ca) (gprim sb (nth kb (s_exps sb) 0) cb) x y z))))).
Proof.
  unfold gdot. rewrite !pd3_pair_cfun. unfold Tables.mk. rewrite <- !fsumR_add, <- fsumR_scale.
  apply fsumR_ext_in. intros ka _. rewrite <- !fsumR_add, <- fsumR_scale. apply fsumR_ext_in. intros kb _. ring.
Qed.

Theorem kinetic_pair_is_grad_integral (a b : bidx) : bvalid a -> bvalid b ->
  gint3 (fun x y z => 1 / 2 * gdot (chi a) (chi b) x y z) (Tkin a b).
Proof.
  intros [Wa [Pa [Hma Hia]]] [Wb [Pb [Hmb Hib]]]. unfold Tkin.
  rewrite (kinetic_block_correct RK RK_field fapx_id_R two_neq_0_R (bsh a) (bsh b) (bseg a) (bci a) (bseg b) (bci b)
             Wa Wb (exps_ok_pos_R _ _ Pa Pb) Hma Hia Hmb Hib).
  fold (bcomp a) (bcomp b).
  refine (gint3_ext _ _ _ _ _ eq_refl
            (contracted_integral (bsh a) (bsh b) (bcomp a) (bcomp b) (bseg a) (bseg b)
               (fun al be x y z => 1 / 2 * gdot (gprim (bsh a) al (bcomp a)) (gprim (bsh b) be (bcomp b)) x y z) _ _)).
  - intros x y z. cbv beta. unfold chi. now rewrite gdot_cfun.
  - intros al be Ha Hb. exact (kinetic_prim_grad_integral _ _ _ _ al be (Pa _ Ha) (Pb _ Hb)).
Qed.

(* sum_p c_p (d/dx_i chi_{a_p}): the partial derivatives of the linear combination (see pd3_lcf) *)
Definition lcd (ox oy oz : nat) (l : list (R * bidx)) (x y z : R) : R :=
  lc (fun a => pd3 ox oy oz (chi a) x y z) l.

Lemma qf_gdot (l : list (R * bidx)) (x y z : R) :
  qf (fun a b => 1 / 2 * gdot (chi a) (chi b) x y z) l
  = 1 / 2 * (lcd 1 0 0 l x y z * lcd 1 0 0 l x y z + lcd 0 1 0 l x y z * lcd 0 1 0 l x y z
             + lcd 0 0 1 l x y z * lcd 0 0 1 l x y z).
Proof.
  unfold gdot, lcd. rewrite qf_scal, !qf_add, !qf_rank1. reflexivity.
Qed.

Theorem kinetic_quadratic_form_is_integral (l : list (R * bidx)) :
  (forall p, In p l -> bvalid (snd p)) ->
  gint3 (fun x y z => 1 / 2 * (lcd 1 0 0 l x y z * lcd 1 0 0 l x y z + lcd 0 1 0 l x y z * lcd 0 1 0 l x y z
                               + lcd 0 0 1 l x y z * lcd 0 0 1 l x y z))
        (qf Tkin l).
Proof.
  intro Hl.
  refine (gint3_ext _ _ _ _ _ eq_refl
            (gint3_qf _ _ _ kinetic_pair_is_grad_integral l Hl)).
  intros x y z. apply qf_gdot.
Qed.

Theorem kinetic_model_psd : psd_on bvalid Tkin.
Proof.
  intros l Hl. refine (gint3_nonneg _ _ _ (kinetic_quadratic_form_is_integral l Hl)).
  intros x y z. cbv beta.
  pose proof (Rle_0_sqr (lcd 1 0 0 l x y z)) as Hx. pose proof (Rle_0_sqr (lcd 0 1 0 l x y z)) as Hy.
  pose proof (Rle_0_sqr (lcd 0 0 1 l x y z)) as Hz. unfold Rsqr in *. lra.
Qed.

Theorem kinetic_model_symm : symm_on bvalid Tkin.
Proof.
  apply (gint3_symm_on _ _ _ kinetic_pair_is_grad_integral).
  intros. unfold gdot. ring.
Qed.

Lemma TkinV_symm : symm TkinV.
Proof. exact (symm_on_sig bvalid Tkin kinetic_model_symm). Qed.
Lemma TkinV_psd : psd TkinV.
Proof. exact (psd_on_sig bvalid Tkin kinetic_model_psd). Qed.

(* any family v of valid basis functions of the model (any index type I; repetitions allowed):
   Sm a b = Sov (v a) (v b), Tm a b = Tkin (v a) (v b) are PROVED Gram matrices; what is left as a hypothesis is
   the Gram representation of the point-charge and repulsion arrays (bridge B3 with B2) *)
Theorem all_bounds_S_T_proved (I : Type) (v : I -> vidx) (Vm : I -> I -> R) (G : I -> I -> I -> I -> R) (q : R) :
  0 <= q ->
  (exists (W : ipspace) (phi : I -> vec W), forall a b, Vm a b = - q * ip W (phi a) (phi b)) ->
  (exists (C : ipspace) (rho : I -> I -> vec C), forall a b c d, G a b c d = ip C (rho a b) (rho c d)) ->
  let Sm := fun a b => SovV (v a) (v b) in
  let Tm := fun a b => TkinV (v a) (v b) in
  symm Sm /\ psd Sm /\ (forall a b, Sm a b * Sm a b <= Sm a a * Sm b b) /\
  ((forall a, Sm a a = 1) -> forall a b, Rabs (Sm a b) <= 1) /\
  symm Tm /\ psd Tm /\ (forall a b, Tm a b * Tm a b <= Tm a a * Tm b b) /\
  symm Vm /\ nsd Vm /\
  psd (fun p r : I * I => G (fst p) (snd p) (fst r) (snd r)) /\
  (forall a b c d, G a b c d = G c d a b) /\
  (forall a b, 0 <= G a b a b) /\
  (forall a b c d, G a b c d * G a b c d <= G a b a b * G c d c d).
Proof.
  intros Hq HV HG Sm Tm.
  assert (Ss : symm Sm) by (intros a b; apply SovV_symm).
  assert (Sp : psd Sm) by (intro l; unfold Sm; rewrite (qf_map v SovV); apply SovV_psd).
  assert (Ts : symm Tm) by (intros a b; apply TkinV_symm).
  assert (Tp : psd Tm) by (intro l; unfold Tm; rewrite (qf_map v TkinV); apply TkinV_psd).
  split; [exact Ss|]. split; [exact Sp|].
  split; [intros a b; now apply psd_schwarz|].
  split; [intros Hd a b; apply psd_unit_diag_bound; auto|].
  split; [exact Ts|]. split; [exact Tp|].
  split; [intros a b; now apply psd_schwarz|].
  exact (VG_bounds I Vm G q Hq HV HG).
Qed.

(* every partial derivative of sum_p c_p chi_{a_p} is the combination of the partial derivatives
   (no validity hypothesis: every contracted function is differentiable) *)
Theorem pd3_lcf (l : list (R * bidx)) (ox oy oz : nat) (x y z : R) :
  pd3 ox oy oz (lcf l) x y z = lcd ox oy oz l x y z.
Proof.
  unfold lcd, lc. rewrite rsum_fsum.
  rewrite (pd3_ext ox oy oz (lcf l) (fun x y z => fsumR (map (fun p => fst p * chi (snd p) x y z) l)) x y z
             (fun x y z => rsum_fsum _)).
  apply (pd3_fsum l fst (fun p => chi (snd p))). intros p _. apply smooth_pd3_cfun.
Qed.

(* the hypotheses are satisfiable: an s shell (two primitives) at the origin and a p shell at
   (1, -1, 1/2); the four functions s, p_x, p_y, p_z *)
Definition ex_sh_s : shell R := mkShell R 0 0 0 0 [1; 1 / 2] [[1]; [2]] false [] [].
Definition ex_sh_p : shell R := mkShell R 1 1 (-1) (1 / 2) [2] [[1]] false [] [].
Definition ex_f_s : bidx := (ex_sh_s, 0%nat, 0%nat).
Definition ex_f_p (i : nat) : bidx := (ex_sh_p, 0%nat, i).

Example ex_family_valid : bvalid ex_f_s /\ bvalid (ex_f_p 0) /\ bvalid (ex_f_p 1) /\ bvalid (ex_f_p 2).
Proof.
  assert (Ws : wf_shell ex_sh_s) by (apply wf_shell_default; reflexivity).
  assert (Wp : wf_shell ex_sh_p) by (apply wf_shell_default; reflexivity).
  assert (Ps : pos_exps3 ex_sh_s) by (intros a [<-|[<-|[]]]; lra).
  assert (Pp : pos_exps3 ex_sh_p) by (intros a [<-|[]]; lra).
  assert (L : forall i, (i < 3)%nat -> bvalid (ex_f_p i)).
  { intros i Hi. split; [exact Wp|]. split; [exact Pp|]. split; cbn; lia. }
  split; [|split; [|split]]; try (apply L; lia).
  split; [exact Ws|]. split; [exact Ps|]. split; cbn; lia.
Qed.

Definition ex_coeffs (c0 c1 c2 c3 : R) : list (R * bidx) :=
  [(c0, ex_f_s); (c1, ex_f_p 0); (c2, ex_f_p 1); (c3, ex_f_p 2)].

Lemma ex_coeffs_valid c0 c1 c2 c3 : forall p, In p (ex_coeffs c0 c1 c2 c3) -> bvalid (snd p).
Proof.
  destruct ex_family_valid as [V0 [V1 [V2 V3]]].
  intros p [<-|[<-|[<-|[<-|[]]]]]; assumption.
Qed.

(* the overlap and kinetic matrices of the (s, p) pair of shells on different centres are PSD *)
Example ex_two_shell_psd (c0 c1 c2 c3 : R) :
  0 <= qf Sov (ex_coeffs c0 c1 c2 c3) /\ 0 <= qf Tkin (ex_coeffs c0 c1 c2 c3).
Proof.
  split; [apply overlap_model_psd | apply kinetic_model_psd]; apply ex_coeffs_valid.
Qed.

Example ex_two_shell_schwarz :
  Sov ex_f_s (ex_f_p 2) * Sov ex_f_s (ex_f_p 2) <= Sov ex_f_s ex_f_s * Sov (ex_f_p 2) (ex_f_p 2).
Proof.
  destruct ex_family_valid as [V0 [_ [_ V3]]]. now apply overlap_model_schwarz.
Qed.

(* the hypotheses of all_bounds_S_T_proved are satisfiable: the four functions above, zero charge form
   and zero repulsion array (both trivially Gram matrices: the zero vector) *)
Example ex_all_bounds_hypotheses :
  exists (v : nat -> vidx) (Vm : nat -> nat -> R) (G : nat -> nat -> nat -> nat -> R),
  (exists (W : ipspace) (phi : nat -> vec W), forall a b, Vm a b = - 1 * ip W (phi a) (phi b)) /\
  (exists (C : ipspace) (rho : nat -> nat -> vec C), forall a b c d, G a b c d = ip C (rho a b) (rho c d)).
Proof.
  destruct ex_family_valid as [V0 [V1 [V2 V3]]].
  exists (fun i => match i with 0%nat => exist _ ex_f_s V0 | 1%nat => exist _ (ex_f_p 0) V1
                           | 2%nat => exist _ (ex_f_p 1) V2 | _ => exist _ (ex_f_p 2) V3 end),
         (fun _ _ => 0), (fun _ _ _ _ => 0).
  split.
  - exists R2, (fun _ => (0, 0)). intros. cbn. ring.
  - exists R2, (fun _ _ => (0, 0)). intros. cbn. ring.
Qed.
