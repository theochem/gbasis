(* Proofs/OverlapP.v — the block table of [two_symm_integral] (every upper block evaluated
   once and looked up) is the same as calling the block function directly. *)
From Coq Require Import List Arith Lia Bool.
From GB Require Import Base.Field Base.Tables Model.Shell Model.Assembly Model.Overlap.
Import ListNotations.

Section P.
Context {F : Type} (K : Fops F).
Context {A : Type} (azero : A) (aadd : A -> A -> A) (ascale : F -> A -> A).

Lemma two_symm_blocks_ext_le n (bf bf' : nat -> nat -> list (list A)) :
  (forall i j, i < n -> j < n -> i <= j -> bf i j = bf' i j) ->
  two_symm_blocks azero n bf = two_symm_blocks azero n bf'.
Proof.
  intros H. unfold two_symm_blocks. f_equal. apply mk_ext; intros i Hi. f_equal.
  apply mk_ext; intros j Hj. destruct (Nat.leb_spec i j) as [Hle|Hlt].
  - now apply H.
  - f_equal. apply H; lia.
Qed.

Variable blockf : shell F -> shell F -> list (list (list (list A))).

Lemma two_symm_integral_unfold (basis : list (shell F)) (T : option (list (list F))) :
  two_symm_integral K azero aadd ascale blockf basis T =
  let ps := map (prep K) basis in
  let m := two_symm_blocks azero (length ps)
             (fun i j => pblock K azero aadd ascale blockf (nth i ps (dummy_p K)) (nth j ps (dummy_p K))) in
  match T with None => m | Some t => lincomb2 azero aadd ascale t t m end.
Proof.
  unfold two_symm_integral. cbv zeta.
  set (ps := map (prep K) basis). set (n := length ps).
  rewrite (two_symm_blocks_ext_le n _
             (fun i j => pblock K azero aadd ascale blockf (nth i ps (dummy_p K)) (nth j ps (dummy_p K))));
    [reflexivity|].
  intros i j Hi Hj Hle. rewrite nth_mk by exact Hi. rewrite nth_mk by exact Hj.
  destruct (Nat.leb_spec i j); [reflexivity|lia].
Qed.
End P.
