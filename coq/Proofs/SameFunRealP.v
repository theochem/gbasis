(* Property C16 over the real numbers (F := R, K := RK).

   Proofs/SameFunP.v: the evaluation model and the integral models factor through ONE list of function
   descriptors [descr_basis K basis]; the integral step was a hypothesis on an abstract linear functional.
   Gauss/Bridge3D.v: the primitive-pair expressions of the E-functional ARE the iterated improper integrals
   [gint3] of products of Cartesian Gaussian primitives.  Here the two are joined:
     dfun d x y z        := eval_spec RK d (x, y, z), the honest function R^3 -> R of a descriptor;
     bfun basis I x y z  := entry (I, 0) of evaluate_basis_model RK basis [(x,y,z)] None, the number the
                            evaluation MODEL returns for basis function I at the point (x, y, z);
   the entries of overlap_integral / moment_integral / kinetic_integral are gint3 of bfun I * bfun J,
   (r-C)^o * bfun I * bfun J, bfun I * (-1/2 Laplacian (bfun J)), and the derivative model returns pd3 of bfun
   (Coquelicot's Derive_n), for every basis of well-formed shells (Cartesian, spherical, mixed; any l, K, M)
   with positive exponents.
   "Integral over R^3" means the iterated improper Riemann integral gint3 (Props/BRIDGE_3d.v); its
   identification with the Lebesgue integral (Fubini-Tonelli for polynomial x Gaussian) is the only step
   left outside Coq.  Assumptions: the classical real numbers of the standard library. *)
From Coq Require Import Reals Lra Lia List.
From Coquelicot Require Import Coquelicot.
From GB Require Import Base.Field Base.FNum Base.Tables Gauss.Moment1D Gauss.Bridge Gauss.DerivBridge
  Gauss.BridgeR Gauss.GaussInt Model.Eval Model.Shell Model.MomentInt Model.Spherical Model.Assembly
  Model.Overlap Model.DiffOp Model.OneBody Proofs.DiffOpP Proofs.CoreSumP Proofs.CoreBlockP Proofs.CoreDiffP
  Proofs.ScreeningP Proofs.CoreNormP Proofs.BlockMatP Gauss.Bridge3D Proofs.SameFunP.
From GB Require Proofs.AssembledP Proofs.AssembledSphP.
Import ListNotations.
Open Scope R_scope.

Notation gprimR := (@SameFunP.gprim R).
Notation ptermR := (@SameFunP.pterm R).
Notation fdescR := (@SameFunP.fdesc R).

Theorem gint3_pairing (q : gprimR -> gprimR -> R -> R -> R -> R) (Ip : gprimR -> gprimR -> R)
        (d1 d2 : fdescR) :
  (forall t1 t2, In t1 d1 -> In t2 d2 -> gint3 (q (t_g t1) (t_g t2)) (Ip (t_g t1) (t_g t2))) ->
  gint3 (fun x y z => fsumR (map (fun t1 => fsumR (map (fun t2 =>
           t_w t1 * t_w t2 * q (t_g t1) (t_g t2) x y z) d2)) d1))
        (pair_spec RK Ip d1 d2).
Proof.
  exact (gint3_sum2 d1 d2 (fun t1 t2 => t_w t1 * t_w t2) (fun t1 t2 => q (t_g t1) (t_g t2))
           (fun t1 t2 => Ip (t_g t1) (t_g t2))).
Qed.

(* the honest function of a primitive descriptor: (x-X)^a (y-Y)^b (z-Z)^c exp(-alpha |r-R|^2) *)
Definition gfun (g : gprimR) : R -> R -> R -> R := cprim (g_a g) (g_x g) (g_y g) (g_z g) (g_c g).

(* a shell record carrying the centre of a primitive (the primitive theorems of Bridge3D.v take the
   centre from a shell) *)
Definition shg (g : gprimR) : shell R := mkShell R 0 (g_x g) (g_y g) (g_z g) [] [] false [] [].

Lemma gfun_gprim g : gfun g = Bridge3D.gprim (shg g) (g_a g) (g_c g).
Proof. reflexivity. Qed.

Lemma dval_is_pd3 (o : Shell.comp) (g : gprimR) (x y z : R) :
  dval RK o g (x, y, z) = pd3 (SameFunP.cx o) (SameFunP.cy o) (SameFunP.cz o) (gfun g) x y z.
Proof.
  unfold gfun. rewrite pd3_cprim, !cg1_Derive_n.
  unfold dval, term_val, t_x, t_y, t_z, t_a, t_c. cbn [t_w t_g fst snd].
  change (@u R RK) with (@u R RKd). cbn [RK fmul fsub fadd fopp fexp f1].
  replace (- (g_a g * ((x - g_x g) * (x - g_x g) + (y - g_y g) * (y - g_y g) + (z - g_z g) * (z - g_z g))))
    with (- g_a g * (x - g_x g) ^ 2 + - g_a g * (y - g_y g) ^ 2 + - g_a g * (z - g_z g) ^ 2) by ring.
  rewrite !exp_plus. unfold SameFunP.cx, SameFunP.cy, SameFunP.cz, CoreBlockP.cx, CoreBlockP.cy, CoreBlockP.cz. ring.
Qed.

Lemma pd3_000 G x y z : pd3 0 0 0 G x y z = G x y z.
Proof. reflexivity. Qed.

Lemma dval0_is_gfun (g : gprimR) (x y z : R) : dval RK (0, 0, 0)%nat g (x, y, z) = gfun g x y z.
Proof. now rewrite dval_is_pd3. Qed.

Definition pos_desc (d : fdescR) : Prop := forall t, In t d -> 0 < t_a t.

(* the E-functional expressions of SameFunP.v are the primitive specs of CoreBlockP.v / CoreDiffP.v *)
Lemma Imom_is_mom_prim Cx Cy Cz o (g1 g2 : gprimR) :
  Imom RK Cx Cy Cz o g1 g2
  = mom_prim RK Cx Cy Cz o (shg g1) (shg g2) (g_c g1) (g_c g2) (g_a g1) (g_a g2).
Proof.
  unfold Imom, mom1, mom_prim, KAB, T1. cbn [shg s_x s_y s_z].
  unfold SameFunP.cx, SameFunP.cy, SameFunP.cz, CoreBlockP.cx, CoreBlockP.cy, CoreBlockP.cz.
  change (fmul RK) with Rmult. ring.
Qed.

Lemma Ider_is_dprim o (g1 g2 : gprimR) :
  Ider RK o g1 g2 = dprim RK o (shg g1) (shg g2) (g_c g1) (g_c g2) (g_a g1) (g_a g2).
Proof. reflexivity. Qed.

(* (B1) for one pair of primitives, proved: moments / overlap *)
Theorem prim_pair_moment Cx Cy Cz (o : Shell.comp) (g1 g2 : gprimR) : 0 < g_a g1 -> 0 < g_a g2 ->
  gint3 (fun x y z => (x - Cx) ^ SameFunP.cx o * (y - Cy) ^ SameFunP.cy o * (z - Cz) ^ SameFunP.cz o
                      * (gfun g1 x y z * gfun g2 x y z))
        (Imom RK Cx Cy Cz o g1 g2).
Proof.
  intros H1 H2. rewrite Imom_is_mom_prim.
  refine (gint3_ext _ _ _ _ _ eq_refl
            (mom_prim_3d_integral Cx Cy Cz o (shg g1) (shg g2) (g_c g1) (g_c g2) (g_a g1) (g_a g2) H1 H2)).
  intros x y z. rewrite !gfun_gprim.
  unfold SameFunP.cx, SameFunP.cy, SameFunP.cz, CoreBlockP.cx, CoreBlockP.cy, CoreBlockP.cz. ring.
Qed.

Theorem prim_pair_overlap (g1 g2 : gprimR) : 0 < g_a g1 -> 0 < g_a g2 ->
  gint3 (fun x y z => gfun g1 x y z * gfun g2 x y z) (Iov RK g1 g2).
Proof.
  intros H1 H2.
  refine (gint3_ext _ _ _ _ _ eq_refl (prim_pair_moment 0 0 0 (0, 0, 0)%nat g1 g2 H1 H2)).
  intros x y z. cbn [SameFunP.cx SameFunP.cy SameFunP.cz fst snd pow]. ring.
Qed.

Theorem prim_pair_kinetic (g1 g2 : gprimR) : 0 < g_a g1 -> 0 < g_a g2 ->
  gint3 (fun x y z => gfun g1 x y z * (- (1 / 2) * lap3 (gfun g2) x y z)) (Ikin RK g1 g2).
Proof. exact (kinetic_prim_3d_integral (shg g1) (shg g2) (g_c g1) (g_c g2) (g_a g1) (g_a g2)). Qed.

Definition dfun (d : fdescR) (x y z : R) : R := eval_spec RK d (x, y, z).

Lemma deriv_spec_terms (o : Shell.comp) (d : fdescR) (x y z : R) :
  deriv_spec RK o d (x, y, z) = fsumR (map (fun t => t_w t * dval RK o (t_g t) (x, y, z)) d).
Proof.
  unfold deriv_spec. f_equal. apply map_ext. intro t. exact (term_val_w RK RK_field o (x, y, z) t).
Qed.

Lemma dfun_terms (d : fdescR) (x y z : R) :
  dfun d x y z = fsumR (map (fun t => t_w t * gfun (t_g t) x y z) d).
Proof.
  unfold dfun, eval_spec. rewrite deriv_spec_terms. f_equal. apply map_ext. intro t.
  now rewrite dval0_is_gfun.
Qed.

Lemma pd3_dfun (d : fdescR) ox oy oz x y z :
  pd3 ox oy oz (dfun d) x y z = fsumR (map (fun t => t_w t * pd3 ox oy oz (gfun (t_g t)) x y z) d).
Proof.
  rewrite (pd3_ext ox oy oz (dfun d) _ x y z (dfun_terms d)).
  apply (pd3_fsum d t_w (fun t => gfun (t_g t))). intros t _. apply smooth_pd3_cprim.
Qed.

(* what the derivative spec (hence the derivative MODEL) returns is the mixed partial derivative of the
   honest function *)
Theorem deriv_spec_is_derivative (d : fdescR) (ox oy oz : nat) (x y z : R) :
  deriv_spec RK (ox, oy, oz) d (x, y, z) = pd3 ox oy oz (dfun d) x y z.
Proof.
  rewrite pd3_dfun, deriv_spec_terms. f_equal. apply map_ext. intro t.
  now rewrite dval_is_pd3.
Qed.

Lemma half_lap3_dfun (d : fdescR) x y z :
  - (1 / 2) * lap3 (dfun d) x y z
  = fsumR (map (fun t => t_w t * (- (1 / 2) * lap3 (gfun (t_g t)) x y z)) d).
Proof.
  unfold lap3. rewrite !pd3_dfun, <- !fsumR_add, <- fsumR_scale.
  apply fsumR_ext_in. intros t _. ring.
Qed.

Theorem gint3_pair_moment Cx Cy Cz (o : Shell.comp) (d1 d2 : fdescR) : pos_desc d1 -> pos_desc d2 ->
  gint3 (fun x y z => (x - Cx) ^ SameFunP.cx o * (y - Cy) ^ SameFunP.cy o * (z - Cz) ^ SameFunP.cz o
                      * dfun d1 x y z * dfun d2 x y z)
        (pair_spec RK (Imom RK Cx Cy Cz o) d1 d2).
Proof.
  intros P1 P2.
  refine (gint3_ext _ _ _ _ _ eq_refl
            (gint3_pairing (fun g1 g2 x y z =>
                 (x - Cx) ^ SameFunP.cx o * (y - Cy) ^ SameFunP.cy o * (z - Cz) ^ SameFunP.cz o
                 * (gfun g1 x y z * gfun g2 x y z)) (Imom RK Cx Cy Cz o) d1 d2 _)).
  - intros x y z. cbv beta. rewrite !dfun_terms.
    set (Wm := (x - Cx) ^ SameFunP.cx o * (y - Cy) ^ SameFunP.cy o * (z - Cz) ^ SameFunP.cz o).
    symmetry. rewrite Rmult_assoc, fsumR_mul, <- fsumR_scale. apply fsumR_ext_in. intros t1 _.
    rewrite <- fsumR_scale. apply fsumR_ext_in. intros t2 _. ring.
  - intros t1 t2 H1 H2. exact (prim_pair_moment Cx Cy Cz o (t_g t1) (t_g t2) (P1 t1 H1) (P2 t2 H2)).
Qed.

Theorem gint3_pair_overlap (d1 d2 : fdescR) : pos_desc d1 -> pos_desc d2 ->
  gint3 (fun x y z => dfun d1 x y z * dfun d2 x y z) (pair_spec RK (Iov RK) d1 d2).
Proof.
  intros P1 P2.
  refine (gint3_ext _ _ _ _ _ eq_refl (gint3_pair_moment 0 0 0 (0, 0, 0)%nat d1 d2 P1 P2)).
  intros x y z. cbn [SameFunP.cx SameFunP.cy SameFunP.cz fst snd pow]. ring.
Qed.

Theorem gint3_pair_kinetic (d1 d2 : fdescR) : pos_desc d1 -> pos_desc d2 ->
  gint3 (fun x y z => dfun d1 x y z * (- (1 / 2) * lap3 (dfun d2) x y z)) (pair_spec RK (Ikin RK) d1 d2).
Proof.
  intros P1 P2.
  refine (gint3_ext _ _ _ _ _ eq_refl
            (gint3_pairing (fun g1 g2 x y z => gfun g1 x y z * (- (1 / 2) * lap3 (gfun g2) x y z)) _ d1 d2 _)).
  - intros x y z. cbv beta. rewrite half_lap3_dfun, dfun_terms, fsumR_mul.
    apply fsumR_ext_in. intros t1 _. apply fsumR_ext_in. intros t2 _. ring.
  - intros t1 t2 H1 H2. exact (prim_pair_kinetic (t_g t1) (t_g t2) (P1 t1 H1) (P2 t2 H2)).
Qed.

(* Cartesian function (segment m, component number ic) = norm_cont[m][ic] * cfun s m (comps[ic]) *)
Theorem cart_desc_is_cfun (s : shell R) (m ic : nat) (x y z : R) : wf_coeffs s ->
  dfun (cart_desc RK s m ic) x y z = ncf RK s m ic * cfun s m (compi s ic) x y z.
Proof.
  intro W. rewrite dfun_terms. unfold cart_desc, cfun. rewrite map_map.
  rewrite (combine_as_mk (s_exps s) (s_coeffs s) 0 []) by (unfold wf_coeffs in W; now rewrite W).
  rewrite Tables.map_mk.
  change (ncf RK s m ic * fsumR ?l) with (fmul RK (ncf RK s m ic) (fsumR l)).
  rewrite (fsum_mk_scale_l RK RK_field). apply fsum_mk_ext. intros k _.
  cbn [t_w t_g fst snd]. unfold cw, gfun, Bridge3D.gprim. cbn [g_a g_x g_y g_z g_c].
  cbn [RK fmul f0]. ring.
Qed.

(* spherical function (segment m, row r of generate_transformation) = sum_c T[r][c] * (Cartesian function c) *)
Theorem sph_desc_is_comb (s : shell R) (m r : nat) (x y z : R) : wf_coeffs s -> s_sph s = true ->
  dfun (dd RK s m r) x y z
  = fsumR (map (fun p : R * nat => fst p * (ncf RK s m (snd p) * cfun s m (compi s (snd p)) x y z))
               (combine (nth r (shell_transform RK s) []) (seq 0 (ncomp s)))).
Proof.
  intros W Hs. unfold dd. rewrite Hs. unfold dfun, eval_spec.
  rewrite (deriv_spec_dcomb RK RK_field). unfold Tables.mk. rewrite combine_map_r, map_map.
  apply fsumR_ext_in. intros [t c] _. cbn [fst snd].
  change (deriv_spec RK (0, 0, 0)%nat (cart_desc RK s m c) (x, y, z)) with (dfun (cart_desc RK s m c) x y z).
  now rewrite cart_desc_is_cfun.
Qed.

Definition pos_basis (basis : list (shell R)) : Prop := forall s, In s basis -> pos_exps3 s.

Lemma descr_basis_pos (basis : list (shell R)) d :
  pos_basis basis -> In d (descr_basis RK basis) -> pos_desc d.
Proof.
  intros P Hd. unfold descr_basis in Hd. apply in_concat in Hd. destruct Hd as [l [Hl Hd]].
  apply in_map_iff in Hl. destruct Hl as [s [<- Hs]].
  intros t Ht. apply (P s Hs). exact (descr_exps RK s d Hd t Ht).
Qed.

Lemma exps_ok_of_pos (basis : list (shell R)) : pos_basis basis ->
  forall sa sb, In sa basis -> In sb basis -> SameFunP.exps_ok RK sa sb.
Proof.
  intros P sa sb Ha Hb alpha beta Hal Hbe. pose proof (P sa Ha alpha Hal). pose proof (P sb Hb beta Hbe).
  unfold psum. change (alpha + beta <> 0). lra.
Qed.

Definition bfun (basis : list (shell R)) (I : nat) (x y z : R) : R :=
  nth 0 (nth I (evaluate_basis_model RK basis [(x, y, z)] None) []) 0.
Definition bdfun (basis : list (shell R)) (o : Shell.comp) (I : nat) (x y z : R) : R :=
  match evaluate_deriv_basis_model RK basis [(x, y, z)] o None General with
  | Some m => nth 0 (nth I m []) 0
  | None => 0
  end.
Definition nfun (basis : list (shell R)) : nat := length (descr_basis RK basis).

Lemma bfun_is_dfun (basis : list (shell R)) I x y z : List.Forall shell_wf basis -> (I < nfun basis)%nat ->
  bfun basis I x y z = dfun (nth I (descr_basis RK basis) []) x y z.
Proof.
  intros W HI. unfold bfun.
  rewrite (same_function_eval_values RK RK_field basis [(x, y, z)] (comps_ok_of_wf basis W)).
  rewrite (nth_map_lt _ _ I (@nil ptermR) (@nil R)) by exact HI. reflexivity.
Qed.

Lemma bdfun_is_deriv_spec (basis : list (shell R)) o I x y z :
  List.Forall shell_wf basis -> (I < nfun basis)%nat ->
  bdfun basis o I x y z = deriv_spec RK o (nth I (descr_basis RK basis) []) (x, y, z).
Proof.
  intros W HI. unfold bdfun.
  rewrite (same_function_eval RK RK_field o [(x, y, z)] basis (comps_ok_of_wf basis W)).
  rewrite (nth_map_lt _ _ I (@nil ptermR) (@nil R)) by exact HI. reflexivity.
Qed.

(* the derivative model returns the mixed partial derivatives (Coquelicot's Derive_n) of the function the
   evaluation model returns *)
Theorem closed_deriv_model (basis : list (shell R)) (ox oy oz I : nat) (x y z : R) :
  List.Forall shell_wf basis -> (I < nfun basis)%nat ->
  bdfun basis (ox, oy, oz) I x y z = pd3 ox oy oz (bfun basis I) x y z.
Proof.
  intros W HI. rewrite bdfun_is_deriv_spec, deriv_spec_is_derivative by assumption.
  apply pd3_ext. intros x' y' z'. symmetry. now apply bfun_is_dfun.
Qed.

Lemma nth_map_d0 {A B} (f : A -> B) (l : list A) i dA dB : f dA = dB -> nth i (map f l) dB = f (nth i l dA).
Proof. intros <-. apply map_nth. Qed.

Lemma outer_entry (f : fdescR -> fdescR -> R) (ds : list fdescR) I J :
  (I < length ds)%nat -> (J < length ds)%nat ->
  nth J (nth I (outer f ds ds) []) 0 = f (nth I ds []) (nth J ds []).
Proof.
  intros HI HJ. unfold outer. rewrite (nth_map_lt _ _ I (@nil ptermR) (@nil R)) by exact HI.
  now rewrite (nth_map_lt _ _ J (@nil ptermR) 0) by exact HJ.
Qed.

Section Closed.
Variable basis : list (shell R).
Hypothesis W : List.Forall shell_wf basis.
Hypothesis P : pos_basis basis.
Variables I J : nat.
Hypothesis HI : (I < nfun basis)%nat.
Hypothesis HJ : (J < nfun basis)%nat.

Let ds := descr_basis RK basis.

Lemma pos_I : pos_desc (nth I ds []).
Proof. apply (descr_basis_pos basis); [exact P|]. apply nth_In. exact HI. Qed.
Lemma pos_J : pos_desc (nth J ds []).
Proof. apply (descr_basis_pos basis); [exact P|]. apply nth_In. exact HJ. Qed.

(* C16, overlap: the entry of the overlap MODEL is the iterated integral over R^3 of the product of the
   two functions the evaluation MODEL returns *)
Theorem closed_overlap :
  gint3 (fun x y z => bfun basis I x y z * bfun basis J x y z)
        (nth J (nth I (overlap_integral RK basis None) []) 0).
Proof.
  rewrite (same_function_overlap RK RK_field fapx_id_R basis two_neq_0_R W (exps_ok_of_pos basis P)).
  rewrite outer_entry by assumption.
  refine (gint3_ext _ _ _ _ _ eq_refl (gint3_pair_overlap _ _ pos_I pos_J)).
  intros x y z. now rewrite !bfun_is_dfun.
Qed.

(* C16, kinetic energy: chi_I (-1/2 Laplacian) chi_J, the Laplacian being that of the evaluated function *)
Theorem closed_kinetic :
  gint3 (fun x y z => bfun basis I x y z * (- (1 / 2) * lap3 (bfun basis J) x y z))
        (nth J (nth I (kinetic_integral RK basis None) []) 0).
Proof.
  rewrite (same_function_kinetic RK RK_field fapx_id_R basis two_neq_0_R W (exps_ok_of_pos basis P)).
  rewrite outer_entry by assumption.
  refine (gint3_ext _ _ _ _ _ eq_refl (gint3_pair_kinetic _ _ pos_I pos_J)).
  intros x y z. rewrite bfun_is_dfun by assumption. f_equal. f_equal. unfold lap3.
  rewrite !(pd3_ext _ _ _ (bfun basis J) (dfun (nth J ds []))); [reflexivity|..];
    intros x' y' z'; now apply bfun_is_dfun.
Qed.

(* C16, multipole moments: slot d of entry (I, J) is the iterated integral of (r - C)^{o_d} chi_I chi_J *)
Theorem closed_moment (Cx Cy Cz : R) (orders : list Shell.comp) (d : nat) : (d < length orders)%nat ->
  let o := nth d orders (0, 0, 0)%nat in
  gint3 (fun x y z => (x - Cx) ^ SameFunP.cx o * (y - Cy) ^ SameFunP.cy o * (z - Cz) ^ SameFunP.cz o
                      * bfun basis I x y z * bfun basis J x y z)
        (nth d (nth J (nth I (moment_integral RK Cx Cy Cz orders basis None) []) []) 0).
Proof.
  intros Hd o.
  pose proof (same_function_moment RK RK_field fapx_id_R Cx Cy Cz orders basis d two_neq_0_R W
                (exps_ok_of_pos basis P) Hd) as E.
  assert (E' : nth d (nth J (nth I (moment_integral RK Cx Cy Cz orders basis None) []) []) 0
               = nth J (nth I (map (map (fun v : list R => nth d v 0))
                                 (moment_integral RK Cx Cy Cz orders basis None)) []) 0).
  { assert (E0 : (fun v : list R => nth d v 0) [] = 0) by (destruct d; reflexivity).
    rewrite (nth_map_d0 (map (fun v : list R => nth d v 0)) _ I [] [] eq_refl).
    now rewrite (nth_map_d0 (fun v : list R => nth d v 0) _ J [] 0 E0). }
  change (f0 RK) with 0 in E. rewrite E', E. rewrite outer_entry by assumption. fold o.
  refine (gint3_ext _ _ _ _ _ eq_refl (gint3_pair_moment Cx Cy Cz o _ _ pos_I pos_J)).
  intros x y z. now rewrite !bfun_is_dfun.
Qed.
End Closed.

Lemma nfun_shell (s : shell R) : length (descr RK s) = (nseg s * nrows RK s)%nat.
Proof. apply descr_length. Qed.

(* Function (shell k, segment m, row q) sits at the output index oidx of C01_assembled; the evaluated
   function at that position is norm_cont * cfun (Cartesian shell) resp. the combination of these with the
   row of generate_transformation (spherical shell). *)
Notation sh_at := (AssembledP.sh_at RK).
Notation oidx := (AssembledSphP.oidx RK).
Notation osize := AssembledSphP.osize.
Notation ncont := (AssembledP.ncont RK).

Lemma osize_nrows (s : shell R) : osize s = nrows RK s.
Proof. rewrite nrows_eq. reflexivity. Qed.

Lemma descr_nth (s : shell R) m q : (m < nseg s)%nat -> (q < nrows RK s)%nat ->
  nth (m * nrows RK s + q) (descr RK s) [] = dd RK s m q.
Proof.
  intros Hm Hq. rewrite descr_mk.
  rewrite (Tables.nth_concat_uniform (nrows RK s) (Tables.mk (nseg s) (fun m => Tables.mk (nrows RK s) (dd RK s m))) [] m q).
  - rewrite (Tables.nth_mk _ _ _ m Hm). now rewrite (Tables.nth_mk _ _ _ q Hq).
  - apply Forall_forall. intros r Hr. unfold Tables.mk in Hr. apply in_map_iff in Hr.
    destruct Hr as [m' [<- _]]. apply Tables.mk_length.
  - exact Hq.
Qed.

Lemma sh_at_nth (basis : list (shell R)) k : (k < length basis)%nat ->
  nth k basis (SameFunP.dshell RK) = sh_at basis k.
Proof. intro Hk. unfold AssembledP.sh_at. now apply nth_indep. Qed.

Lemma descr_basis_nth (basis : list (shell R)) k m q :
  (k < length basis)%nat -> (m < nseg (sh_at basis k))%nat -> (q < osize (sh_at basis k))%nat ->
  nth (oidx basis k m q) (descr_basis RK basis) [] = dd RK (sh_at basis k) m q
  /\ (oidx basis k m q < nfun basis)%nat.
Proof.
  intros Hk Hm Hq. unfold nfun. rewrite descr_basis_mk.
  assert (HL : forall t, (t < length basis)%nat ->
            length (descr RK (nth t basis (SameFunP.dshell RK))) = AssembledSphP.odim (sh_at basis t)).
  { intros t Ht. rewrite (sh_at_nth basis t Ht), descr_length. unfold AssembledSphP.odim. now rewrite osize_nrows. }
  split.
  - unfold AssembledSphP.oidx, AssembledSphP.ooff.
    rewrite (nth_concat_mk (length basis) (fun i => descr RK (nth i basis (SameFunP.dshell RK)))
               (fun t => AssembledSphP.odim (sh_at basis t)) [] k _ HL Hk).
    + rewrite (sh_at_nth basis k Hk), osize_nrows. apply descr_nth; [exact Hm|]. now rewrite <- osize_nrows.
    + unfold AssembledSphP.odim. now apply AssembledP.idx_lt.
  - rewrite (length_concat_mk _ _ _ HL).
    exact (AssembledSphP.oidx_lt RK basis k m q Hk Hm Hq).
Qed.

(* On the MODEL: the number evaluate_basis_model returns at the position of (shell k, segment m,
   component c) of a Cartesian shell is norm_cont[m][c] times the contracted function cfun of Bridge3D.v *)
Theorem bfun_cart (basis : list (shell R)) k m c x y z :
  List.Forall shell_wf basis -> (k < length basis)%nat ->
  let s := sh_at basis k in
  wf_coeffs s -> s_sph s = false -> (m < nseg s)%nat -> (c < length (comps_of s))%nat ->
  bfun basis (oidx basis k m c) x y z
  = ncont s m c * cfun s m (nth c (comps_of s) (0, 0, 0)%nat) x y z.
Proof.
  intros W Hk s Wc Hs Hm Hc.
  assert (Hq : (c < osize s)%nat) by (unfold AssembledSphP.osize; now rewrite Hs).
  destruct (descr_basis_nth basis k m c Hk Hm Hq) as [E HI].
  rewrite bfun_is_dfun by assumption. rewrite E. fold s. unfold dd. rewrite Hs.
  now rewrite cart_desc_is_cfun.
Qed.

(* ... and for a spherical shell the combination of these with row q of generate_transformation *)
Theorem bfun_sph (basis : list (shell R)) k m q x y z :
  List.Forall shell_wf basis -> (k < length basis)%nat ->
  let s := sh_at basis k in
  wf_coeffs s -> s_sph s = true -> (m < nseg s)%nat -> (q < length (labels_of s))%nat ->
  bfun basis (oidx basis k m q) x y z
  = fsumR (map (fun p : R * nat =>
                  fst p * (ncont s m (snd p) * cfun s m (nth (snd p) (comps_of s) (0, 0, 0)%nat) x y z))
               (combine (nth q (shell_transform RK s) []) (seq 0 (length (comps_of s))))).
Proof.
  intros W Hk s Wc Hs Hm Hq'.
  assert (Hq : (q < osize s)%nat) by (unfold AssembledSphP.osize; now rewrite Hs).
  destruct (descr_basis_nth basis k m q Hk Hm Hq) as [E HI].
  rewrite bfun_is_dfun by assumption. rewrite E. fold s.
  now rewrite sph_desc_is_comb.
Qed.

(* the hypotheses are satisfiable: a mixed basis (Cartesian generalized d shell, spherical p shell) *)
Definition ex_shell_p_sph : shell R := mkShell R 1 1 (-1) (1 / 2) [2] [[1]] true [] [].
Definition ex_basis_c16 : list (shell R) := [ex_shell_d; ex_shell_p_sph].

Example closed_hypotheses_satisfiable :
  List.Forall shell_wf ex_basis_c16 /\ pos_basis ex_basis_c16 /\ nfun ex_basis_c16 = 15%nat.
Proof.
  split; [|split].
  - constructor; [apply default_shell_wf; [reflexivity|cbn; lia|reflexivity]|].
    constructor; [apply default_shell_wf; [reflexivity|cbn; lia|reflexivity]|constructor].
  - intros s [<-|[<-|[]]] a Ha; cbn in Ha.
    + destruct Ha as [<-|[<-|[]]]; lra.
    + destruct Ha as [<-|[]]; lra.
  - unfold nfun, ex_basis_c16, descr_basis. cbn [map concat]. rewrite !app_length, !descr_length, !nrows_eq.
    reflexivity.
Qed.

(* entry (row 13: the spherical p function number 1, column 4: d_yz of segment 0) of the overlap model is the
   iterated integral of the product of the two evaluated functions *)
Example closed_overlap_instance :
  gint3 (fun x y z => bfun ex_basis_c16 13 x y z * bfun ex_basis_c16 4 x y z)
        (nth 4 (nth 13 (overlap_integral RK ex_basis_c16 None) []) 0).
Proof.
  destruct closed_hypotheses_satisfiable as [W [P N]].
  apply closed_overlap; auto; rewrite N; lia.
Qed.
