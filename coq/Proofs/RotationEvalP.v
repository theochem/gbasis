(* Proofs/RotationEvalP.v — GENERAL ROTATIONS (proper and improper) for the EVALUATIONS (property C12).

   The evaluation model (Model/Eval.v, general back-end) returns for a Cartesian primitive of a shell centred at A
        (r - A)^a exp(-alpha |r - A|^2)                                          ([gauss_prim]),
   and for the derivative order o the polynomial u(alpha, a, o) times the same Gaussian ([gauss_prim_deriv],
   the very expression inside SameFunP.raw_entry / SameFunP.term_val).  For every orthogonal R
        sum_{a'} D(R)[a,a'] * (value of component a' of the shell centred at R A, at the point R r)
          = value of component a of the shell centred at A, at r,
   D(R)[a,a'] the entries of [rot_expand R a] = (R^T u)^a multiplied out (Proofs/RotationP.v): R r - R A = R (r - A) and
   |R d|^2 = |d|^2, so the ARGUMENT of exp is the same term (no property of exp is used); then [rot_expand_eval] and
   R^T R d = d.  The three first derivatives rotate as a vector: the polynomial part of d_k is  dv k - 2 alpha y_k  and
   d_i (f o Q) = sum_j Q j i ((d_j f) o Q) (Poly3.dv_subst_mon).  Both laws are lifted through the contraction and the
   normalisation constants to every entry of [eval_block] (EvalDeriv.construct_array_contraction, general back-end),
   Cartesian shells of any l in the default component order, any number of primitives and segments, any points:
           dfnorm(j) E[m, j, p] = sum_i rep_mat[i, j] dfnorm(i) E'[m, i, p],
   E = eval_block s pts, E' = eval_block (rot_shell R s) (map (mapply R) pts), and to [SameFunP.eval_spec] of the
   Cartesian descriptors with the contraction norm [ncf] divided out (that is: for the weights coefficient * norm_prim).
   Any field; hypotheses: R orthogonal; for the block laws fapx = id and dfnorm <> 0 (as in RotationBlockP). *)
From Coq Require Import List Arith Lia Field Bool.
From GB Require Import Base.Field Base.FNum Base.Tables Gauss.Moment1D Gauss.Poly3 Model.Shell Model.MomentInt
  Model.Overlap Model.Eval Proofs.CoreSumP Proofs.CoreBlockP Proofs.EvalP Proofs.SameFunP Proofs.RigidP
  Proofs.RotationP Proofs.RotationBlockP.
Import ListNotations.

Section RotEval.
Context {F : Type} (K : Fops F) (Kf : is_field K).
Add Field KFrev : Kf.
Local Open Scope F_scope.
Notation "0" := (f0 K) : F_scope.
Notation "1" := (f1 K) : F_scope.
Infix "+" := (fadd K) : F_scope.
Infix "*" := (fmul K) : F_scope.
Infix "-" := (fsub K) : F_scope.
Infix "/" := (fdiv K) : F_scope.
Notation "- x" := (fopp K x) : F_scope.
Notation "# n" := (ofnat K n) (at level 5) : F_scope.
Notation fpow := (FNum.fpow K).
Notation fsum := (FNum.fsum K).

Definition vsub (r A : @vec3 F) : @vec3 F :=
  (fst (fst r) - fst (fst A), snd (fst r) - snd (fst A), snd r - snd A).
Definition nrm2 (d : @vec3 F) : F :=
  fst (fst d) * fst (fst d) + snd (fst d) * snd (fst d) + snd d * snd d.

Lemma mapply_vsub R r A : vsub (mapply K R r) (mapply K R A) = mapply K R (vsub r A).
Proof.
  destruct r as [[r0 r1] r2], A as [[a0 a1] a2]. unfold vsub, mapply, dot3. cbn [fst snd].
  f_equal; [f_equal|]; ring.
Qed.

Lemma vecf_mapply R d i : vecf (mapply K R d) i = dot K (matf R i) (vecf d).
Proof. destruct d as [[d0 d1] d2]. destruct i; reflexivity. Qed.

(* R^T (R d) = d, componentwise in the vocabulary of Gauss/Poly3 *)
Lemma rot_back R d : orthogonal K R -> forall i, dot K (transpose (matf R) i) (vecf (mapply K R d)) = vecf d i.
Proof.
  intros HO. apply (dot_transpose_rot K Kf (matf R) (vecf d) _ (orthogonal_cols K R HO)). apply vecf_mapply.
Qed.

Lemma mapply_t_mapply R d : orthogonal K R -> mapply_t K R (mapply K R d) = d.
Proof.
  intros HO. pose proof (rot_back R d HO) as E. destruct d as [[d0 d1] d2].
  unfold mapply_t. f_equal; [f_equal|]; [exact (E AX)|exact (E AY)|exact (E AZ)].
Qed.

Lemma nrm2_mapply R d : orthogonal K R -> nrm2 (mapply K R d) = nrm2 d.
Proof.
  intros HO. pose proof (norm_rot K Kf (matf R) (vecf d) (orthogonal_cols K R HO)) as N.
  destruct d as [[d0 d1] d2]. exact N.
Qed.

Definition gauss_prim (A : @vec3 F) (alpha : F) (c : comp) (r : @vec3 F) : F :=
  monomial K (vsub r A) c * fexp K (- (alpha * nrm2 (vsub r A))).
(* derivative of order o: the polynomials [u] of Model/Eval.v (C05: [general_correct]) times the same Gaussian *)
Definition gauss_prim_deriv (o : comp) (A : @vec3 F) (alpha : F) (c : comp) (r : @vec3 F) : F :=
  let d := vsub r A in
  (u K alpha (fst (fst c)) (fst (fst o)) (fst (fst d)) * u K alpha (snd (fst c)) (snd (fst o)) (snd (fst d))
   * u K alpha (snd c) (snd o) (snd d))
  * fexp K (- (alpha * nrm2 d)).
Definition eax (k : axis) : comp :=
  match k with AX => (1, 0, 0)%nat | AY => (0, 1, 0)%nat | AZ => (0, 0, 1)%nat end.

Lemma gauss_prim_deriv_0 A alpha c r : gauss_prim_deriv (0, 0, 0)%nat A alpha c r = gauss_prim A alpha c r.
Proof. reflexivity. Qed.

(* GENERAL ROTATIONS, value of a primitive *)
Theorem eval_prim_rotation_covariant R A alpha a r : orthogonal K R ->
  Jsum K (fun a' => gauss_prim (mapply K R A) alpha a' (mapply K R r)) (rot_expand K R a)
  = gauss_prim A alpha a r.
Proof.
  intros HO. unfold gauss_prim. rewrite mapply_vsub, (nrm2_mapply R _ HO).
  set (e := fexp K (- (alpha * nrm2 (vsub r A)))).
  rewrite (Jsum_ext K _ (fun a' => e * monomial K (mapply K R (vsub r A)) a')) by (intro a'; ring).
  rewrite (Jsum_Jscale K Kf), (rot_expand_eval K Kf), (mapply_t_mapply R _ HO). ring.
Qed.

(* polynomial part of d/dy_k [f(y) exp(-alpha y^2)] *)
Definition grad_poly (alpha : F) (k : axis) (f : poly3 (F:=F)) : poly3 (F:=F) :=
  dv K k f ++ pscale3 K (- ((1 + 1) * alpha)) (mulv k f).
Definition gradT (alpha : F) (k : axis) (J : mon -> F) : mon -> F :=
  fun m => dvT K k J m + (- ((1 + 1) * alpha)) * mulvT k J m.
Lemma Jsum_grad_poly alpha k J f : Jsum K J (grad_poly alpha k f) = Jsum K (gradT alpha k J) f.
Proof.
  unfold grad_poly, gradT. rewrite (Jsum_app K Kf), (Jsum_pscale3 K Kf), (Jsum_dv K Kf), (Jsum_mulv K).
  now rewrite (Jsum_Jadd K Kf), (Jsum_Jscale K Kf).
Qed.

Lemma monoval_ext (d d' : axis -> F) m : (forall i, d i = d' i) -> monoval K d m = monoval K d' m.
Proof. intro H. unfold monoval. now rewrite (H AX), (H AY), (H AZ). Qed.

Lemma gradT_monoval alpha k (d : axis -> F) c :
  gradT alpha k (monoval K d) c
  = #(expo k c) * monoval K d (mlower k c) - (1 + 1) * alpha * d k * monoval K d c.
Proof.
  destruct c as [[a b] e]. unfold gradT, dvT, mulvT, monoval.
  destruct k; cbn [expo mlower bump fst snd FNum.fpow]; ring.
Qed.

Lemma gauss_prim_deriv_grad k A alpha c r :
  gauss_prim_deriv (eax k) A alpha c r
  = gradT alpha k (monoval K (vecf (vsub r A))) c * fexp K (- (alpha * nrm2 (vsub r A))).
Proof.
  unfold gauss_prim_deriv. cbv zeta. f_equal. rewrite gradT_monoval.
  destruct c as [[a b] e]. set (d := vsub r A). unfold monoval, vecf, vget.
  destruct k; cbn [eax expo mlower fst snd u ax2nat Nat.pred].
  - destruct a as [|a]; cbn [Nat.pred ofnat FNum.fpow]; ring.
  - destruct b as [|b]; cbn [Nat.pred ofnat FNum.fpow]; ring.
  - destruct e as [|e]; cbn [Nat.pred ofnat FNum.fpow]; ring.
Qed.

Lemma monoval_rot_back R d m : orthogonal K R ->
  Jsum K (monoval K (vecf (mapply K R d))) (subst_mon K (transpose (matf R)) m) = monoval K (vecf d) m.
Proof.
  intros HO. pose proof (peval_subst_mon K Kf (vecf (mapply K R d)) (transpose (matf R)) m) as H.
  unfold peval in H. rewrite H. apply monoval_ext. apply rot_back, HO.
Qed.

(* GENERAL ROTATIONS, gradient of a primitive: the first derivatives rotate as a vector *)
Theorem eval_prim_gradient_rotation_covariant R A alpha a r i : orthogonal K R ->
  Jsum K (fun a' => gauss_prim_deriv (eax i) (mapply K R A) alpha a' (mapply K R r)) (rot_expand K R a)
  = sum3 K (fun k => matf R i k * gauss_prim_deriv (eax k) A alpha a r).
Proof.
  intros HO.
  rewrite (Jsum_ext K _ (fun a' => fexp K (- (alpha * nrm2 (vsub r A)))
             * gradT alpha i (monoval K (vecf (mapply K R (vsub r A)))) a')).
  2:{ intro a'. rewrite gauss_prim_deriv_grad, mapply_vsub, (nrm2_mapply R _ HO). ring. }
  rewrite (Jsum_Jscale K Kf). unfold sum3. rewrite !gauss_prim_deriv_grad.
  set (e := fexp K (- (alpha * nrm2 (vsub r A)))). set (d := vsub r A).
  rewrite <- Jsum_grad_poly. unfold grad_poly.
  rewrite (Jsum_app K Kf), (Jsum_pscale3 K Kf). unfold rot_expand.
  rewrite (dv_subst_mon K Kf), (Jsum_mulv K).
  rewrite (Jsum_ext K (mulvT i (monoval K (vecf (mapply K R d))))
             (fun m => vecf (mapply K R d) i * monoval K (vecf (mapply K R d)) m)).
  2:{ intros [[x y] z]. unfold mulvT, monoval. destruct i; cbn [bump fst snd FNum.fpow]; ring. }
  rewrite (Jsum_Jscale K Kf). unfold sum3. rewrite !(monoval_rot_back R d _ HO), vecf_mapply.
  rewrite !gradT_monoval. unfold dot, sum3, transpose. ring.
Qed.

Hypothesis Hapx : forall x : F, fapx K x = x.
Hypothesis Hdf : forall c, dfnorm K c <> 0.

(* a contracted, normalised one-index quantity: sum_k coeff[k][m] * norm_prim(l, c, alpha_k) * P c alpha_k *)
Definition contracted1 (l m : nat) (L : list (F * list F)) (c : comp) (P : comp -> F -> F) : F :=
  fsum (map (fun ae => nth m (snd ae) 0 * (norm_prim K l c (fst ae) * P c (fst ae))) L).

Lemma contracted1_law (M : comp -> comp -> F) (comps : list comp) l m L j (P P' : comp -> F -> F) :
  (forall ae, In ae L -> fsum (map (fun i => M i j * P' i (fst ae)) comps) = P j (fst ae)) ->
  dfnorm K j * contracted1 l m L j P
  = fsum (map (fun i => M i j * dfnorm K i * contracted1 l m L i P') comps).
Proof.
  intros H. unfold contracted1.
  transitivity (fsum (map (fun ae => fsum (map (fun i =>
     nth m (snd ae) 0 * gnorm K l (fst ae) * (M i j * P' i (fst ae))) comps)) L)).
  - rewrite <- (fsum_map_scale K Kf). apply fsum_map_ext_in. intros ae Hae.
    rewrite (fsum_map_scale K Kf), (H ae Hae), <- (dfnorm_norm_prim K Kf Hapx Hdf l j). ring.
  - rewrite (fsum_swap K Kf). apply fsum_map_ext_in. intros i _. rewrite <- (fsum_map_scale K Kf).
    apply fsum_map_ext_in. intros ae _. rewrite <- (dfnorm_norm_prim K Kf Hapx Hdf l i). ring.
Qed.

Lemma contracted1_sum3 l m L c (w : axis -> F) (P : axis -> comp -> F -> F) :
  contracted1 l m L c (fun c a => sum3 K (fun k => w k * P k c a))
  = sum3 K (fun k => w k * contracted1 l m L c (P k)).
Proof.
  unfold contracted1, sum3. rewrite <- !(fsum_map_scale K Kf), <- !(fsum_map_add K Kf).
  apply fsum_map_ext_in. intros ae _. ring.
Qed.

(* the un-normalised entry of the evaluation block (SameFunP.raw_entry) as such a quantity *)
Lemma raw_entry_contracted1 o (s : shell F) m ic (p : point (F:=F)) :
  raw_entry K o s m ic p
  = contracted1 (s_l s) m (combine (s_exps s) (s_coeffs s)) (compi s ic)
      (fun c alpha => gauss_prim_deriv o (s_x s, s_y s, s_z s) alpha c p).
Proof.
  unfold raw_entry, contracted1. apply fsum_map_ext_in. intros [alpha crow] _.
  unfold gauss_prim_deriv, vsub, nrm2, SameFunP.cx, SameFunP.cy, SameFunP.cz. cbn [fst snd]. ring.
Qed.

Lemma eval_block_general (s : shell F) pts o : eval_block K s pts o General <> None.
Proof. discriminate. Qed.

Lemma eval_block_entry (s : shell F) pts o blk m j p :
  s_comps s = [] -> eval_block K s pts o General = Some blk ->
  (m < nseg s)%nat -> (j < length (default_comps (s_l s)))%nat -> (p < length pts)%nat ->
  nth p (nth j (nth m blk []) []) 0 = raw_entry K o s m j (nth p pts (0, 0, 0)).
Proof.
  intros Hc Hb Hm Hj Hp. unfold eval_block in Hb. cbn [accepts mode_of] in Hb. injection Hb as <-.
  rewrite (block_general_mk K Kf o pts s (default_comps_ok s Hc)).
  assert (Hn : ncomp s = length (default_comps (s_l s))) by (unfold ncomp; now rewrite (comps_of_default s Hc)).
  rewrite nth_mk by exact Hm. rewrite nth_mk by (rewrite Hn; exact Hj).
  now apply nth_map_lt.
Qed.

Lemma rot_shell_centre R (s : shell F) :
  (s_x (rot_shell K R s), s_y (rot_shell K R s), s_z (rot_shell K R s)) = mapply K R (s_x s, s_y s, s_z s).
Proof. cbn [rot_shell s_x s_y s_z]. now destruct (mapply K R (s_x s, s_y s, s_z s)) as [[x y] z]. Qed.

Section Law.
Variable R : @mat3 F.
Hypothesis HO : orthogonal K R.
Variables (s : shell F) (pts : list (point (F:=F))).
Hypothesis Hc : s_comps s = [].
Let l := s_l s.
Let cmp (i : nat) : comp := nth i (default_comps l) (0, 0, 0)%nat.
Let s' := rot_shell K R s.
Let pts' := map (mapply K R) pts.

Lemma compi_default i : compi s i = cmp i.
Proof. unfold compi, cmp, l. now rewrite (comps_of_default s Hc). Qed.
Lemma compi_default' i : compi s' i = cmp i.
Proof. exact (compi_default i). Qed.

(* the entries of the rotated shell for the derivative order o', combined with rep_mat, against any one-index kernel P
   that obeys the primitive law at the point r *)
Lemma raw_entry_rotation_law o' (P : comp -> F -> F) m j (r : point (F:=F)) :
  (j < length (default_comps l))%nat ->
  (forall alpha, Jsum K (fun a' => gauss_prim_deriv o' (mapply K R (s_x s, s_y s, s_z s)) alpha a' (mapply K R r))
                   (rot_expand K R (cmp j)) = P (cmp j) alpha) ->
  dfnorm K (cmp j) * contracted1 l m (combine (s_exps s) (s_coeffs s)) (cmp j) P
  = fsum (map (fun i => rep_mat K R (cmp i) (cmp j) * dfnorm K (cmp i) * raw_entry K o' s' m i (mapply K R r))
              (seq 0 (length (default_comps l)))).
Proof.
  intros Hj HP.
  rewrite (contracted1_law (rep_mat K R) (default_comps l) _ _ _ (cmp j) _
             (fun c alpha => gauss_prim_deriv o' (s_x s', s_y s', s_z s') alpha c (mapply K R r))).
  2:{ intros ae _. unfold s'. rewrite rot_shell_centre, <- (Jsum_rot_expand K Kf _ R l (cmp j)) by (apply nth_In; exact Hj).
      apply HP. }
  rewrite (map_as_mk _ (default_comps l) (0, 0, 0)%nat). unfold mk. apply fsum_map_ext_in. intros i _. fold (cmp i).
  now rewrite raw_entry_contracted1, compi_default'.
Qed.

Lemma rot_block_entry o' blk' m i p :
  eval_block K s' pts' o' General = Some blk' ->
  (m < nseg s)%nat -> (i < length (default_comps l))%nat -> (p < length pts)%nat ->
  nth p (nth i (nth m blk' []) []) 0 = raw_entry K o' s' m i (mapply K R (nth p pts (0, 0, 0))).
Proof.
  intros Hb' Hm Hi Hp.
  rewrite (eval_block_entry s' pts' o' blk' m i p Hc Hb' Hm Hi) by (unfold pts'; now rewrite map_length).
  f_equal. now apply nth_map_lt.
Qed.

(* EVERY ENTRY OF THE EVALUATION BLOCK, function values *)
Theorem eval_block_rotation_law blk blk' :
  eval_block K s pts (0, 0, 0)%nat General = Some blk ->
  eval_block K s' pts' (0, 0, 0)%nat General = Some blk' ->
  forall m j p, (m < nseg s)%nat -> (j < length (default_comps l))%nat -> (p < length pts)%nat ->
    dfnorm K (cmp j) * nth p (nth j (nth m blk []) []) 0
    = fsum (map (fun i => rep_mat K R (cmp i) (cmp j) * dfnorm K (cmp i) * nth p (nth i (nth m blk' []) []) 0)
                (seq 0 (length (default_comps l)))).
Proof.
  intros Hb Hb' m j p Hm Hj Hp.
  rewrite (eval_block_entry s pts _ blk m j p Hc Hb Hm Hj Hp), raw_entry_contracted1, compi_default.
  rewrite (raw_entry_rotation_law (0, 0, 0)%nat _ m j (nth p pts (0, 0, 0)) Hj)
    by (intro alpha; apply eval_prim_rotation_covariant, HO).
  apply fsum_map_ext_in. intros i Hi. apply in_seq in Hi.
  now rewrite (rot_block_entry _ blk' m i p Hb' Hm (proj2 Hi) Hp).
Qed.

(* EVERY ENTRY OF THE FIRST-DERIVATIVE BLOCKS: the gradient rotates as a vector *)
Theorem eval_block_gradient_rotation_law (i : axis) (gx gy gz blk' : list (list (list F))) :
  eval_block K s pts (eax AX) General = Some gx -> eval_block K s pts (eax AY) General = Some gy ->
  eval_block K s pts (eax AZ) General = Some gz ->
  eval_block K s' pts' (eax i) General = Some blk' ->
  forall m j p, (m < nseg s)%nat -> (j < length (default_comps l))%nat -> (p < length pts)%nat ->
    dfnorm K (cmp j) * (matf R i AX * nth p (nth j (nth m gx []) []) 0
                        + matf R i AY * nth p (nth j (nth m gy []) []) 0
                        + matf R i AZ * nth p (nth j (nth m gz []) []) 0)
    = fsum (map (fun i' => rep_mat K R (cmp i') (cmp j) * dfnorm K (cmp i') * nth p (nth i' (nth m blk' []) []) 0)
                (seq 0 (length (default_comps l)))).
Proof.
  intros Hx Hy Hz Hb' m j p Hm Hj Hp.
  rewrite (eval_block_entry s pts _ gx m j p Hc Hx Hm Hj Hp), (eval_block_entry s pts _ gy m j p Hc Hy Hm Hj Hp),
    (eval_block_entry s pts _ gz m j p Hc Hz Hm Hj Hp), !raw_entry_contracted1, compi_default.
  pose proof (contracted1_sum3 l m (combine (s_exps s) (s_coeffs s)) (cmp j) (matf R i)
     (fun k c alpha => gauss_prim_deriv (eax k) (s_x s, s_y s, s_z s) alpha c (nth p pts (0, 0, 0)))) as E.
  unfold sum3 in E at 2. fold l. rewrite <- E.
  rewrite (raw_entry_rotation_law (eax i) _ m j (nth p pts (0, 0, 0)) Hj)
    by (intro alpha; apply eval_prim_gradient_rotation_covariant, HO).
  apply fsum_map_ext_in. intros i' Hi. apply in_seq in Hi.
  now rewrite (rot_block_entry _ blk' m i' p Hb' Hm (proj2 Hi) Hp).
Qed.
End Law.

(* descriptor form: the Cartesian function (segment m, component ic) of SameFunP.cart_desc without the contraction
   norm ncf = norm_cont[m][ic] (weights coefficient * norm_prim) *)
Definition cart_desc_raw (s : shell F) (m ic : nat) : fdesc (F:=F) :=
  map (fun ae => mkT (nth m (snd ae) 0 * norm_prim K (s_l s) (compi s ic) (fst ae))
                     (mkG (s_x s) (s_y s) (s_z s) (fst ae) (compi s ic)))
      (combine (s_exps s) (s_coeffs s)).

Lemma cart_desc_raw_entry o (s : shell F) m ic p :
  deriv_spec K o (cart_desc_raw s m ic) p = raw_entry K o s m ic p.
Proof.
  unfold raw_entry, deriv_spec, cart_desc_raw. rewrite map_map.
  f_equal. apply map_ext. intros [alpha crow]. unfold term_val, t_x, t_y, t_z, t_a, t_c.
  cbn [fst snd t_w t_g g_x g_y g_z g_a g_c]. ring.
Qed.
Lemma cart_desc_is_scaled_raw o (s : shell F) m ic p :
  deriv_spec K o (cart_desc K s m ic) p = ncf K s m ic * deriv_spec K o (cart_desc_raw s m ic) p.
Proof. now rewrite cart_desc_raw_entry, (cart_entry K Kf). Qed.

Theorem eval_spec_rotation_law :
  forall R, orthogonal K R -> forall (s : shell F), s_comps s = [] ->
  forall m j (r : point (F:=F)), (j < length (default_comps (s_l s)))%nat ->
    let cmp i := nth i (default_comps (s_l s)) (0, 0, 0)%nat in
    dfnorm K (cmp j) * eval_spec K (cart_desc_raw s m j) r
    = fsum (map (fun i => rep_mat K R (cmp i) (cmp j) * dfnorm K (cmp i)
                          * eval_spec K (cart_desc_raw (rot_shell K R s) m i) (mapply K R r))
                (seq 0 (length (default_comps (s_l s))))).
Proof.
  intros R HO s Hc m j r Hj cmp. unfold eval_spec.
  rewrite cart_desc_raw_entry, raw_entry_contracted1, (compi_default s Hc).
  etransitivity; [apply (raw_entry_rotation_law R s Hc (0, 0, 0)%nat _ m j r Hj)|].
  - intro alpha. apply eval_prim_rotation_covariant, HO.
  - apply fsum_map_ext_in. intros i _. now rewrite cart_desc_raw_entry.
Qed.
End RotEval.

(* Examples over Qc.  exp is the IDENTITY stand-in (so the argument of exp is visible in the value; nothing is assumed
   about exp), sqrt = 1. *)
From Coq Require Import ZArith QArith Qcanon.
Definition evKQ : Fops Qc := QcK true (Q2Qc 3) (fun _ => Q2Qc 1) (fun x => x) (fun x => x) (fun _ x => x).
Section Examples.
Let KQ : Fops Qc := evKQ.
Let KQf : is_field KQ := QcK_field _ _ _ _ _ _.
Let q (n : Z) (d : positive) : Qc := qc_of n d.
Definition evP : shell Qc :=
  mkShell Qc 1 (q 1 2) (q (-1) 1) (q 2 1) [q 3 2; q 1 4] [[q 1 1; q 2 1]; [q (-1) 3; q 1 2]] false [] [].
Definition evD : shell Qc :=
  mkShell Qc 2 (q 0 1) (q 1 3) (q (-1) 1) [q 2 3] [[q 5 7]] false [] [].
Definition evpts : list (Qc * Qc * Qc) := [(q 1 3, q 1 2, q (-1) 4); (q (-2) 1, q 0 1, q 1 5)].

Lemma evKQ_hyps : (forall x, fapx KQ x = x) /\ (forall c, dfnorm KQ c <> f0 KQ).
Proof.
  split; [reflexivity|]. intros c H. apply (f_equal this) in H. vm_compute in H. discriminate H.
Qed.

Example eval_prim_rotation_improper :
  forall A alpha a r,
  Jsum KQ (fun a' => gauss_prim KQ (mapply KQ Rimp A) alpha a' (mapply KQ Rimp r)) (rot_expand KQ Rimp a)
  = gauss_prim KQ A alpha a r.
Proof. intros. apply (eval_prim_rotation_covariant KQ KQf), orthogonal_Rimp. Qed.

Definition prim_cov_check (R : @mat3 Qc) (a : comp) : bool :=
  let A := (q 1 2, q (-1) 1, q 2 1) in let r := (q 1 3, q 1 2, q (-1) 4) in
  Qeq_bool (Jsum KQ (fun a' => gauss_prim KQ (mapply KQ R A) (q 3 2) a' (mapply KQ R r)) (rot_expand KQ R a))
           (gauss_prim KQ A (q 3 2) a r).
Definition grad_cov_check (R : @mat3 Qc) (i : axis) (a : comp) : bool :=
  let A := (q 1 2, q (-1) 1, q 2 1) in let r := (q 1 3, q 1 2, q (-1) 4) in
  Qeq_bool (Jsum KQ (fun a' => gauss_prim_deriv KQ (eax i) (mapply KQ R A) (q 3 2) a' (mapply KQ R r))
              (rot_expand KQ R a))
           (sum3 KQ (fun k => fmul KQ (matf R i k) (gauss_prim_deriv KQ (eax k) A (q 3 2) a r))).
Example eval_prim_rotation_computed :
  forallb (fun R => forallb (prim_cov_check R) (default_comps 0 ++ default_comps 1 ++ default_comps 2))
    [R345; Rimp] = true.
Proof.
  apply forallb_forall. intros R HR. apply forallb_all. intro a. apply Qeq_bool_of_eq.
  apply (eval_prim_rotation_covariant KQ KQf), orthogonal_R345_Rimp, HR.
Qed.
Example eval_prim_gradient_rotation_computed :
  forallb (fun R => forallb (fun i => forallb (grad_cov_check R i) (default_comps 1 ++ [(1, 1, 0)%nat; (0, 0, 2)%nat]))
    [AX; AY; AZ]) [R345; Rimp] = true.
Proof.
  apply forallb_forall. intros R HR. apply forallb_all. intro i. apply forallb_all. intro a. apply Qeq_bool_of_eq.
  apply (eval_prim_gradient_rotation_covariant KQ KQf), orthogonal_R345_Rimp, HR.
Qed.
(* not vacuous: a p_x value does change under the rotation *)
Example eval_prim_not_invariant :
  Qeq_bool (gauss_prim KQ (mapply KQ R345 (q 1 2, q (-1) 1, q 2 1)) (q 3 2) (1, 0, 0)%nat
              (mapply KQ R345 (q 1 3, q 1 2, q (-1) 4)))
           (gauss_prim KQ (q 1 2, q (-1) 1, q 2 1) (q 3 2) (1, 0, 0)%nat (q 1 3, q 1 2, q (-1) 4)) = false.
Proof. vm_compute. reflexivity. Qed.

(* block law through the list-level model: contracted two-segment p shell and a d shell, two points, both rotations *)
Definition eval_law_check (R : @mat3 Qc) (l : nat) (E E' : list (list (list Qc))) (m j p : nat) : bool :=
  let cmp i := nth i (default_comps l) (0, 0, 0)%nat in
  Qeq_bool (fmul KQ (dfnorm KQ (cmp j)) (nth p (nth j (nth m E []) []) (f0 KQ)))
    (FNum.fsum KQ (map (fun i => fmul KQ (fmul KQ (rep_mat KQ R (cmp i) (cmp j)) (dfnorm KQ (cmp i)))
                                   (nth p (nth i (nth m E' []) []) (f0 KQ)))
       (seq 0 (length (default_comps l))))).
Definition eval_law_all (s : shell Qc) (nseg_ : nat) : bool :=
  forallb (fun R =>
    match eval_block KQ s evpts (0, 0, 0)%nat General,
          eval_block KQ (rot_shell KQ R s) (map (mapply KQ R) evpts) (0, 0, 0)%nat General with
    | Some E, Some E' =>
        forallb (fun m => forallb (fun j => forallb (fun p => eval_law_check R (s_l s) E E' m j p) (seq 0 2))
          (seq 0 (length (default_comps (s_l s))))) (seq 0 nseg_)
    | _, _ => false
    end) [R345; Rimp].
Lemma eval_law_all_true s n : s_comps s = [] -> nseg s = n -> eval_law_all s n = true.
Proof.
  intros Hc Hn. destruct evKQ_hyps as [A B]. apply forallb_forall. intros R HR.
  destruct (eval_block KQ s evpts (0, 0, 0)%nat General) as [E|] eqn:HE; [|now apply eval_block_general in HE].
  destruct (eval_block KQ (rot_shell KQ R s) (map (mapply KQ R) evpts) (0, 0, 0)%nat General) as [E'|] eqn:HE';
    [|now apply eval_block_general in HE'].
  apply forallb_seq. intros m Hm. apply forallb_seq. intros j Hj. apply forallb_seq. intros p Hp.
  apply Qeq_bool_of_eq.
  apply (eval_block_rotation_law KQ KQf A B R (orthogonal_R345_Rimp _ _ _ _ _ _ R HR) s evpts Hc E E' HE HE');
    [lia|exact Hj|exact Hp].
Qed.
Example eval_block_law_computed : eval_law_all evP 2 && eval_law_all evD 1 = true.
Proof. rewrite (eval_law_all_true evP 2), (eval_law_all_true evD 1) by reflexivity. reflexivity. Qed.
End Examples.
