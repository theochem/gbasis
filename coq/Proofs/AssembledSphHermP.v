(* Proofs/AssembledSphHermP.v — herm_assembly (C08) and the transformation law for the assembled momentum /
   angular-momentum matrices of a basis with ANY assignment of coordinate types.  Elements are vectors (lists
   over F of a fixed length d = 3) with Model/OneBody.vadd / vscale / vneg; every statement is reduced to its
   components (vcomp, EmixV_comp), where the finite sums are the field sums of Base/Sums.v and an entry
   is the double sum [dsum] of Proofs/AssembledSphOverlapP.v.  R[J][I] = -R[I][J] at every position again needs
   only antisymmetric DIAGONAL blocks (herm_assembly_mixed); with all pairs antisymmetric each component of an
   entry is (+)T on both indices of the matrix of the basis with every shell taken Cartesian
   (herm_mixed_is_cart_transformed). *)
From Coq Require Import List Arith Lia Bool Field.
From GB Require Import Base.Field Base.Tables Model.Shell Model.Spherical Model.Assembly Model.DiffOp Model.OneBody
  Proofs.BlockP Proofs.CoreSumP Proofs.CoreDiffP Proofs.AssemblyP Proofs.BlockMatP Proofs.AssembledP
  Proofs.AssembledOverlapP Proofs.AssembledHermP Proofs.AssembledSphP Proofs.AssembledSphOverlapP.
Import ListNotations.

Section VecSums.
Context {F : Type} (K : Fops F) (Kf : is_field K).
Add Field KFvs : Kf.
Local Open Scope F_scope.
Notation "0" := (f0 K) : F_scope.
Notation "1" := (f1 K) : F_scope.
Infix "+" := (fadd K) : F_scope.
Infix "*" := (fmul K) : F_scope.
Notation "- x" := (fopp K x) : F_scope.
Notation fsum := (FNum.fsum K).

Lemma vscale_comp t (v : list F) k : k < length v -> nth k (vscale K t v) 0 = t * nth k v 0.
Proof. intros Hk. unfold vscale. now rewrite (nth_map_lt _ v k 0) by exact Hk. Qed.

Lemma vneg_comp (v : list F) k : k < length v -> nth k (vneg K v) 0 = - nth k v 0.
Proof. intros Hk. unfold vneg. now rewrite (nth_map_lt _ v k 0) by exact Hk. Qed.

(* v is a d-vector with components c: nth k as a homomorphism, in the form that composes rule by rule *)
Definition vcomp d (v : list F) (c : nat -> F) : Prop := length v = d /\ forall k, k < d -> nth k v 0 = c k.

Lemma vcomp_self d (v : list F) : length v = d -> vcomp d v (fun k => nth k v 0).
Proof. intros H. now split. Qed.

Lemma vcomp_ext d v c c' : vcomp d v c -> (forall k, k < d -> c k = c' k) -> vcomp d v c'.
Proof. intros [L E] H. split; [exact L|]. intros k Hk. now rewrite (E k Hk), (H k Hk). Qed.

Lemma vcomp_eq d x y c : vcomp d x c -> vcomp d y c -> x = y.
Proof.
  intros [Lx Ex] [Ly Ey]. apply (nth_ext _ _ 0 0); [congruence|]. intros k Hk. now rewrite Ex, Ey by lia.
Qed.

Lemma vcomp_scale t d v c : vcomp d v c -> vcomp d (vscale K t v) (fun k => t * c k).
Proof.
  intros [L E]. split; [unfold vscale; now rewrite map_length|]. intros k Hk.
  rewrite vscale_comp by lia. now rewrite E.
Qed.

Lemma vcomp_neg d v c : vcomp d v c -> vcomp d (vneg K v) (fun k => - c k).
Proof.
  intros [L E]. split; [unfold vneg; now rewrite map_length|]. intros k Hk.
  rewrite vneg_comp by lia. now rewrite E.
Qed.

Lemma vcomp_add d x y cx cy : vcomp d x cx -> vcomp d y cy -> vcomp d (vadd K x y) (fun k => cx k + cy k).
Proof.
  intros [Lx Ex] [Ly Ey]. unfold vadd. destruct x as [|a x]; [|destruct y as [|b y]].
  - cbn in Lx. subst d. split; [exact Ly|]. intros k Hk. lia.
  - cbn in Lx, Ly. lia.
  - split; [rewrite map_length, combine_length; lia|]. intros k Hk.
    rewrite (nth_map_combine _ (a :: x) (b :: y) k 0 0 0) by lia. now rewrite Ex, Ey.
Qed.

(* a linear combination of L >= 1 vectors (the empty sum is the empty vector, of no length d > 0) *)
Lemma vsum_mk_comp L (coef : nat -> F) (f : nat -> list F) (c : nat -> nat -> F) d :
  0 < L -> (forall i, i < L -> vcomp d (f i) (c i)) ->
  vcomp d (asum vzero (vadd K) (mk L (fun i => vscale K (coef i) (f i))))
    (fun k => fsum (mk L (fun i => coef i * c i k))).
Proof.
  destruct L as [|L]; [lia|]. intros _. revert coef f c. induction L as [|L IH]; intros coef f c Hf.
  - change (vcomp d (vadd K (vscale K (coef O) (f O)) []) (fun k => coef O * c O k + 0)).
    replace (vadd K (vscale K (coef O) (f O)) []) with (vscale K (coef O) (f O)) by (now destruct (f O)).
    apply (vcomp_ext d _ _ _ (vcomp_scale (coef O) d _ _ (Hf O ltac:(lia)))). intros k Hk. ring.
  - rewrite mk_cons.
    apply (vcomp_ext d _ _ _ (vcomp_add d _ _ _ _ (vcomp_scale (coef O) d _ _ (Hf O ltac:(lia)))
             (IH (fun i => coef (S i)) (fun i => f (S i)) (fun i => c (S i)) (fun i Hi => Hf (S i) ltac:(lia))))).
    intros k Hk. now rewrite (fsum_mk_S_front K (S L)).
Qed.

Lemma tsum_vec_comp sph T L q (f : nat -> list F) (c : nat -> nat -> F) d :
  0 < L -> (sph = false -> q < L) -> (forall i, i < L -> vcomp d (f i) (c i)) ->
  vcomp d (tsum K vzero (vadd K) (vscale K) sph T L q f)
    (fun k => tsum K 0 (fadd K) (fmul K) sph T L q (fun i => c i k)).
Proof.
  intros HL Hq Hf. unfold tsum. destruct sph; [now apply vsum_mk_comp|]. exact (Hf q (Hq eq_refl)).
Qed.
End VecSums.

Section HermMixed.
Context {F : Type} (K : Fops F) (Kf : is_field K).
Add Field KFhm : Kf.
Local Open Scope F_scope.
Notation "0" := (f0 K) : F_scope.
Notation "1" := (f1 K) : F_scope.
Infix "+" := (fadd K) : F_scope.
Infix "*" := (fmul K) : F_scope.
Notation "- x" := (fopp K x) : F_scope.
Notation fsum := (FNum.fsum K).

Section Generic.
Variable blockf : shell F -> shell F -> list (list (list (list (list F)))).
Variable bs : list (shell F).
Variable d : nat.
Hypothesis C : seg_basis bs.
Hypothesis HB : blocks_shaped blockf bs bs.
Hypothesis HD : forall sa sb, In sa bs -> In sb bs -> forall ma ia mb ib,
  ma < nseg sa -> ia < ncomp sa -> mb < nseg sb -> ib < ncomp sb ->
  length (get4 [] ma ia mb ib (blockf sa sb)) = d.

Notation s_ k := (sh_at K bs k).
Notation Rm := (two_symm_integral_h K vzero (vadd K) (vscale K) (vneg K) blockf bs None).
Notation EmixV := (Emix K vzero (vadd K) (vscale K) blockf).

Lemma EmixV_comp a b m1 q1 m2 q2 : In a bs -> In b bs ->
  m1 < nseg a -> q1 < osize a -> m2 < nseg b -> q2 < osize b ->
  vcomp K d (EmixV a b m1 q1 m2 q2) (fun k =>
    dsum K a b q1 q2 (fun c1 c2 => ncont K a m1 c1 * ncont K b m2 c2 * nth k (get4 [] m1 c1 m2 c2 (blockf a b)) 0)).
Proof.
  intros Ia Ib H1 Hq1 H2' Hq2. unfold Emix.
  change (@get4 (list F) (@vzero F)) with (@get4 (list F) (@nil F)).
  eapply (vcomp_ext K).
  - apply (tsum_vec_comp K Kf); [apply ncomp_pos | now apply osize_cart |]. intros c2 Hc2.
    apply (tsum_vec_comp K Kf); [apply ncomp_pos | now apply osize_cart |]. intros c1 Hc1.
    apply (vcomp_scale K), vcomp_self. now apply HD.
  - intros k Hk. now apply (tsum2_dsum K Kf).
Qed.

Lemma herm_mixed_entry i j m q m' q' :
  i < length bs -> j < length bs ->
  m < nseg (s_ i) -> q < osize (s_ i) -> m' < nseg (s_ j) -> q' < osize (s_ j) ->
  nth (oidx K bs j m' q') (nth (oidx K bs i m q) Rm []) []
  = if Nat.ltb i j then EmixV (s_ i) (s_ j) m q m' q' else vneg K (EmixV (s_ j) (s_ i) m' q' m q).
Proof.
  intros Hi Hj Hm Hq Hm' Hq'.
  exact (two_symm_h_mixed_entry K vzero (vadd K) (vscale K) blockf bs C HB (vneg K) i j m q m' q' Hi Hj Hm Hq Hm' Hq').
Qed.

Theorem herm_assembly_mixed : diag_antisym K blockf bs ->
  forall I J, I < ototal K bs -> J < ototal K bs ->
  nth I (nth J Rm []) [] = vneg K (nth J (nth I Rm []) []).
Proof.
  intros Hd I J HI HJ.
  destruct (oidx_surj K bs I HI) as (i & m & q & Hi & Hm & Hq & ->).
  destruct (oidx_surj K bs J HJ) as (j & m' & q' & Hj & Hm' & Hq' & ->).
  rewrite (herm_mixed_entry i j m q m' q') by assumption.
  rewrite (herm_mixed_entry j i m' q' m q) by assumption.
  destruct (Nat.lt_trichotomy i j) as [Hlt|[Heq|Hgt]].
  - destruct (Nat.ltb_spec i j); [|lia]. destruct (Nat.ltb_spec j i); [lia|]. reflexivity.
  - subst j. rewrite Nat.ltb_irrefl. rewrite (vneg_invol K Kf).
    assert (Is : In (s_ i) bs) by (now apply nth_In).
    symmetry. apply (vcomp_eq K d _ _ _ (EmixV_comp (s_ i) (s_ i) m' q' m q Is Is Hm' Hq' Hm Hq)).
    apply (vcomp_ext K d _ _ _ (vcomp_neg K d _ _ (EmixV_comp (s_ i) (s_ i) m q m' q' Is Is Hm Hq Hm' Hq'))).
    intros k Hk. rewrite <- (dsum_opp K Kf), (dsum_swap K Kf). apply dsum_ext. intros c' c Hc' Hc.
    rewrite (Hd (s_ i) Is m c m' c') by assumption.
    rewrite (vneg_comp K) by (rewrite HD by assumption; exact Hk). ring.
  - destruct (Nat.ltb_spec i j); [lia|]. destruct (Nat.ltb_spec j i); [|lia]. now rewrite (vneg_invol K Kf).
Qed.

Theorem herm_mixed_entry_all : pair_antisym K blockf bs ->
  forall i j m q m' q', i < length bs -> j < length bs ->
  m < nseg (s_ i) -> q < osize (s_ i) -> m' < nseg (s_ j) -> q' < osize (s_ j) ->
  vcomp K d (nth (oidx K bs j m' q') (nth (oidx K bs i m q) Rm []) []) (fun k =>
    dsum K (s_ i) (s_ j) q q' (fun c c' =>
      ncont K (s_ i) m c * ncont K (s_ j) m' c' * nth k (get4 [] m c m' c' (blockf (s_ i) (s_ j))) 0)).
Proof.
  intros Hp i j m q m' q' Hi Hj Hm Hq Hm' Hq'. rewrite herm_mixed_entry by assumption.
  assert (Ii : In (s_ i) bs) by (now apply nth_In). assert (Ij : In (s_ j) bs) by (now apply nth_In).
  destruct (Nat.ltb i j); [now apply EmixV_comp|].
  apply (vcomp_ext K d _ _ _ (vcomp_neg K d _ _ (EmixV_comp (s_ j) (s_ i) m' q' m q Ij Ii Hm' Hq' Hm Hq))).
  intros k Hk. rewrite <- (dsum_opp K Kf), (dsum_swap K Kf). apply dsum_ext. intros c c' Hc Hc'.
  rewrite (Hp (s_ i) (s_ j) Ii Ij m c m' c') by assumption.
  rewrite (vneg_comp K) by (rewrite HD by assumption; exact Hk). ring.
Qed.

(* (+)T on both indices of the all-Cartesian matrix, component by component, for a block function that does
   not look at the coordinate type *)
Hypothesis Hcart : forall a b, blockf (to_cart a) (to_cart b) = blockf a b.
Notation bsc := (map to_cart bs).

Lemma pair_antisym_to_cart : pair_antisym K blockf bs -> pair_antisym K blockf bsc.
Proof.
  intros Hp sa sb Ha Hb. apply in_map_iff in Ha. destruct Ha as [a0 [<- Ha0]].
  apply in_map_iff in Hb. destruct Hb as [b0 [<- Hb0]]. rewrite !Hcart. exact (Hp a0 b0 Ha0 Hb0).
Qed.

Theorem herm_mixed_is_cart_transformed : pair_antisym K blockf bs ->
  forall i j m q m' q', i < length bs -> j < length bs ->
  m < nseg (s_ i) -> q < osize (s_ i) -> m' < nseg (s_ j) -> q' < osize (s_ j) ->
  let e := nth (oidx K bs j m' q') (nth (oidx K bs i m q) Rm []) [] in
  length e = d /\
  forall k, k < d ->
    nth k e 0 = dsum K (s_ i) (s_ j) q q' (fun c c' =>
      nth k (nth (gidx K bsc j m' c') (nth (gidx K bsc i m c)
               (two_symm_integral_h K vzero (vadd K) (vscale K) (vneg K) blockf bsc None) []) []) 0).
Proof.
  intros Hp i j m q m' q' Hi Hj Hm Hq Hm' Hq'. cbv zeta.
  apply (vcomp_ext K d _ _ _ (herm_mixed_entry_all Hp i j m q m' q' Hi Hj Hm Hq Hm' Hq')).
  intros k Hk. apply dsum_ext. intros c c' Hc Hc'.
  rewrite (herm_entry_all K Kf blockf bsc (cart_basis_to_cart bs C) (blocks_shaped_to_cart blockf bs Hcart HB)
             (pair_antisym_to_cart Hp) i j m c m' c');
    rewrite ?map_length, ?sh_at_to_cart; try assumption.
  rewrite Hcart. symmetry. apply (vscale_comp K).
  rewrite HD by (assumption || now apply (sh_in K)). exact Hk.
Qed.
End Generic.

Hypothesis Hapx : forall x : F, fapx K x = x.
Hypothesis H2 : 1 + 1 <> 0.

Section Inst.
Variable bs : list (shell F).
Hypothesis C : seg_basis bs.
Hypothesis W : basis_wf bs.
Hypothesis E : basis_exps K bs bs.
Notation s_ k := (sh_at K bs k).
Notation bsc := (map to_cart bs).

Lemma momentum_len3 sa sb : In sa bs -> In sb bs -> forall ma ia mb ib,
  ma < nseg sa -> ia < ncomp sa -> mb < nseg sb -> ib < ncomp sb ->
  length (get4 [] ma ia mb ib (momentum_block_re K sa sb)) = 3.
Proof.
  intros Ia Ib ma ia mb ib H1 H3 H4 H5.
  now rewrite (momentum_block_correct K Kf Hapx H2 sa sb ma ia mb ib (W _ Ia) (W _ Ib) (E _ _ Ia Ib) H1 H3 H4 H5).
Qed.
Lemma angmom_len3 sa sb : In sa bs -> In sb bs -> forall ma ia mb ib,
  ma < nseg sa -> ia < ncomp sa -> mb < nseg sb -> ib < ncomp sb ->
  length (get4 [] ma ia mb ib (angmom_block_re K sa sb)) = 3.
Proof.
  intros Ia Ib ma ia mb ib H1 H3 H4 H5.
  now rewrite (angmom_block_correct K Kf Hapx H2 sa sb ma ia mb ib (W _ Ia) (W _ Ib) (E _ _ Ia Ib) H1 H3 H4 H5).
Qed.

Theorem momentum_integral_herm_mixed I J : I < ototal K bs -> J < ototal K bs ->
  nth I (nth J (momentum_integral_re K bs None) []) []
  = vneg K (nth J (nth I (momentum_integral_re K bs None) []) []).
Proof.
  unfold momentum_integral_re.
  apply (herm_assembly_mixed (momentum_block_re K) bs 3 C (momentum_shaped K bs) momentum_len3).
  apply pair_antisym_diag. exact (momentum_pair_antisym K Kf Hapx H2 bs W E).
Qed.

Theorem angmom_integral_herm_mixed I J : I < ototal K bs -> J < ototal K bs ->
  nth I (nth J (angmom_integral_re K bs None) []) []
  = vneg K (nth J (nth I (angmom_integral_re K bs None) []) []).
Proof.
  unfold angmom_integral_re.
  apply (herm_assembly_mixed (angmom_block_re K) bs 3 C (angmom_shaped K bs) angmom_len3).
  apply pair_antisym_diag. exact (angmom_pair_antisym K Kf Hapx H2 bs W E).
Qed.

Theorem momentum_mixed_is_cart_transformed i j m q m' q' :
  i < length bs -> j < length bs ->
  m < nseg (s_ i) -> q < osize (s_ i) -> m' < nseg (s_ j) -> q' < osize (s_ j) ->
  let e := nth (oidx K bs j m' q') (nth (oidx K bs i m q) (momentum_integral_re K bs None) []) [] in
  length e = 3 /\
  forall k, k < 3 ->
    nth k e 0 = dsum K (s_ i) (s_ j) q q' (fun c c' =>
      nth k (nth (gidx K bsc j m' c') (nth (gidx K bsc i m c) (momentum_integral_re K bsc None) []) []) 0).
Proof.
  exact (herm_mixed_is_cart_transformed (momentum_block_re K) bs 3 C (momentum_shaped K bs) momentum_len3
           (fun _ _ => eq_refl) (momentum_pair_antisym K Kf Hapx H2 bs W E) i j m q m' q').
Qed.

Theorem angmom_mixed_is_cart_transformed i j m q m' q' :
  i < length bs -> j < length bs ->
  m < nseg (s_ i) -> q < osize (s_ i) -> m' < nseg (s_ j) -> q' < osize (s_ j) ->
  let e := nth (oidx K bs j m' q') (nth (oidx K bs i m q) (angmom_integral_re K bs None) []) [] in
  length e = 3 /\
  forall k, k < 3 ->
    nth k e 0 = dsum K (s_ i) (s_ j) q q' (fun c c' =>
      nth k (nth (gidx K bsc j m' c') (nth (gidx K bsc i m c) (angmom_integral_re K bsc None) []) []) 0).
Proof.
  exact (herm_mixed_is_cart_transformed (angmom_block_re K) bs 3 C (angmom_shaped K bs) angmom_len3
           (fun _ _ => eq_refl) (angmom_pair_antisym K Kf Hapx H2 bs W E) i j m q m' q').
Qed.
End Inst.
End HermMixed.
