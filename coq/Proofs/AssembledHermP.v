(* Proofs/AssembledHermP.v — herm_assembly (C08): the assembled momentum / angular-momentum matrices of a
   basis of Cartesian shells (Model/OneBody.momentum_integral_re, angmom_integral_re with T = None; the model
   carries the REAL array R of the value -i R, elements = triples (x, y, z)).

   What the model does (two_symm_blocks_h): blocks strictly above the diagonal (i < j) are the evaluated,
   normalised blocks; EVERY other block, the diagonal ones (i = j) included, is conj(transpose(.)) of the
   evaluated block of the mirrored position, conj = negation of R (= complex conjugation of -iR).
   So R[J][I] = - R[I][J] at ALL positions needs only that the DIAGONAL blocks are antisymmetric
   (herm_assembly_cart: for i <> j one of the two positions is by construction the negated transpose of the
   other); hence -iR is Hermitian.  If moreover block(b,a) = - block(a,b)^T for all pairs, every entry is the
   normalised block entry of the ordered pair (row shell, column shell), whatever the triangle (herm_entry_all). *)
From Coq Require Import List Arith Lia Bool Field.
From GB Require Import Base.Field Model.Shell Model.DiffOp Model.OneBody Proofs.CoreSumP Proofs.CoreDiffP
  Proofs.AssembledP Proofs.AssembledSphP Proofs.AssembledOverlapP.
Import ListNotations.

Section Herm.
Context {F : Type} (K : Fops F) (Kf : is_field K).
Add Field KFherm : Kf.
Local Open Scope F_scope.
Notation "0" := (f0 K) : F_scope.
Notation "1" := (f1 K) : F_scope.
Infix "+" := (fadd K) : F_scope.
Infix "*" := (fmul K) : F_scope.
Notation "- x" := (fopp K x) : F_scope.

Lemma vneg_invol (x : list F) : vneg K (vneg K x) = x.
Proof. unfold vneg. rewrite map_map. rewrite <- (map_id x) at 2. apply map_ext. intros a. ring. Qed.

Lemma vscale_vneg t (x : list F) : vscale K t (vneg K x) = vneg K (vscale K t x).
Proof. unfold vscale, vneg. rewrite !map_map. apply map_ext. intros a. ring. Qed.

Lemma vscale_comm a b (x : list F) : vscale K (a * b) x = vscale K (b * a) x.
Proof. unfold vscale. apply map_ext. intros y. ring. Qed.

Section Generic.
Variable blockf : shell F -> shell F -> list (list (list (list (list F)))).
Variable bs : list (shell F).
Hypothesis C : cart_basis bs.
Hypothesis HB : blocks_shaped blockf bs bs.

Notation s_ k := (sh_at K bs k).
Notation Rm := (two_symm_integral_h K vzero (vadd K) (vscale K) (vneg K) blockf bs None).

Lemma herm_entry i j m c m' c' :
  i < length bs -> j < length bs ->
  m < nseg (s_ i) -> c < ncomp (s_ i) -> m' < nseg (s_ j) -> c' < ncomp (s_ j) ->
  nth (gidx K bs j m' c') (nth (gidx K bs i m c) Rm []) []
  = if Nat.ltb i j
    then vscale K (ncont K (s_ i) m c * ncont K (s_ j) m' c') (get4 [] m c m' c' (blockf (s_ i) (s_ j)))
    else vneg K (vscale K (ncont K (s_ j) m' c' * ncont K (s_ i) m c)
                   (get4 [] m' c' m c (blockf (s_ j) (s_ i)))).
Proof.
  intros Hi Hj Hm Hc Hm' Hc'.
  exact (two_symm_h_cart_entry K vzero (vadd K) (vscale K) blockf bs C HB (vneg K) i j m c m' c' Hi Hj Hm Hc Hm' Hc').
Qed.

(* exactly what is needed: the diagonal blocks are antisymmetric *)
Definition diag_antisym : Prop :=
  forall s, In s bs -> forall m c m' c', m < nseg s -> c < ncomp s -> m' < nseg s -> c' < ncomp s ->
    get4 [] m' c' m c (blockf s s) = vneg K (get4 [] m c m' c' (blockf s s)).

Theorem herm_assembly_cart : diag_antisym ->
  forall I J, I < btotal K bs -> J < btotal K bs ->
  nth I (nth J Rm []) [] = vneg K (nth J (nth I Rm []) []).
Proof.
  intros Hd I J HI HJ.
  destruct (gidx_surj K bs I HI) as (i & m & c & Hi & Hm & Hc & ->).
  destruct (gidx_surj K bs J HJ) as (j & m' & c' & Hj & Hm' & Hc' & ->).
  rewrite (herm_entry i j m c m' c') by assumption.
  rewrite (herm_entry j i m' c' m c) by assumption.
  destruct (Nat.lt_trichotomy i j) as [Hlt|[Heq|Hgt]].
  - destruct (Nat.ltb_spec i j); [|lia]. destruct (Nat.ltb_spec j i); [lia|]. reflexivity.
  - subst j. rewrite Nat.ltb_irrefl. rewrite vneg_invol.
    rewrite (Hd (s_ i) (sh_in K bs i Hi) m c m' c') by assumption.
    rewrite vscale_vneg. f_equal. apply vscale_comm.
  - destruct (Nat.ltb_spec i j); [lia|]. destruct (Nat.ltb_spec j i); [|lia]. now rewrite vneg_invol.
Qed.

(* all pairs of blocks are each other's negated transposes *)
Definition pair_antisym : Prop :=
  forall sa sb, In sa bs -> In sb bs -> forall ma ia mb ib,
    ma < nseg sa -> ia < ncomp sa -> mb < nseg sb -> ib < ncomp sb ->
    get4 [] mb ib ma ia (blockf sb sa) = vneg K (get4 [] ma ia mb ib (blockf sa sb)).

Lemma pair_antisym_diag : pair_antisym -> diag_antisym.
Proof. intros H s Hs m c m' c' Hm Hc Hm' Hc'. now apply H. Qed.

(* every entry, in either triangle and on the diagonal blocks, is the normalised block entry of the
   ordered pair (shell of the row, shell of the column) *)
Theorem herm_entry_all : pair_antisym ->
  forall i j m c m' c', i < length bs -> j < length bs ->
  m < nseg (s_ i) -> c < ncomp (s_ i) -> m' < nseg (s_ j) -> c' < ncomp (s_ j) ->
  nth (gidx K bs j m' c') (nth (gidx K bs i m c) Rm []) []
  = vscale K (ncont K (s_ i) m c * ncont K (s_ j) m' c') (get4 [] m c m' c' (blockf (s_ i) (s_ j))).
Proof.
  intros Hp i j m c m' c' Hi Hj Hm Hc Hm' Hc'. rewrite herm_entry by assumption.
  destruct (Nat.ltb i j); [reflexivity|].
  rewrite (Hp (s_ i) (s_ j) (sh_in K bs i Hi) (sh_in K bs j Hj) m c m' c') by assumption.
  rewrite vscale_vneg, vneg_invol. apply vscale_comm.
Qed.
End Generic.

Hypothesis Hapx : forall x : F, fapx K x = x.
Hypothesis H2 : 1 + 1 <> 0.

(* a block of 3-vectors zipped from its three component blocks *)
Lemma zip3_spec (X Y Z : list (list (list (list F)))) n1 n2 n3 n4 :
  shape4 n1 n2 n3 n4 X -> shape4 n1 n2 n3 n4 Y -> shape4 n1 n2 n3 n4 Z ->
  let V := zip4 (fun (xy : list F) (z : F) => xy ++ [z]) (zip4 (fun x y : F => [x; y]) X Y) Z in
  shape4 n1 n2 n3 n4 V /\
  forall i1 i2 i3 i4, i1 < n1 -> i2 < n2 -> i3 < n3 -> i4 < n4 ->
    get4 [] i1 i2 i3 i4 V = [get4 0 i1 i2 i3 i4 X; get4 0 i1 i2 i3 i4 Y; get4 0 i1 i2 i3 i4 Z].
Proof.
  intros SX SY SZ.
  destruct (zip4_spec (fun x y : F => [x; y]) _ _ _ _ _ _ 0 0 [] SX SY) as [Sxy Exy].
  destruct (zip4_spec (fun (xy : list F) (z : F) => xy ++ [z]) _ _ _ _ _ _ [] 0 [] Sxy SZ) as [Sxyz Exyz].
  split; [exact Sxyz|]. intros i1 i2 i3 i4 H1 H2' H3 H4.
  rewrite Exyz by assumption. rewrite Exy by assumption. reflexivity.
Qed.

Lemma momentum_block_shape (sa sb : shell F) :
  shape4 (nseg sa) (ncomp sa) (nseg sb) (ncomp sb) (momentum_block_re K sa sb).
Proof.
  unfold momentum_block_re, diffop_block. cbv zeta. cbn [map]. apply zip3_spec; apply (block_of_shape K).
Qed.

Lemma angmom_block_shape (sa sb : shell F) :
  shape4 (nseg sa) (ncomp sa) (nseg sb) (ncomp sb) (angmom_block_re K sa sb).
Proof. unfold angmom_block_re. cbv zeta. apply zip3_spec; apply (block_of_shape K). Qed.

Section Inst.
Variable bs : list (shell F).
Hypothesis C : cart_basis bs.
Hypothesis W : basis_wf bs.
Hypothesis E : basis_exps K bs bs.
Notation s_ k := (sh_at K bs k).

Lemma momentum_shaped : blocks_shaped (momentum_block_re K) bs bs.
Proof. intros sa sb _ _. apply momentum_block_shape. Qed.
Lemma angmom_shaped : blocks_shaped (angmom_block_re K) bs bs.
Proof. intros sa sb _ _. apply angmom_block_shape. Qed.

Lemma momentum_pair_antisym : pair_antisym (momentum_block_re K) bs.
Proof.
  intros sa sb Ha Hb ma ia mb ib Hma Hia Hmb Hib.
  exact (momentum_block_antisym K Kf Hapx H2 sa sb ma ia mb ib (W _ Ha) (W _ Hb) (E _ _ Ha Hb) Hma Hia Hmb Hib).
Qed.
Lemma angmom_pair_antisym : pair_antisym (angmom_block_re K) bs.
Proof.
  intros sa sb Ha Hb ma ia mb ib Hma Hia Hmb Hib.
  exact (angmom_block_antisym K Kf Hapx H2 sa sb ma ia mb ib (W _ Ha) (W _ Hb) (E _ _ Ha Hb) Hma Hia Hmb Hib).
Qed.

Theorem momentum_integral_herm I J : I < btotal K bs -> J < btotal K bs ->
  nth I (nth J (momentum_integral_re K bs None) []) []
  = vneg K (nth J (nth I (momentum_integral_re K bs None) []) []).
Proof.
  unfold momentum_integral_re.
  apply (herm_assembly_cart (momentum_block_re K) bs C momentum_shaped).
  apply pair_antisym_diag, momentum_pair_antisym.
Qed.

Theorem angmom_integral_herm I J : I < btotal K bs -> J < btotal K bs ->
  nth I (nth J (angmom_integral_re K bs None) []) []
  = vneg K (nth J (nth I (angmom_integral_re K bs None) []) []).
Proof.
  unfold angmom_integral_re.
  apply (herm_assembly_cart (angmom_block_re K) bs C angmom_shaped).
  apply pair_antisym_diag, angmom_pair_antisym.
Qed.

(* every entry (any triangle) = normalised contracted spec of phi_a d/dx_k phi_b *)
Theorem momentum_integral_entry i j m c m' c' :
  i < length bs -> j < length bs ->
  m < nseg (s_ i) -> c < ncomp (s_ i) -> m' < nseg (s_ j) -> c' < ncomp (s_ j) ->
  let sa := s_ i in let sb := s_ j in
  let ca := nth c (comps_of sa) (0, 0, 0)%nat in let cb := nth c' (comps_of sb) (0, 0, 0)%nat in
  let nn := ncont K sa m c * ncont K sb m' c' in
  nth (gidx K bs j m' c') (nth (gidx K bs i m c) (momentum_integral_re K bs None) []) []
  = [ nn * contracted K sa sb ca cb m m' (mom_x_prim K sa sb ca cb);
      nn * contracted K sa sb ca cb m m' (mom_y_prim K sa sb ca cb);
      nn * contracted K sa sb ca cb m m' (mom_z_prim K sa sb ca cb) ].
Proof.
  intros Hi Hj Hm Hc Hm' Hc'. cbv zeta. unfold momentum_integral_re.
  rewrite (herm_entry_all (momentum_block_re K) bs C momentum_shaped momentum_pair_antisym) by assumption.
  now rewrite (momentum_block_correct K Kf Hapx H2 (s_ i) (s_ j) m c m' c') by auto using sh_in.
Qed.

Theorem angmom_integral_entry i j m c m' c' :
  i < length bs -> j < length bs ->
  m < nseg (s_ i) -> c < ncomp (s_ i) -> m' < nseg (s_ j) -> c' < ncomp (s_ j) ->
  let sa := s_ i in let sb := s_ j in
  let ca := nth c (comps_of sa) (0, 0, 0)%nat in let cb := nth c' (comps_of sb) (0, 0, 0)%nat in
  let nn := ncont K sa m c * ncont K sb m' c' in
  nth (gidx K bs j m' c') (nth (gidx K bs i m c) (angmom_integral_re K bs None) []) []
  = [ nn * contracted K sa sb ca cb m m' (ang_x_prim K sa sb ca cb);
      nn * contracted K sa sb ca cb m m' (ang_y_prim K sa sb ca cb);
      nn * contracted K sa sb ca cb m m' (ang_z_prim K sa sb ca cb) ].
Proof.
  intros Hi Hj Hm Hc Hm' Hc'. cbv zeta. unfold angmom_integral_re.
  rewrite (herm_entry_all (angmom_block_re K) bs C angmom_shaped angmom_pair_antisym) by assumption.
  now rewrite (angmom_block_correct K Kf Hapx H2 (s_ i) (s_ j) m c m' c') by auto using sh_in.
Qed.
End Inst.
End Herm.
