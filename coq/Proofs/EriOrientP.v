(* Proofs/EriOrientP.v — the eight orientations of a shell quartet give the same electron-repulsion block.

   electron_repulsion.py (after the orientation repair) evaluates the recursions of _two_elec_int.py for
   ONE of (ab|cd) (ba|cd) (ab|dc) (ba|dc) (cd|ab) (dc|ab) (cd|ba) (dc|ba), chosen by a floating-point
   conditioning estimate, and transposes the axes back (Model/TwoElec.v: orient, eri_block_oriented,
   eri_block_impl with the choice as an ORACLE).  The exact value does not depend on the choice: the
   recursion is asymmetric, but the per-axis moment M4 it computes is symmetric under a<->b, c<->d and
   (ab)<->(cd) (Stein/Wick rule, moving a mean = horizontal recursion), so the s-polynomials of two
   orientations have the same VALUES, hence (characteristic 0) the same Phi_0; the specification of
   two_elec_correct is therefore symmetric, and every orientation computes it. *)
From Coq Require Import List Arith Lia Field.
From GB Require Import Base.Field Base.FNum Base.Tables Base.Sums Gauss.Moment1D Gauss.SPoly Gauss.Wick2D
  Model.Shell Model.MomentInt Model.OneElec Model.TwoElec Proofs.OneElecP Proofs.TwoElecP.
Import ListNotations.

Section Abstract.
Context {F : Type} (K : Fops F) (Kf : is_field K).
Add Field KFeo : Kf.
Local Open Scope F_scope.
Notation "0" := (f0 K) : F_scope.
Notation "1" := (f1 K) : F_scope.
Infix "+" := (fadd K) : F_scope.
Infix "*" := (fmul K) : F_scope.
Infix "-" := (fsub K) : F_scope.
Infix "/" := (fdiv K) : F_scope.
Notation "- x" := (fopp K x) : F_scope.
Notation "# n" := (ofnat K n) (at level 5) : F_scope.
Notation Hf := (Hf K).
Notation M := (M K).

(* with T j = L(x^j):  Hf d T b a = L(x^a (x+d)^b).  Re-expanding around x+d and going back: *)
Lemma Hf_shift_swap d (h : nat -> F) : forall a b,
  Hf (- d) (fun j => Hf d h j 0%nat) a b = Hf d h b a.
Proof.
  induction a as [|a IH]; intros b; [reflexivity|].
  cbn [TwoElecP.Hf]. rewrite !IH. cbn [TwoElecP.Hf]. ring.
Qed.

Lemma Hf_commute d1 d2 (g : nat -> nat -> F) : forall n1 n2 x0 y0,
  Hf d1 (fun x => Hf d2 (fun y => g x y) n2 y0) n1 x0
  = Hf d2 (fun y => Hf d1 (fun x => g x y) n1 x0) n2 y0.
Proof.
  induction n1 as [|n1 IH]; intros n2 x0 y0; [reflexivity|].
  cbn [TwoElecP.Hf]. rewrite !IH.
  rewrite (Hf_ext K d2 (fun y => Hf d1 (fun x => g x y) n1 (S x0) + d1 * Hf d1 (fun x => g x y) n1 x0)
             (fun y => Hf d1 (fun x => g x y) n1 (S x0) + Hf d1 (fun x => g x y) n1 x0 * d1))
    by (intros; ring).
  rewrite (Hf_add K Kf d2 (fun y => Hf d1 (fun x => g x y) n1 (S x0))
             (fun y => Hf d1 (fun x => g x y) n1 x0 * d1)).
  rewrite (Hf_scale K Kf). ring.
Qed.

Section Shift.
Variables (a1 c1 s11 s12 s22 d : F).
Notation Mm := (M a1 c1 s11 s12 s22).

(* E[(y1+a1+d)^i (y1+a1)^j (y2+c1)^k] *)
Definition T3 (i j k : nat) : F := Hf d (fun j' => Mm j' k) i j.

Lemma T3_0 j k : T3 0 j k = Mm j k. Proof. reflexivity. Qed.
Lemma T3_S i j k : T3 (S i) j k = T3 i (S j) k + d * T3 i j k. Proof. reflexivity. Qed.

(* Stein's lemma for the three-factor product: raising the exponent of (y1 + a1) *)
Theorem M_stein3 : forall i j k,
  T3 i (S j) k = a1 * T3 i j k
               + s11 * (#j * T3 i (j - 1) k + #i * T3 (i - 1) j k)
               + s12 * (#k * T3 i j (k - 1)).
Proof.
  induction i as [|i IH]; intros j k.
  - rewrite !T3_0, (wick_first_rule K Kf), !(lo_pred K Kf). cbn [ofnat]. ring.
  - rewrite !T3_S, (IH (S j) k), (IH j k).
    replace (S j - 1)%nat with j by lia. replace (S i - 1)%nat with i by lia.
    destruct j as [|j]; destruct i as [|i]; cbn [Nat.sub];
      rewrite ?Nat.sub_0_r, ?T3_S, ?T3_0; cbn [ofnat]; ring.
Qed.

Theorem M_mean_shift1 i k :
  M (a1 + d) c1 s11 s12 s22 i k = Hf d (fun j => Mm j k) i 0.
Proof.
  symmetry.
  apply (M_unique K Kf (a1 + d) c1 s11 s12 s22 (fun i k => T3 i 0 k)).
  - reflexivity.
  - intros k'. rewrite !T3_0.
    rewrite (wick_second_rule K Kf), lo_0.
    rewrite (lo_ext K k' (fun k0 => T3 0 0 k0) (Mm 0%nat)) by (intros; apply T3_0). ring.
  - intros i' k'. rewrite T3_S, M_stein3, !(lo_pred K Kf). cbn [ofnat Nat.sub]. ring.
Qed.
End Shift.

Lemma rho_sym p q : rho K q p = rho K p q.
Proof. unfold rho. replace (q * p) with (p * q) by ring. replace (q + p) with (p + q) by ring. reflexivity. Qed.

(* exchanging the two electrons: p <-> q, PA <-> QC, PQ -> QP *)
Theorem Ms_el_swap p q PA QC PQ s i k :
  Ms K p q PA QC PQ s i k = Ms K q p QC PA (- PQ) s k i.
Proof.
  unfold Ms. rewrite (M_swap K Kf).
  assert (E1 : mean2 K p q QC PQ s = mean1 K q p QC (- PQ) s)
    by (unfold mean1, mean2; rewrite (rho_sym p q); ring).
  assert (E2 : mean1 K p q PA PQ s = mean2 K q p PA (- PQ) s)
    by (unfold mean1, mean2; rewrite (rho_sym p q); ring).
  assert (E3 : sig22 K p q s = sig11 K q p s)
    by (unfold sig11, sig22; rewrite (rho_sym p q); reflexivity).
  assert (E4 : sig12 K p q s = sig12 K q p s)
    by (unfold sig12; replace (q + p) with (p + q) by ring; reflexivity).
  assert (E5 : sig11 K p q s = sig22 K q p s)
    by (unfold sig11, sig22; rewrite (rho_sym p q); reflexivity).
  rewrite E1, E2, E3, E4, E5. reflexivity.
Qed.

Lemma wctr_sym a b x y : wctr K b a y x = wctr K a b x y.
Proof. unfold wctr. replace (b + a) with (a + b) by ring.
  replace (b * y + a * x) with (a * x + b * y) by ring. reflexivity. Qed.

(* the per-axis integrand E[(y1+PA)^a (y1+PB)^b (y2+QC)^c (y2+QD)^d] at s *)
Theorem M4_swap_ab alpha beta gamma delta xa xb xc xd s a b c d :
  M4 K alpha beta gamma delta xa xb xc xd s a b c d
  = M4 K beta alpha gamma delta xb xa xc xd s b a c d.
Proof.
  unfold M4, hh. cbv zeta.
  rewrite (wctr_sym alpha beta xa xb). replace (beta + alpha) with (alpha + beta) by ring.
  set (p := alpha + beta). set (q := gamma + delta).
  set (P := wctr K alpha beta xa xb). set (Q := wctr K gamma delta xc xd).
  (* the family seen from B is the family seen from A with the first mean moved by AB *)
  rewrite (Hf_ext K (xb - xa)
             (fun a' => Hf (xc - xd) (fun c' => Ms K p q (P - xb) (Q - xc) (P - Q) s a' c') d c)
             (fun b' => Hf (xa - xb) (fun a' =>
                          Hf (xc - xd) (fun c' => Ms K p q (P - xa) (Q - xc) (P - Q) s a' c') d c) b' 0%nat)).
  2:{ intros b'. rewrite <- Hf_commute. apply (Hf_ext K). intros c'.
      unfold Ms.
      replace (mean1 K p q (P - xb) (P - Q) s) with (mean1 K p q (P - xa) (P - Q) s + (xa - xb))
        by (unfold mean1; ring).
      apply M_mean_shift1. }
  replace (xb - xa) with (- (xa - xb)) by ring.
  symmetry. apply Hf_shift_swap.
Qed.

Theorem M4_swap_el alpha beta gamma delta xa xb xc xd s a b c d :
  M4 K alpha beta gamma delta xa xb xc xd s a b c d
  = M4 K gamma delta alpha beta xc xd xa xb s c d a b.
Proof.
  unfold M4, hh. cbv zeta.
  set (p := alpha + beta). set (q := gamma + delta).
  set (P := wctr K alpha beta xa xb). set (Q := wctr K gamma delta xc xd).
  rewrite Hf_commute. apply (Hf_ext K). intros c'. apply (Hf_ext K). intros a'.
  rewrite Ms_el_swap. replace (- (P - Q)) with (Q - P) by ring. reflexivity.
Qed.

(* c <-> d is a <-> b between two exchanges of the electrons *)
Theorem M4_swap_cd alpha beta gamma delta xa xb xc xd s a b c d :
  M4 K alpha beta gamma delta xa xb xc xd s a b c d
  = M4 K alpha beta delta gamma xa xb xd xc s a b d c.
Proof. etransitivity; [apply M4_swap_el|]. etransitivity; [apply M4_swap_ab|]. apply M4_swap_el. Qed.

End Abstract.

Section Spec.
Context {F : Type} (K : Fops F) (Kf : is_field K).
Add Field KFes : Kf.
Local Open Scope F_scope.
Notation "0" := (f0 K) : F_scope.
Notation "1" := (f1 K) : F_scope.
Infix "+" := (fadd K) : F_scope.
Infix "*" := (fmul K) : F_scope.
Infix "-" := (fsub K) : F_scope.
Infix "/" := (fdiv K) : F_scope.
Notation "# n" := (ofnat K n) (at level 5) : F_scope.
Notation Phi := (Phi K).
Notation peval := (peval K).

Lemma two_nz : (forall n, #(S n) <> 0) -> 1 + 1 <> 0.
Proof. intros H E. apply (H 1%nat). cbn [ofnat]. transitivity (1 + 1); [ring|exact E]. Qed.

Lemma csum_ext {A} ws m (xs : list A) f f' : (forall x, f x = f' x) -> csum K ws m xs f = csum K ws m xs f'.
Proof. intros H. apply csum_ext_in. intros x _. apply H. Qed.
Lemma csum_zero {A} ws m (xs : list A) : csum K ws m xs (fun _ => 0) = 0.
Proof.
  unfold csum. rewrite (map_ext _ (fun _ => 0)) by (intros; ring). apply (fsum_map_zero K Kf).
Qed.
Lemma csum_add {A} ws m (xs : list A) f g :
  csum K ws m xs (fun x => f x + g x) = csum K ws m xs f + csum K ws m xs g.
Proof. unfold csum. rewrite <- (fsum_map_add K Kf). f_equal. apply map_ext. intros wx. ring. Qed.
Lemma csum_scale_r {A} ws m (xs : list A) f k :
  csum K ws m xs (fun x => f x * k) = csum K ws m xs f * k.
Proof. unfold csum. rewrite <- (fsum_map_scale_r K Kf). f_equal. apply map_ext. intros wx. ring. Qed.

Lemma csum_swap {A B} w1 m1 (xs : list A) w2 m2 (ys : list B) (f : A -> B -> F) :
  csum K w1 m1 xs (fun x => csum K w2 m2 ys (fun y => f x y))
  = csum K w2 m2 ys (fun y => csum K w1 m1 xs (fun x => f x y)).
Proof.
  unfold csum.
  rewrite (map_ext _ (fun wx : F * list F * A => FNum.fsum K (map (fun wy : F * list F * B =>
      f (snd wx) (snd wy) * wcoef K m2 (fst wy) * wcoef K m1 (fst wx)) (combine w2 ys))))
    by (intros wx; symmetry; apply (fsum_map_scale_r K Kf)).
  rewrite (fsum_swap K Kf). f_equal. apply map_ext. intros wy.
  rewrite <- (fsum_map_scale_r K Kf). f_equal. apply map_ext. intros wx. ring.
Qed.

Lemma csum_pair_swap {A B C D} w1 m1 (xs : list A) w2 m2 (ys : list B) w3 m3 (zs : list C) w4 m4 (us : list D)
      (t : A -> B -> C -> D -> F) :
  csum K w1 m1 xs (fun x => csum K w2 m2 ys (fun y => csum K w3 m3 zs (fun z => csum K w4 m4 us (fun u => t x y z u))))
  = csum K w3 m3 zs (fun z => csum K w4 m4 us (fun u => csum K w1 m1 xs (fun x => csum K w2 m2 ys (fun y => t x y z u)))).
Proof.
  transitivity (csum K w1 m1 xs (fun x => csum K w3 m3 zs (fun z => csum K w2 m2 ys (fun y =>
                  csum K w4 m4 us (fun u => t x y z u))))).
  { apply csum_ext. intros x. apply (csum_swap w2 m2 ys w3 m3 zs). }
  rewrite (csum_swap w1 m1 xs w3 m3 zs).
  apply csum_ext. intros z.
  transitivity (csum K w1 m1 xs (fun x => csum K w4 m4 us (fun u => csum K w2 m2 ys (fun y => t x y z u)))).
  { apply csum_ext. intros x. apply (csum_swap w2 m2 ys w4 m4 us). }
  apply (csum_swap w1 m1 xs w4 m4 us).
Qed.

Lemma eri_base_swap_ab Ax Ay Az Bx By Bz Cx Cy Cz Dx Dy Dz alpha beta gamma delta m :
  eri_base K Ax Ay Az Bx By Bz Cx Cy Cz Dx Dy Dz alpha beta gamma delta m
  = eri_base K Bx By Bz Ax Ay Az Cx Cy Cz Dx Dy Dz beta alpha gamma delta m.
Proof.
  unfold eri_base, eri_pref, eri_T. cbv zeta. cbn [fst snd].
  replace (beta + alpha) with (alpha + beta) by ring.
  replace (beta * alpha) with (alpha * beta) by ring.
  replace (beta * Bx + alpha * Ax) with (alpha * Ax + beta * Bx) by ring.
  replace (beta * By + alpha * Ay) with (alpha * Ay + beta * By) by ring.
  replace (beta * Bz + alpha * Az) with (alpha * Az + beta * Bz) by ring.
  replace ((Bx - Ax) * (Bx - Ax) + (By - Ay) * (By - Ay) + (Bz - Az) * (Bz - Az))
    with ((Ax - Bx) * (Ax - Bx) + (Ay - By) * (Ay - By) + (Az - Bz) * (Az - Bz)) by ring.
  reflexivity.
Qed.
Lemma eri_base_swap_el Ax Ay Az Bx By Bz Cx Cy Cz Dx Dy Dz alpha beta gamma delta m :
  eri_base K Ax Ay Az Bx By Bz Cx Cy Cz Dx Dy Dz alpha beta gamma delta m
  = eri_base K Cx Cy Cz Dx Dy Dz Ax Ay Az Bx By Bz gamma delta alpha beta m.
Proof.
  unfold eri_base, eri_pref, eri_T. cbv zeta. cbn [fst snd].
  set (p := alpha + beta). set (q := gamma + delta).
  replace (q + p) with (p + q) by ring. replace (q * p) with (p * q) by ring.
  set (Px := (alpha * Ax + beta * Bx) / p). set (Py := (alpha * Ay + beta * By) / p).
  set (Pz := (alpha * Az + beta * Bz) / p).
  set (Qx := (gamma * Cx + delta * Dx) / q). set (Qy := (gamma * Cy + delta * Dy) / q).
  set (Qz := (gamma * Cz + delta * Dz) / q).
  replace ((Qx - Px) * (Qx - Px) + (Qy - Py) * (Qy - Py) + (Qz - Pz) * (Qz - Pz))
    with ((Px - Qx) * (Px - Qx) + (Py - Qy) * (Py - Qy) + (Pz - Qz) * (Pz - Qz)) by ring.
  f_equal. f_equal. ring.
Qed.

Lemma eri_base_swap_cd Ax Ay Az Bx By Bz Cx Cy Cz Dx Dy Dz alpha beta gamma delta m :
  eri_base K Ax Ay Az Bx By Bz Cx Cy Cz Dx Dy Dz alpha beta gamma delta m
  = eri_base K Ax Ay Az Bx By Bz Dx Dy Dz Cx Cy Cz alpha beta delta gamma m.
Proof.
  etransitivity; [apply eri_base_swap_el|]. etransitivity; [apply eri_base_swap_ab|]. apply eri_base_swap_el.
Qed.

Section Quartet.
Variables (s1 s2 s3 s4 : shell F) (i1 i2 i3 i4 : nat) (alpha beta gamma delta : F).
Hypothesis H2 : 1 + 1 <> 0.
Hypothesis Hp : alpha + beta <> 0.
Hypothesis Hq : gamma + delta <> 0.
Hypothesis Hpq : (alpha + beta) + (gamma + delta) <> 0.

Lemma Hp' : beta + alpha <> 0.
Proof. intros E. apply Hp. rewrite <- E. ring. Qed.
Lemma Hq' : delta + gamma <> 0.
Proof. intros E. apply Hq. rewrite <- E. ring. Qed.
Lemma Hpq_ab : (beta + alpha) + (gamma + delta) <> 0.
Proof. intros E. apply Hpq. rewrite <- E. ring. Qed.
Lemma Hpq_cd : (alpha + beta) + (delta + gamma) <> 0.
Proof. intros E. apply Hpq. rewrite <- E. ring. Qed.
Lemma Hpq_el : (gamma + delta) + (alpha + beta) <> 0.
Proof. intros E. apply Hpq. rewrite <- E. ring. Qed.

(* the exact integrand (value of the s-polynomial at every s) is symmetric *)
Theorem R4_value_swap_ab s :
  peval (R4 K s1 s2 s3 s4 i1 i2 i3 i4 alpha beta gamma delta) s
  = peval (R4 K s2 s1 s3 s4 i2 i1 i3 i4 beta alpha gamma delta) s.
Proof.
  rewrite (R4_eval K Kf s1 s2 s3 s4) by assumption.
  rewrite (R4_eval K Kf s2 s1 s3 s4) by (assumption || apply Hp' || apply Hpq_ab).
  rewrite !(M4_swap_ab K Kf alpha beta). reflexivity.
Qed.
Theorem R4_value_swap_cd s :
  peval (R4 K s1 s2 s3 s4 i1 i2 i3 i4 alpha beta gamma delta) s
  = peval (R4 K s1 s2 s4 s3 i1 i2 i4 i3 alpha beta delta gamma) s.
Proof.
  rewrite (R4_eval K Kf s1 s2 s3 s4) by assumption.
  rewrite (R4_eval K Kf s1 s2 s4 s3) by (assumption || apply Hq' || apply Hpq_cd).
  rewrite !(M4_swap_cd K Kf alpha beta gamma delta). reflexivity.
Qed.
Theorem R4_value_swap_el s :
  peval (R4 K s1 s2 s3 s4 i1 i2 i3 i4 alpha beta gamma delta) s
  = peval (R4 K s3 s4 s1 s2 i3 i4 i1 i2 gamma delta alpha beta) s.
Proof.
  rewrite (R4_eval K Kf s1 s2 s3 s4) by assumption.
  rewrite (R4_eval K Kf s3 s4 s1 s2) by (assumption || apply Hpq_el).
  rewrite !(M4_swap_el K Kf alpha beta gamma delta). reflexivity.
Qed.

(* hence Phi_0, the number the recursions produce, is symmetric (characteristic 0: the polynomial
   representative does not matter) *)
Hypothesis char0 : forall n, #(S n) <> 0.
Notation base t1 t2 t3 t4 := (eri_base K (s_x t1) (s_y t1) (s_z t1) (s_x t2) (s_y t2) (s_z t2)
                                          (s_x t3) (s_y t3) (s_z t3) (s_x t4) (s_y t4) (s_z t4)).
Theorem R4_Phi_swap_ab :
  Phi (base s1 s2 s3 s4 alpha beta gamma delta) 0 (R4 K s1 s2 s3 s4 i1 i2 i3 i4 alpha beta gamma delta)
  = Phi (base s2 s1 s3 s4 beta alpha gamma delta) 0 (R4 K s2 s1 s3 s4 i2 i1 i3 i4 beta alpha gamma delta).
Proof.
  rewrite (OneElecP.Phi_unique K Kf char0 _ _ R4_value_swap_ab).
  apply TwoElecP.Phi_ext. intros m. apply eri_base_swap_ab.
Qed.
Theorem R4_Phi_swap_cd :
  Phi (base s1 s2 s3 s4 alpha beta gamma delta) 0 (R4 K s1 s2 s3 s4 i1 i2 i3 i4 alpha beta gamma delta)
  = Phi (base s1 s2 s4 s3 alpha beta delta gamma) 0 (R4 K s1 s2 s4 s3 i1 i2 i4 i3 alpha beta delta gamma).
Proof.
  rewrite (OneElecP.Phi_unique K Kf char0 _ _ R4_value_swap_cd).
  apply TwoElecP.Phi_ext. intros m. apply eri_base_swap_cd.
Qed.
Theorem R4_Phi_swap_el :
  Phi (base s1 s2 s3 s4 alpha beta gamma delta) 0 (R4 K s1 s2 s3 s4 i1 i2 i3 i4 alpha beta gamma delta)
  = Phi (base s3 s4 s1 s2 gamma delta alpha beta) 0 (R4 K s3 s4 s1 s2 i3 i4 i1 i2 gamma delta alpha beta).
Proof.
  rewrite (OneElecP.Phi_unique K Kf char0 _ _ R4_value_swap_el).
  apply TwoElecP.Phi_ext. intros m. apply eri_base_swap_el.
Qed.
End Quartet.

End Spec.

Section Block.
Context {F : Type} (K : Fops F) (Kf : is_field K).
Add Field KFeb : Kf.
Local Open Scope F_scope.
Notation "0" := (f0 K) : F_scope.
Notation "1" := (f1 K) : F_scope.
Infix "+" := (fadd K) : F_scope.
Infix "*" := (fmul K) : F_scope.
Notation "# n" := (ofnat K n) (at level 5) : F_scope.
Notation Phi := (Phi K).
Notation cmp s i := (nth i (comps_of s) (0, 0, 0)%nat).

(* the right-hand side of two_elec_correct *)
Definition eri_sum (s1 s2 s3 s4 : shell F) (m1 i1 m2 i2 m3 i3 m4 i4 : nat) : F :=
  csum K (wts K s1) m1 (s_exps s1) (fun alpha =>
    csum K (wts K s2) m2 (s_exps s2) (fun beta =>
      csum K (wts K s3) m3 (s_exps s3) (fun gamma =>
        csum K (wts K s4) m4 (s_exps s4) (fun delta =>
          Phi (eri_base K (s_x s1) (s_y s1) (s_z s1) (s_x s2) (s_y s2) (s_z s2)
                          (s_x s3) (s_y s3) (s_z s3) (s_x s4) (s_y s4) (s_z s4)
                          alpha beta gamma delta) 0
              (R4 K s1 s2 s3 s4 i1 i2 i3 i4 alpha beta gamma delta))))).
Definition eri_spec (s1 s2 s3 s4 : shell F) (m1 i1 m2 i2 m3 i3 m4 i4 : nat) : F :=
  eri_sum s1 s2 s3 s4 m1 i1 m2 i2 m3 i3 m4 i4
  * inv_sqrt_df K (cmp s1 i1) * inv_sqrt_df K (cmp s2 i2) * inv_sqrt_df K (cmp s3 i3) * inv_sqrt_df K (cmp s4 i4).

(* non-zero exponent sums (true for positive exponents) *)
Definition exps_ok (s1 s2 s3 s4 : shell F) : Prop :=
  (forall alpha beta, In alpha (s_exps s1) -> In beta (s_exps s2) -> alpha + beta <> 0)
  /\ (forall gamma delta, In gamma (s_exps s3) -> In delta (s_exps s4) -> gamma + delta <> 0)
  /\ (forall alpha beta gamma delta, In alpha (s_exps s1) -> In beta (s_exps s2) ->
        In gamma (s_exps s3) -> In delta (s_exps s4) -> (alpha + beta) + (gamma + delta) <> 0).
Definition idx_ok (s1 s2 s3 s4 : shell F) (m1 i1 m2 i2 m3 i3 m4 i4 : nat) : Prop :=
  (m1 < nseg s1 /\ i1 < length (comps_of s1) /\ compsum (cmp s1 i1) <= s_l s1)
  /\ (m2 < nseg s2 /\ i2 < length (comps_of s2) /\ compsum (cmp s2 i2) <= s_l s2)
  /\ (m3 < nseg s3 /\ i3 < length (comps_of s3) /\ compsum (cmp s3 i3) <= s_l s3)
  /\ (m4 < nseg s4 /\ i4 < length (comps_of s4) /\ compsum (cmp s4 i4) <= s_l s4).

Lemma exps_ok_ab s1 s2 s3 s4 : exps_ok s1 s2 s3 s4 -> exps_ok s2 s1 s3 s4.
Proof. intros [Hp [Hq Hpq]]. repeat split.
  - intros b a Hb Ha. apply (Hp' K Kf a b). now apply Hp.
  - exact Hq.
  - intros b a g d Hb Ha Hg Hd. apply (Hpq_ab K Kf a b g d). now apply Hpq.
Qed.
Lemma exps_ok_el s1 s2 s3 s4 : exps_ok s1 s2 s3 s4 -> exps_ok s3 s4 s1 s2.
Proof. intros [Hp [Hq Hpq]]. repeat split.
  - exact Hq.
  - exact Hp.
  - intros g d a b Hg Hd Ha Hb. apply (Hpq_el K Kf a b g d). now apply Hpq.
Qed.
Lemma exps_ok_cd s1 s2 s3 s4 : exps_ok s1 s2 s3 s4 -> exps_ok s1 s2 s4 s3.
Proof. intros H. apply exps_ok_el, exps_ok_ab, exps_ok_el, H. Qed.
Lemma exps_ok_orient o s1 s2 s3 s4 : exps_ok s1 s2 s3 s4 ->
  exps_ok (opick1 o s1 s2 s3 s4) (opick2 o s1 s2 s3 s4) (opick3 o s1 s2 s3 s4) (opick4 o s1 s2 s3 s4).
Proof.
  intros H. destruct o; cbn [opick1 opick2 opick3 opick4]; auto using exps_ok_ab, exps_ok_cd, exps_ok_el.
Qed.
Lemma idx_ok_orient o s1 s2 s3 s4 m1 i1 m2 i2 m3 i3 m4 i4 : idx_ok s1 s2 s3 s4 m1 i1 m2 i2 m3 i3 m4 i4 ->
  idx_ok (opick1 o s1 s2 s3 s4) (opick2 o s1 s2 s3 s4) (opick3 o s1 s2 s3 s4) (opick4 o s1 s2 s3 s4)
         (opick1 o m1 m2 m3 m4) (opick1 o i1 i2 i3 i4) (opick2 o m1 m2 m3 m4) (opick2 o i1 i2 i3 i4)
         (opick3 o m1 m2 m3 m4) (opick3 o i1 i2 i3 i4) (opick4 o m1 m2 m3 m4) (opick4 o i1 i2 i3 i4).
Proof.
  intros [H1 [H2 [H3 H4]]]. destruct o; cbn [opick1 opick2 opick3 opick4]; unfold idx_ok; auto.
Qed.

(* two_elec_correct, first half, with the hypotheses packaged *)
Theorem eri_block_is_spec s1 s2 s3 s4 m1 i1 m2 i2 m3 i3 m4 i4 :
  (forall x, fapx K x = x) -> 1 + 1 <> 0 ->
  exps_ok s1 s2 s3 s4 -> idx_ok s1 s2 s3 s4 m1 i1 m2 i2 m3 i3 m4 i4 ->
  get8 K (eri_block K s1 s2 s3 s4) m1 i1 m2 i2 m3 i3 m4 i4 = eri_spec s1 s2 s3 s4 m1 i1 m2 i2 m3 i3 m4 i4.
Proof.
  intros Hapx H2 [Hp [Hq Hpq]] [[Hm1 [Hi1 Hc1]] [[Hm2 [Hi2 Hc2]] [[Hm3 [Hi3 Hc3]] [Hm4 [Hi4 Hc4]]]]].
  exact (proj1 (two_elec_correct K Kf s1 s2 s3 s4 m1 i1 m2 i2 m3 i3 m4 i4 Hapx H2 Hp Hq Hpq
                  Hm1 Hm2 Hm3 Hm4 Hi1 Hi2 Hi3 Hi4 Hc1 Hc2 Hc3 Hc4)).
Qed.

Section Sym.
Hypothesis char0 : forall n, #(S n) <> 0.
Let H2 : 1 + 1 <> 0 := two_nz K Kf char0.

Theorem eri_sum_swap_ab s1 s2 s3 s4 m1 i1 m2 i2 m3 i3 m4 i4 : exps_ok s1 s2 s3 s4 ->
  eri_sum s1 s2 s3 s4 m1 i1 m2 i2 m3 i3 m4 i4 = eri_sum s2 s1 s3 s4 m2 i2 m1 i1 m3 i3 m4 i4.
Proof.
  intros [Hp [Hq Hpq]]. unfold eri_sum.
  rewrite (csum_swap K Kf (wts K s2) m2 (s_exps s2) (wts K s1) m1 (s_exps s1)).
  apply csum_ext_in. intros alpha Ha. apply csum_ext_in. intros beta Hb.
  apply csum_ext_in. intros gamma Hg. apply csum_ext_in. intros delta Hd.
  apply (R4_Phi_swap_ab K Kf); auto.
Qed.
Theorem eri_sum_swap_el s1 s2 s3 s4 m1 i1 m2 i2 m3 i3 m4 i4 : exps_ok s1 s2 s3 s4 ->
  eri_sum s1 s2 s3 s4 m1 i1 m2 i2 m3 i3 m4 i4 = eri_sum s3 s4 s1 s2 m3 i3 m4 i4 m1 i1 m2 i2.
Proof.
  intros [Hp [Hq Hpq]]. unfold eri_sum.
  rewrite (csum_pair_swap K Kf (wts K s3) m3 (s_exps s3) (wts K s4) m4 (s_exps s4)
             (wts K s1) m1 (s_exps s1) (wts K s2) m2 (s_exps s2)).
  apply csum_ext_in. intros alpha Ha. apply csum_ext_in. intros beta Hb.
  apply csum_ext_in. intros gamma Hg. apply csum_ext_in. intros delta Hd.
  apply (R4_Phi_swap_el K Kf); auto.
Qed.

Theorem eri_spec_swap_ab s1 s2 s3 s4 m1 i1 m2 i2 m3 i3 m4 i4 : exps_ok s1 s2 s3 s4 ->
  eri_spec s1 s2 s3 s4 m1 i1 m2 i2 m3 i3 m4 i4 = eri_spec s2 s1 s3 s4 m2 i2 m1 i1 m3 i3 m4 i4.
Proof. intros H. unfold eri_spec. rewrite (eri_sum_swap_ab s1 s2 s3 s4) by exact H. ring. Qed.
Theorem eri_spec_swap_el s1 s2 s3 s4 m1 i1 m2 i2 m3 i3 m4 i4 : exps_ok s1 s2 s3 s4 ->
  eri_spec s1 s2 s3 s4 m1 i1 m2 i2 m3 i3 m4 i4 = eri_spec s3 s4 s1 s2 m3 i3 m4 i4 m1 i1 m2 i2.
Proof. intros H. unfold eri_spec. rewrite (eri_sum_swap_el s1 s2 s3 s4) by exact H. ring. Qed.

Theorem eri_spec_swap_cd s1 s2 s3 s4 m1 i1 m2 i2 m3 i3 m4 i4 : exps_ok s1 s2 s3 s4 ->
  eri_spec s1 s2 s3 s4 m1 i1 m2 i2 m3 i3 m4 i4 = eri_spec s1 s2 s4 s3 m1 i1 m2 i2 m4 i4 m3 i3.
Proof.
  intros H. rewrite (eri_spec_swap_el s1 s2 s3 s4) by exact H.
  rewrite (eri_spec_swap_ab s3 s4 s1 s2) by now apply exps_ok_el.
  apply eri_spec_swap_el. now apply exps_ok_ab, exps_ok_el.
Qed.

Theorem eri_spec_orient o s1 s2 s3 s4 m1 i1 m2 i2 m3 i3 m4 i4 : exps_ok s1 s2 s3 s4 ->
  eri_spec (opick1 o s1 s2 s3 s4) (opick2 o s1 s2 s3 s4) (opick3 o s1 s2 s3 s4) (opick4 o s1 s2 s3 s4)
           (opick1 o m1 m2 m3 m4) (opick1 o i1 i2 i3 i4) (opick2 o m1 m2 m3 m4) (opick2 o i1 i2 i3 i4)
           (opick3 o m1 m2 m3 m4) (opick3 o i1 i2 i3 i4) (opick4 o m1 m2 m3 m4) (opick4 o i1 i2 i3 i4)
  = eri_spec s1 s2 s3 s4 m1 i1 m2 i2 m3 i3 m4 i4.
Proof.
  intros H. symmetry.
  pose proof (exps_ok_ab _ _ _ _ H) as Hab. pose proof (exps_ok_cd _ _ _ _ H) as Hcd.
  pose proof (exps_ok_el _ _ _ _ H) as Hel.
  destruct o; cbn [opick1 opick2 opick3 opick4].
  - reflexivity.
  - now apply eri_spec_swap_ab.
  - now apply eri_spec_swap_cd.
  - rewrite (eri_spec_swap_ab s1 s2 s3 s4) by exact H. now apply eri_spec_swap_cd.
  - now apply eri_spec_swap_el.
  - rewrite (eri_spec_swap_el s1 s2 s3 s4) by exact H. now apply eri_spec_swap_ab.
  - rewrite (eri_spec_swap_el s1 s2 s3 s4) by exact H. now apply eri_spec_swap_cd.
  - rewrite (eri_spec_swap_el s1 s2 s3 s4) by exact H.
    rewrite (eri_spec_swap_ab s3 s4 s1 s2) by exact Hel. apply eri_spec_swap_cd. now apply exps_ok_ab.
Qed.

Lemma oriented_entry o s1 s2 s3 s4 m1 i1 m2 i2 m3 i3 m4 i4 :
  m1 < nseg s1 -> i1 < length (comps_of s1) -> m2 < nseg s2 -> i2 < length (comps_of s2) ->
  m3 < nseg s3 -> i3 < length (comps_of s3) -> m4 < nseg s4 -> i4 < length (comps_of s4) ->
  get8 K (eri_block_oriented K o s1 s2 s3 s4) m1 i1 m2 i2 m3 i3 m4 i4
  = get8 K (eri_block K (opick1 o s1 s2 s3 s4) (opick2 o s1 s2 s3 s4) (opick3 o s1 s2 s3 s4) (opick4 o s1 s2 s3 s4))
         (opick1 o m1 m2 m3 m4) (opick1 o i1 i2 i3 i4) (opick2 o m1 m2 m3 m4) (opick2 o i1 i2 i3 i4)
         (opick3 o m1 m2 m3 m4) (opick3 o i1 i2 i3 i4) (opick4 o m1 m2 m3 m4) (opick4 o i1 i2 i3 i4).
Proof.
  intros Hm1 Hi1 Hm2 Hi2 Hm3 Hi3 Hm4 Hi4.
  unfold eri_block_oriented. cbv zeta. unfold get8 at 1.
  rewrite nth_mk by assumption. rewrite nth_mk by assumption. rewrite nth_mk by assumption.
  rewrite nth_mk by assumption. rewrite nth_mk by assumption. rewrite nth_mk by assumption.
  rewrite nth_mk by assumption. rewrite nth_mk by assumption. reflexivity.
Qed.

(* every entry of the block evaluated in ANY of the eight orientations (and transposed back) is the
   entry of the block evaluated in the given orientation *)
Theorem eri_block_orientation_independent_pk o s1 s2 s3 s4 m1 i1 m2 i2 m3 i3 m4 i4 :
  (forall x, fapx K x = x) -> exps_ok s1 s2 s3 s4 -> idx_ok s1 s2 s3 s4 m1 i1 m2 i2 m3 i3 m4 i4 ->
  get8 K (eri_block_oriented K o s1 s2 s3 s4) m1 i1 m2 i2 m3 i3 m4 i4
  = get8 K (eri_block K s1 s2 s3 s4) m1 i1 m2 i2 m3 i3 m4 i4.
Proof.
  intros Hapx He Hi.
  rewrite oriented_entry by (unfold idx_ok in Hi; tauto).
  rewrite eri_block_is_spec by (assumption || now apply exps_ok_orient || now apply idx_ok_orient).
  rewrite (eri_block_is_spec s1 s2 s3 s4) by assumption.
  now apply eri_spec_orient.
Qed.

(* blocks evaluated INDEPENDENTLY for the permuted quartets agree with the transposed block *)
Theorem both_orientations_agree_eri_pk o s1 s2 s3 s4 m1 i1 m2 i2 m3 i3 m4 i4 :
  (forall x, fapx K x = x) -> exps_ok s1 s2 s3 s4 -> idx_ok s1 s2 s3 s4 m1 i1 m2 i2 m3 i3 m4 i4 ->
  get8 K (eri_block K (opick1 o s1 s2 s3 s4) (opick2 o s1 s2 s3 s4) (opick3 o s1 s2 s3 s4) (opick4 o s1 s2 s3 s4))
         (opick1 o m1 m2 m3 m4) (opick1 o i1 i2 i3 i4) (opick2 o m1 m2 m3 m4) (opick2 o i1 i2 i3 i4)
         (opick3 o m1 m2 m3 m4) (opick3 o i1 i2 i3 i4) (opick4 o m1 m2 m3 m4) (opick4 o i1 i2 i3 i4)
  = get8 K (eri_block K s1 s2 s3 s4) m1 i1 m2 i2 m3 i3 m4 i4.
Proof.
  intros Hapx He Hi.
  rewrite <- oriented_entry by (unfold idx_ok in Hi; tauto).
  now apply eri_block_orientation_independent_pk.
Qed.

(* the whole blocks coincide when every component in range has an admissible degree *)
Theorem eri_block_oriented_eq o s1 s2 s3 s4 :
  (forall x, fapx K x = x) -> exps_ok s1 s2 s3 s4 ->
  (forall i, i < length (comps_of s1) -> compsum (cmp s1 i) <= s_l s1) ->
  (forall i, i < length (comps_of s2) -> compsum (cmp s2 i) <= s_l s2) ->
  (forall i, i < length (comps_of s3) -> compsum (cmp s3 i) <= s_l s3) ->
  (forall i, i < length (comps_of s4) -> compsum (cmp s4 i) <= s_l s4) ->
  eri_block_oriented K o s1 s2 s3 s4 = eri_block K s1 s2 s3 s4.
Proof.
  intros Hapx He C1 C2 C3 C4.
  transitivity (eri_block_oriented K O_abcd s1 s2 s3 s4); unfold eri_block_oriented; cbv zeta.
  - apply mk_ext; intros m1 Hm1. apply mk_ext; intros i1 Hi1. apply mk_ext; intros m2 Hm2.
    apply mk_ext; intros i2 Hi2. apply mk_ext; intros m3 Hm3. apply mk_ext; intros i3 Hi3.
    apply mk_ext; intros m4 Hm4. apply mk_ext; intros i4 Hi4.
    apply both_orientations_agree_eri_pk; [exact Hapx|exact He|]. unfold idx_ok. auto 20.
  - cbn [opick1 opick2 opick3 opick4]. unfold eri_block at 2. cbv zeta.
    apply mk_ext; intros m1 Hm1. apply mk_ext; intros i1 Hi1. apply mk_ext; intros m2 Hm2.
    apply mk_ext; intros i2 Hi2. apply mk_ext; intros m3 Hm3. apply mk_ext; intros i3 Hi3.
    apply mk_ext; intros m4 Hm4. apply mk_ext; intros i4 Hi4.
    unfold get8, eri_block. cbv zeta.
    rewrite nth_mk by assumption. rewrite nth_mk by assumption. rewrite nth_mk by assumption.
    rewrite nth_mk by assumption. rewrite nth_mk by assumption. rewrite nth_mk by assumption.
    rewrite nth_mk by assumption. rewrite nth_mk by assumption. reflexivity.
Qed.
End Sym.
End Block.

(* the statements with every hypothesis spelled out *)
Section Final.
Context {F : Type} (K : Fops F) (Kf : is_field K).

Theorem eri_block_orientation_independent :
  forall (o : orient) (s1 s2 s3 s4 : shell F) (m1 i1 m2 i2 m3 i3 m4 i4 : nat),
  (forall x, fapx K x = x) ->
  (forall n, ofnat K (S n) <> f0 K) ->
  (forall alpha beta, In alpha (s_exps s1) -> In beta (s_exps s2) -> fadd K alpha beta <> f0 K) ->
  (forall gamma delta, In gamma (s_exps s3) -> In delta (s_exps s4) -> fadd K gamma delta <> f0 K) ->
  (forall alpha beta gamma delta, In alpha (s_exps s1) -> In beta (s_exps s2) ->
     In gamma (s_exps s3) -> In delta (s_exps s4) ->
     fadd K (fadd K alpha beta) (fadd K gamma delta) <> f0 K) ->
  m1 < nseg s1 -> m2 < nseg s2 -> m3 < nseg s3 -> m4 < nseg s4 ->
  i1 < length (comps_of s1) -> i2 < length (comps_of s2) ->
  i3 < length (comps_of s3) -> i4 < length (comps_of s4) ->
  compsum (nth i1 (comps_of s1) (0, 0, 0)) <= s_l s1 -> compsum (nth i2 (comps_of s2) (0, 0, 0)) <= s_l s2 ->
  compsum (nth i3 (comps_of s3) (0, 0, 0)) <= s_l s3 -> compsum (nth i4 (comps_of s4) (0, 0, 0)) <= s_l s4 ->
  nth i4 (nth m4 (nth i3 (nth m3 (nth i2 (nth m2 (nth i1 (nth m1 (eri_block_oriented K o s1 s2 s3 s4)
    []) []) []) []) []) []) []) (f0 K)
  = nth i4 (nth m4 (nth i3 (nth m3 (nth i2 (nth m2 (nth i1 (nth m1 (eri_block K s1 s2 s3 s4)
    []) []) []) []) []) []) []) (f0 K).
Proof.
  intros o s1 s2 s3 s4 m1 i1 m2 i2 m3 i3 m4 i4 Hapx char0 Hp Hq Hpq Hm1 Hm2 Hm3 Hm4 Hi1 Hi2 Hi3 Hi4 Hc1 Hc2 Hc3 Hc4.
  apply (eri_block_orientation_independent_pk K Kf char0 o s1 s2 s3 s4 m1 i1 m2 i2 m3 i3 m4 i4 Hapx).
  - repeat split; assumption.
  - repeat split; assumption.
Qed.

(* C11: the blocks evaluated independently for the permuted quartets are the transposed block *)
Theorem both_orientations_agree_eri :
  forall (o : orient) (s1 s2 s3 s4 : shell F) (m1 i1 m2 i2 m3 i3 m4 i4 : nat),
  (forall x, fapx K x = x) ->
  (forall n, ofnat K (S n) <> f0 K) ->
  (forall alpha beta, In alpha (s_exps s1) -> In beta (s_exps s2) -> fadd K alpha beta <> f0 K) ->
  (forall gamma delta, In gamma (s_exps s3) -> In delta (s_exps s4) -> fadd K gamma delta <> f0 K) ->
  (forall alpha beta gamma delta, In alpha (s_exps s1) -> In beta (s_exps s2) ->
     In gamma (s_exps s3) -> In delta (s_exps s4) ->
     fadd K (fadd K alpha beta) (fadd K gamma delta) <> f0 K) ->
  m1 < nseg s1 -> m2 < nseg s2 -> m3 < nseg s3 -> m4 < nseg s4 ->
  i1 < length (comps_of s1) -> i2 < length (comps_of s2) ->
  i3 < length (comps_of s3) -> i4 < length (comps_of s4) ->
  compsum (nth i1 (comps_of s1) (0, 0, 0)) <= s_l s1 -> compsum (nth i2 (comps_of s2) (0, 0, 0)) <= s_l s2 ->
  compsum (nth i3 (comps_of s3) (0, 0, 0)) <= s_l s3 -> compsum (nth i4 (comps_of s4) (0, 0, 0)) <= s_l s4 ->
  nth (opick4 o i1 i2 i3 i4) (nth (opick4 o m1 m2 m3 m4)
    (nth (opick3 o i1 i2 i3 i4) (nth (opick3 o m1 m2 m3 m4)
      (nth (opick2 o i1 i2 i3 i4) (nth (opick2 o m1 m2 m3 m4)
        (nth (opick1 o i1 i2 i3 i4) (nth (opick1 o m1 m2 m3 m4)
          (eri_block K (opick1 o s1 s2 s3 s4) (opick2 o s1 s2 s3 s4) (opick3 o s1 s2 s3 s4) (opick4 o s1 s2 s3 s4))
    []) []) []) []) []) []) []) (f0 K)
  = nth i4 (nth m4 (nth i3 (nth m3 (nth i2 (nth m2 (nth i1 (nth m1 (eri_block K s1 s2 s3 s4)
    []) []) []) []) []) []) []) (f0 K).
Proof.
  intros o s1 s2 s3 s4 m1 i1 m2 i2 m3 i3 m4 i4 Hapx char0 Hp Hq Hpq Hm1 Hm2 Hm3 Hm4 Hi1 Hi2 Hi3 Hi4 Hc1 Hc2 Hc3 Hc4.
  apply (both_orientations_agree_eri_pk K Kf char0 o s1 s2 s3 s4 m1 i1 m2 i2 m3 i3 m4 i4 Hapx).
  - repeat split; assumption.
  - repeat split; assumption.
Qed.
End Final.

From Coq Require Import Bool QArith Qcanon.

(* the hypotheses are satisfiable: characteristic 0 at the executable instance; the rest is
   TwoElecP.two_elec_hyps_ex (the (p d | s p) quartet ex_s1..ex_s4) *)
Example orient_char0_ex : forall n, ofnat KQ4 (S n) <> f0 KQ4.
Proof. exact (QcK_char0 (Q2Qc 3) (fun x => x) (fun x => x) (fun x => x)
                (fun m _ => qc_of 1 (Pos.of_nat (2 * m + 1)))). Qed.

Definition all_orients : list orient := [O_abcd; O_bacd; O_abdc; O_badc; O_cdab; O_dcab; O_cdba; O_dcba].
Definition flat8 (b : block8 (F:=Qc)) : list Qc :=
  concat (concat (concat (concat (concat (concat (concat b)))))).
Definition block_eqb (a b : block8 (F:=Qc)) : bool :=
  Nat.eqb (length (flat8 a)) (length (flat8 b))
  && forallb (fun xy : Qc * Qc => Qeq_bool (fst xy) (snd xy)) (combine (flat8 a) (flat8 b)).

(* (p s | s p): p shell with two primitives and two segmented contractions at A, s with one primitive at B,
   s with one primitive and two segmented contractions at C, p with one primitive at D; four different centres *)
Definition o_sh (l : nat) (x y z : Qc) (es : list Qc) (cs : list (list Qc)) : shell Qc :=
  mkShell Qc l x y z es cs false [] [].
Definition o_s1 := o_sh 1 (qc_of 0 1) (qc_of 1 2) (qc_of 0 1) [qc_of 1 1; qc_of 1 2]
                        [[qc_of 1 1; qc_of 1 3]; [qc_of 1 2; qc_of (-1) 1]].
Definition o_s2 := o_sh 0 (qc_of 1 1) (qc_of 0 1) (qc_of 1 4) [qc_of 3 2] [[qc_of 1 1]].
Definition o_s3 := o_sh 0 (qc_of (-1) 2) (qc_of 1 1) (qc_of 0 1) [qc_of 2 1] [[qc_of 1 1; qc_of 1 2]].
Definition o_s4 := o_sh 1 (qc_of 1 4) (qc_of (-1) 1) (qc_of 1 2) [qc_of 3 4] [[qc_of 1 1]].

Lemma o_exps_ok : exps_ok KQ4 o_s1 o_s2 o_s3 o_s4.
Proof.
  repeat split.
  - intros alpha beta [<-|[<-|[]]] [<-|[]]; apply qc_neq; reflexivity.
  - intros gamma delta [<-|[]] [<-|[]]; apply qc_neq; reflexivity.
  - intros alpha beta gamma delta [<-|[<-|[]]] [<-|[]] [<-|[]] [<-|[]]; apply qc_neq; reflexivity.
Qed.

Lemma block_eqb_refl b : block_eqb b b = true.
Proof.
  unfold block_eqb. rewrite Nat.eqb_refl. cbn [andb].
  induction (flat8 b) as [|x l IH]; [reflexivity|]. cbn [combine forallb fst snd].
  now rewrite IH, (proj2 (Qeq_bool_iff x x) (Qeq_refl x)).
Qed.

(* all eight oriented blocks coincide with the block of the given orientation (36 entries each; exact
   rational arithmetic, arbitrary stand-ins for pi, sqrt, exp, Boys): an instance of eri_block_oriented_eq *)
Example eight_orientations_ex :
  (let r := eri_block KQ4 o_s1 o_s2 o_s3 o_s4 in
   forallb (fun o => block_eqb (eri_block_oriented KQ4 o o_s1 o_s2 o_s3 o_s4) r) all_orients) = true.
Proof.
  cbv zeta. apply forallb_forall. intros o _.
  rewrite (eri_block_oriented_eq KQ4 KQ4_field orient_char0_ex o o_s1 o_s2 o_s3 o_s4 (fun x => eq_refl) o_exps_ok)
    by (intros i; now apply default_shell_comp_ok).
  apply block_eqb_refl.
Qed.
(* ... and the transposition is not vacuous: the block of (cd|ab) is not the block of (ab|cd) read in
   the same axis order, and the block has 36 = 2*3*1*1*2*1*1*3 entries.  The (cd|ab) block is the
   transposed (ab|cd) block, so one block is evaluated. *)
Example transposition_matters_ex :
  block_eqb (eri_block KQ4 o_s3 o_s4 o_s1 o_s2) (eri_block KQ4 o_s1 o_s2 o_s3 o_s4) = false
  /\ length (flat8 (eri_block KQ4 o_s1 o_s2 o_s3 o_s4)) = 36%nat.
Proof.
  rewrite <- (eri_block_oriented_eq KQ4 KQ4_field orient_char0_ex O_cdab o_s3 o_s4 o_s1 o_s2 (fun x => eq_refl)
                (exps_ok_el KQ4 KQ4_field _ _ _ _ o_exps_ok))
    by (intros i; now apply default_shell_comp_ok).
  unfold eri_block_oriented. cbn [opick1 opick2 opick3 opick4].
  pattern (eri_block KQ4 o_s1 o_s2 o_s3 o_s4). vm_compute. split; reflexivity.
Qed.
(* the constructors are electron_repulsion.py::_ORIENTATIONS in source order *)
Example orient_orders_ex :
  (map (fun o => [opick1 o 0 1 2 3; opick2 o 0 1 2 3; opick3 o 0 1 2 3; opick4 o 0 1 2 3]) all_orients
   = [[0; 1; 2; 3]; [1; 0; 2; 3]; [0; 1; 3; 2]; [1; 0; 3; 2]; [2; 3; 0; 1]; [3; 2; 0; 1]; [2; 3; 1; 0]; [3; 2; 1; 0]])%nat.
Proof. reflexivity. Qed.
