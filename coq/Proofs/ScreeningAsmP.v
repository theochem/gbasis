(* Proofs/ScreeningAsmP.v — property C20 at the ENTRIES of the assembled matrix of the screened overlap model
   (Model/Screening.overlap_integral_screened), through the explicit index maps of Proofs/AssembledP.v (gidx, a
   basis of Cartesian shells) and Proofs/AssembledSphP.v (oidx, any assignment of coordinate types).

   The triangle loop evaluates the block of the ordered pair (min i j, max i j) and mirrors it, so the model's
   decision for the two blocks (i, j) and (j, i) of the matrix is
     scr tol bs i j = is_screened tol s_(min i j) s_(max i j)
   (over the reals the decision is symmetric in the two shells, [is_screened_sym_R]).

   Over any field every entry of the two blocks of a pair of shells is 0 if the pair is screened and the entry
   of overlap_integral if it is kept (both triangles).  Over the reals, for two s shells (l = 0; Cartesian, or
   spherical with the single label c0 / -c0, whose 1x1 transformation is +1 or -1 by the link theorem of
   Proofs/SphLinkP.v) whose pair is screened, |S_IJ| <= tol * Sa * Sb (strict if Sa, Sb > 0), S = the
   UNSCREENED assembled overlap, Sa = norm_cont_a[m][0] * sum_k |d_km|; the screened matrix has 0 there. *)
From Coq Require Import List Arith Lia Bool Field QArith Qcanon Reals Lra.
From GB Require Import Base.Field Base.Tables Model.Shell Model.MomentInt Model.Spherical Model.SphExact Model.Assembly
  Model.Overlap Model.Screening Proofs.CoreSumP Proofs.CoreBlockP Proofs.CoreDiffP Proofs.CoreNormP
  Proofs.OverlapP Proofs.AssembledP Proofs.AssembledOverlapP Proofs.AssembledRealP Proofs.AssembledSphP
  Proofs.AssembledSphOverlapP Proofs.ScreeningP Proofs.SphLinkP.
Import ListNotations.
Local Open Scope nat_scope.
Local Open Scope list_scope.

Section Gen.
Context {F : Type} (K : Fops F) (Kf : is_field K).
Add Field KFscr : Kf.
Local Open Scope F_scope.
Notation "0" := (f0 K) : F_scope.
Notation "1" := (f1 K) : F_scope.
Infix "+" := (fadd K) : F_scope.
Infix "*" := (fmul K) : F_scope.
Notation fsum := (FNum.fsum K).

Notation ovs tol := (overlap_block_screened K tol).

(* the model's decision for the two blocks (i, j), (j, i) of the assembled matrix *)
Definition scr (tol : option F) (bs : list (shell F)) (i j : nat) : bool :=
  is_screened K tol (sh_at K bs (Nat.min i j)) (sh_at K bs (Nat.max i j)).

Lemma scr_sym tol bs i j : scr tol bs i j = scr tol bs j i.
Proof. unfold scr. now rewrite Nat.min_comm, Nat.max_comm. Qed.

Lemma scr_le tol bs i j : (i <= j)%nat -> scr tol bs i j = is_screened K tol (sh_at K bs i) (sh_at K bs j).
Proof. intro H. unfold scr. now rewrite Nat.min_l, Nat.max_r by exact H. Qed.

Lemma scr_gt tol bs i j : (j < i)%nat -> scr tol bs i j = is_screened K tol (sh_at K bs j) (sh_at K bs i).
Proof. intro H. unfold scr. now rewrite Nat.min_r, Nat.max_l by lia. Qed.

(* ... it is the [pair_screened] of Proofs/ScreeningP.v (the decision inside [screened_assembly]) *)
Lemma scr_is_pair_screened tol bs i j : (i <= j)%nat -> (j < length bs)%nat ->
  scr tol bs i j = pair_screened K tol bs i j.
Proof.
  intros Hij Hj. rewrite scr_le by exact Hij. unfold pair_screened. cbv zeta.
  rewrite !(nth_prep K) by lia. reflexivity.
Qed.

Lemma screened_blocks_shaped tol b1 b2 : blocks_shaped (ovs tol) b1 b2.
Proof.
  intros sa sb _ _. unfold overlap_block_screened. destruct (is_screened K tol sa sb).
  - rewrite (zero_block_is_zeroed K).
    change (shape4 (nseg sa) (ncomp sa) (nseg sb) (ncomp sb) (Model.DiffOp.map4 (zf K) (overlap_block K sa sb))).
    apply map4_shape. apply (overlap_block_shape K).
  - apply (overlap_block_shape K).
Qed.

Lemma get4_screened tol sa sb m c m' c' : is_screened K tol sa sb = true ->
  get4 0 m c m' c' (ovs tol sa sb) = 0.
Proof. intro H. rewrite (removed_block K tol sa sb H), <- (nth4_get4 K). apply zero_block_entry. Qed.

Lemma Emix_screened tol a b m1 q1 m2 q2 : (q1 < osize a)%nat -> (q2 < osize b)%nat ->
  is_screened K tol a b = true ->
  Emix K 0 (fadd K) (fmul K) (ovs tol) a b m1 q1 m2 q2 = 0.
Proof.
  intros H1 H2 S. rewrite (Emix_dsum K Kf) by assumption.
  rewrite (AssembledSphOverlapP.dsum_ext K _ _ _ _ _ (fun _ _ => 0)); [apply (dsum_zero K Kf)|].
  intros c c' _ _. rewrite (get4_screened tol _ _ _ _ _ _ S). ring.
Qed.

Lemma Emix_kept tol a b m1 q1 m2 q2 : is_screened K tol a b = false ->
  Emix K 0 (fadd K) (fmul K) (ovs tol) a b m1 q1 m2 q2
  = Emix K 0 (fadd K) (fmul K) (overlap_block K) a b m1 q1 m2 q2.
Proof. intro S. unfold Emix. now rewrite (kept_block K tol _ _ S). Qed.

Section Mixed.
Variable bs : list (shell F).
Hypothesis C : seg_basis bs.
Notation s_ k := (sh_at K bs k).

Theorem screened_entry_mixed tol i j m q m' q' :
  (i < length bs)%nat -> (j < length bs)%nat ->
  (m < nseg (s_ i))%nat -> (q < osize (s_ i))%nat -> (m' < nseg (s_ j))%nat -> (q' < osize (s_ j))%nat ->
  nth (oidx K bs j m' q') (nth (oidx K bs i m q) (overlap_integral_screened K bs None tol) []) 0
  = if scr tol bs i j then 0
    else nth (oidx K bs j m' q') (nth (oidx K bs i m q) (overlap_integral K bs None) []) 0.
Proof.
  intros Hi Hj Hm Hq Hm' Hq'. unfold overlap_integral_screened, overlap_integral.
  rewrite (two_symm_mixed_entry K 0 (fadd K) (fmul K) (ovs tol) bs C (screened_blocks_shaped tol bs bs))
    by assumption.
  rewrite (two_symm_mixed_entry K 0 (fadd K) (fmul K) (overlap_block K) bs C (overlap_blocks_shaped K bs bs))
    by assumption.
  destruct (Nat.leb_spec i j) as [L|L]; [rewrite (scr_le tol bs i j L)|rewrite (scr_gt tol bs i j L)];
    (destruct (is_screened K tol _ _) eqn:S; [now apply Emix_screened | now apply Emix_kept]).
Qed.

Corollary removed_entry_mixed tol i j m q m' q' :
  (i < length bs)%nat -> (j < length bs)%nat ->
  (m < nseg (s_ i))%nat -> (q < osize (s_ i))%nat -> (m' < nseg (s_ j))%nat -> (q' < osize (s_ j))%nat ->
  scr tol bs i j = true ->
  nth (oidx K bs j m' q') (nth (oidx K bs i m q) (overlap_integral_screened K bs None tol) []) 0 = 0
  /\ nth (oidx K bs i m q) (nth (oidx K bs j m' q') (overlap_integral_screened K bs None tol) []) 0 = 0.
Proof.
  intros Hi Hj Hm Hq Hm' Hq' S. split.
  - rewrite screened_entry_mixed by assumption. now rewrite S.
  - rewrite screened_entry_mixed by assumption. now rewrite scr_sym, S.
Qed.

Corollary kept_entry_mixed tol i j m q m' q' :
  (i < length bs)%nat -> (j < length bs)%nat ->
  (m < nseg (s_ i))%nat -> (q < osize (s_ i))%nat -> (m' < nseg (s_ j))%nat -> (q' < osize (s_ j))%nat ->
  scr tol bs i j = false ->
  nth (oidx K bs j m' q') (nth (oidx K bs i m q) (overlap_integral_screened K bs None tol) []) 0
  = nth (oidx K bs j m' q') (nth (oidx K bs i m q) (overlap_integral K bs None) []) 0
  /\ nth (oidx K bs i m q) (nth (oidx K bs j m' q') (overlap_integral_screened K bs None tol) []) 0
     = nth (oidx K bs i m q) (nth (oidx K bs j m' q') (overlap_integral K bs None) []) 0.
Proof.
  intros Hi Hj Hm Hq Hm' Hq' S. split.
  - rewrite screened_entry_mixed by assumption. now rewrite S.
  - rewrite screened_entry_mixed by assumption. now rewrite scr_sym, S.
Qed.
End Mixed.

Section Cart.
Variable bs : list (shell F).
Hypothesis C : cart_basis bs.
Notation s_ k := (sh_at K bs k).

Theorem screened_entry_cart tol i j m c m' c' :
  (i < length bs)%nat -> (j < length bs)%nat ->
  (m < nseg (s_ i))%nat -> (c < ncomp (s_ i))%nat -> (m' < nseg (s_ j))%nat -> (c' < ncomp (s_ j))%nat ->
  nth (gidx K bs j m' c') (nth (gidx K bs i m c) (overlap_integral_screened K bs None tol) []) 0
  = if scr tol bs i j then 0
    else nth (gidx K bs j m' c') (nth (gidx K bs i m c) (overlap_integral K bs None) []) 0.
Proof.
  intros Hi Hj Hm Hc Hm' Hc'. rewrite <- !(cart_oidx K bs) by assumption.
  apply (screened_entry_mixed bs (cart_seg bs C)); rewrite ?(cart_osize K bs) by assumption; assumption.
Qed.

Corollary removed_entry_cart tol i j m c m' c' :
  (i < length bs)%nat -> (j < length bs)%nat ->
  (m < nseg (s_ i))%nat -> (c < ncomp (s_ i))%nat -> (m' < nseg (s_ j))%nat -> (c' < ncomp (s_ j))%nat ->
  scr tol bs i j = true ->
  nth (gidx K bs j m' c') (nth (gidx K bs i m c) (overlap_integral_screened K bs None tol) []) 0 = 0
  /\ nth (gidx K bs i m c) (nth (gidx K bs j m' c') (overlap_integral_screened K bs None tol) []) 0 = 0.
Proof.
  intros Hi Hj Hm Hc Hm' Hc' S. split.
  - rewrite screened_entry_cart by assumption. now rewrite S.
  - rewrite screened_entry_cart by assumption. now rewrite scr_sym, S.
Qed.

End Cart.

Theorem all_kept_equal (bs : list (shell F)) (T : option (list (list F))) tol :
  (forall i j, (i <= j)%nat -> (j < length bs)%nat -> scr tol bs i j = false) ->
  overlap_integral_screened K bs T tol = overlap_integral K bs T.
Proof.
  intros H. rewrite (screened_assembly K Kf). unfold overlap_integral. rewrite two_symm_integral_unfold.
  cbv zeta. rewrite map_length.
  rewrite (two_symm_blocks_ext_le 0 (length bs) _ (ublock K bs)); [reflexivity|].
  intros i j _ Hj L. rewrite <- (scr_is_pair_screened tol bs i j L Hj). now rewrite (H i j L Hj).
Qed.
End Gen.

Section RealBound.
Local Open Scope R_scope.

Lemma dist2_sym_R sa sb : dist2 RK sa sb = dist2 RK sb sa.
Proof. rewrite !dist2_R. ring. Qed.

Lemma cutoff2_sym_R tol sa sb : cutoff2 RK tol sa sb = cutoff2 RK tol sb sa.
Proof.
  rewrite !cutoff2_R.
  rewrite (Rplus_comm (min_exp RK sa) (min_exp RK sb)), (Rmult_comm (min_exp RK sa) (min_exp RK sb)).
  reflexivity.
Qed.

Lemma is_screened_sym_R tol sa sb : is_screened RK tol sa sb = is_screened RK tol sb sa.
Proof.
  destruct tol as [t|]; [|reflexivity]. unfold is_screened.
  now rewrite (cutoff2_sym_R t sa sb), (dist2_sym_R sa sb).
Qed.

Lemma scr_R tol bs i j : scr RK tol bs i j = is_screened RK tol (sh_at RK bs i) (sh_at RK bs j).
Proof.
  destruct (Nat.le_gt_cases i j) as [H|H].
  - now apply scr_le.
  - rewrite (scr_gt RK tol bs i j H). apply is_screened_sym_R.
Qed.

(* an s shell: l = 0, default component list [(0,0,0)]; if spherical its single label is c0 or -c0 *)
Definition is_s_shell (s : shell R) : Prop :=
  s_l s = 0%nat /\ s_comps s = [] /\ exists neg, labels_of s = [(neg, false, 0%nat)].

Lemma s_shell_form (s : shell R) : s_l s = 0%nat -> s_comps s = [] ->
  s = ss_shell (s_x s) (s_y s) (s_z s) (s_exps s) (s_coeffs s) (s_sph s) (s_labels s).
Proof. destruct s as [l x y z es cs sph comps labs]. cbn. intros -> ->. reflexivity. Qed.

Lemma s_shell_sizes (s : shell R) : is_s_shell s -> ncomp s = 1%nat /\ osize s = 1%nat.
Proof.
  intros (Hl & Hc & neg & Hlab). unfold osize, nlab, ncomp, comps_of. rewrite Hc, Hl, Hlab.
  split; [reflexivity|]. now destruct (s_sph s).
Qed.

Lemma s_shell_tco (s : shell R) : is_s_shell s -> tco RK s 0 0 = 1 \/ tco RK s 0 0 = -1.
Proof.
  intros (Hl & Hc & neg & Hlab). unfold tco. destruct (s_sph s); [|left; reflexivity].
  assert (Ec : comps_of s = [(0, 0, 0)%nat]) by (unfold comps_of; rewrite Hc, Hl; reflexivity).
  unfold shell_transform. rewrite Hl, Ec, Hlab.
  assert (E : nth 0 (nth 0 (sph_transform RK 0 [(0, 0, 0)%nat] [(neg, false, 0%nat)]) []) 0
              = sdenR (nth 0 (nth 0 (left_form 0 [(0, 0, 0)%nat] [(neg, false, 0%nat)]) []) szero)).
  { apply sph_transform_entry_link_R; [lia| | |cbn; lia|cbn; lia].
    - intros c [<-|[]]. now left.
    - intros lb [<-|[]]. unfold adm_label, DiagSphCheckP.valid_sm. cbn. split; [lia|discriminate]. }
  cbn [sph_transform map nth] in E |- *. change (fapx RK ?x) with x. rewrite E.
  destruct neg.
  - right.
    assert (Ep : nth 0 (nth 0 (left_form 0 [(0, 0, 0)%nat] [(true, false, 0%nat)]) []) szero
                 = (Q2Qc (-1), Q2Qc 1)).
    { apply injective_projections; apply Qc_is_canon; vm_compute; reflexivity. }
    rewrite Ep. unfold sdenR. cbn [fst snd].
    assert (E1 : Q2R (this (Q2Qc (-1))) = -1) by (unfold Q2R; cbn; lra).
    assert (E2 : Q2R (this (Q2Qc 1)) = 1) by (unfold Q2R; cbn; lra).
    rewrite E1, E2, sqrt_1. lra.
  - left.
    assert (Ep : nth 0 (nth 0 (left_form 0 [(0, 0, 0)%nat] [(false, false, 0%nat)]) []) szero
                 = (Q2Qc 1, Q2Qc 1)).
    { apply injective_projections; apply Qc_is_canon; vm_compute; reflexivity. }
    rewrite Ep. unfold sdenR. cbn [fst snd].
    assert (E2 : Q2R (this (Q2Qc 1)) = 1) by (unfold Q2R; cbn; lra).
    rewrite E2, sqrt_1. lra.
Qed.

Lemma s_shell_tco_abs (s : shell R) : is_s_shell s -> Rabs (tco RK s 0 0) = 1.
Proof.
  intro H. destruct (s_shell_tco s H) as [-> | ->]; [apply Rabs_R1|].
  unfold Rabs. destruct (Rcase_abs (-1)); lra.
Qed.

(* every shell has at least one primitive and positive exponents *)
Definition pos_basis (bs : list (shell R)) : Prop := forall s, In s bs -> pos_exps s.

Lemma pos_basis_exps bs : pos_basis bs -> pos_exps_basis bs.
Proof. intros P s Hs x Hx. exact (proj2 (P s Hs) x Hx). Qed.

(* the bound for the raw block of two s shells given abstractly (Proofs/ScreeningP.removed_s_bound_block) *)
Lemma s_pair_block_bound (sa sb : shell R) m m' tol :
  s_l sa = 0%nat -> s_comps sa = [] -> s_l sb = 0%nat -> s_comps sb = [] ->
  pos_exps sa -> pos_exps sb -> wf_shell sa -> wf_shell sb ->
  (m < nseg sa)%nat -> (m' < nseg sb)%nat -> 0 < tol <= 1 ->
  is_screened RK (Some tol) sa sb = true ->
  let Sa := AssembledP.ncont RK sa m 0 * abs_sum (col m (s_exps sa) (s_coeffs sa)) in
  let Sb := AssembledP.ncont RK sb m' 0 * abs_sum (col m' (s_exps sb) (s_coeffs sb)) in
  let e := AssembledP.ncont RK sa m 0 * AssembledP.ncont RK sb m' 0 * nth4 RK m 0 m' 0 (overlap_block RK sa sb) in
  Rabs e <= tol * Sa * Sb /\ (0 < Sa -> 0 < Sb -> Rabs e < tol * Sa * Sb).
Proof.
  intros La Ca Lb Cb Pa Pb Wa Wb Hm Hm' Ht S. cbv zeta.
  change (AssembledP.ncont RK sa m 0) with (ScreeningP.ncont sa m).
  change (AssembledP.ncont RK sb m' 0) with (ScreeningP.ncont sb m').
  pose proof (s_shell_form sa La Ca) as Ea. pose proof (s_shell_form sb Lb Cb) as Eb.
  pose proof (ncont_nonneg sa m) as Na. pose proof (ncont_nonneg sb m') as Nb.
  destruct Wa as [Wa _]. destruct Wb as [Wb _]. unfold wf_coeffs in Wa, Wb.
  revert Pa Pb Hm Hm' S Na Nb. generalize (ScreeningP.ncont sa m) (ScreeningP.ncont sb m').
  rewrite Ea, Eb. cbn [s_exps s_coeffs ss_shell]. intros na nb Pa Pb Hm Hm' S Na Nb.
  exact (removed_s_bound_block _ _ _ _ _ _ _ _ _ _ _ _ _ _ m m' na nb tol Pa Pb Wa Wb Hm Hm' Ht Na Nb S).
Qed.

Theorem removed_s_bound_assembled_cart (bs : list (shell R)) i j m m' tol :
  cart_basis bs -> basis_wf bs -> pos_basis bs ->
  (i < length bs)%nat -> (j < length bs)%nat ->
  let sa := sh_at RK bs i in let sb := sh_at RK bs j in
  s_l sa = 0%nat -> s_comps sa = [] -> s_l sb = 0%nat -> s_comps sb = [] ->
  (m < nseg sa)%nat -> (m' < nseg sb)%nat -> 0 < tol <= 1 ->
  scr RK (Some tol) bs i j = true ->
  let Sa := AssembledP.ncont RK sa m 0 * abs_sum (col m (s_exps sa) (s_coeffs sa)) in
  let Sb := AssembledP.ncont RK sb m' 0 * abs_sum (col m' (s_exps sb) (s_coeffs sb)) in
  let e := nth (gidx RK bs j m' 0) (nth (gidx RK bs i m 0) (overlap_integral RK bs None) []) 0 in
  Rabs e <= tol * Sa * Sb /\ (0 < Sa -> 0 < Sb -> Rabs e < tol * Sa * Sb).
Proof.
  intros C W P Hi Hj sa sb La Ca Lb Cb Hm Hm' Ht S. cbv zeta.
  assert (Ia : In sa bs) by (now apply nth_In). assert (Ib : In sb bs) by (now apply nth_In).
  assert (Na : ncomp sa = 1%nat) by (unfold ncomp, comps_of; rewrite Ca, La; reflexivity).
  assert (Nb : ncomp sb = 1%nat) by (unfold ncomp, comps_of; rewrite Cb, Lb; reflexivity).
  pose proof (overlap_integral_entry_block RK RK_field fapx_id_R two_neq_0_R bs C W
             (basis_exps_pos_R bs bs (pos_basis_exps bs P) (pos_basis_exps bs P)) i j m 0 m' 0
             Hi Hj Hm ltac:(fold sa; lia) Hm' ltac:(fold sb; lia)) as EE.
  change (f0 RK) with 0 in EE. rewrite EE. fold sa sb.
  rewrite scr_R in S.
  exact (s_pair_block_bound sa sb m m' tol La Ca Lb Cb (P _ Ia) (P _ Ib) (W _ Ia) (W _ Ib) Hm Hm' Ht S).
Qed.

Lemma fsum_single (x : R) : FNum.fsum RK [x] = x.
Proof. cbn. lra. Qed.

Theorem removed_s_bound_assembled_mixed (bs : list (shell R)) i j m m' tol :
  seg_basis bs -> basis_wf bs -> pos_basis bs ->
  (i < length bs)%nat -> (j < length bs)%nat ->
  let sa := sh_at RK bs i in let sb := sh_at RK bs j in
  is_s_shell sa -> is_s_shell sb ->
  (m < nseg sa)%nat -> (m' < nseg sb)%nat -> 0 < tol <= 1 ->
  scr RK (Some tol) bs i j = true ->
  let Sa := AssembledP.ncont RK sa m 0 * abs_sum (col m (s_exps sa) (s_coeffs sa)) in
  let Sb := AssembledP.ncont RK sb m' 0 * abs_sum (col m' (s_exps sb) (s_coeffs sb)) in
  let e := nth (oidx RK bs j m' 0) (nth (oidx RK bs i m 0) (overlap_integral RK bs None) []) 0 in
  Rabs e <= tol * Sa * Sb /\ (0 < Sa -> 0 < Sb -> Rabs e < tol * Sa * Sb).
Proof.
  intros C W P Hi Hj sa sb Ha Hb Hm Hm' Ht S. cbv zeta.
  assert (Ia : In sa bs) by (now apply nth_In). assert (Ib : In sb bs) by (now apply nth_In).
  destruct (s_shell_sizes sa Ha) as [Na Oa]. destruct (s_shell_sizes sb Hb) as [Nb Ob].
  pose proof (basis_exps_pos_R bs bs (pos_basis_exps bs P) (pos_basis_exps bs P)) as E.
  pose proof (overlap_integral_mixed_entry RK RK_field fapx_id_R two_neq_0_R bs C W E i j m 0 m' 0
             Hi Hj Hm ltac:(fold sa; lia) Hm' ltac:(fold sb; lia)) as EE.
  change (f0 RK) with 0 in EE. rewrite EE.
  fold sa sb. unfold AssembledSphOverlapP.dsum. rewrite Na, Nb. cbn [mk seq map]. rewrite !fsum_single.
  rewrite <- (overlap_block_correct RK RK_field fapx_id_R two_neq_0_R sa sb m 0 m' 0)
    by (auto; unfold ncomp in *; lia).
  pose proof (s_shell_tco_abs sa Ha) as Ta. pose proof (s_shell_tco_abs sb Hb) as Tb.
  destruct Ha as (La & Ca & _). destruct Hb as (Lb & Cb & _). rewrite scr_R in S.
  pose proof (s_pair_block_bound sa sb m m' tol La Ca Lb Cb (P _ Ia) (P _ Ib) (W _ Ia) (W _ Ib) Hm Hm' Ht S) as B.
  cbv zeta in B.
  change (fmul RK) with Rmult.
  set (x := AssembledP.ncont RK sa m 0 * AssembledP.ncont RK sb m' 0 * nth4 RK m 0 m' 0 (overlap_block RK sa sb)) in *.
  assert (Ex : Rabs (tco RK sa 0 0 * tco RK sb 0 0 * x) = Rabs x).
  { rewrite !Rabs_mult, Ta, Tb. lra. }
  rewrite Ex. exact B.
Qed.

Theorem screening_error_s_mixed (bs : list (shell R)) i j m m' tol :
  seg_basis bs -> basis_wf bs -> pos_basis bs ->
  (i < length bs)%nat -> (j < length bs)%nat ->
  let sa := sh_at RK bs i in let sb := sh_at RK bs j in
  is_s_shell sa -> is_s_shell sb ->
  (m < nseg sa)%nat -> (m' < nseg sb)%nat -> 0 < tol <= 1 ->
  scr RK (Some tol) bs i j = true ->
  let Sa := AssembledP.ncont RK sa m 0 * abs_sum (col m (s_exps sa) (s_coeffs sa)) in
  let Sb := AssembledP.ncont RK sb m' 0 * abs_sum (col m' (s_exps sb) (s_coeffs sb)) in
  let d := nth (oidx RK bs j m' 0) (nth (oidx RK bs i m 0) (overlap_integral RK bs None) []) 0
           - nth (oidx RK bs j m' 0) (nth (oidx RK bs i m 0) (overlap_integral_screened RK bs None (Some tol)) []) 0 in
  Rabs d <= tol * Sa * Sb /\ (0 < Sa -> 0 < Sb -> Rabs d < tol * Sa * Sb).
Proof.
  intros C W P Hi Hj sa sb Ha Hb Hm Hm' Ht S. cbv zeta.
  destruct (s_shell_sizes sa Ha) as [_ Oa]. destruct (s_shell_sizes sb Hb) as [_ Ob].
  pose proof (screened_entry_mixed RK RK_field bs C (Some tol) i j m 0 m' 0
             Hi Hj Hm ltac:(fold sa; lia) Hm' ltac:(fold sb; lia)) as EE.
  rewrite S in EE. change (f0 RK) with 0 in EE. rewrite EE, Rminus_0_r.
  exact (removed_s_bound_assembled_mixed bs i j m m' tol C W P Hi Hj Ha Hb Hm Hm' Ht S).
Qed.

(* a spherical s shell and a Cartesian p shell at the origin, a Cartesian s shell 3 bohr away (the screened
   pair of Proofs/ScreeningP.ex_screened) *)
Definition ex_s_sph : shell R := mkShell R 0 0 0 0 [1] [[1]] true [] [].
Definition ex_p_cart : shell R := mkShell R 1 0 0 0 [1] [[1]] false [] [].
Definition ex_asm_basis : list (shell R) := [ex_s_sph; ex_p_cart; ex_shell 3].

Lemma ex_asm_screened : scr RK (Some (/ 2)) ex_asm_basis 0 2 = true.
Proof.
  rewrite scr_R. change (sh_at RK ex_asm_basis 0) with ex_s_sph. change (sh_at RK ex_asm_basis 2) with (ex_shell 3).
  pose proof ex_screened as H. apply is_screened_R in H. apply is_screened_R.
  destruct H as (H1 & H2 & H3). repeat split; assumption.
Qed.

Example asm_hypotheses_satisfiable :
  seg_basis ex_asm_basis /\ basis_wf ex_asm_basis /\ pos_basis ex_asm_basis
  /\ is_s_shell (sh_at RK ex_asm_basis 0) /\ is_s_shell (sh_at RK ex_asm_basis 2)
  /\ scr RK (Some (/ 2)) ex_asm_basis 0 2 = true /\ scr RK (Some (/ 2)) ex_asm_basis 0 1 = false
  /\ ototal RK ex_asm_basis = 5%nat /\ oidx RK ex_asm_basis 2 0 0 = 4%nat.
Proof.
  split; [|split; [|split; [|split; [|split; [|split; [|split; [|split]]]]]]].
  - intros s [<-|[<-|[<-|[]]]]; cbn; lia.
  - intros s [<-|[<-|[<-|[]]]]; apply wf_shell_default; reflexivity.
  - intros s [<-|[<-|[<-|[]]]]; (split; [discriminate|]); intros x [<-|[]]; lra.
  - split; [reflexivity|]. split; [reflexivity|]. exists false. reflexivity.
  - split; [reflexivity|]. split; [reflexivity|]. exists false. reflexivity.
  - exact ex_asm_screened.
  - rewrite scr_R. change (sh_at RK ex_asm_basis 0) with ex_s_sph. change (sh_at RK ex_asm_basis 1) with ex_p_cart.
    destruct (is_screened RK (Some (/ 2)) ex_s_sph ex_p_cart) eqn:S; [|reflexivity].
    apply is_screened_R in S. destruct S as (_ & _ & S). rewrite cutoff2_R, dist2_R in S.
    change (min_exp RK ex_s_sph) with 1 in S. change (min_exp RK ex_p_cart) with 1 in S.
    cbn [s_x s_y s_z ex_s_sph ex_p_cart] in S.
    pose proof ln2_bounds as L2. rewrite ln_Rinv in S by lra. lra.
  - reflexivity.
  - reflexivity.
Qed.

(* the screened matrix of that basis has an exact zero at (row: spherical s shell, column: far s shell) and
   at the mirrored position, and keeps the s-p entries of the unscreened matrix *)
Example asm_removed_example :
  nth 4 (nth 0 (overlap_integral_screened RK ex_asm_basis None (Some (/ 2))) []) 0 = 0
  /\ nth 0 (nth 4 (overlap_integral_screened RK ex_asm_basis None (Some (/ 2))) []) 0 = 0
  /\ nth 2 (nth 0 (overlap_integral_screened RK ex_asm_basis None (Some (/ 2))) []) 0
     = nth 2 (nth 0 (overlap_integral RK ex_asm_basis None) []) 0.
Proof.
  destruct asm_hypotheses_satisfiable as (C & _ & _ & _ & _ & S1 & S2 & _ & _).
  split; [|split].
  - exact (proj1 (removed_entry_mixed RK RK_field ex_asm_basis C (Some (/ 2)) 0 2 0 0 0 0
             ltac:(cbn; lia) ltac:(cbn; lia) ltac:(cbn; lia) ltac:(cbn; lia) ltac:(cbn; lia) ltac:(cbn; lia) S1)).
  - exact (proj2 (removed_entry_mixed RK RK_field ex_asm_basis C (Some (/ 2)) 0 2 0 0 0 0
             ltac:(cbn; lia) ltac:(cbn; lia) ltac:(cbn; lia) ltac:(cbn; lia) ltac:(cbn; lia) ltac:(cbn; lia) S1)).
  - exact (proj1 (kept_entry_mixed RK RK_field ex_asm_basis C (Some (/ 2)) 0 1 0 0 0 1
             ltac:(cbn; lia) ltac:(cbn; lia) ltac:(cbn; lia) ltac:(cbn; lia) ltac:(cbn; lia) ltac:(cbn; lia) S2)).
Qed.

(* a basis of two Cartesian s shells 3 bohr apart meets every hypothesis of the Cartesian theorems; its
   off-diagonal entries are removed at tol = 1/2 and were below 1/2 * Sa * Sb *)
Definition ex_cart_basis : list (shell R) := [ex_shell 0; ex_shell 3].

Example asm_cart_example :
  cart_basis ex_cart_basis /\ basis_wf ex_cart_basis /\ pos_basis ex_cart_basis
  /\ scr RK (Some (/ 2)) ex_cart_basis 0 1 = true
  /\ nth 1 (nth 0 (overlap_integral_screened RK ex_cart_basis None (Some (/ 2))) []) 0 = 0
  /\ Rabs (nth 1 (nth 0 (overlap_integral RK ex_cart_basis None) []) 0)
     <= / 2 * (AssembledP.ncont RK (ex_shell 0) 0 0 * abs_sum (col 0 [1] [[1]]))
            * (AssembledP.ncont RK (ex_shell 3) 0 0 * abs_sum (col 0 [1] [[1]])).
Proof.
  assert (C : cart_basis ex_cart_basis) by (intros s [<-|[<-|[]]]; cbn; (split; [reflexivity|lia])).
  assert (W : basis_wf ex_cart_basis) by (intros s [<-|[<-|[]]]; apply wf_shell_default; reflexivity).
  assert (P : pos_basis ex_cart_basis) by (intros s [<-|[<-|[]]]; apply ex_pos).
  assert (S : scr RK (Some (/ 2)) ex_cart_basis 0 1 = true) by (rewrite scr_R; exact ex_screened).
  split; [exact C|]. split; [exact W|]. split; [exact P|]. split; [exact S|]. split.
  - exact (proj1 (removed_entry_cart RK RK_field ex_cart_basis C (Some (/ 2)) 0 1 0 0 0 0
             ltac:(cbn; lia) ltac:(cbn; lia) ltac:(cbn; lia) ltac:(cbn; lia) ltac:(cbn; lia) ltac:(cbn; lia) S)).
  - exact (proj1 (removed_s_bound_assembled_cart ex_cart_basis 0 1 0 0 (/ 2) C W P
             ltac:(cbn; lia) ltac:(cbn; lia) eq_refl eq_refl eq_refl eq_refl ltac:(cbn; lia) ltac:(cbn; lia)
             ltac:(lra) S)).
Qed.
End RealBound.
