(* Proofs/ContractionAsmP.v — property C13, "generalized_is_segmented" for the ASSEMBLED symmetric two-index
   arrays with SEVERAL shells (Props/C13.v has one pair of shells only):

     the matrix of a basis in which one generalized shell s (M segments) is replaced by its M single-column
     shells [segments s], listed one after the other at the position of s, is THE SAME matrix (the functions of
     s are numbered segment-major, so the function order does not change); by induction, the same for the basis
     in which every shell is replaced (ContractionP.segmented_basis), with or without transform=.

   Any assignment of coordinate types, any number of shells.  The lower triangle of the assembled matrix is
   filled by transposition (base_two_symm.py); after the replacement the blocks between two segments of the same
   original shell that lie BELOW the diagonal are transposed copies while before they were evaluated directly,
   so the statement needs the symmetry of the integral: the hypotheses are those of the overlap block
   theorems (a field, well-formed shells, non-zero exponent sums).

   Generic part: any matrix-valued function [Mat] of a basis whose entries are given, through the index map
   oidx, by a function [Ent a b m q m' q'] of the two shells and positions that obeys the column law
   Ent (col_shell a m) b 0 q .. = Ent a b m q .. on both sides.  Instance: overlap_integral. *)
From Coq Require Import List Arith Lia Bool Field.
From GB Require Import Base.Field Base.Tables Model.Shell Model.MomentInt Model.Assembly Model.Overlap Model.DiffOp
  Model.OneBody Proofs.CoreSumP Proofs.CoreBlockP Proofs.CoreDiffP Proofs.BlockMatP Proofs.AssembledP
  Proofs.AssembledOverlapP Proofs.AssembledSphP Proofs.AssembledSphOverlapP Proofs.ContractionP.
Import ListNotations.

Lemma offs_const c m : offs (fun _ => c) m = m * c.
Proof. induction m as [|m IH]; cbn [offs]; lia. Qed.

(* the index map of the basis with one shell replaced by its segments   *)
Section SegIndex.
Context {F : Type} (K : Fops F).
Variables (pre post : list (shell F)) (s : shell F).
Hypothesis Hs : 0 < nseg s.

Let bs := pre ++ s :: post.
Let bs' := pre ++ segments K s ++ post.
Let p := length pre.
Let M := nseg s.

Lemma segments_length : length (segments K s) = M.
Proof. unfold segments. now rewrite map_length, seq_length. Qed.

Lemma nth_segments m d : m < M -> nth m (segments K s) d = col_shell K s m.
Proof.
  intros Hm. unfold segments. rewrite (nth_indep _ d (col_shell K s 0)) by (now rewrite map_length, seq_length).
  rewrite (map_nth (col_shell K s)). now rewrite seq_nth by exact Hm.
Qed.

Lemma seg_len' : length bs' = p + M + length post.
Proof. unfold bs'. rewrite !app_length, segments_length. unfold p. lia. Qed.
Lemma seg_len : length bs = p + 1 + length post.
Proof. unfold bs. rewrite app_length. cbn [length]. unfold p. lia. Qed.

(* shells *)
Lemma sh_pre k : k < p -> sh_at K bs' k = sh_at K bs k.
Proof. intros Hk. unfold bs', bs. now rewrite !sh_at_app_l. Qed.
Lemma sh_mid : sh_at K bs p = s.
Proof. unfold bs. rewrite <- (Nat.add_0_r p). exact (sh_at_app_r K pre (s :: post) 0). Qed.
Lemma sh_seg m : m < M -> sh_at K bs' (p + m) = col_shell K s m.
Proof.
  intros Hm. unfold bs', p. rewrite sh_at_app_r, sh_at_app_l by (now rewrite segments_length).
  now apply nth_segments.
Qed.
Lemma sh_post t : sh_at K bs' (p + M + t) = sh_at K bs (p + 1 + t).
Proof.
  unfold bs', bs, p. rewrite <- !Nat.add_assoc, !sh_at_app_r. rewrite <- segments_length. exact (sh_at_app_r K (segments K s) post t).
Qed.

Lemma osize_col m : osize (col_shell K s m) = osize s.
Proof. reflexivity. Qed.
Lemma odim_col m : m < M -> odim (col_shell K s m) = osize s.
Proof. intros Hm. unfold odim. rewrite (nseg_col_shell K s m Hm). rewrite osize_col. lia. Qed.

(* offsets *)
Lemma ooff_pre k : k <= p -> ooff K bs' k = ooff K bs k.
Proof. intros Hk. unfold bs', bs. now rewrite !ooff_app_l. Qed.

Lemma ooff_seg m : m <= M -> ooff K bs' (p + m) = ooff K bs p + m * osize s.
Proof.
  intros Hm. unfold ooff at 1. rewrite offs_add. fold (ooff K bs' p). rewrite ooff_pre by lia. f_equal.
  rewrite <- offs_const. apply offs_ext. intros t Ht. rewrite sh_seg by lia. apply odim_col. lia.
Qed.

Lemma ooff_post t : ooff K bs' (p + M + t) = ooff K bs (p + 1 + t).
Proof.
  unfold ooff at 1. rewrite offs_add. fold (ooff K bs' (p + M)). rewrite ooff_seg by lia.
  unfold ooff at 2. rewrite offs_add. fold (ooff K bs (p + 1)).
  unfold ooff at 2. rewrite offs_add. fold (ooff K bs p). cbn [offs]. rewrite Nat.add_0_r, sh_mid.
  rewrite (offs_ext (fun u => odim (sh_at K bs' (p + M + u))) (fun u => odim (sh_at K bs (p + 1 + u))) t)
    by (intros u _; now rewrite sh_post).
  unfold odim at 2. fold M. lia.
Qed.

Lemma ototal_seg : ototal K bs' = ototal K bs.
Proof. unfold ototal. rewrite seg_len', seg_len. apply ooff_post. Qed.

(* every (shell, segment) of bs sits at a (shell, segment) of bs' with the same positions *)
Lemma seg_locate i m : i < length bs -> m < nseg (sh_at K bs i) ->
  exists i' m', i' < length bs' /\ m' < nseg (sh_at K bs' i') /\
    osize (sh_at K bs' i') = osize (sh_at K bs i) /\
    (forall q, oidx K bs' i' m' q = oidx K bs i m q) /\
    ((sh_at K bs' i' = sh_at K bs i /\ m' = m) \/ (sh_at K bs' i' = col_shell K (sh_at K bs i) m /\ m' = 0)).
Proof.
  intros Hi Hm. rewrite seg_len in Hi.
  destruct (lt_eq_lt_dec i p) as [[Hlt|Heq]|Hgt].
  - exists i, m. rewrite sh_pre by exact Hlt. repeat split; try assumption.
    + rewrite seg_len'. lia.
    + intros q. unfold oidx. rewrite ooff_pre by lia. now rewrite sh_pre by exact Hlt.
    + left. split; reflexivity.
  - subst i. rewrite sh_mid in *. fold M in Hm. exists (p + m), 0. rewrite sh_seg by exact Hm. repeat split.
    + rewrite seg_len'. lia.
    + rewrite (nseg_col_shell K s m Hm). lia.
    + intros q. unfold oidx. rewrite ooff_seg by lia. rewrite sh_seg by exact Hm. rewrite sh_mid, osize_col. lia.
    + right. split; reflexivity.
  - replace i with (p + 1 + (i - p - 1)) in * by lia. set (t := i - p - 1) in *.
    exists (p + M + t), m. rewrite sh_post. repeat split; try assumption.
    + rewrite seg_len'. lia.
    + intros q. unfold oidx. now rewrite ooff_post, sh_post.
    + left. split; reflexivity.
Qed.

(* membership *)
Lemma in_seg_basis x : In x bs' -> In x bs \/ exists m, m < M /\ x = col_shell K s m.
Proof.
  unfold bs', bs. intros H. apply in_app_or in H. destruct H as [H|H]; [left; apply in_or_app; now left|].
  apply in_app_or in H. destruct H as [H|H].
  - right. unfold segments in H. apply in_map_iff in H. destruct H as [m [<- Hm]]. apply in_seq in Hm.
    exists m. split; [unfold M; lia|reflexivity].
  - left. apply in_or_app. right. now right.
Qed.
Lemma in_mid : In s bs.
Proof. unfold bs. apply in_or_app. right. now left. Qed.
End SegIndex.

(* generic: a matrix whose entries obey the column law                   *)
Section Generic.
Context {F : Type} (K : Fops F).
Variable Mat : list (shell F) -> list (list F).
Variable Ent : shell F -> shell F -> nat -> nat -> nat -> nat -> F.

Definition mat_ok (X : list (shell F)) : Prop :=
  (length (Mat X) = ototal K X /\ forall I, I < ototal K X -> length (nth I (Mat X) []) = ototal K X) /\
  forall i j m q m' q', i < length X -> j < length X ->
    m < nseg (sh_at K X i) -> q < osize (sh_at K X i) -> m' < nseg (sh_at K X j) -> q' < osize (sh_at K X j) ->
    nth (oidx K X j m' q') (nth (oidx K X i m q) (Mat X) []) (f0 K)
    = Ent (sh_at K X i) (sh_at K X j) m q m' q'.

Hypothesis Ent_col_l : forall a b m q m' q', m < nseg a ->
  Ent (col_shell K a m) b 0 q m' q' = Ent a b m q m' q'.
Hypothesis Ent_col_r : forall a b m q m' q', m' < nseg b ->
  Ent a (col_shell K b m') m q 0 q' = Ent a b m q m' q'.

Theorem one_shell_segmented pre post s : 0 < nseg s ->
  mat_ok (pre ++ s :: post) -> mat_ok (pre ++ segments K s ++ post) ->
  Mat (pre ++ segments K s ++ post) = Mat (pre ++ s :: post).
Proof.
  intros Hs [[L1 R1] E1] [[L2 R2] E2].
  set (bs := pre ++ s :: post) in *. set (bs' := pre ++ segments K s ++ post) in *.
  pose proof (ototal_seg K pre post s Hs) as HT. fold bs bs' in HT.
  apply (matrix_ext (f0 K) _ _ (ototal K bs) (ototal K bs)).
  - now rewrite L2.
  - exact L1.
  - intros a Ha. split; [rewrite R2 by (now rewrite HT); exact HT | now apply R1].
  - intros a b Ha Hb.
    destruct (oidx_surj K bs a Ha) as (i & m & q & Hi & Hm & Hq & ->).
    destruct (oidx_surj K bs b Hb) as (j & m' & q' & Hj & Hm' & Hq' & ->).
    rewrite (E1 i j m q m' q') by assumption.
    destruct (seg_locate K pre post s Hs i m Hi Hm) as (i' & mi & Hi' & Hmi & Oi & Xi & Ci).
    destruct (seg_locate K pre post s Hs j m' Hj Hm') as (j' & mj & Hj' & Hmj & Oj & Xj & Cj).
    fold bs bs' in Hi', Hmi, Oi, Xi, Ci, Hj', Hmj, Oj, Xj, Cj.
    rewrite <- (Xi q), <- (Xj q').
    rewrite (E2 i' j' mi q mj q') by (try assumption; rewrite ?Oi, ?Oj; assumption).
    destruct Ci as [[-> ->]|[-> ->]]; destruct Cj as [[-> ->]|[-> ->]];
      rewrite ?Ent_col_l, ?Ent_col_r by assumption; reflexivity.
Qed.
End Generic.

(* overlap_integral                                                      *)
Section OverlapSeg.
Context {F : Type} (K : Fops F) (Kf : is_field K).
Add Field KFcasm : Kf.
Local Open Scope F_scope.
Notation "0" := (f0 K) : F_scope.
Notation "1" := (f1 K) : F_scope.
Infix "+" := (fadd K) : F_scope.
Infix "*" := (fmul K) : F_scope.
Notation fsum := (FNum.fsum K).
Hypothesis Hapx : forall x : F, fapx K x = x.
Hypothesis H2 : 1 + 1 <> 0.

Lemma coeff_col (C : list (list F)) m ka : nth 0%nat (nth ka (col_rows m 0 C) []) 0 = nth m (nth ka C []) 0.
Proof.
  unfold col_rows. destruct (Nat.lt_ge_cases ka (length C)) as [H|H].
  - now rewrite (nth_map_lt _ C ka []) by exact H.
  - rewrite (nth_overflow (map (fun row : list F => [nth m row 0]) C) []) by (rewrite map_length; exact H).
    rewrite (nth_overflow C []) by exact H. now destruct m.
Qed.

Lemma contracted_col_l a b ca cb m m' prim :
  contracted K (col_shell K a m) b ca cb 0%nat m' prim = contracted K a b ca cb m m' prim.
Proof.
  unfold contracted, col_shell, set_coeffs. cbn [s_exps s_coeffs s_l].
  apply fsum_mk_ext; intros ka _. apply fsum_mk_ext; intros kb _. now rewrite coeff_col.
Qed.
Lemma contracted_col_r a b ca cb m m' prim :
  contracted K a (col_shell K b m') ca cb m 0%nat prim = contracted K a b ca cb m m' prim.
Proof.
  unfold contracted, col_shell, set_coeffs. cbn [s_exps s_coeffs s_l].
  apply fsum_mk_ext; intros ka _. apply fsum_mk_ext; intros kb _. now rewrite coeff_col.
Qed.

Lemma ncont_col a m c : (m < nseg a)%nat -> ncont K (col_shell K a m) 0%nat c = ncont K a m c.
Proof. intros Hm. unfold ncont. now rewrite (norm_cont_col_shell K a m Hm). Qed.

(* the entry at (shell a, segment m, row q ; shell b, segment m', row q'), both triangles, of an assembled
   matrix whose shell blocks contract the primitive quantity P, which reads only the frames of the shells *)
Section Entry.
Variable P : shell F -> shell F -> comp -> comp -> F -> F -> F.
Hypothesis P_col_l : forall a b m, P (col_shell K a m) b = P a b.
Hypothesis P_col_r : forall a b m, P a (col_shell K b m) = P a b.

Definition entP (a b : shell F) (m q m' q' : nat) : F :=
  AssembledSphOverlapP.dsum K a b q q' (fun c c' =>
    ncont K a m c * ncont K b m' c'
    * contracted K a b (nth c (comps_of a) (0,0,0)%nat) (nth c' (comps_of b) (0,0,0)%nat) m m'
        (P a b (nth c (comps_of a) (0,0,0)%nat) (nth c' (comps_of b) (0,0,0)%nat))).

Lemma entP_col_l a b m q m' q' : (m < nseg a)%nat -> entP (col_shell K a m) b 0%nat q m' q' = entP a b m q m' q'.
Proof.
  intros Hm. unfold entP.
  change (AssembledSphOverlapP.dsum K (col_shell K a m) b q q') with (AssembledSphOverlapP.dsum K a b q q').
  apply AssembledSphOverlapP.dsum_ext. intros c c' _ _.
  rewrite (ncont_col a m c Hm), P_col_l. change (comps_of (col_shell K a m)) with (comps_of a).
  now rewrite contracted_col_l.
Qed.
Lemma entP_col_r a b m q m' q' : (m' < nseg b)%nat -> entP a (col_shell K b m') m q 0%nat q' = entP a b m q m' q'.
Proof.
  intros Hm. unfold entP.
  change (AssembledSphOverlapP.dsum K a (col_shell K b m') q q') with (AssembledSphOverlapP.dsum K a b q q').
  apply AssembledSphOverlapP.dsum_ext. intros c c' _ _.
  rewrite (ncont_col b m' c' Hm), P_col_r. change (comps_of (col_shell K b m')) with (comps_of b).
  now rewrite contracted_col_r.
Qed.
End Entry.

Definition ovE (a b : shell F) (m q m' q' : nat) : F :=
  AssembledSphOverlapP.dsum K a b q q' (fun c c' =>
    ncont K a m c * ncont K b m' c'
    * contracted K a b (nth c (comps_of a) (0,0,0)%nat) (nth c' (comps_of b) (0,0,0)%nat) m m'
        (ovl_prim K a b (nth c (comps_of a) (0,0,0)%nat) (nth c' (comps_of b) (0,0,0)%nat))).

Definition basis_ok (X : list (shell F)) : Prop := seg_basis X /\ basis_wf X /\ basis_exps K X X.

Lemma wf_col (s : shell F) m : CoreBlockP.wf_shell s -> CoreBlockP.wf_shell (col_shell K s m).
Proof.
  intros [Hc Hl]. split; [|exact Hl].
  unfold wf_coeffs, col_shell, set_coeffs, col_rows in *. cbn [s_coeffs s_exps]. now rewrite map_length.
Qed.

Lemma basis_ok_segmented pre post s : basis_ok (pre ++ s :: post) -> basis_ok (pre ++ segments K s ++ post).
Proof.
  intros (C & W & E). pose proof (in_mid pre post s) as Hmid.
  assert (Hin : forall x, In x (pre ++ segments K s ++ post) ->
            In x (pre ++ s :: post) \/ exists m, (m < nseg s)%nat /\ x = col_shell K s m)
    by (intros x Hx; apply in_seg_basis; [exact (C s Hmid)|exact Hx]).
  split; [|split].
  - intros x Hx. destruct (Hin x Hx) as [H|(m & Hm & ->)]; [now apply C|]. rewrite (nseg_col_shell K s m Hm). lia.
  - intros x Hx. destruct (Hin x Hx) as [H|(m & Hm & ->)]; [now apply W|]. apply wf_col. now apply W.
  - intros a b Ha Hb.
    destruct (Hin a Ha) as [Ha'|(m & Hm & ->)]; destruct (Hin b Hb) as [Hb'|(m' & Hm' & ->)].
    + now apply E.
    + exact (E a s Ha' Hmid).
    + exact (E s b Hmid Hb').
    + exact (E s s Hmid Hmid).
Qed.

(* any symmetric two-index integral whose transform is applied last and whose entries obey the column law *)
Section Integral.
Variable blockf : shell F -> shell F -> list (list (list (list F))).
Variable Ent : shell F -> shell F -> nat -> nat -> nat -> nat -> F.
Notation Int := (two_symm_integral K 0 (fadd K) (fmul K) blockf).
Hypothesis Int_ok : forall X, basis_ok X -> mat_ok K (fun Y => Int Y None) Ent X.
Hypothesis Ent_col_l : forall a b m q m' q', (m < nseg a)%nat -> Ent (col_shell K a m) b 0%nat q m' q' = Ent a b m q m' q'.
Hypothesis Ent_col_r : forall a b m q m' q', (m' < nseg b)%nat -> Ent a (col_shell K b m') m q 0%nat q' = Ent a b m q m' q'.

Lemma int_T bs T :
  Int bs T = match T with None => Int bs None | Some t => lincomb2 0 (fadd K) (fmul K) t t (Int bs None) end.
Proof. destruct T; reflexivity. Qed.

(* ONE shell replaced by its single-column shells: the same matrix *)
Lemma int_one_shell_segmented pre post s T :
  basis_ok (pre ++ s :: post) -> Int (pre ++ segments K s ++ post) T = Int (pre ++ s :: post) T.
Proof.
  intros H. rewrite (int_T (pre ++ segments K s ++ post)), (int_T (pre ++ s :: post)).
  assert (E : Int (pre ++ segments K s ++ post) None = Int (pre ++ s :: post) None).
  { apply (one_shell_segmented K (fun Y => Int Y None) Ent Ent_col_l Ent_col_r pre post s).
    - apply (proj1 H). apply in_mid.
    - now apply Int_ok.
    - apply Int_ok. now apply basis_ok_segmented. }
  now rewrite E.
Qed.

(* EVERY shell replaced *)
Lemma int_segmented_basis basis T : basis_ok basis -> Int (segmented_basis K basis) T = Int basis T.
Proof.
  intros H. change basis with ([] ++ basis) in H |- * at 2.
  change (segmented_basis K basis) with ([] ++ segmented_basis K basis).
  generalize (@nil (shell F)) as pre, H. clear H.
  induction basis as [|s r IH]; intros pre H; [reflexivity|].
  unfold segmented_basis. cbn [flat_map]. fold (segmented_basis K r).
  rewrite <- (int_one_shell_segmented pre r s T H).
  rewrite (app_assoc pre (segments K s) r), (app_assoc pre (segments K s) (segmented_basis K r)).
  apply IH. rewrite <- app_assoc. now apply basis_ok_segmented.
Qed.
End Integral.

Lemma overlap_mat_ok X : basis_ok X -> mat_ok K (fun Y => overlap_integral K Y None) ovE X.
Proof.
  intros (C & W & E). split.
  - destruct X as [|x X']; [split; [reflexivity|intros I HI; cbn in HI; lia]|].
    apply (overlap_integral_mixed_shape K _ C). cbn; lia.
  - intros i j m q m' q' Hi Hj Hm Hq Hm' Hq'.
    exact (overlap_integral_mixed_entry K Kf Hapx H2 X C W E i j m q m' q' Hi Hj Hm Hq Hm' Hq').
Qed.

Theorem overlap_one_shell_segmented pre post s T :
  basis_ok (pre ++ s :: post) ->
  overlap_integral K (pre ++ segments K s ++ post) T = overlap_integral K (pre ++ s :: post) T.
Proof. exact (int_one_shell_segmented (overlap_block K) ovE overlap_mat_ok
         (entP_col_l (ovl_prim K) (fun _ _ _ => eq_refl)) (entP_col_r (ovl_prim K) (fun _ _ _ => eq_refl)) pre post s T). Qed.

Theorem overlap_segmented_basis basis T :
  basis_ok basis -> overlap_integral K (segmented_basis K basis) T = overlap_integral K basis T.
Proof. exact (int_segmented_basis (overlap_block K) ovE overlap_mat_ok
         (entP_col_l (ovl_prim K) (fun _ _ _ => eq_refl)) (entP_col_r (ovl_prim K) (fun _ _ _ => eq_refl)) basis T). Qed.

Lemma kinetic_mat_ok X : basis_ok X -> mat_ok K (fun Y => kinetic_integral K Y None) (entP (kin_prim K)) X.
Proof.
  intros (C & W & E). split.
  - destruct X as [|x X']; [split; [reflexivity|intros I HI; cbn in HI; lia]|].
    unfold kinetic_integral.
    apply (two_symm_mixed_shape K 0 (fadd K) (fmul K) (kinetic_block K) _ C).
    + intros sa sb _ _. apply (kinetic_block_shape K).
    + cbn; lia.
  - intros i j m q m' q' Hi Hj Hm Hq Hm' Hq'.
    rewrite (kinetic_mixed_is_cart_transformed K Kf Hapx H2 X C W E i j m q m' q' Hi Hj Hm Hq Hm' Hq').
    unfold entP. apply AssembledSphOverlapP.dsum_ext. intros c c' Hc Hc'.
    rewrite (kinetic_integral_entry K Kf Hapx H2 (map to_cart X) i j m c m' c' (cart_basis_to_cart X C)
               (basis_wf_to_cart X W) (basis_exps_to_cart K X E));
      rewrite ?map_length, ?sh_at_to_cart; try assumption.
    reflexivity.
Qed.

Theorem kinetic_one_shell_segmented pre post s T :
  basis_ok (pre ++ s :: post) ->
  kinetic_integral K (pre ++ segments K s ++ post) T = kinetic_integral K (pre ++ s :: post) T.
Proof. exact (int_one_shell_segmented (kinetic_block K) (entP (kin_prim K)) kinetic_mat_ok
         (entP_col_l (kin_prim K) (fun _ _ _ => eq_refl)) (entP_col_r (kin_prim K) (fun _ _ _ => eq_refl)) pre post s T). Qed.

Theorem kinetic_segmented_basis basis T :
  basis_ok basis -> kinetic_integral K (segmented_basis K basis) T = kinetic_integral K basis T.
Proof. exact (int_segmented_basis (kinetic_block K) (entP (kin_prim K)) kinetic_mat_ok
         (entP_col_l (kin_prim K) (fun _ _ _ => eq_refl)) (entP_col_r (kin_prim K) (fun _ _ _ => eq_refl)) basis T). Qed.
End OverlapSeg.

(* the hypotheses are satisfiable: the mixed basis of Proofs/AssembledExamplesP.v (generalized spherical d shell
   with two segments, Cartesian p shell, contracted spherical s shell) over Qc, any oracle closures *)
From Coq Require Import QArith Qcanon.
From GB Require Import Proofs.CoreExamplesP Proofs.AssembledExamplesP.

Section Ex.
Variables (opi : Qc) (osqrt oexp oln : Qc -> Qc) (oboys : nat -> Qc -> Qc).
Notation KQ' := (KQ opi osqrt oexp oln oboys).

Lemma ex_basis_ok : basis_ok KQ' ex_mixed.
Proof.
  exact (conj ex_mixed_seg (conj ex_mixed_wf (ex_mixed_exps opi osqrt oexp oln oboys))).
Qed.

Lemma ex_segmented_shape :
  length (segments KQ' ex_sa_sph) = 2%nat /\
  length (segmented_basis KQ' ex_mixed) = 4%nat /\
  ototal KQ' (segmented_basis KQ' ex_mixed) = 14%nat /\ ototal KQ' ex_mixed = 14%nat.
Proof. vm_compute. repeat split. Qed.

Example ex_overlap_segmented T :
  overlap_integral KQ' (segments KQ' ex_sa_sph ++ [ex_sb; ex_sc_sph]) T = overlap_integral KQ' ex_mixed T
  /\ overlap_integral KQ' (segmented_basis KQ' ex_mixed) T = overlap_integral KQ' ex_mixed T.
Proof.
  split.
  - exact (overlap_one_shell_segmented KQ' (KQ_field _ _ _ _ _) (KQ_apx _ _ _ _ _) (KQ_two _ _ _ _ _)
             [] [ex_sb; ex_sc_sph] ex_sa_sph T ex_basis_ok).
  - exact (overlap_segmented_basis KQ' (KQ_field _ _ _ _ _) (KQ_apx _ _ _ _ _) (KQ_two _ _ _ _ _)
             ex_mixed T ex_basis_ok).
Qed.
End Ex.
