(* Proofs/AssembledOverlapP.v — the assembled overlap (and kinetic) matrix of a basis of Cartesian shells
   (Model/Overlap.overlap_integral K basis None, the model run against gbasis.integrals.overlap.overlap_integral).
   With the index map gidx of Proofs/AssembledP.v, EVERY entry (gidx i m c, gidx j m' c'), whatever the triangle,
   is n_i[m][c] * n_j[m'][c'] * the contracted primitive integral of Props/C01_block.v: the mirrored copies agree
   with the evaluated blocks because the blocks are symmetric.  Hence the matrix is symmetric, and its diagonal
   is 1 given sqrt(x) * sqrt(x) = x and x <> 0 for the self-overlaps x, since
   n_s[m][c] = norm_cont = 1 / sqrt(overlap_block(s, s)[m][c][m][c])  (contractions.py:523-524). *)
From Coq Require Import List Arith Lia Bool Field.
From GB Require Import Base.Field Model.Shell Model.MomentInt Model.Overlap Model.DiffOp Model.OneBody
  Proofs.CoreSumP Proofs.CoreBlockP Proofs.CoreDiffP Proofs.AssembledP Proofs.AssembledSphP.
Import ListNotations.

Section OverlapAsm.
Context {F : Type} (K : Fops F) (Kf : is_field K).
Add Field KFasm : Kf.
Local Open Scope F_scope.
Notation "0" := (f0 K) : F_scope.
Notation "1" := (f1 K) : F_scope.
Infix "+" := (fadd K) : F_scope.
Infix "*" := (fmul K) : F_scope.
Infix "-" := (fsub K) : F_scope.
Infix "/" := (fdiv K) : F_scope.
Notation "- x" := (fopp K x) : F_scope.

Hypothesis Hapx : forall x : F, fapx K x = x.
Hypothesis H2 : 1 + 1 <> 0.

(* hypotheses on a basis (those of the block theorems, for every shell / pair of shells) *)
Definition basis_wf (bs : list (shell F)) : Prop := forall s, In s bs -> wf_shell s.
Definition basis_exps (b1 b2 : list (shell F)) : Prop :=
  forall sa sb, In sa b1 -> In sb b2 -> exps_ok K sa sb.

Lemma overlap_block_shape (sa sb : shell F) :
  shape4 (nseg sa) (ncomp sa) (nseg sb) (ncomp sb) (overlap_block K sa sb).
Proof. unfold overlap_block, mm_block. cbv zeta. cbn [map hd]. apply (block_of_shape K). Qed.

Lemma overlap_blocks_shaped b1 b2 : blocks_shaped (overlap_block K) b1 b2.
Proof. intros sa sb _ _. apply overlap_block_shape. Qed.

Lemma kinetic_block_shape (sa sb : shell F) :
  shape4 (nseg sa) (ncomp sa) (nseg sb) (ncomp sb) (kinetic_block K sa sb).
Proof.
  unfold kinetic_block, diffop_block. cbv zeta. cbn [map].
  match goal with
  | |- shape4 _ _ _ _ (map4 _ (zip4 _ (zip4 _ (block_of _ _ _ ?p0) (block_of _ _ _ ?p1)) (block_of _ _ _ ?p2))) =>
      pose proof (block_of_shape K sa sb p0) as Sx; pose proof (block_of_shape K sa sb p1) as Sy;
      pose proof (block_of_shape K sa sb p2) as Sz
  end.
  destruct (zip4_spec (fadd K) _ _ _ _ _ _ 0 0 0 Sx Sy) as [Sxy _].
  destruct (zip4_spec (fadd K) _ _ _ _ _ _ 0 0 0 Sxy Sz) as [Sxyz _].
  now apply map4_shape.
Qed.

Section OneBasis.
Variable bs : list (shell F).
Hypothesis C : cart_basis bs.
Hypothesis W : basis_wf bs.
Hypothesis E : basis_exps bs bs.

Notation s_ k := (sh_at K bs k).
Notation S := (overlap_integral K bs None).

(* entry in terms of the evaluated / mirrored block, uniform over the two triangles *)
Theorem overlap_integral_entry_block i j m c m' c' :
  i < length bs -> j < length bs ->
  m < nseg (s_ i) -> c < ncomp (s_ i) -> m' < nseg (s_ j) -> c' < ncomp (s_ j) ->
  nth (gidx K bs j m' c') (nth (gidx K bs i m c) S []) 0
  = ncont K (s_ i) m c * ncont K (s_ j) m' c' * nth4 K m c m' c' (overlap_block K (s_ i) (s_ j)).
Proof.
  intros Hi Hj Hm Hc Hm' Hc'. unfold overlap_integral.
  rewrite (two_symm_cart_entry K 0 (fadd K) (fmul K) (overlap_block K) bs C (overlap_blocks_shaped bs bs))
    by assumption.
  destruct (Nat.leb i j); [reflexivity|].
  rewrite <- nth4_get4.
  rewrite (overlap_block_sym K Kf Hapx H2 (s_ i) (s_ j) m c m' c')
    by (auto using sh_in). ring.
Qed.

Theorem overlap_integral_entry i j m c m' c' :
  i < length bs -> j < length bs ->
  m < nseg (s_ i) -> c < ncomp (s_ i) -> m' < nseg (s_ j) -> c' < ncomp (s_ j) ->
  let ca := nth c (comps_of (s_ i)) (0, 0, 0)%nat in let cb := nth c' (comps_of (s_ j)) (0, 0, 0)%nat in
  nth (gidx K bs j m' c') (nth (gidx K bs i m c) S []) 0
  = ncont K (s_ i) m c * ncont K (s_ j) m' c'
    * contracted K (s_ i) (s_ j) ca cb m m' (ovl_prim K (s_ i) (s_ j) ca cb).
Proof.
  intros Hi Hj Hm Hc Hm' Hc'. cbv zeta.
  rewrite overlap_integral_entry_block by assumption.
  rewrite (overlap_block_correct K Kf Hapx H2) by (auto using sh_in). reflexivity.
Qed.

Theorem overlap_integral_sym I J : I < btotal K bs -> J < btotal K bs ->
  nth I (nth J S []) 0 = nth J (nth I S []) 0.
Proof.
  intros HI HJ.
  destruct (gidx_surj K bs I HI) as (i & m & c & Hi & Hm & Hc & ->).
  destruct (gidx_surj K bs J HJ) as (j & m' & c' & Hj & Hm' & Hc' & ->).
  rewrite !overlap_integral_entry_block by assumption.
  rewrite (overlap_block_sym K Kf Hapx H2 (s_ i) (s_ j) m c m' c') by (auto using sh_in). ring.
Qed.

(* diag_one_cart: with an oracle square root that is exact and non-zero on the self-overlaps, every
   diagonal element of the assembled overlap matrix is 1 *)
Theorem diag_one_cart i m c :
  i < length bs -> m < nseg (s_ i) -> c < ncomp (s_ i) ->
  let x := nth4 K m c m c (overlap_block K (s_ i) (s_ i)) in
  fsqrt K x * fsqrt K x = x -> x <> 0 ->
  nth (gidx K bs i m c) (nth (gidx K bs i m c) S []) 0 = 1.
Proof.
  intros Hi Hm Hc x Hs Hx. rewrite overlap_integral_entry_block by assumption. fold x.
  rewrite ncont_eq by assumption. fold x. rewrite Hapx.
  assert (Hr : fsqrt K x <> 0).
  { intros E0. apply Hx. rewrite <- Hs, E0. ring. }
  rewrite <- Hs at 3. field. exact Hr.
Qed.

Corollary diag_one_cart_all :
  (forall i m c, i < length bs -> m < nseg (s_ i) -> c < ncomp (s_ i) ->
     let x := nth4 K m c m c (overlap_block K (s_ i) (s_ i)) in fsqrt K x * fsqrt K x = x /\ x <> 0) ->
  forall I, I < btotal K bs -> nth I (nth I S []) 0 = 1.
Proof.
  intros H I HI. destruct (gidx_surj K bs I HI) as (i & m & c & Hi & Hm & Hc & ->).
  destruct (H i m c Hi Hm Hc) as [Hs Hx]. now apply diag_one_cart.
Qed.
End OneBasis.

Theorem overlap_asymm_is_offdiag_block b1 b2 :
  cart_basis b1 -> cart_basis b2 -> 0 < length b2 ->
  overlap_integral_asymm K b1 b2 None None
  = map (skipn (btotal K b1)) (firstn (btotal K b1) (overlap_integral K (b1 ++ b2) None)).
Proof.
  intros C1 C2 Hn. unfold overlap_integral_asymm, overlap_integral.
  apply asymm_is_offdiag_block_cart; auto. apply overlap_blocks_shaped.
Qed.

Theorem overlap_asymm_entry b1 b2 i j m c m' c' :
  cart_basis b1 -> cart_basis b2 -> basis_wf b1 -> basis_wf b2 -> basis_exps b1 b2 ->
  i < length b1 -> j < length b2 ->
  m < nseg (sh_at K b1 i) -> c < ncomp (sh_at K b1 i) -> m' < nseg (sh_at K b2 j) -> c' < ncomp (sh_at K b2 j) ->
  let sa := sh_at K b1 i in let sb := sh_at K b2 j in
  let ca := nth c (comps_of sa) (0, 0, 0)%nat in let cb := nth c' (comps_of sb) (0, 0, 0)%nat in
  nth (gidx K b2 j m' c') (nth (gidx K b1 i m c) (overlap_integral_asymm K b1 b2 None None) []) 0
  = ncont K sa m c * ncont K sb m' c' * contracted K sa sb ca cb m m' (ovl_prim K sa sb ca cb).
Proof.
  intros C1 C2 W1 W2 E12 Hi Hj Hm Hc Hm' Hc'. cbv zeta. unfold overlap_integral_asymm.
  rewrite (two_asymm_cart_entry K 0 (fadd K) (fmul K) (overlap_block K) b1 b2 C1 C2 i j m c m' c'
             (overlap_blocks_shaped b1 b2)) by assumption.
  rewrite <- nth4_get4. now rewrite (overlap_block_correct K Kf Hapx H2) by auto using sh_in.
Qed.

(* the kinetic-energy matrix: same assembly, block spec kin_prim *)
Theorem kinetic_integral_entry bs i j m c m' c' :
  cart_basis bs -> basis_wf bs -> basis_exps bs bs ->
  i < length bs -> j < length bs ->
  m < nseg (sh_at K bs i) -> c < ncomp (sh_at K bs i) -> m' < nseg (sh_at K bs j) -> c' < ncomp (sh_at K bs j) ->
  let sa := sh_at K bs i in let sb := sh_at K bs j in
  let ca := nth c (comps_of sa) (0, 0, 0)%nat in let cb := nth c' (comps_of sb) (0, 0, 0)%nat in
  nth (gidx K bs j m' c') (nth (gidx K bs i m c) (kinetic_integral K bs None) []) 0
  = ncont K sa m c * ncont K sb m' c' * contracted K sa sb ca cb m m' (kin_prim K sa sb ca cb).
Proof.
  intros C W E Hi Hj Hm Hc Hm' Hc'. cbv zeta. unfold kinetic_integral.
  assert (HBk : blocks_shaped (kinetic_block K) bs bs) by (intros sa sb _ _; apply kinetic_block_shape).
  rewrite (two_symm_cart_entry K 0 (fadd K) (fmul K) (kinetic_block K) bs C HBk) by assumption.
  destruct (Nat.leb i j); rewrite <- nth4_get4.
  - now rewrite (kinetic_block_correct K Kf Hapx H2) by auto using sh_in.
  - rewrite (kinetic_block_sym K Kf Hapx H2 (sh_at K bs i) (sh_at K bs j) m c m' c') by auto using sh_in.
    rewrite (kinetic_block_correct K Kf Hapx H2) by auto using sh_in. ring.
Qed.

End OverlapAsm.
