(* Proofs/RotationMoreBlockP.v — GENERAL ROTATIONS (C12) for the contracted, normalised BLOCKS of the list-level model:
   point charge, momentum, multipole moment.  Continues Proofs/RotationBlockP.v.

   [block_rotation_law_generic2] lifts [RotationBlockP.contracted_rotation_law] to entry functions
     - for a FIXED rotation R and two (possibly different) kernels: [ent] for the original system and [ent'] for the
       rotated one (the point charge / the moment origin moves with the system, a vector component is replaced by a
       combination of components), given as entry functions  shell -> shell -> ma ia mb ib -> F;
     - with the explicit matrices [rep_mat R] (they satisfy RigidP.mono_rep: RotationBlockP.rep_mat_mono_rep).
   Law, for Cartesian shells with the default component order, any l_a, l_b, segments, generalized contractions:
        dfnorm(ja) dfnorm(jb) ent(sa, sb)[ma, ja, mb, jb]
          = sum_ia sum_ib rep_mat[ia, ja] rep_mat[ib, jb] dfnorm(ia) dfnorm(ib) ent'(R sa, R sb)[ma, ia, mb, ib]
   (dfnorm c = sqrt((2cx-1)!!(2cy-1)!!(2cz-1)!!): gbasis' per-component normalisation, written without division). *)
From Coq Require Import List Arith Lia Field Bool.
From GB Require Import Base.Field Base.FNum Base.Tables Gauss.Moment1D Gauss.SPoly Gauss.Poly3 Model.Shell
  Model.MomentInt Model.Overlap Model.DiffOp Model.OneElec Proofs.CoreSumP Proofs.CoreBlockP Proofs.CoreDiffP
  Proofs.OneElecP Proofs.RigidP Proofs.RotationP Proofs.RotationBlockP Proofs.RotationMoreP.
Import ListNotations.

Definition cmpd (l i : nat) : comp := nth i (default_comps l) (0, 0, 0)%nat.

Section Block2.
Context {F : Type} (K : Fops F) (Kf : is_field K).
Add Field KFrmb : Kf.
Local Open Scope F_scope.
Notation "0" := (f0 K) : F_scope.
Notation "1" := (f1 K) : F_scope.
Infix "+" := (fadd K) : F_scope.
Infix "*" := (fmul K) : F_scope.
Infix "-" := (fsub K) : F_scope.
Infix "/" := (fdiv K) : F_scope.
Notation "- x" := (fopp K x) : F_scope.
Notation "# n" := (ofnat K n) (at level 5) : F_scope.
Notation fsum := (FNum.fsum K).

Hypothesis Hapx : forall x : F, fapx K x = x.
Hypothesis Hdf : forall c, dfnorm K c <> 0.

Definition good_pair (la lb : nat) (sa sb : shell F) : Prop :=
  s_l sa = la /\ s_l sb = lb /\ s_comps sa = [] /\ s_comps sb = [] /\ wf_coeffs sa /\ wf_coeffs sb
  /\ (forall a b, In a (s_exps sa) -> In b (s_exps sb) -> a + b <> 0).

Lemma good_pair_rot R la lb sa sb : good_pair la lb sa sb -> good_pair la lb (rot_shell K R sa) (rot_shell K R sb).
Proof. exact (fun H => H). Qed.

Lemma good_pair_wf la lb sa sb : good_pair la lb sa sb ->
  wf_shell sa /\ wf_shell sb /\ exps_ok K sa sb /\ comps_of sa = default_comps la /\ comps_of sb = default_comps lb.
Proof.
  intros (Hla & Hlb & Hca & Hcb & Wa & Wb & Hex).
  split; [now apply wf_shell_default|]. split; [now apply wf_shell_default|].
  split; [intros a b Ha Hb; unfold psum; now apply Hex|].
  split; [now rewrite (comps_of_default sa Hca), Hla|now rewrite (comps_of_default sb Hcb), Hlb].
Qed.

Definition entry_fun := shell F -> shell F -> nat -> nat -> nat -> nat -> F.
Definition prim_fun := shell F -> shell F -> comp -> comp -> F -> F -> F.

Definition entries_are (la lb : nat) (ent : entry_fun) (prim : prim_fun) : Prop :=
  forall sa sb, good_pair la lb sa sb ->
  forall ma ia mb ib, (ma < nseg sa)%nat -> (mb < nseg sb)%nat ->
    (ia < length (default_comps la))%nat -> (ib < length (default_comps lb))%nat ->
    ent sa sb ma ia mb ib
    = contracted K sa sb (cmpd la ia) (cmpd lb ib) ma mb (prim sa sb (cmpd la ia) (cmpd lb ib)).

Definition prim_law (R : @mat3 F) (la lb : nat) (prim prim' : prim_fun) : Prop :=
  forall sa sb ja jb alpha beta,
    psum K alpha beta <> 0 -> In ja (default_comps la) -> In jb (default_comps lb) ->
    fsum (map (fun ia => fsum (map (fun ib =>
        rep_mat K R ia ja * rep_mat K R ib jb * prim' (rot_shell K R sa) (rot_shell K R sb) ia ib alpha beta)
      (default_comps lb))) (default_comps la))
    = prim sa sb ja jb alpha beta.

Definition block_law2 (R : @mat3 F) (la lb : nat) (ent ent' : entry_fun) : Prop :=
  forall sa sb, good_pair la lb sa sb ->
  forall ma mb ja jb, (ma < nseg sa)%nat -> (mb < nseg sb)%nat ->
    (ja < length (default_comps la))%nat -> (jb < length (default_comps lb))%nat ->
    dfnorm K (cmpd la ja) * dfnorm K (cmpd lb jb) * ent sa sb ma ja mb jb
    = fsum (map (fun ia => fsum (map (fun ib =>
        rep_mat K R (cmpd la ia) (cmpd la ja) * rep_mat K R (cmpd lb ib) (cmpd lb jb)
        * dfnorm K (cmpd la ia) * dfnorm K (cmpd lb ib)
        * ent' (rot_shell K R sa) (rot_shell K R sb) ma ia mb ib)
        (seq 0 (length (default_comps lb))))) (seq 0 (length (default_comps la)))).

Theorem block_rotation_law_generic2 R la lb (ent ent' : entry_fun) (prim prim' : prim_fun) :
  entries_are la lb ent prim -> entries_are la lb ent' prim' -> prim_law R la lb prim prim' ->
  block_law2 R la lb ent ent'.
Proof.
  intros ent_correct ent'_correct prim_matrix sa sb G ma mb ja jb Hma Hmb Hja Hjb.
  rewrite (ent_correct sa sb G ma ja mb jb Hma Hmb Hja Hjb).
  etransitivity; [apply (contracted_rotation_law K Kf Hapx Hdf R prim prim' la lb sa sb ma mb ja jb)|].
  - intros alpha beta Ha Hb. destruct G as (_ & _ & _ & _ & _ & _ & Hex).
    apply prim_matrix; [unfold psum; now apply Hex|apply nth_In; exact Hja|apply nth_In; exact Hjb].
  - apply (fsum_map_ext_in K). intros ia Hia. apply (fsum_map_ext_in K). intros ib Hib.
    apply in_seq in Hia. apply in_seq in Hib.
    rewrite (ent'_correct _ _ (good_pair_rot R la lb sa sb G) ma ia mb ib) by (assumption || lia). reflexivity.
Qed.

Lemma entries_are_scale la lb c ent prim : entries_are la lb ent prim ->
  entries_are la lb (fun sa sb ma ia mb ib => c * ent sa sb ma ia mb ib)
                    (fun sa sb ca cb x y => c * prim sa sb ca cb x y).
Proof.
  intros H sa sb G ma ia mb ib Hma Hmb Hia Hib. rewrite (H sa sb G ma ia mb ib Hma Hmb Hia Hib).
  symmetry. apply (contracted_scale K Kf).
Qed.
Lemma entries_are_sum3 la lb (c : axis -> F) (ent : axis -> entry_fun) (prim : axis -> prim_fun) :
  (forall i, entries_are la lb (ent i) (prim i)) ->
  entries_are la lb (fun sa sb ma ia mb ib => sum3 K (fun i => c i * ent i sa sb ma ia mb ib))
                    (fun sa sb ca cb x y => sum3 K (fun i => c i * prim i sa sb ca cb x y)).
Proof.
  intros H sa sb G ma ia mb ib Hma Hmb Hia Hib. unfold sum3.
  rewrite !(fun i => H i sa sb G ma ia mb ib Hma Hmb Hia Hib).
  rewrite <- !(contracted_scale K Kf), <- !(contracted_add K Kf). reflexivity.
Qed.
Lemma entries_are_ext la lb ent prim prim2 : entries_are la lb ent prim ->
  (forall sa sb ca cb x y, prim sa sb ca cb x y = prim2 sa sb ca cb x y) -> entries_are la lb ent prim2.
Proof.
  intros H E sa sb G ma ia mb ib Hma Hmb Hia Hib. rewrite (H sa sb G ma ia mb ib Hma Hmb Hia Hib).
  apply contracted_ext. intros; apply E.
Qed.

Lemma prim_law_of_Jsum R la lb (prim prim' : prim_fun) :
  (forall sa sb ja jb alpha beta, psum K alpha beta <> 0 ->
     Jsum K (fun a' => Jsum K (fun b' => prim' (rot_shell K R sa) (rot_shell K R sb) a' b' alpha beta)
       (rot_expand K R jb)) (rot_expand K R ja) = prim sa sb ja jb alpha beta) ->
  prim_law R la lb prim prim'.
Proof.
  intros H sa sb ja jb alpha beta Hp Hja Hjb.
  apply (matrix_form K Kf R la lb (fun a b => prim sa sb a b alpha beta)
           (fun a b => prim' (rot_shell K R sa) (rot_shell K R sb) a b alpha beta) ja jb Hja Hjb).
  now apply H.
Qed.

Lemma cmpd_degree l i : (i < length (default_comps l))%nat ->
  (fst (fst (cmpd l i)) + snd (fst (cmpd l i)) + snd (cmpd l i) = l)%nat.
Proof. intro H. apply BlockP.default_comps_degree, nth_In, H. Qed.

Lemma norm_prim_split l c alpha : norm_prim K l c alpha = norm_rad K l alpha * inv_sqrt_df K c.
Proof.
  destruct c as [[x y] z]. unfold norm_prim, norm_rad, inv_sqrt_df. rewrite !Hapx, !(Fdiv_def Kf). ring.
Qed.

Lemma erows_as_mk (s : shell F) : wf_coeffs s ->
  erows K s = mk (length (s_exps s)) (fun k =>
     (nth k (s_exps s) 0, (norm_rad K (s_l s) (nth k (s_exps s) 0), nth k (s_coeffs s) []))).
Proof.
  intro Ws. unfold wf_coeffs in Ws. unfold erows.
  rewrite (combine_as_mk (s_exps s) _ 0 (0, [])) by (rewrite combine_length, map_length, Ws; lia).
  apply mk_ext. intros k Hk. f_equal.
  rewrite combine_nth by (now rewrite map_length).
  f_equal. rewrite (nth_indep _ 0 (norm_rad K (s_l s) 0)) by (now rewrite map_length).
  apply map_nth.
Qed.

(* the specification of OneElecP in the vocabulary of the two-index block theorems *)
Theorem one_elec_spec_contracted Cx Cy Cz (sa sb : shell F) ma ca mb cb :
  wf_coeffs sa -> wf_coeffs sb ->
  one_elec_spec K Cx Cy Cz sa sb ma ca mb cb
  = contracted K sa sb ca cb ma mb
      (fun alpha beta => prim_val K Cx Cy Cz (s_x sa) (s_y sa) (s_z sa) (s_x sb) (s_y sb) (s_z sb)
                           alpha beta ca cb).
Proof.
  intros Wa Wb. unfold one_elec_spec, csum2, contracted.
  rewrite (erows_as_mk sa Wa), (erows_as_mk sb Wb), map_mk.
  rewrite (fsum_mk_swap K Kf).
  rewrite !(fsum_mk_scale_r K Kf). apply (fsum_mk_ext K). intros kb _. cbn [fst snd].
  rewrite map_mk. cbn [fst snd].
  set (G := prim_val K Cx Cy Cz (s_x sa) (s_y sa) (s_z sa) (s_x sb) (s_y sb) (s_z sb)).
  set (be := nth kb (s_exps sb) 0).
  transitivity (fsum (mk (length (s_exps sa)) (fun ka =>
      G (nth ka (s_exps sa) 0) be ca cb * norm_rad K (s_l sa) (nth ka (s_exps sa) 0)
      * nth ma (nth ka (s_coeffs sa) []) 0))
    * (norm_rad K (s_l sb) be * nth mb (nth kb (s_coeffs sb) []) 0 * inv_sqrt_df K ca * inv_sqrt_df K cb));
    [ring|].
  rewrite (fsum_mk_scale_r K Kf). apply (fsum_mk_ext K). intros ka _.
  rewrite !norm_prim_split. ring.
Qed.

Definition pc_ent (C : @vec3 F) : entry_fun := fun sa sb ma ia mb ib =>
  nth ib (nth mb (nth ia (nth ma (one_elec_point K (vget C 0) (vget C 1) (vget C 2) sa sb) []) []) []) 0.
Definition pc_primf (C : @vec3 F) : prim_fun := fun sa sb ca cb alpha beta => pc_prim K C sa sb ca cb alpha beta.

Lemma pc_entries_are C la lb : entries_are la lb (pc_ent C) (pc_primf C).
Proof.
  intros sa sb G ma ia mb ib Hma Hmb Hia Hib.
  destruct (good_pair_wf la lb sa sb G) as (_ & _ & _ & Ca & Cb). destruct G as (Hla & Hlb & _ & _ & Wa & Wb & Hex).
  pose proof (cmpd_degree la ia Hia) as Da. pose proof (cmpd_degree lb ib Hib) as Db.
  unfold pc_ent. rewrite (one_elec_entry K Kf _ _ _ sa sb ma ia mb ib Hapx); rewrite ?Ca, ?Cb;
    fold (cmpd la ia) (cmpd lb ib); try assumption; try lia.
  now apply one_elec_spec_contracted.
Qed.

Hypothesis char0 : forall n, #(S n) <> 0.

Lemma pc_prim_law R C la lb : orthogonal K R -> prim_law R la lb (pc_primf C) (pc_primf (mapply K R C)).
Proof.
  intro HO. apply prim_law_of_Jsum. intros sa sb ja jb alpha beta Hp.
  now apply (point_charge_prim_rotation_covariant K Kf char0).
Qed.

(* GENERAL ROTATIONS, every entry of the one-electron block for one point charge at C (any l_a, l_b) *)
Theorem one_elec_point_rotation_law R C la lb : orthogonal K R ->
  block_law2 R la lb (pc_ent C) (pc_ent (mapply K R C)).
Proof.
  intro HO. apply (block_rotation_law_generic2 R la lb _ _ (pc_primf C) (pc_primf (mapply K R C))).
  - apply pc_entries_are.
  - apply pc_entries_are.
  - now apply pc_prim_law.
Qed.

(* PointChargeIntegral.construct_array_contraction: points = [((x, y, z), q); ...] *)
Definition rot_points (R : @mat3 F) (points : list (F * F * F * F)) : list (F * F * F * F) :=
  map (fun pt => (mapply K R (fst pt), snd pt)) points.
Definition pcb_ent (points : list (F * F * F * F)) (k : nat) : entry_fun := fun sa sb ma ia mb ib =>
  nth k (nth ib (nth mb (nth ia (nth ma (point_charge_block K points sa sb) []) []) []) []) 0.
Definition pcb_primf (pt : F * F * F * F) : prim_fun := fun sa sb ca cb alpha beta =>
  (- snd pt) * pc_prim K (fst pt) sa sb ca cb alpha beta.

Lemma pcb_entries_are points k la lb : (k < length points)%nat ->
  entries_are la lb (pcb_ent points k) (pcb_primf (nth k points (0, 0, 0, 0))).
Proof.
  intros Hk sa sb G ma ia mb ib Hma Hmb Hia Hib.
  destruct (good_pair_wf la lb sa sb G) as (_ & _ & _ & Ca & Cb). destruct G as (Hla & Hlb & _ & _ & Wa & Wb & Hex).
  pose proof (cmpd_degree la ia Hia) as Da. pose proof (cmpd_degree lb ib Hib) as Db.
  unfold pcb_ent.
  rewrite (point_charge_block_entry K Kf char0 points sa sb ma ia mb ib Hapx); rewrite ?Ca, ?Cb;
    fold (cmpd la ia) (cmpd lb ib); try assumption; try (unfold csum3; lia).
  rewrite (nth_map_lt _ points k (0, 0, 0, 0)) by exact Hk.
  destruct (nth k points (0, 0, 0, 0)) as [[[cx cy] cz] q]. unfold pcb_primf. cbn [fst snd].
  rewrite one_elec_spec_contracted by assumption.
  symmetry. apply (contracted_scale K Kf).
Qed.

(* GENERAL ROTATIONS, PointChargeIntegral.construct_array_contraction: every entry, every point; the points rotate with
   the shells *)
Theorem point_charge_block_rotation_law R points k la lb : orthogonal K R -> (k < length points)%nat ->
  block_law2 R la lb (pcb_ent points k) (pcb_ent (rot_points R points) k).
Proof.
  intros HO Hk.
  apply (block_rotation_law_generic2 R la lb _ _ (pcb_primf (nth k points (0, 0, 0, 0)))
           (pcb_primf (nth k (rot_points R points) (0, 0, 0, 0)))).
  - now apply pcb_entries_are.
  - apply pcb_entries_are. unfold rot_points. now rewrite map_length.
  - apply prim_law_of_Jsum. intros sa sb ja jb alpha beta Hp.
    unfold rot_points. rewrite (nth_map_lt _ points k (0, 0, 0, 0)) by exact Hk.
    unfold pcb_primf. cbn [fst snd].
    rewrite <- (point_charge_prim_rotation_covariant K Kf char0 R (fst (nth k points (0, 0, 0, 0)))
                  sa sb ja jb alpha beta HO Hp).
    rewrite <- (Jsum_Jscale K Kf). apply Jsum_ext. intro a'.
    rewrite <- (Jsum_Jscale K Kf). reflexivity.
Qed.

Hypothesis H2 : 1 + 1 <> 0.
Hypothesis Hexp : forall x y, fexp K (x + y) = fexp K x * fexp K y.

(* component k of an entry of [momentum_block_re] (the real matrix M of the value -i M, last axis x, y, z) *)
Definition mom_ent (k : axis) : entry_fun := fun sa sb ma ia mb ib =>
  nth (ax2nat k) (nth ib (nth mb (nth ia (nth ma (momentum_block_re K sa sb) []) []) []) []) 0.

Lemma mom_entries_are k la lb : entries_are la lb (mom_ent k) (momk K k).
Proof.
  intros sa sb G ma ia mb ib Hma Hmb Hia Hib.
  destruct (good_pair_wf la lb sa sb G) as (WSa & WSb & He & Ca & Cb).
  pose proof (momentum_block_correct K Kf Hapx H2 sa sb ma ia mb ib WSa WSb He Hma) as Hc.
  rewrite Ca, Cb in Hc. specialize (Hc Hia Hmb Hib). cbv zeta in Hc.
  unfold mom_ent. change (nth (ax2nat k) (CoreDiffP.get4 [] ma ia mb ib (momentum_block_re K sa sb)) 0
    = contracted K sa sb (cmpd la ia) (cmpd lb ib) ma mb (momk K k sa sb (cmpd la ia) (cmpd lb ib))).
  rewrite Hc. fold (cmpd la ia) (cmpd lb ib). destruct k; reflexivity.
Qed.

(* GENERAL ROTATIONS, MomentumIntegral.construct_array_contraction: the vector of the three component blocks of the
   original system, rotated by R, obeys the two-index law against component k of the rotated system *)
Theorem momentum_block_rotation_law R k la lb : orthogonal K R ->
  block_law2 R la lb
    (fun sa sb ma ia mb ib => sum3 K (fun i => matf R k i * mom_ent i sa sb ma ia mb ib))
    (mom_ent k).
Proof.
  intro HO.
  apply (block_rotation_law_generic2 R la lb _ _
           (fun sa sb ca cb x y => sum3 K (fun i => matf R k i * momk K i sa sb ca cb x y)) (momk K k)).
  - apply (entries_are_sum3 la lb (matf R k) mom_ent (momk K)). intro i. apply mom_entries_are.
  - apply mom_entries_are.
  - apply prim_law_of_Jsum. intros sa sb ja jb alpha beta Hp.
    now apply (momentum_prim_rotation_covariant K Kf Hexp).
Qed.

Lemma contracted_fsum sa sb ca cb ma mb n (c : nat -> F) (p : nat -> F -> F -> F) :
  contracted K sa sb ca cb ma mb (fun x y => fsum (mk n (fun i => c i * p i x y)))
  = fsum (mk n (fun i => c i * contracted K sa sb ca cb ma mb (p i))).
Proof.
  induction n as [|n IH].
  - rewrite (fsum_mk_0 K).
    rewrite (contracted_ext K sa sb ca cb ma mb _ (fun x y => 0 * 0)) by (intros; rewrite (fsum_mk_0 K); ring).
    rewrite (contracted_scale K Kf). ring.
  - rewrite (fsum_mk_S K Kf), <- IH, <- (contracted_scale K Kf), <- (contracted_add K Kf).
    apply contracted_ext. intros x y _ _. apply (fsum_mk_S K Kf).
Qed.

Definition mm_primf (C : @vec3 F) (o : comp) : prim_fun := fun sa sb ca cb alpha beta =>
  mom_prim K (vget C 0) (vget C 1) (vget C 2) o sa sb ca cb alpha beta.
(* entry of Moment.construct_array_contraction = [moment_block], order number d of the list [orders] *)
Definition mm_ent (C : @vec3 F) (orders : list comp) (d : nat) : entry_fun := fun sa sb ma ia mb ib =>
  nth d (nth ib (nth mb (nth ia (nth ma
    (moment_block K (vget C 0) (vget C 1) (vget C 2) orders sa sb) []) []) []) []) 0.

Lemma mm_entries_are C orders d la lb : (d < length orders)%nat ->
  entries_are la lb (mm_ent C orders d) (mm_primf C (nth d orders (0, 0, 0)%nat)).
Proof.
  intros Hd sa sb G ma ia mb ib Hma Hmb Hia Hib.
  destruct (good_pair_wf la lb sa sb G) as (WSa & WSb & He & Ca & Cb).
  assert (Hne : orders <> []) by (destruct orders; [cbn in Hd; lia|discriminate]).
  pose proof (moment_block_correct K Kf Hapx H2 (vget C 0) (vget C 1) (vget C 2) orders sa sb ma ia mb ib
                WSa WSb He Hne Hma) as Hc.
  rewrite Ca, Cb in Hc. specialize (Hc Hia Hmb Hib). cbv zeta in Hc. destruct Hc as [_ Hc].
  unfold mm_ent. rewrite (Hc d Hd). reflexivity.
Qed.

(* the D-combination over the order index, for the rotated system: all orders of degree |o| are requested *)
Definition mm_rot_ent (R : @mat3 F) (C' : @vec3 F) (o : comp) : entry_fun := fun sa sb ma ia mb ib =>
  fsum (mk (length (default_comps (mdeg o))) (fun d' =>
    rep_mat K R (cmpd (mdeg o) d') o * mm_ent C' (default_comps (mdeg o)) d' sa sb ma ia mb ib)).
Definition mm_rot_primf (R : @mat3 F) (C' : @vec3 F) (o : comp) : prim_fun := fun sa sb ca cb alpha beta =>
  fsum (mk (length (default_comps (mdeg o))) (fun d' =>
    rep_mat K R (cmpd (mdeg o) d') o * mm_primf C' (cmpd (mdeg o) d') sa sb ca cb alpha beta)).

Lemma mm_rot_entries_are R C' o la lb : entries_are la lb (mm_rot_ent R C' o) (mm_rot_primf R C' o).
Proof.
  intros sa sb G ma ia mb ib Hma Hmb Hia Hib. unfold mm_rot_ent, mm_rot_primf.
  rewrite contracted_fsum. apply (fsum_mk_ext K). intros d' Hd'. f_equal.
  apply (mm_entries_are C' (default_comps (mdeg o)) d' la lb Hd' sa sb G ma ia mb ib Hma Hmb Hia Hib).
Qed.

Lemma mm_rot_primf_Jsum R C' o sa sb ca cb alpha beta :
  mm_rot_primf R C' o sa sb ca cb alpha beta
  = Jsum K (fun o' => mm_primf C' o' sa sb ca cb alpha beta) (rot_expand K R o).
Proof.
  destruct o as [[ox oy] oz]. symmetry.
  apply (Jsum_rot_expand_idx K Kf (fun o' => mm_primf C' o' sa sb ca cb alpha beta) R (mdeg (ox, oy, oz)) (ox, oy, oz)).
  apply BlockP.default_comps_all. reflexivity.
Qed.

(* GENERAL ROTATIONS, Moment.construct_array_contraction: an entry of the original block for the order o = orders[d]
   about C against the D-combination (over the order index) of the entries of the rotated block about R C *)
Theorem moment_block_rotation_law R C orders d la lb : orthogonal K R -> (d < length orders)%nat ->
  block_law2 R la lb (mm_ent C orders d) (mm_rot_ent R (mapply K R C) (nth d orders (0, 0, 0)%nat)).
Proof.
  intros HO Hd. set (o := nth d orders (0, 0, 0)%nat).
  apply (block_rotation_law_generic2 R la lb _ _ (mm_primf C o) (mm_rot_primf R (mapply K R C) o)).
  - now apply mm_entries_are.
  - apply mm_rot_entries_are.
  - apply prim_law_of_Jsum. intros sa sb ja jb alpha beta Hp.
    rewrite (Jsum_ext K _ (fun a' => Jsum K (fun o' => Jsum K (fun b' =>
               mm_primf (mapply K R C) o' (rot_shell K R sa) (rot_shell K R sb) a' b' alpha beta)
               (rot_expand K R jb)) (rot_expand K R o))).
    2:{ intro a'. rewrite (Jsum_ext K _ _ (fun b' => mm_rot_primf_Jsum R _ o _ _ a' b' alpha beta)).
        apply (Jsum_swap K Kf). }
    rewrite (Jsum_swap K Kf).
    exact (moment_prim_rotation_covariant K Kf Hexp R C o sa sb ja jb alpha beta HO Hp).
Qed.

End Block2.

(* Examples over Qc.  Stand-ins: sqrt = exp = 1 (they satisfy every hypothesis; the theorems assume nothing else about
   them), the m- and argument-dependent "Boys function" [exBoys] of Proofs/RotationMoreP.v.  Shells: the contracted p
   shell exP (2 primitives, 2 segments) and the d shell exD of Proofs/RotationBlockP.v; l_a < l_b, so
   [point_charge_block] takes the SWAPPED branch. *)
From Coq Require Import ZArith QArith Qcanon.
Definition exKQb : Fops Qc := QcK true (Q2Qc 3) (fun _ => Q2Qc 1) (fun _ => Q2Qc 1) (fun x => x) exBoys.
Section Examples.
Let KQ : Fops Qc := exKQb.
Let KQf : is_field KQ := QcK_field _ _ _ _ _ _.
Let q (n : Z) (d : positive) : Qc := qc_of n d.

Lemma exKQb_hyps :
  (forall x, fapx KQ x = x) /\ (forall c, dfnorm KQ c <> f0 KQ) /\ (forall n, ofnat KQ (S n) <> f0 KQ)
  /\ fadd KQ (f1 KQ) (f1 KQ) <> f0 KQ /\ (forall x y, fexp KQ (fadd KQ x y) = fmul KQ (fexp KQ x) (fexp KQ y)).
Proof.
  split; [reflexivity|].
  split; [intros c H; apply (f_equal this) in H; vm_compute in H; discriminate H|].
  split; [apply QcK_char0|].
  split; [intro H; apply (f_equal this) in H; vm_compute in H; discriminate H|].
  intros; apply Qc_is_canon; vm_compute; reflexivity.
Qed.
Example good_pair_ex : good_pair KQ 1 2 exP exD.
Proof.
  destruct block_law_hypotheses_satisfiable as (_ & Wa & Wb & Ca & Cb & Hex).
  repeat split; try assumption; reflexivity.
Qed.
Definition exPts : list (Qc * Qc * Qc * Qc) := [(exC, q 2 1); ((q 1 1, q 0 1, q (-1) 2), q (-1) 1)].

Example point_charge_block_rotation_law_ex :
  block_law2 KQ R345 1 2 (pcb_ent KQ exPts 1) (pcb_ent KQ (rot_points KQ R345 exPts) 1).
Proof.
  destruct exKQb_hyps as (A & B & C & D & E).
  apply (point_charge_block_rotation_law KQ KQf A B C R345 exPts 1 1 2 orthogonal_R345). cbn. lia.
Qed.
Example momentum_block_rotation_law_ex :
  block_law2 KQ R345 1 2
    (fun sa sb ma ia mb ib => sum3 KQ (fun i => fmul KQ (matf R345 AY i) (mom_ent KQ i sa sb ma ia mb ib)))
    (mom_ent KQ AY).
Proof.
  destruct exKQb_hyps as (A & B & C & D & E).
  apply (momentum_block_rotation_law KQ KQf A B D E R345 AY 1 2 orthogonal_R345).
Qed.

Definition blk2_check (R : @mat3 Qc) (la lb : nat) (ent ent' : nat -> nat -> nat -> nat -> Qc)
  (ma mb ja jb : nat) : bool :=
  Qeq_bool
    (fmul KQ (fmul KQ (dfnorm KQ (cmpd la ja)) (dfnorm KQ (cmpd lb jb))) (ent ma ja mb jb))
    (FNum.fsum KQ (map (fun ia => FNum.fsum KQ (map (fun ib =>
        fmul KQ (fmul KQ (fmul KQ (fmul KQ (rep_mat KQ R (cmpd la ia) (cmpd la ja))
                                           (rep_mat KQ R (cmpd lb ib) (cmpd lb jb)))
                                  (dfnorm KQ (cmpd la ia))) (dfnorm KQ (cmpd lb ib)))
          (ent' ma ia mb ib))
        (seq 0 (length (default_comps lb))))) (seq 0 (length (default_comps la))))).
(* every entry of the (contracted p, 2 segments) x (shell of angular momentum lb) block *)
Definition blk2_all (R : @mat3 Qc) (lb : nat) (ent ent' : nat -> nat -> nat -> nat -> Qc) : bool :=
  forallb (fun ma => forallb (fun ja => forallb (fun jb => blk2_check R 1 lb ent ent' ma 0 ja jb)
    (seq 0 (length (default_comps lb)))) (seq 0 3)) (seq 0 2).
Definition e4 (S : list (list (list (list Qc)))) : nat -> nat -> nat -> nat -> Qc :=
  fun ma ia mb ib => nth ib (nth mb (nth ia (nth ma S []) []) []) (f0 KQ).
Definition e5 (S : list (list (list (list (list Qc))))) (k : nat) : nat -> nat -> nat -> nat -> Qc :=
  fun ma ia mb ib => nth k (nth ib (nth mb (nth ia (nth ma S []) []) []) []) (f0 KQ).
Definition exQ : shell Qc := mkShell Qc 1 (q 0 1) (q 1 3) (q (-1) 1) [q 2 3] [[q 5 7]] false [] [].

Lemma good_pair_exQ : good_pair KQ 1 1 exP exQ.
Proof.
  repeat split. intros a b Ha Hb. cbn [exP exQ s_exps In] in Ha, Hb.
  destruct Ha as [<-|[<-|[]]]; destruct Hb as [<-|[]]; intro H; apply (f_equal this) in H;
    vm_compute in H; discriminate H.
Qed.

Lemma blk2_all_of_law R lb sb (ent ent' : entry_fun) :
  good_pair KQ 1 lb exP sb -> (0 < nseg sb)%nat -> block_law2 KQ R 1 lb ent ent' ->
  blk2_all R lb (ent exP sb) (ent' (rot_shell KQ R exP) (rot_shell KQ R sb)) = true.
Proof.
  intros G Hn H.
  apply forallb_seq. intros ma Hma. apply forallb_seq. intros ja Hja. apply forallb_seq. intros jb Hjb.
  apply Qeq_bool_of_eq.
  apply (H exP sb G ma 0%nat ja jb); [cbn; lia|exact Hn|cbn; lia|lia].
Qed.

(* one point charge, p x p, the improper rotation *)
Definition exb_one_elec_point : bool :=
  (let R := Rimp in
   let C' := mapply KQ R exC in
   let S := one_elec_point KQ (vget exC 0) (vget exC 1) (vget exC 2) exP exQ in
   let S' := one_elec_point KQ (vget C' 0) (vget C' 1) (vget C' 2) (rot_shell KQ R exP) (rot_shell KQ R exQ) in
   blk2_all R 1 (e4 S) (e4 S')).
Example one_elec_point_law_computed : exb_one_elec_point = true.
Proof.
  destruct exKQb_hyps as (A & B & C & D & E).
  apply (blk2_all_of_law Rimp 1 exQ (pc_ent KQ exC) (pc_ent KQ (mapply KQ Rimp exC)) good_pair_exQ (le_n 1)).
  apply (one_elec_point_rotation_law KQ KQf A B C), orthogonal_R345_Rimp. now right; left.
Qed.
(* PointChargeIntegral block, two points, p x d (swapped branch), the 3-4-5 rotation *)
Definition exb_point_charge_block : bool :=
  (let R := R345 in
   let S := point_charge_block KQ exPts exP exD in
   let S' := point_charge_block KQ (rot_points KQ R exPts) (rot_shell KQ R exP) (rot_shell KQ R exD) in
   forallb (fun k => blk2_all R 2 (e5 S k) (e5 S' k)) [0; 1]%nat).
Example point_charge_block_law_computed : exb_point_charge_block = true.
Proof.
  destruct exKQb_hyps as (A & B & C & D & E).
  apply forallb_forall. intros k Hk.
  apply (blk2_all_of_law R345 2 exD (pcb_ent KQ exPts k) (pcb_ent KQ (rot_points KQ R345 exPts) k)
           good_pair_ex (le_n 1)).
  apply (point_charge_block_rotation_law KQ KQf A B C R345 exPts k 1 2 orthogonal_R345).
  destruct Hk as [<-|[<-|[]]]; cbn; lia.
Qed.
Definition exb_momentum_block : bool :=
  forallb (fun R =>
    let S := momentum_block_re KQ exP exD in
    let S' := momentum_block_re KQ (rot_shell KQ R exP) (rot_shell KQ R exD) in
    forallb (fun k => blk2_all R 2
      (fun ma ia mb ib => sum3 KQ (fun i => fmul KQ (matf R k i) (e5 S (ax2nat i) ma ia mb ib)))
      (e5 S' (ax2nat k))) [AX; AY; AZ]) [R345; Rimp].
Example momentum_block_law_computed : exb_momentum_block = true.
Proof.
  destruct exKQb_hyps as (A & B & C & D & E).
  apply forallb_forall. intros R HR. apply forallb_all. intro k.
  apply (blk2_all_of_law R 2 exD
           (fun sa sb ma ia mb ib => sum3 KQ (fun i => fmul KQ (matf R k i) (mom_ent KQ i sa sb ma ia mb ib)))
           (mom_ent KQ k) good_pair_ex (le_n 1)).
  apply (momentum_block_rotation_law KQ KQf A B D E), orthogonal_R345_Rimp, HR.
Qed.
(* multipole moment, p x p: the order o = (1,1,0) of the requested list, against all six second-order moments about R C *)
Definition exb_moment_block : bool :=
  forallb (fun R =>
    let C' := mapply KQ R exC in
    let o := (1, 1, 0)%nat in
    let S := moment_block KQ (vget exC 0) (vget exC 1) (vget exC 2) [(0, 0, 1)%nat; o] exP exQ in
    let S' := moment_block KQ (vget C' 0) (vget C' 1) (vget C' 2) (default_comps 2)
                (rot_shell KQ R exP) (rot_shell KQ R exQ) in
    blk2_all R 1 (e5 S 1)
      (fun ma ia mb ib => FNum.fsum KQ (mk 6 (fun d' =>
         fmul KQ (rep_mat KQ R (cmpd 2 d') o) (e5 S' d' ma ia mb ib))))) [R345; Rimp].
(* [mm_rot_ent] in the vocabulary of [exb_moment_block], n the number of orders of degree |o|; stated for variable R, C',
   shells, because on the closed terms of the example the kernel is slow to see this unfolding *)
Lemma mm_rot_ent_e5 (R : @mat3 Qc) (C' : @vec3 Qc) (o : comp) (n : nat) (sa sb : shell Qc) :
  length (default_comps (mdeg o)) = n ->
  mm_rot_ent KQ R C' o sa sb
  = fun ma ia mb ib => FNum.fsum KQ (mk n (fun d' =>
      fmul KQ (rep_mat KQ R (cmpd (mdeg o) d') o)
        (e5 (moment_block KQ (vget C' 0) (vget C' 1) (vget C' 2) (default_comps (mdeg o)) sa sb) d' ma ia mb ib))).
Proof. intros <-. reflexivity. Qed.
Example moment_block_law_computed : exb_moment_block = true.
Proof.
  destruct exKQb_hyps as (A & B & C & D & E).
  apply forallb_forall. intros R HR.
  assert (L : block_law2 KQ R 1 1 (mm_ent KQ exC [(0, 0, 1)%nat; (1, 1, 0)%nat] 1)
                (mm_rot_ent KQ R (mapply KQ R exC) (1, 1, 0)%nat)).
  { apply (moment_block_rotation_law KQ KQf A B D E R exC [(0, 0, 1)%nat; (1, 1, 0)%nat] 1 1 1);
      [apply orthogonal_R345_Rimp, HR|cbn; lia]. }
  apply (blk2_all_of_law R 1 exQ _ _ good_pair_exQ (le_n 1)) in L.
  rewrite (mm_rot_ent_e5 R (mapply KQ R exC) (1, 1, 0)%nat 6 (rot_shell KQ R exP) (rot_shell KQ R exQ) eq_refl) in L.
  exact L.
Qed.
(* not vacuous: the one-electron block does change under the rotation *)
Example one_elec_point_not_invariant :
  (let C' := mapply KQ R345 exC in
   Qeq_bool (e4 (one_elec_point KQ (vget exC 0) (vget exC 1) (vget exC 2) exP exQ) 0 0 0 1)
            (e4 (one_elec_point KQ (vget C' 0) (vget C' 1) (vget C' 2) (rot_shell KQ R345 exP) (rot_shell KQ R345 exQ))
                0 0 0 1)) = false.
Proof.
  destruct exKQb_hyps as (A & _). cbv zeta. unfold e4.
  pose proof (pc_entries_are KQ KQf A exC 1 1 _ _ good_pair_exQ 0 0 0 1)%nat as E.
  pose proof (pc_entries_are KQ KQf A (mapply KQ R345 exC) 1 1 _ _ (good_pair_rot KQ R345 1 1 _ _ good_pair_exQ)
                0 0 0 1)%nat as E'.
  unfold pc_ent in E, E'. rewrite E, E' by (cbn; lia).
  vm_compute. reflexivity.
Qed.
End Examples.
