(* Proofs/AssembledLincombP.v — the final transformation (transform=T, Model/Assembly.lincomb2: T on index 0, then
   on index 1; base_two_symm.py:406-408) applied to an assembled matrix.  Entry (a, b) of lincomb2 T1 T2 m is
   sum_l T2[b][l] . (sum_k T1[a][k] . m[k][l]) in any element module (lincomb2_entry); over a field a symmetric
   N x N matrix stays symmetric, and an antisymmetric matrix of d-vectors antisymmetric, under lincomb2 t t for
   every S x N matrix t, rectangular allowed (sym_lincomb, antisym_lincomb).  With the (anti)symmetry of the
   assembled matrices this gives the models with transform = Some t, any assignment of coordinate types. *)
From Coq Require Import List Arith Lia Bool Field.
From GB Require Import Base.Field Base.Tables Model.Shell Model.Assembly Model.Overlap Model.DiffOp Model.OneBody
  Proofs.CoreSumP Proofs.CoreDiffP Proofs.AssemblyP Proofs.BlockMatP Proofs.AssembledP
  Proofs.AssembledOverlapP Proofs.AssembledHermP Proofs.AssembledSphP Proofs.AssembledSphOverlapP
  Proofs.AssembledSphHermP.
Import ListNotations.

Definition mat_shape {B} (R C : nat) (m : list (list B)) : Prop :=
  length m = R /\ Forall (fun row => length row = C) m.

Section LincombEntry.
Context {F : Type} (K : Fops F).
Context {A : Type} (azero : A) (aadd : A -> A -> A) (ascale : F -> A -> A).
Notation asum' := (asum azero aadd).

Lemma apply_rows_spec (T : list (list F)) (v : list A) S L :
  mat_shape S L T -> length v = L ->
  length (apply_rows azero aadd ascale T v) = S /\
  forall a, a < S ->
    nth a (apply_rows azero aadd ascale T v) azero
    = asum' (mk L (fun k => ascale (nth k (nth a T []) (f0 K)) (nth k v azero))).
Proof.
  intros [HT HTr] Hv. split; [unfold apply_rows; now rewrite map_length|]. intros a Ha.
  apply (apply_rows_entry K); [exact HTr|exact Hv|lia].
Qed.

Theorem lincomb2_entry (T1 T2 : list (list F)) (m : list (list A)) R C S1 S2 a b :
  mat_shape R C m -> 0 < R -> 0 < C -> mat_shape S1 R T1 -> mat_shape S2 C T2 -> a < S1 -> b < S2 ->
  nth b (nth a (lincomb2 azero aadd ascale T1 T2 m) []) azero
  = asum' (mk C (fun l => ascale (nth l (nth b T2 []) (f0 K))
       (asum' (mk R (fun k => ascale (nth k (nth a T1 []) (f0 K)) (nth l (nth k m []) azero)))))).
Proof.
  intros [Hm Hmr] HR HC HT1 HT2 Ha Hb. unfold lincomb2. cbv zeta.
  set (cols := transpose azero m).
  destruct (transpose_shape azero m R C HR Hm Hmr) as [Hc Hcr]. fold cols in Hc, Hcr.
  set (X := map (apply_rows azero aadd ascale T1) cols).
  assert (HX : mat_shape C S1 X).
  { split; [unfold X; now rewrite map_length|]. unfold X. apply Forall_forall. intros r Hr.
    apply in_map_iff in Hr. destruct Hr as [col [<- Hcol]]. rewrite Forall_forall in Hcr.
    exact (proj1 (apply_rows_spec T1 col S1 R HT1 (Hcr _ Hcol))). }
  destruct HX as [HXl HXr].
  destruct (transpose_shape azero X C S1 HC HXl HXr) as [Ht Htr].
  assert (Hhd : length (hd [] X) = S1) by (apply hd_length; [lia|exact HXr]).
  assert (Hhm : length (hd [] m) = C) by (apply hd_length; [lia|exact Hmr]).
  rewrite (nth_map_lt _ _ a []) by lia.
  assert (Hrow : length (nth a (transpose azero X) []) = C).
  { apply (Forall_nth_in _ _ [] a Htr). lia. }
  rewrite (proj2 (apply_rows_spec T2 _ S2 C HT2 Hrow) b Hb).
  unfold asum. f_equal. apply mk_ext. intros l Hl. f_equal.
  rewrite (transpose_entry azero X l a) by lia.
  unfold X. rewrite (nth_map_lt _ cols l []) by lia.
  assert (Hcl : length (nth l cols []) = R) by (apply (Forall_nth_in _ _ [] l Hcr); lia).
  rewrite (proj2 (apply_rows_spec T1 _ S1 R HT1 Hcl) a Ha).
  unfold asum. f_equal. apply mk_ext. intros k Hk. f_equal.
  unfold cols. apply transpose_entry; lia.
Qed.

Lemma lincomb2_shape (T1 T2 : list (list F)) (m : list (list A)) R C S1 S2 :
  mat_shape R C m -> 0 < R -> 0 < C -> mat_shape S1 R T1 -> mat_shape S2 C T2 ->
  mat_shape S1 S2 (lincomb2 azero aadd ascale T1 T2 m).
Proof.
  intros [Hm Hmr] HR HC HT1 HT2. unfold lincomb2. cbv zeta.
  set (cols := transpose azero m).
  destruct (transpose_shape azero m R C HR Hm Hmr) as [Hc Hcr]. fold cols in Hc, Hcr.
  set (X := map (apply_rows azero aadd ascale T1) cols).
  assert (HXl : length X = C) by (unfold X; now rewrite map_length).
  assert (HXr : Forall (fun row => length row = S1) X).
  { unfold X. apply Forall_forall. intros r Hr.
    apply in_map_iff in Hr. destruct Hr as [col [<- Hcol]]. rewrite Forall_forall in Hcr.
    exact (proj1 (apply_rows_spec T1 col S1 R HT1 (Hcr _ Hcol))). }
  destruct (transpose_shape azero X C S1 HC HXl HXr) as [Ht Htr].
  split; [now rewrite map_length|]. apply Forall_forall. intros r Hr.
  apply in_map_iff in Hr. destruct Hr as [row [<- Hrow]]. rewrite Forall_forall in Htr.
  exact (proj1 (apply_rows_spec T2 row S2 C HT2 (Htr _ Hrow))).
Qed.
End LincombEntry.

Section LincombSym.
Context {F : Type} (K : Fops F) (Kf : is_field K).
Add Field KFlc : Kf.
Local Open Scope F_scope.
Notation "0" := (f0 K) : F_scope.
Notation "1" := (f1 K) : F_scope.
Infix "+" := (fadd K) : F_scope.
Infix "*" := (fmul K) : F_scope.
Notation "- x" := (fopp K x) : F_scope.
Notation fsum := (FNum.fsum K).

Theorem sym_lincomb (t : list (list F)) (M : list (list F)) N S :
  0 < N -> mat_shape N N M -> mat_shape S N t ->
  (forall I J, I < N -> J < N -> nth I (nth J M []) 0 = nth J (nth I M []) 0) ->
  forall a b, a < S -> b < S ->
  nth a (nth b (lincomb2 0 (fadd K) (fmul K) t t M) []) 0
  = nth b (nth a (lincomb2 0 (fadd K) (fmul K) t t M) []) 0.
Proof.
  intros HN HM Ht Hs a b Ha Hb.
  rewrite (lincomb2_entry K 0 (fadd K) (fmul K) t t M N N S S b a HM HN HN Ht Ht Hb Ha).
  rewrite (lincomb2_entry K 0 (fadd K) (fmul K) t t M N N S S a b HM HN HN Ht Ht Ha Hb).
  change (asum 0 (fadd K)) with fsum.
  rewrite (fsum_mk_ext K N _ (fun l => fsum (mk N (fun k =>
             nth l (nth a t []) 0 * nth k (nth b t []) 0 * nth l (nth k M []) 0)))).
  2:{ intros l Hl. rewrite (fsum_mk_scale_l K Kf). apply fsum_mk_ext. intros k Hk. ring. }
  rewrite (fsum_mk_swap K Kf). apply fsum_mk_ext. intros k Hk.
  rewrite (fsum_mk_scale_l K Kf). apply fsum_mk_ext. intros l Hl.
  rewrite (Hs l k Hl Hk). ring.
Qed.

Theorem antisym_lincomb (t : list (list F)) (M : list (list (list F))) N S d :
  0 < N -> mat_shape N N M -> mat_shape S N t ->
  (forall I J, I < N -> J < N -> length (nth J (nth I M []) []) = d) ->
  (forall I J, I < N -> J < N -> nth I (nth J M []) [] = vneg K (nth J (nth I M []) [])) ->
  forall a b, a < S -> b < S ->
  nth a (nth b (lincomb2 vzero (vadd K) (vscale K) t t M) []) []
  = vneg K (nth b (nth a (lincomb2 vzero (vadd K) (vscale K) t t M) []) []).
Proof.
  intros HN HM Ht Hlen Hanti a b Ha Hb. unfold vzero.
  assert (Comp : forall a b, a < S -> b < S ->
            vcomp K d (nth b (nth a (lincomb2 [] (vadd K) (vscale K) t t M) []) []) (fun k =>
              fsum (mk N (fun l => nth l (nth b t []) 0
                * fsum (mk N (fun k' => nth k' (nth a t []) 0 * nth k (nth l (nth k' M []) []) 0)))))).
  { clear a b Ha Hb. intros a b Ha Hb.
    rewrite (lincomb2_entry K [] (vadd K) (vscale K) t t M N N S S a b HM HN HN Ht Ht Ha Hb).
    apply (vsum_mk_comp K Kf); [exact HN|]. intros l Hl.
    apply (vsum_mk_comp K Kf); [exact HN|]. intros k' Hk'. apply vcomp_self. now apply Hlen. }
  apply (vcomp_eq K d _ _ _ (Comp b a Hb Ha)).
  apply (vcomp_ext K d _ _ _ (vcomp_neg K d _ _ (Comp a b Ha Hb))).
  intros k Hk. symmetry. rewrite (fsum_mk_opp K Kf).
  rewrite (fsum_mk_ext K N _ (fun l => fsum (mk N (fun k' =>
             nth l (nth a t []) 0 * nth k' (nth b t []) 0 * nth k (nth l (nth k' M []) []) 0)))).
  2:{ intros l Hl. rewrite (fsum_mk_scale_l K Kf). apply fsum_mk_ext. intros k' Hk'. ring. }
  rewrite (fsum_mk_swap K Kf). apply fsum_mk_ext. intros k' Hk'.
  rewrite (fsum_mk_scale_l K Kf), (fsum_mk_opp K Kf). apply fsum_mk_ext. intros l Hl.
  rewrite (Hanti l k' Hl Hk').
  rewrite (vneg_comp K) by (rewrite Hlen by assumption; exact Hk). ring.
Qed.

Hypothesis Hapx : forall x : F, fapx K x = x.
Hypothesis H2 : 1 + 1 <> 0.

Section Inst.
Variable bs : list (shell F).
Hypothesis C : seg_basis bs.
Hypothesis W : basis_wf bs.
Hypothesis E : basis_exps K bs bs.
Hypothesis Hn : 0 < length bs.
Variables (t : list (list F)) (S : nat).
Hypothesis Ht : mat_shape S (ototal K bs) t.

Lemma ototal_pos : 0 < ototal K bs.
Proof.
  unfold ototal, ooff. pose proof (offs_mono (fun k => odim (sh_at K bs k)) 0 (length bs) Hn) as H.
  cbv beta in H. cbn [offs] in H.
  assert (0 < odim (sh_at K bs 0)).
  { unfold odim. pose proof (osize_pos (sh_at K bs 0)). pose proof (C (sh_at K bs 0) ltac:(now apply nth_In)). nia. }
  lia.
Qed.

Lemma rows_Forall {B} (m : list (list B)) N :
  length m = N -> (forall I, I < N -> length (nth I m []) = N) -> mat_shape N N m.
Proof. intros HL HR. split; [exact HL|]. apply (Forall_of_nth _ _ []). rewrite HL. exact HR. Qed.

Theorem overlap_integral_sym_T a b : a < S -> b < S ->
  nth a (nth b (overlap_integral K bs (Some t)) []) 0 = nth b (nth a (overlap_integral K bs (Some t)) []) 0.
Proof.
  intros Ha Hb.
  change (overlap_integral K bs (Some t)) with (lincomb2 0 (fadd K) (fmul K) t t (overlap_integral K bs None)).
  destruct (overlap_integral_mixed_shape K bs C Hn) as [SL SR].
  apply (sym_lincomb t _ (ototal K bs) S ototal_pos (rows_Forall _ _ SL SR) Ht); [|exact Ha|exact Hb].
  intros I J HI HJ.
  destruct (oidx_surj K bs I HI) as (i & m & q & Hi & Hm & Hq & ->).
  destruct (oidx_surj K bs J HJ) as (j & m' & q' & Hj & Hm' & Hq' & ->).
  rewrite !(overlap_mixed_is_cart_transformed K Kf Hapx H2 bs C W E) by assumption.
  rewrite (dsum_swap K Kf). apply dsum_ext. intros c c' Hc Hc'.
  rewrite (overlap_integral_sym K Kf Hapx H2 (map to_cart bs) (cart_basis_to_cart bs C) (basis_wf_to_cart bs W)
             (basis_exps_to_cart K bs E) (gidx K (map to_cart bs) i m c) (gidx K (map to_cart bs) j m' c'))
    by (apply gidx_lt; rewrite ?map_length, ?sh_at_to_cart; assumption).
  ring.
Qed.

Lemma herm_integral_T blockf d a b :
  blocks_shaped blockf bs bs ->
  (forall sa sb, In sa bs -> In sb bs -> forall ma ia mb ib,
     ma < nseg sa -> ia < ncomp sa -> mb < nseg sb -> ib < ncomp sb ->
     length (get4 [] ma ia mb ib (blockf sa sb)) = d) ->
  pair_antisym K blockf bs -> a < S -> b < S ->
  let R := two_symm_integral_h K vzero (vadd K) (vscale K) (vneg K) blockf bs (Some t) in
  nth a (nth b R []) [] = vneg K (nth b (nth a R []) []).
Proof.
  intros HB HD Hp Ha Hb. cbv zeta.
  change (two_symm_integral_h K vzero (vadd K) (vscale K) (vneg K) blockf bs (Some t))
    with (lincomb2 vzero (vadd K) (vscale K) t t (two_symm_integral_h K vzero (vadd K) (vscale K) (vneg K) blockf bs None)).
  destruct (two_symm_h_mixed_shape K vzero (vadd K) (vscale K) blockf bs C HB (vneg K) Hn) as [SL SR].
  apply (antisym_lincomb t _ (ototal K bs) S d ototal_pos (rows_Forall _ _ SL SR) Ht); [| |exact Ha|exact Hb].
  - intros I J HI HJ.
    destruct (oidx_surj K bs I HI) as (i & m & q & Hi & Hm & Hq & ->).
    destruct (oidx_surj K bs J HJ) as (j & m' & q' & Hj & Hm' & Hq' & ->).
    exact (proj1 (herm_mixed_entry_all K Kf blockf bs d C HB HD Hp i j m q m' q' Hi Hj Hm Hq Hm' Hq')).
  - exact (herm_assembly_mixed K Kf blockf bs d C HB HD (pair_antisym_diag K blockf bs Hp)).
Qed.

Theorem momentum_integral_herm_T a b : a < S -> b < S ->
  nth a (nth b (momentum_integral_re K bs (Some t)) []) []
  = vneg K (nth b (nth a (momentum_integral_re K bs (Some t)) []) []).
Proof.
  exact (herm_integral_T (momentum_block_re K) 3 a b (momentum_shaped K bs) (momentum_len3 K Kf Hapx H2 bs W E)
           (momentum_pair_antisym K Kf Hapx H2 bs W E)).
Qed.

Theorem angmom_integral_herm_T a b : a < S -> b < S ->
  nth a (nth b (angmom_integral_re K bs (Some t)) []) []
  = vneg K (nth b (nth a (angmom_integral_re K bs (Some t)) []) []).
Proof.
  exact (herm_integral_T (angmom_block_re K) 3 a b (angmom_shaped K bs) (angmom_len3 K Kf Hapx H2 bs W E)
           (angmom_pair_antisym K Kf Hapx H2 bs W E)).
Qed.
End Inst.
End LincombSym.
