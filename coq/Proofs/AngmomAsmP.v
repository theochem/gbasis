(* Proofs/AngmomAsmP.v — property C12, angular momentum about a displaced origin, lifted from the shell-pair
   block (Proofs/RigidP.angmom_block_shift, Props/C12.v C12_origin_shift_angular_momentum_block_partial) through
   the Hermitian assembly to the WHOLE-BASIS model Model/OneBody.angmom_integral_re (real array R of the value
   -iR, last axis = the three Cartesian components):

     for every basis of Cartesian shells, every translation t of all the centres and every pair of positions
     (I, J) in either triangle or on a diagonal block,
         L^t[I][J][c] = L[I][J][c] + t_{c+1} p[I][J][c+2] - t_{c+2} p[I][J][c+1]       (indices mod 3)
     with L = angmom_integral_re basis, p = momentum_integral_re basis: L about a displaced origin = L - d x p.

   The entry theorems Proofs/AssembledHermP.herm_entry_all (every entry = normalised block entry of the ordered
   pair, whatever the triangle) reduce the statement to the block law; the contraction norms do not see the
   centre (RigidP.norm_cont_shift). *)
From Coq Require Import List Arith Lia Bool Field.
From GB Require Import Base.Field Base.Tables Model.Shell Model.DiffOp Model.OneBody Proofs.CoreSumP Proofs.CoreDiffP
  Proofs.AssembledP Proofs.AssembledOverlapP Proofs.AssembledHermP Proofs.AssembledSphP
  Proofs.AssembledSphOverlapP Proofs.AssembledSphHermP Proofs.RigidP.
Import ListNotations.

Section AngmomAsm.
Context {F : Type} (K : Fops F) (Kf : is_field K).
Add Field KFangasm : Kf.
Local Open Scope F_scope.
Notation "0" := (f0 K) : F_scope.
Notation "1" := (f1 K) : F_scope.
Infix "+" := (fadd K) : F_scope.
Infix "*" := (fmul K) : F_scope.
Notation "- x" := (fopp K x) : F_scope.
Hypothesis Hapx : forall x : F, fapx K x = x.
Hypothesis H2 : 1 + 1 <> 0.

Notation g4 := (CoreDiffP.get4).

Lemma zip3_entry (X Y Z : list (list (list (list F)))) n1 n2 n3 n4 i1 i2 i3 i4 :
  shape4 n1 n2 n3 n4 X -> shape4 n1 n2 n3 n4 Y -> shape4 n1 n2 n3 n4 Z ->
  (i1 < n1)%nat -> (i2 < n2)%nat -> (i3 < n3)%nat -> (i4 < n4)%nat ->
  g4 [] i1 i2 i3 i4 (zip4 (fun (xy : list F) (z : F) => xy ++ [z]) (zip4 (fun x y : F => [x; y]) X Y) Z)
  = [g4 0 i1 i2 i3 i4 X; g4 0 i1 i2 i3 i4 Y; g4 0 i1 i2 i3 i4 Z].
Proof.
  intros SX SY SZ. exact (proj2 (zip3_spec K X Y Z n1 n2 n3 n4 SX SY SZ) i1 i2 i3 i4).
Qed.

Lemma angmom_comp_shape sa sb c :
  shape4 (nseg sa) (ncomp sa) (nseg sb) (ncomp sb) (angmom_comp_block K sa sb c).
Proof. unfold angmom_comp_block. apply (block_of_shape K). Qed.

Lemma momentum_comp_shape sa sb c : (c < 3)%nat ->
  shape4 (nseg sa) (ncomp sa) (nseg sb) (ncomp sb) (momentum_comp_block K sa sb c).
Proof.
  intros Hc. unfold momentum_comp_block, diffop_block. cbv zeta. cbn [map].
  destruct c as [|[|[|c]]]; [| | |lia]; cbn [nth]; apply (block_of_shape K).
Qed.

Lemma angmom_entry_comps sa sb ma ia mb ib :
  (ma < nseg sa)%nat -> (ia < ncomp sa)%nat -> (mb < nseg sb)%nat -> (ib < ncomp sb)%nat ->
  g4 [] ma ia mb ib (angmom_block_re K sa sb)
  = [RigidP.get4 K ma ia mb ib (angmom_comp_block K sa sb 0);
     RigidP.get4 K ma ia mb ib (angmom_comp_block K sa sb 1);
     RigidP.get4 K ma ia mb ib (angmom_comp_block K sa sb 2)].
Proof.
  intros H1 H2' H3 H4. rewrite angmom_block_re_comps.
  exact (zip3_entry _ _ _ _ _ _ _ ma ia mb ib (angmom_comp_shape sa sb 0%nat) (angmom_comp_shape sa sb 1%nat)
           (angmom_comp_shape sa sb 2%nat) H1 H2' H3 H4).
Qed.

Lemma momentum_entry_comps sa sb ma ia mb ib :
  (ma < nseg sa)%nat -> (ia < ncomp sa)%nat -> (mb < nseg sb)%nat -> (ib < ncomp sb)%nat ->
  g4 [] ma ia mb ib (momentum_block_re K sa sb)
  = [RigidP.get4 K ma ia mb ib (momentum_comp_block K sa sb 0);
     RigidP.get4 K ma ia mb ib (momentum_comp_block K sa sb 1);
     RigidP.get4 K ma ia mb ib (momentum_comp_block K sa sb 2)].
Proof.
  intros H1 H2' H3 H4. rewrite momentum_block_re_comps.
  exact (zip3_entry _ _ _ _ _ _ _ ma ia mb ib (momentum_comp_shape sa sb 0%nat ltac:(lia))
           (momentum_comp_shape sa sb 1%nat ltac:(lia)) (momentum_comp_shape sa sb 2%nat ltac:(lia)) H1 H2' H3 H4).
Qed.

Lemma nth3 (x y z : F) c : (c < 3)%nat ->
  nth c [x; y; z] 0 = match c with O => x | S O => y | _ => z end.
Proof. destruct c as [|[|[|c]]]; intros; try reflexivity; lia. Qed.

Section Basis.
Variable bs : list (shell F).
Hypothesis C : cart_basis bs.
Hypothesis W : basis_wf bs.
Hypothesis E : basis_exps K bs bs.
Variables tx ty tz : F.
Notation sh := (shift_shell K tx ty tz).
Notation bst := (map (shift_shell K tx ty tz) bs).
Notation s_ k := (sh_at K bs k).

Lemma sh_at_shift k : (k < length bs)%nat -> sh_at K bst k = sh (s_ k).
Proof. apply (sh_at_map K). Qed.

Lemma cart_shift : cart_basis bst.
Proof. intros s Hs. apply in_map_iff in Hs. destruct Hs as [s0 [<- H0]]. exact (C s0 H0). Qed.
Lemma wf_shift : basis_wf bst.
Proof. intros s Hs. apply in_map_iff in Hs. destruct Hs as [s0 [<- H0]]. exact (W s0 H0). Qed.
Lemma exps_shift : basis_exps K bst bst.
Proof.
  intros a b Ha Hb. apply in_map_iff in Ha. destruct Ha as [a0 [<- Ha0]].
  apply in_map_iff in Hb. destruct Hb as [b0 [<- Hb0]]. exact (E a0 b0 Ha0 Hb0).
Qed.

(* a translation keeps the number of segments and of components, hence the index maps *)
Lemma boff_shift k : (k <= length bs)%nat -> boff K bst k = boff K bs k.
Proof. exact (xoff_map K ncomp sh bs k (fun s => conj eq_refl eq_refl)). Qed.
Lemma gidx_shift i m c : (i < length bs)%nat -> gidx K bst i m c = gidx K bs i m c.
Proof. exact (xidx_map K ncomp sh bs i m c (fun s => conj eq_refl eq_refl)). Qed.
Lemma btotal_shift : btotal K bst = btotal K bs.
Proof. unfold btotal. rewrite map_length. apply boff_shift. lia. Qed.

Lemma ncont_shift (s : shell F) m c : In s bs -> ncont K (sh s) m c = ncont K s m c.
Proof.
  intros Hs. unfold ncont. rewrite (norm_cont_shift K Kf tx ty tz s); [reflexivity|].
  exact (E s s Hs Hs).
Qed.

Lemma comps_within_wf (s : shell F) : CoreBlockP.wf_shell s -> comps_within s.
Proof. intros [_ H] c Hc. exact (H c Hc). Qed.

Theorem angmom_integral_origin_shift I J c :
  (I < btotal K bs)%nat -> (J < btotal K bs)%nat -> (c < 3)%nat ->
  let t := (tx, ty, tz) in
  let Lt := nth J (nth I (angmom_integral_re K bst None) []) [] in
  let L0 := nth J (nth I (angmom_integral_re K bs None) []) [] in
  let P := nth J (nth I (momentum_integral_re K bs None) []) [] in
  nth c Lt 0 = nth c L0 0 + tget t ((c + 1) mod 3) * nth ((c + 2) mod 3) P 0
               + (- tget t ((c + 2) mod 3)) * nth ((c + 1) mod 3) P 0.
Proof.
  intros HI HJ Hc. cbv zeta.
  destruct (gidx_surj K bs I HI) as (i & m & c1 & Hi & Hm & Hc1 & ->).
  destruct (gidx_surj K bs J HJ) as (j & m' & c1' & Hj & Hm' & Hc1' & ->).
  assert (Ii : In (s_ i) bs) by (now apply nth_In). assert (Ij : In (s_ j) bs) by (now apply nth_In).
  unfold angmom_integral_re, momentum_integral_re.
  rewrite <- (gidx_shift i m c1 Hi), <- (gidx_shift j m' c1' Hj).
  rewrite (herm_entry_all K Kf (angmom_block_re K) bst cart_shift (angmom_shaped K bst)
             (angmom_pair_antisym K Kf Hapx H2 bst wf_shift exps_shift) i j m c1 m' c1')
    by (rewrite ?map_length, ?sh_at_shift; assumption).
  rewrite (gidx_shift i m c1 Hi), (gidx_shift j m' c1' Hj).
  rewrite (herm_entry_all K Kf (angmom_block_re K) bs C (angmom_shaped K bs)
             (angmom_pair_antisym K Kf Hapx H2 bs W E) i j m c1 m' c1') by assumption.
  rewrite (herm_entry_all K Kf (momentum_block_re K) bs C (momentum_shaped K bs)
             (momentum_pair_antisym K Kf Hapx H2 bs W E) i j m c1 m' c1') by assumption.
  rewrite !sh_at_shift by assumption. rewrite !ncont_shift by assumption.
  set (nn := ncont K (s_ i) m c1 * ncont K (s_ j) m' c1').
  rewrite (angmom_entry_comps (sh (s_ i)) (sh (s_ j)) m c1 m' c1') by assumption.
  rewrite (angmom_entry_comps (s_ i) (s_ j) m c1 m' c1') by assumption.
  rewrite (momentum_entry_comps (s_ i) (s_ j) m c1 m' c1') by assumption.
  unfold vscale. cbn [map].
  pose proof (fun c Hc => angmom_block_shift K Kf (s_ i) (s_ j) tx ty tz c m c1 m' c1' Hapx H2 (E _ _ Ii Ij)
                (comps_within_wf _ (W _ Ii)) (comps_within_wf _ (W _ Ij)) Hc Hm Hm' Hc1 Hc1') as HS.
  cbv zeta in HS.
  destruct c as [|[|[|c]]]; [| | |lia]; cbn [nth Nat.modulo Nat.divmod fst snd Nat.add Nat.sub tget];
    [rewrite (HS 0%nat) by lia | rewrite (HS 1%nat) by lia | rewrite (HS 2%nat) by lia];
    cbn [nth Nat.modulo Nat.divmod fst snd Nat.add Nat.sub tget]; ring.
Qed.
End Basis.

Notation fsum := (FNum.fsum K).

Lemma dsum_lin3 (a b : shell F) q q' (X Y Z : nat -> nat -> F) u v :
  dsum K a b q q' (fun c c' => X c c' + u * Y c c' + v * Z c c')
  = dsum K a b q q' X + u * dsum K a b q q' Y + v * dsum K a b q q' Z.
Proof.
  unfold dsum. rewrite !(fsum_mk_scale_l K Kf). rewrite !(fsum_mk_add K Kf).
  apply fsum_mk_ext. intros c _. rewrite !(fsum_mk_scale_l K Kf). rewrite !(fsum_mk_add K Kf).
  apply fsum_mk_ext. intros c' _. ring.
Qed.

Section Mixed.
Variable bs : list (shell F).
Hypothesis C : seg_basis bs.
Hypothesis W : basis_wf bs.
Hypothesis E : basis_exps K bs bs.
Variables tx ty tz : F.
Notation sh := (shift_shell K tx ty tz).
Notation bst := (map (shift_shell K tx ty tz) bs).
Notation bsc := (map to_cart bs).
Notation s_ k := (sh_at K bs k).

Lemma seg_shift : seg_basis bst.
Proof. intros s Hs. apply in_map_iff in Hs. destruct Hs as [s0 [<- H0]]. exact (C s0 H0). Qed.

Lemma to_cart_shift : map to_cart bst = map sh bsc.
Proof. rewrite !map_map. apply map_ext. intros s. reflexivity. Qed.

Lemma ooff_shift k : (k <= length bs)%nat -> ooff K bst k = ooff K bs k.
Proof. exact (xoff_map K osize sh bs k (fun s => conj eq_refl eq_refl)). Qed.
Lemma oidx_shift i m q : (i < length bs)%nat -> oidx K bst i m q = oidx K bs i m q.
Proof. exact (xidx_map K osize sh bs i m q (fun s => conj eq_refl eq_refl)). Qed.

Theorem angmom_integral_origin_shift_mixed I J c :
  (I < ototal K bs)%nat -> (J < ototal K bs)%nat -> (c < 3)%nat ->
  let t := (tx, ty, tz) in
  let Lt := nth J (nth I (angmom_integral_re K bst None) []) [] in
  let L0 := nth J (nth I (angmom_integral_re K bs None) []) [] in
  let P := nth J (nth I (momentum_integral_re K bs None) []) [] in
  nth c Lt 0 = nth c L0 0 + tget t ((c + 1) mod 3) * nth ((c + 2) mod 3) P 0
               + (- tget t ((c + 2) mod 3)) * nth ((c + 1) mod 3) P 0.
Proof.
  intros HI HJ Hc. cbv zeta.
  destruct (oidx_surj K bs I HI) as (i & m & q & Hi & Hm & Hq & ->).
  destruct (oidx_surj K bs J HJ) as (j & m' & q' & Hj & Hm' & Hq' & ->).
  assert (Hc1 : ((c + 1) mod 3 < 3)%nat) by (apply Nat.mod_upper_bound; lia).
  assert (Hc2 : ((c + 2) mod 3 < 3)%nat) by (apply Nat.mod_upper_bound; lia).
  (* the three mixed entries as double sums over the Cartesian arrays *)
  rewrite <- (oidx_shift i m q Hi), <- (oidx_shift j m' q' Hj).
  rewrite (proj2 (angmom_mixed_is_cart_transformed K Kf Hapx H2 bst seg_shift (wf_shift bs W tx ty tz)
                    (exps_shift bs E tx ty tz) i j m q m' q'
                    ltac:(now rewrite map_length) ltac:(now rewrite map_length)
                    ltac:(now rewrite (sh_at_shift bs)) ltac:(now rewrite (sh_at_shift bs))
                    ltac:(now rewrite (sh_at_shift bs)) ltac:(now rewrite (sh_at_shift bs))) c Hc).
  rewrite (oidx_shift i m q Hi), (oidx_shift j m' q' Hj).
  rewrite (proj2 (angmom_mixed_is_cart_transformed K Kf Hapx H2 bs C W E i j m q m' q' Hi Hj Hm Hq Hm' Hq') c Hc).
  rewrite (proj2 (momentum_mixed_is_cart_transformed K Kf Hapx H2 bs C W E i j m q m' q' Hi Hj Hm Hq Hm' Hq') _ Hc1).
  rewrite (proj2 (momentum_mixed_is_cart_transformed K Kf Hapx H2 bs C W E i j m q m' q' Hi Hj Hm Hq Hm' Hq') _ Hc2).
  rewrite !(sh_at_shift bs) by assumption.
  change (dsum K (sh (s_ i)) (sh (s_ j)) q q') with (dsum K (s_ i) (s_ j) q q').
  rewrite <- dsum_lin3. apply dsum_ext. intros c1 c1' Hc1' Hc1''.
  rewrite to_cart_shift.
  assert (Lc : length bsc = length bs) by (now rewrite map_length).
  assert (Si : sh_at K bsc i = to_cart (s_ i)) by apply sh_at_to_cart.
  assert (Sj : sh_at K bsc j = to_cart (s_ j)) by apply sh_at_to_cart.
  rewrite (gidx_shift bsc tx ty tz i m c1), (gidx_shift bsc tx ty tz j m' c1') by (now rewrite Lc).
  apply (angmom_integral_origin_shift bsc (cart_basis_to_cart bs C) (basis_wf_to_cart bs W)
           (basis_exps_to_cart K bs E) tx ty tz); [| |exact Hc].
  - apply gidx_lt; rewrite ?Lc, ?Si; assumption.
  - apply gidx_lt; rewrite ?Lc, ?Sj; assumption.
Qed.
End Mixed.
End AngmomAsm.

(* an instance: the mixed basis of Proofs/AssembledExamplesP.v, a lower-triangle position *)
From Coq Require Import QArith Qcanon.
From GB Require Import Proofs.CoreExamplesP Proofs.AssembledExamplesP.

Section Ex.
Variables (opi : Qc) (osqrt oexp oln : Qc -> Qc) (oboys : nat -> Qc -> Qc).
Notation KQ' := (KQ opi osqrt oexp oln oboys).
Local Open Scope nat_scope.

Example ex_angmom_shift :
  let K := KQ' in
  let t := (Q2Qc 1, Q2Qc 2, Q2Qc 3) in
  let Lt := nth 8 (nth 12 (angmom_integral_re K (map (shift_shell K (Q2Qc 1) (Q2Qc 2) (Q2Qc 3)) ex_mixed) None) []) [] in
  let L0 := nth 8 (nth 12 (angmom_integral_re K ex_mixed None) []) [] in
  let P := nth 8 (nth 12 (momentum_integral_re K ex_mixed None) []) [] in
  nth 0 Lt (f0 K)
  = fadd K (fadd K (nth 0 L0 (f0 K)) (fmul K (tget t 1) (nth 2 P (f0 K))))
           (fmul K (fopp K (tget t 2)) (nth 1 P (f0 K))).
Proof.
  destruct (mixed_hypotheses_satisfiable opi osqrt oexp oln oboys) as (_ & _ & _ & E1 & _).
  apply (angmom_integral_origin_shift_mixed KQ' (KQ_field _ _ _ _ _) (KQ_apx _ _ _ _ _) (KQ_two _ _ _ _ _)
           ex_mixed ex_mixed_seg ex_mixed_wf (ex_mixed_exps opi osqrt oexp oln oboys) (Q2Qc 1) (Q2Qc 2) (Q2Qc 3) 12 8 0);
    rewrite ?E1; lia.
Qed.
End Ex.
