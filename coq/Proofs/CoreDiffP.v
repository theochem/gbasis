(* Proofs/CoreDiffP.v — block-level correctness of the differential-operator kernels
   (kinetic energy, momentum, angular momentum) and their exchange (anti)symmetry.

   SPEC, per axis of a primitive pair (Proofs/DiffOpP.v):
     S1 A B alpha beta i j     = Sfun = prefactor x T3(...; 0, i, j)        1-D overlap integral
     D1 A B alpha beta k i j   = (Bop beta)^k S1 i j                        integral of phi_a d^k/dx^k phi_b
     M1o A B alpha beta i j    = prefactor x T3(...; P - 0; 1, i, j)        integral of phi_a x phi_b (origin 0)
   and per primitive pair
     dprim o     = D1_x(o_x) D1_y(o_y) D1_z(o_z)                            (_compute_differential_operator_integrals)
     kin_prim    = -1/2 (D1_x(2) S1_y S1_z + S1_x D1_y(2) S1_z + S1_x S1_y D1_z(2))
     mom_x_prim  = D1_x(1) S1_y S1_z   (value returned by the code: -i times it), y, z alike
     ang_x_prim  = S1_x (M1o_y D1_z(1) - M1o_z D1_y(1)), cyclic            (value: -i times it)
   contracted as in Proofs/CoreSumP.v.

   Hypotheses as in Proofs/CoreBlockP.v. *)
From Coq Require Import List Arith Lia Field Bool.
From GB Require Import Base.Field Base.FNum Base.Tables Gauss.Moment1D Model.Shell Model.MomentInt
  Model.Overlap Model.DiffOp Proofs.BlockP Proofs.MomentIntP Proofs.DiffOpP Proofs.CoreSumP Proofs.CoreBlockP.
Import ListNotations.

Section Shape.
Definition shape4 {A} (n1 n2 n3 n4 : nat) (b : list (list (list (list A)))) : Prop :=
  length b = n1 /\
  forall i1, i1 < n1 -> length (nth i1 b []) = n2 /\
  forall i2, i2 < n2 -> length (nth i2 (nth i1 b []) []) = n3 /\
  forall i3, i3 < n3 -> length (nth i3 (nth i2 (nth i1 b []) []) []) = n4.
Definition get4 {A} (d : A) (i1 i2 i3 i4 : nat) (b : list (list (list (list A)))) : A :=
  nth i4 (nth i3 (nth i2 (nth i1 b []) []) []) d.

Lemma nth_zip {A B C} (g : A -> B -> C) x y i dA dB dC :
  i < length x -> length y = length x ->
  nth i (map (fun p : A * B => let '(a, b) := p in g a b) (combine x y)) dC = g (nth i x dA) (nth i y dB).
Proof. intros Hi Hl. now rewrite (nth_map_combine _ x y i dA dB dC Hi Hl). Qed.

Lemma list3_eq {A} (a b c a' b' c' : A) : a = a' -> b = b' -> c = c' -> [a; b; c] = [a'; b'; c'].
Proof. intros; subst; reflexivity. Qed.

Lemma length_zip {A B C} (f : A * B -> C) x y : length y = length x -> length (map f (combine x y)) = length x.
Proof. intros H. rewrite map_length, combine_length. lia. Qed.

Lemma zip4_spec {A B C} (f : A -> B -> C) n1 n2 n3 n4 x y dA dB dC :
  shape4 n1 n2 n3 n4 x -> shape4 n1 n2 n3 n4 y ->
  shape4 n1 n2 n3 n4 (zip4 f x y) /\
  forall i1 i2 i3 i4, i1 < n1 -> i2 < n2 -> i3 < n3 -> i4 < n4 ->
    get4 dC i1 i2 i3 i4 (zip4 f x y) = f (get4 dA i1 i2 i3 i4 x) (get4 dB i1 i2 i3 i4 y).
Proof.
  intros [X1 X2] [Y1 Y2]. unfold zip4, get4. split.
  - split; [rewrite length_zip; lia|]. intros i1 H1. rewrite (nth_zip _ x y i1 [] []) by lia.
    destruct (X2 i1 H1) as [Xa Xb], (Y2 i1 H1) as [Ya Yb].
    split; [rewrite length_zip; lia|]. intros i2 H2. rewrite (nth_zip _ _ _ i2 [] []) by lia.
    destruct (Xb i2 H2) as [Xc Xd], (Yb i2 H2) as [Yc Yd].
    split; [rewrite length_zip; lia|]. intros i3 H3. rewrite (nth_zip _ _ _ i3 [] []) by lia.
    pose proof (Xd i3 H3). pose proof (Yd i3 H3). rewrite length_zip; lia.
  - intros i1 i2 i3 i4 H1 H2 H3 H4.
    destruct (X2 i1 H1) as [Xa Xb], (Y2 i1 H1) as [Ya Yb].
    destruct (Xb i2 H2) as [Xc Xd], (Yb i2 H2) as [Yc Yd].
    pose proof (Xd i3 H3). pose proof (Yd i3 H3).
    rewrite (nth_zip _ x y i1 [] []), (nth_zip _ _ _ i2 [] []), (nth_zip _ _ _ i3 [] []) by lia.
    apply nth_zip; lia.
Qed.

Lemma map4_get {A B} (f : A -> B) n1 n2 n3 n4 x dA dB i1 i2 i3 i4 :
  shape4 n1 n2 n3 n4 x -> i1 < n1 -> i2 < n2 -> i3 < n3 -> i4 < n4 ->
  get4 dB i1 i2 i3 i4 (map4 f x) = f (get4 dA i1 i2 i3 i4 x).
Proof.
  intros [X1 X2] H1 H2 H3 H4. unfold map4, get4.
  destruct (X2 i1 H1) as [Xa Xb]. destruct (Xb i2 H2) as [Xc Xd]. pose proof (Xd i3 H3) as Xe.
  rewrite (nth_map_lt _ x i1 []), (nth_map_lt _ _ i2 []), (nth_map_lt _ _ i3 []) by lia.
  apply nth_map_lt. lia.
Qed.

(* the three-component blocks of the momentum and angular-momentum kernels *)
Lemma zip4_triple {A} (d : A) n1 n2 n3 n4 x y z i1 i2 i3 i4 :
  shape4 n1 n2 n3 n4 x -> shape4 n1 n2 n3 n4 y -> shape4 n1 n2 n3 n4 z ->
  i1 < n1 -> i2 < n2 -> i3 < n3 -> i4 < n4 ->
  get4 [] i1 i2 i3 i4 (zip4 (fun xy c => xy ++ [c]) (zip4 (fun a b => [a; b]) x y) z)
  = [get4 d i1 i2 i3 i4 x; get4 d i1 i2 i3 i4 y; get4 d i1 i2 i3 i4 z].
Proof.
  intros Sx Sy Sz H1 H2 H3 H4.
  destruct (zip4_spec (fun a b : A => [a; b]) _ _ _ _ x y d d [] Sx Sy) as [Sxy Gxy].
  destruct (zip4_spec (fun (xy : list A) (c : A) => xy ++ [c]) _ _ _ _ _ z [] d [] Sxy Sz) as [_ Gxyz].
  now rewrite Gxyz, Gxy.
Qed.
End Shape.

Section Spec.
Context {F : Type} (K : Fops F).
Local Open Scope F_scope.
Notation "0" := (f0 K) : F_scope.
Notation "1" := (f1 K) : F_scope.
Infix "+" := (fadd K) : F_scope.
Infix "*" := (fmul K) : F_scope.
Infix "-" := (fsub K) : F_scope.
Infix "/" := (fdiv K) : F_scope.
Notation "- x" := (fopp K x) : F_scope.

Definition S1 (A B alpha beta : F) : nat -> nat -> F := Sfun K A B alpha beta.
Definition D1 (A B alpha beta : F) (k : nat) : nat -> nat -> F := iterop (Bop K beta) k (Sfun K A B alpha beta).
Definition M1o (A B alpha beta : F) : nat -> nat -> F :=
  fun i j => base K A B alpha beta * T1 K A B 0 alpha beta 1 i j.

Definition dprim (o : comp) (sa sb : shell F) (ca cb : comp) (alpha beta : F) : F :=
  D1 (s_x sa) (s_x sb) alpha beta (cx o) (cx ca) (cx cb)
  * D1 (s_y sa) (s_y sb) alpha beta (cy o) (cy ca) (cy cb)
  * D1 (s_z sa) (s_z sb) alpha beta (cz o) (cz ca) (cz cb).

Section Prim.
Variables (sa sb : shell F) (ca cb : comp) (alpha beta : F).
Let Sx := S1 (s_x sa) (s_x sb) alpha beta (cx ca) (cx cb).
Let Sy := S1 (s_y sa) (s_y sb) alpha beta (cy ca) (cy cb).
Let Sz := S1 (s_z sa) (s_z sb) alpha beta (cz ca) (cz cb).
Let Dx k := D1 (s_x sa) (s_x sb) alpha beta k (cx ca) (cx cb).
Let Dy k := D1 (s_y sa) (s_y sb) alpha beta k (cy ca) (cy cb).
Let Dz k := D1 (s_z sa) (s_z sb) alpha beta k (cz ca) (cz cb).
Let Mx := M1o (s_x sa) (s_x sb) alpha beta (cx ca) (cx cb).
Let My := M1o (s_y sa) (s_y sb) alpha beta (cy ca) (cy cb).
Let Mz := M1o (s_z sa) (s_z sb) alpha beta (cz ca) (cz cb).

Definition kin_prim : F := - (1 / (1 + 1)) * (Dx 2%nat * Sy * Sz + Sx * Dy 2%nat * Sz + Sx * Sy * Dz 2%nat).
Definition mom_x_prim : F := Dx 1%nat * Sy * Sz.
Definition mom_y_prim : F := Sx * Dy 1%nat * Sz.
Definition mom_z_prim : F := Sx * Sy * Dz 1%nat.
Definition ang_x_prim : F := Sx * (My * Dz 1%nat - Mz * Dy 1%nat).
Definition ang_y_prim : F := Sy * (Mz * Dx 1%nat - Mx * Dz 1%nat).
Definition ang_z_prim : F := Sz * (Mx * Dy 1%nat - My * Dx 1%nat).
End Prim.
End Spec.

Section P.
Context {F : Type} (K : Fops F) (Kf : is_field K).
Add Field KFd1 : Kf.
Local Open Scope F_scope.
Notation "0" := (f0 K) : F_scope.
Notation "1" := (f1 K) : F_scope.
Infix "+" := (fadd K) : F_scope.
Infix "*" := (fmul K) : F_scope.
Infix "-" := (fsub K) : F_scope.
Infix "/" := (fdiv K) : F_scope.
Notation "- x" := (fopp K x) : F_scope.
Notation "# n" := (ofnat K n) (at level 5) : F_scope.

Hypothesis Hapx : forall x : F, fapx K x = x.
Hypothesis H2 : 1 + 1 <> 0.

Lemma block_shape4 (sa sb : shell F) pf :
  shape4 (nseg sa) (length (comps_of sa)) (nseg sb) (length (comps_of sb)) (block_of K sa sb pf).
Proof. exact (block_of_shape K sa sb pf). Qed.

Lemma nth4_get4 i1 i2 i3 i4 (b : list (list (list (list F)))) : nth4 K i1 i2 i3 i4 b = get4 0 i1 i2 i3 i4 b.
Proof. reflexivity. Qed.

(* one primitive pair: the three derivative tables of the code hold the three factors of the spec *)
Lemma prim3_dtables n o (sa sb : shell F) ca cb alpha beta :
  comp_le (s_l sa) ca -> comp_le (s_l sb) cb -> comp_le n o -> psum K alpha beta <> 0 ->
  prim3 K (dtable K (s_x sa) (s_x sb) alpha beta (s_l sa) (s_l sb) n,
           dtable K (s_y sa) (s_y sb) alpha beta (s_l sa) (s_l sb) n,
           dtable K (s_z sa) (s_z sb) alpha beta (s_l sa) (s_l sb) n) o ca cb
  = dprim K o sa sb ca cb alpha beta.
Proof.
  destruct ca as [[ax ay] az], cb as [[bx by_] bz], o as [[ox oy] oz].
  unfold comp_le, cx, cy, cz. cbn [fst snd]. intros Ha Hb Ho Hp.
  unfold prim3. rewrite Hapx, !(diffop_slice_is_deriv_b K Kf) by (try assumption; lia).
  reflexivity.
Qed.

(* _compute_differential_operator_integrals, any list of orders *)
Section DB.
Variables (orders : list comp) (sa sb : shell F).
Hypothesis Wa : wf_shell sa.
Hypothesis Wb : wf_shell sb.
Hypothesis He : exps_ok K sa sb.

Lemma diffop_block_nth d : d < length orders ->
  nth d (diffop_block K orders sa sb) []
  = block_of K sa sb (fun ca cb => map (map (fun t => prim3 K t (nth d orders (0,0,0)%nat) ca cb))
                                       (dtabs K (omax orders) sa sb)).
Proof.
  intros Hd. unfold diffop_block. cbv zeta.
  now rewrite (nth_map_lt _ orders d (0,0,0)%nat) by exact Hd.
Qed.

Lemma diffop_block_shape d : d < length orders ->
  shape4 (nseg sa) (length (comps_of sa)) (nseg sb) (length (comps_of sb)) (nth d (diffop_block K orders sa sb) []).
Proof. intros Hd. rewrite diffop_block_nth by exact Hd. apply block_shape4. Qed.

Theorem diffop_block_correct d ma ia mb ib :
  d < length orders ->
  ma < nseg sa -> ia < length (comps_of sa) -> mb < nseg sb -> ib < length (comps_of sb) ->
  nth4 K ma ia mb ib (nth d (diffop_block K orders sa sb) [])
  = contracted K sa sb (nth ia (comps_of sa) (0,0,0)%nat) (nth ib (comps_of sb) (0,0,0)%nat) ma mb
      (dprim K (nth d orders (0,0,0)%nat) sa sb
             (nth ia (comps_of sa) (0,0,0)%nat) (nth ib (comps_of sb) (0,0,0)%nat)).
Proof.
  intros Hd Hma Hia Hmb Hib. rewrite diffop_block_nth by exact Hd. unfold dtabs.
  rewrite (kernel_block_entry K Kf) by (assumption || apply Wa || apply Wb).
  apply contracted_ext. intros alpha beta Ha Hb.
  apply prim3_dtables; [now apply wf_shell_nth..| |now apply He]. now apply omax_ge, nth_In.
Qed.
End DB.

(* the three slices that the kinetic and momentum kernels take apart *)
Lemma diffop_block3 (o0 o1 o2 : nat * nat * nat) (sa sb : shell F) ma ia mb ib :
  wf_shell sa -> wf_shell sb -> exps_ok K sa sb ->
  ma < nseg sa -> ia < length (comps_of sa) -> mb < nseg sb -> ib < length (comps_of sb) ->
  let sh := shape4 (nseg sa) (length (comps_of sa)) (nseg sb) (length (comps_of sb)) in
  let entry o := contracted K sa sb (nth ia (comps_of sa) (0,0,0)%nat) (nth ib (comps_of sb) (0,0,0)%nat) ma mb
      (dprim K o sa sb (nth ia (comps_of sa) (0,0,0)%nat) (nth ib (comps_of sb) (0,0,0)%nat)) in
  exists b0 b1 b2, diffop_block K [o0; o1; o2] sa sb = [b0; b1; b2] /\
    (sh b0 /\ sh b1 /\ sh b2) /\
    nth4 K ma ia mb ib b0 = entry o0 /\ nth4 K ma ia mb ib b1 = entry o1 /\ nth4 K ma ia mb ib b2 = entry o2.
Proof.
  intros Wa Wb He Hma Hia Hmb Hib sh entry.
  pose proof (diffop_block_correct [o0; o1; o2] sa sb Wa Wb He) as Hc.
  pose proof (diffop_block_shape [o0; o1; o2] sa sb) as Hs. cbn [length] in Hc, Hs.
  exists (nth 0 (diffop_block K [o0; o1; o2] sa sb) []), (nth 1 (diffop_block K [o0; o1; o2] sa sb) []),
         (nth 2 (diffop_block K [o0; o1; o2] sa sb) []).
  split; [reflexivity|]. split; [repeat split; apply Hs; lia|].
  repeat split; apply Hc; assumption || lia.
Qed.

Lemma dprim_100 sa sb ca cb : dprim K (1,0,0)%nat sa sb ca cb = mom_x_prim K sa sb ca cb.
Proof. reflexivity. Qed.
Lemma dprim_010 sa sb ca cb : dprim K (0,1,0)%nat sa sb ca cb = mom_y_prim K sa sb ca cb.
Proof. reflexivity. Qed.
Lemma dprim_001 sa sb ca cb : dprim K (0,0,1)%nat sa sb ca cb = mom_z_prim K sa sb ca cb.
Proof. reflexivity. Qed.
Lemma kin_prim_dprim sa sb ca cb alpha beta :
  kin_prim K sa sb ca cb alpha beta
  = - (1 / (1 + 1)) * (dprim K (2,0,0)%nat sa sb ca cb alpha beta + dprim K (0,2,0)%nat sa sb ca cb alpha beta
                       + dprim K (0,0,2)%nat sa sb ca cb alpha beta).
Proof. reflexivity. Qed.

Theorem kinetic_block_correct (sa sb : shell F) ma ia mb ib :
  wf_shell sa -> wf_shell sb -> exps_ok K sa sb ->
  ma < nseg sa -> ia < length (comps_of sa) -> mb < nseg sb -> ib < length (comps_of sb) ->
  nth4 K ma ia mb ib (kinetic_block K sa sb)
  = contracted K sa sb (nth ia (comps_of sa) (0,0,0)%nat) (nth ib (comps_of sb) (0,0,0)%nat) ma mb
      (kin_prim K sa sb (nth ia (comps_of sa) (0,0,0)%nat) (nth ib (comps_of sb) (0,0,0)%nat)).
Proof.
  intros Wa Wb He Hma Hia Hmb Hib.
  destruct (diffop_block3 (2,0,0)%nat (0,2,0)%nat (0,0,2)%nat sa sb ma ia mb ib Wa Wb He Hma Hia Hmb Hib)
    as (bx & by_ & bz & E & (Sx & Sy & Sz) & Hx & Hy & Hz).
  unfold kinetic_block. rewrite E.
  destruct (zip4_spec (fadd K) _ _ _ _ bx by_ 0 0 0 Sx Sy) as [Sxy Gxy].
  destruct (zip4_spec (fadd K) _ _ _ _ _ bz 0 0 0 Sxy Sz) as [Sxyz Gxyz].
  rewrite nth4_get4, (map4_get _ _ _ _ _ _ 0 0 ma ia mb ib Sxyz Hma Hia Hmb Hib).
  rewrite (Gxyz ma ia mb ib Hma Hia Hmb Hib), (Gxy ma ia mb ib Hma Hia Hmb Hib).
  rewrite <- !nth4_get4, Hx, Hy, Hz.
  rewrite <- !(contracted_add K Kf), <- (contracted_scale K Kf).
  apply contracted_ext. intros alpha beta _ _. symmetry. apply kin_prim_dprim.
Qed.

(* momentum: the real matrix R of the value -i R, last axis (x, y, z) *)
Theorem momentum_block_correct (sa sb : shell F) ma ia mb ib :
  wf_shell sa -> wf_shell sb -> exps_ok K sa sb ->
  ma < nseg sa -> ia < length (comps_of sa) -> mb < nseg sb -> ib < length (comps_of sb) ->
  let ca := nth ia (comps_of sa) (0,0,0)%nat in let cb := nth ib (comps_of sb) (0,0,0)%nat in
  get4 [] ma ia mb ib (momentum_block_re K sa sb)
  = [ contracted K sa sb ca cb ma mb (mom_x_prim K sa sb ca cb);
      contracted K sa sb ca cb ma mb (mom_y_prim K sa sb ca cb);
      contracted K sa sb ca cb ma mb (mom_z_prim K sa sb ca cb) ].
Proof.
  intros Wa Wb He Hma Hia Hmb Hib. cbv zeta.
  destruct (diffop_block3 (1,0,0)%nat (0,1,0)%nat (0,0,1)%nat sa sb ma ia mb ib Wa Wb He Hma Hia Hmb Hib)
    as (bx & by_ & bz & E & (Sx & Sy & Sz) & Hx & Hy & Hz).
  unfold momentum_block_re. rewrite E.
  rewrite (zip4_triple 0 _ _ _ _ bx by_ bz ma ia mb ib Sx Sy Sz Hma Hia Hmb Hib).
  rewrite <- !nth4_get4, Hx, Hy, Hz, dprim_100, dprim_010, dprim_001. reflexivity.
Qed.

(* angular momentum about the coordinate origin: the real matrix R of the value -i R *)
Lemma pair_tabs_form {T U} (g : T -> U -> F) (dtf : F -> F -> T) (mtf : F -> F -> U) (ea eb : list F) :
  map (fun p : list T * list U => let '(drow, mrow) := p in
         map (fun q : T * U => let '(d, m) := q in g d m) (combine drow mrow))
      (combine (map (fun beta => map (fun alpha => dtf alpha beta) ea) eb)
               (map (fun beta => map (fun alpha => mtf alpha beta) ea) eb))
  = map (fun beta => map (fun alpha => g (dtf alpha beta) (mtf alpha beta)) ea) eb.
Proof.
  rewrite combine_map_same, map_map. apply map_ext. intros beta.
  rewrite combine_map_same, map_map. reflexivity.
Qed.

(* the derivative tables (to order 1) and the moment tables (about 0, to order 1) of a primitive pair *)
Definition dtab1 (sa sb : shell F) alpha beta : table3 :=
  (dtable K (s_x sa) (s_x sb) alpha beta (s_l sa) (s_l sb) 1, dtable K (s_y sa) (s_y sb) alpha beta (s_l sa) (s_l sb) 1,
   dtable K (s_z sa) (s_z sb) alpha beta (s_l sa) (s_l sb) 1).
Definition mtab1 (sa sb : shell F) alpha beta : table3 :=
  (table K (s_x sa) (s_x sb) 0 alpha beta (s_l sa) (s_l sb) 1, table K (s_y sa) (s_y sb) 0 alpha beta (s_l sa) (s_l sb) 1,
   table K (s_z sa) (s_z sb) 0 alpha beta (s_l sa) (s_l sb) 1).

Lemma angmom_prim_tables c (sa sb : shell F) ca cb alpha beta :
  comp_le (s_l sa) ca -> comp_le (s_l sb) cb -> psum K alpha beta <> 0 ->
  nth c (angmom_prim K (dtab1 sa sb alpha beta) (mtab1 sa sb alpha beta) ca cb) 0
  = nth c [ang_x_prim K sa sb ca cb alpha beta; ang_y_prim K sa sb ca cb alpha beta;
           ang_z_prim K sa sb ca cb alpha beta] 0.
Proof.
  destruct ca as [[ax ay] az], cb as [[bx by_] bz].
  unfold comp_le, cx, cy, cz. cbn [fst snd]. intros Ha Hb Hp.
  unfold angmom_prim, dtab1, mtab1. rewrite !Hapx.
  rewrite !(table_correct K Kf), !(diffop_slice_is_deriv_b K Kf) by (try assumption; lia).
  reflexivity.
Qed.

Lemma angmom_comp_block (sa sb : shell F) (c : nat) ma ia mb ib :
  wf_shell sa -> wf_shell sb -> exps_ok K sa sb ->
  ma < nseg sa -> ia < length (comps_of sa) -> mb < nseg sb -> ib < length (comps_of sb) ->
  let ca := nth ia (comps_of sa) (0,0,0)%nat in let cb := nth ib (comps_of sb) (0,0,0)%nat in
  nth4 K ma ia mb ib
    (block_of K sa sb (fun ca cb =>
       map (fun p : list table3 * list table3 => let '(drow, mrow) := p in
              map (fun q : table3 * table3 => let '(d, m) := q in nth c (angmom_prim K d m ca cb) 0)
                  (combine drow mrow))
           (combine (dtabs K 1 sa sb) (tabs K 0 0 0 [(1, 0, 0)%nat] sa sb))))
  = contracted K sa sb ca cb ma mb
      (fun alpha beta => nth c [ang_x_prim K sa sb ca cb alpha beta; ang_y_prim K sa sb ca cb alpha beta;
                                ang_z_prim K sa sb ca cb alpha beta] 0).
Proof.
  intros Wa Wb He Hma Hia Hmb Hib. cbv zeta.
  rewrite (block_of_contracted K Kf sa sb _
             (fun alpha beta => nth c (angmom_prim K (dtab1 sa sb alpha beta) (mtab1 sa sb alpha beta)
                (nth ia (comps_of sa) (0,0,0)%nat) (nth ib (comps_of sb) (0,0,0)%nat)) 0)
             ma ia mb ib (proj1 Wa) (proj1 Wb) Hma Hia Hmb Hib).
  2:{ apply (pair_tabs_form (fun d m => nth c (angmom_prim K d m _ _) 0)). }
  apply contracted_ext. intros alpha beta Ha Hb.
  apply angmom_prim_tables; [now apply wf_shell_nth..|now apply He].
Qed.

Theorem angmom_block_correct (sa sb : shell F) ma ia mb ib :
  wf_shell sa -> wf_shell sb -> exps_ok K sa sb ->
  ma < nseg sa -> ia < length (comps_of sa) -> mb < nseg sb -> ib < length (comps_of sb) ->
  let ca := nth ia (comps_of sa) (0,0,0)%nat in let cb := nth ib (comps_of sb) (0,0,0)%nat in
  get4 [] ma ia mb ib (angmom_block_re K sa sb)
  = [ contracted K sa sb ca cb ma mb (ang_x_prim K sa sb ca cb);
      contracted K sa sb ca cb ma mb (ang_y_prim K sa sb ca cb);
      contracted K sa sb ca cb ma mb (ang_z_prim K sa sb ca cb) ].
Proof.
  intros Wa Wb He Hma Hia Hmb Hib. cbv zeta.
  pose proof (fun c => angmom_comp_block sa sb c ma ia mb ib Wa Wb He Hma Hia Hmb Hib) as Hc.
  cbv zeta in Hc. unfold angmom_block_re. cbv zeta.
  rewrite (zip4_triple 0 _ _ _ _ _ _ _ ma ia mb ib (block_shape4 sa sb _) (block_shape4 sa sb _)
             (block_shape4 sa sb _) Hma Hia Hmb Hib).
  apply list3_eq; [exact (Hc 0%nat)|exact (Hc 1%nat)|exact (Hc 2%nat)].
Qed.

Lemma fneg1pow_S k : fneg1pow K (S k) = - fneg1pow K k.
Proof.
  unfold fneg1pow. rewrite Nat.even_succ, <- Nat.negb_even.
  destruct (Nat.even k); cbn [negb]; ring.
Qed.

(* at moment order 0 the moment centre does not enter *)
Lemma Sfun_T1 A B alpha beta i j : Sfun K A B alpha beta i j = base K A B alpha beta * T1 K A B 0 alpha beta 0 i j.
Proof. reflexivity. Qed.

Lemma Sfun_swap A B alpha beta i j : Sfun K B A beta alpha j i = Sfun K A B alpha beta i j.
Proof. now rewrite !Sfun_T1, (base_sym K Kf A B), (T1_sym K Kf A B). Qed.

Lemma M1o_swap A B alpha beta i j : M1o K B A beta alpha j i = M1o K A B alpha beta i j.
Proof. unfold M1o. now rewrite (base_sym K Kf A B), (T1_sym K Kf A B). Qed.

Lemma Bop_tswap alpha (T U : nat -> nat -> F) s :
  (forall i j, U j i = s * T i j) ->
  forall i j, Bop K alpha U j i = (- s) * negA K alpha T i j.
Proof. intros H i j. unfold Bop, negA. rewrite !H. ring. Qed.

Lemma iter_Bop_tswap alpha (T U : nat -> nat -> F) :
  (forall i j, U j i = T i j) ->
  forall k i j, iterop (Bop K alpha) k U j i = fneg1pow K k * iterop (negA K alpha) k T i j.
Proof.
  intros H. induction k as [|k IH]; intros i j; cbn [iterop].
  - rewrite H. unfold fneg1pow. cbn [Nat.even]. ring.
  - rewrite (Bop_tswap alpha (iterop (negA K alpha) k T) _ (fneg1pow K k) IH).
    now rewrite fneg1pow_S.
Qed.

Lemma D1_swap A B alpha beta k i j : psum K alpha beta <> 0 ->
  D1 K B A beta alpha k j i = fneg1pow K k * D1 K A B alpha beta k i j.
Proof.
  intros Hp. unfold D1.
  rewrite (iter_Bop_tswap alpha (Sfun K A B alpha beta) (Sfun K B A beta alpha) (Sfun_swap A B alpha beta)).
  f_equal. apply (ibp_iter K Kf A B alpha beta Hp H2).
Qed.

Lemma S1_swap A B alpha beta i j : S1 K B A beta alpha j i = S1 K A B alpha beta i j.
Proof. apply Sfun_swap. Qed.

Lemma dprim_swap o sa sb ca cb alpha beta : psum K alpha beta <> 0 ->
  dprim K o sb sa cb ca beta alpha
  = fneg1pow K (cx o) * fneg1pow K (cy o) * fneg1pow K (cz o) * dprim K o sa sb ca cb alpha beta.
Proof. intros Hp. unfold dprim. rewrite !(D1_swap _ _ alpha beta) by exact Hp. ring. Qed.

(* exchanging the shells transposes a derivative block up to the sign (-1)^(o_x+o_y+o_z) *)
Theorem diffop_block_swap orders (sa sb : shell F) d ma ia mb ib :
  wf_shell sa -> wf_shell sb -> exps_ok K sa sb -> d < length orders ->
  ma < nseg sa -> ia < length (comps_of sa) -> mb < nseg sb -> ib < length (comps_of sb) ->
  let o := nth d orders (0,0,0)%nat in
  nth4 K mb ib ma ia (nth d (diffop_block K orders sb sa) [])
  = fneg1pow K (cx o) * fneg1pow K (cy o) * fneg1pow K (cz o)
    * nth4 K ma ia mb ib (nth d (diffop_block K orders sa sb) []).
Proof.
  intros Wa Wb He Hd Hma Hia Hmb Hib. cbv zeta.
  rewrite (diffop_block_correct orders sb sa Wb Wa (exps_ok_sym K Kf _ _ He)) by assumption.
  rewrite (diffop_block_correct orders sa sb Wa Wb He) by assumption.
  apply (contracted_swap_scaled K Kf). intros alpha beta Ha Hb. apply dprim_swap. now apply He.
Qed.

Lemma kin_prim_swap sa sb ca cb alpha beta : psum K alpha beta <> 0 ->
  kin_prim K sb sa cb ca beta alpha = kin_prim K sa sb ca cb alpha beta.
Proof.
  intros Hp. unfold kin_prim. rewrite !(D1_swap _ _ alpha beta) by exact Hp. rewrite !(S1_swap _ _ alpha beta).
  unfold fneg1pow. cbn [Nat.even]. ring.
Qed.

(* T_ba = T_ab: the kinetic block of the exchanged pair is the transpose *)
Theorem kinetic_block_sym (sa sb : shell F) ma ia mb ib :
  wf_shell sa -> wf_shell sb -> exps_ok K sa sb ->
  ma < nseg sa -> ia < length (comps_of sa) -> mb < nseg sb -> ib < length (comps_of sb) ->
  nth4 K mb ib ma ia (kinetic_block K sb sa) = nth4 K ma ia mb ib (kinetic_block K sa sb).
Proof.
  intros Wa Wb He Hma Hia Hmb Hib.
  rewrite (kinetic_block_correct sb sa) by (try assumption; now apply (exps_ok_sym K Kf)).
  rewrite (kinetic_block_correct sa sb) by assumption.
  apply (contracted_swap_ext K Kf). intros alpha beta Ha Hb. apply kin_prim_swap. now apply He.
Qed.

Lemma mom_prim_swap sa sb ca cb alpha beta : psum K alpha beta <> 0 ->
  mom_x_prim K sb sa cb ca beta alpha = - mom_x_prim K sa sb ca cb alpha beta /\
  mom_y_prim K sb sa cb ca beta alpha = - mom_y_prim K sa sb ca cb alpha beta /\
  mom_z_prim K sb sa cb ca beta alpha = - mom_z_prim K sa sb ca cb alpha beta.
Proof.
  intros Hp. unfold mom_x_prim, mom_y_prim, mom_z_prim.
  rewrite !(D1_swap _ _ alpha beta) by exact Hp. rewrite !(S1_swap _ _ alpha beta).
  unfold fneg1pow. cbn [Nat.even]. repeat split; ring.
Qed.

Lemma ang_prim_swap sa sb ca cb alpha beta : psum K alpha beta <> 0 ->
  ang_x_prim K sb sa cb ca beta alpha = - ang_x_prim K sa sb ca cb alpha beta /\
  ang_y_prim K sb sa cb ca beta alpha = - ang_y_prim K sa sb ca cb alpha beta /\
  ang_z_prim K sb sa cb ca beta alpha = - ang_z_prim K sa sb ca cb alpha beta.
Proof.
  intros Hp. unfold ang_x_prim, ang_y_prim, ang_z_prim.
  rewrite !(D1_swap _ _ alpha beta) by exact Hp. rewrite !(S1_swap _ _ alpha beta), !(M1o_swap _ _ alpha beta).
  unfold fneg1pow. cbn [Nat.even]. repeat split; ring.
Qed.

(* block(b,a)[mb][ib][ma][ia][c] = - block(a,b)[ma][ia][mb][ib][c]: with the factor -i the operator is Hermitian *)
Theorem momentum_block_antisym (sa sb : shell F) ma ia mb ib :
  wf_shell sa -> wf_shell sb -> exps_ok K sa sb ->
  ma < nseg sa -> ia < length (comps_of sa) -> mb < nseg sb -> ib < length (comps_of sb) ->
  get4 [] mb ib ma ia (momentum_block_re K sb sa)
  = map (fopp K) (get4 [] ma ia mb ib (momentum_block_re K sa sb)).
Proof.
  intros Wa Wb He Hma Hia Hmb Hib.
  rewrite (momentum_block_correct sb sa) by (try assumption; now apply (exps_ok_sym K Kf)).
  rewrite (momentum_block_correct sa sb) by assumption. cbv zeta. cbn [map].
  apply list3_eq; apply (contracted_swap_opp K Kf); intros alpha beta Ha Hb;
    apply mom_prim_swap; now apply He.
Qed.

Theorem angmom_block_antisym (sa sb : shell F) ma ia mb ib :
  wf_shell sa -> wf_shell sb -> exps_ok K sa sb ->
  ma < nseg sa -> ia < length (comps_of sa) -> mb < nseg sb -> ib < length (comps_of sb) ->
  get4 [] mb ib ma ia (angmom_block_re K sb sa)
  = map (fopp K) (get4 [] ma ia mb ib (angmom_block_re K sa sb)).
Proof.
  intros Wa Wb He Hma Hia Hmb Hib.
  rewrite (angmom_block_correct sb sa) by (try assumption; now apply (exps_ok_sym K Kf)).
  rewrite (angmom_block_correct sa sb) by assumption. cbv zeta. cbn [map].
  apply list3_eq; apply (contracted_swap_opp K Kf); intros alpha beta Ha Hb;
    apply ang_prim_swap; now apply He.
Qed.

End P.
