(* Proofs/SphExactP.v — lemmas about Model/SphExact.v (property C10).

   For ALL l and all conventions: entry (i,j) of either form is [entry_of l label_i component_j]; left = transpose
   of right; a sign marker multiplies the row by -1; hence a caller's order / sign convention only selects and
   negates entries of the default matrix.  [parse_label] accepts exactly the four documented forms, and whatever
   [generate_transformation] accepts is well-formed.  With these, what is left of [check_l] for l <= 10 is a
   statement about the polynomials of the rows, and only that is evaluated. *)
From Coq Require Import List Arith Lia Bool ZArith NArith QArith Qcanon.
From Coq Require Import String Ascii DecimalString DecimalN.
From GB Require Import Base.Field Base.FNum Base.Tables Base.Sums Gauss.Moment1D Model.Shell Model.SphExact
  Proofs.BlockP.
Import ListNotations.
Local Open Scope nat_scope.
Local Open Scope list_scope.

Definition dl : label := (false, false, 0%nat).
Definition dc : comp := (0%nat, 0%nat, 0%nat).

Lemma right_form_eq l carts lbs :
  right_form l carts lbs = map (fun c => map (fun lb => entry_of l lb c) lbs) carts.
Proof.
  unfold right_form. apply map_ext. intros c. rewrite map_map. apply map_ext.
  intros [[neg sine] m]. reflexivity.
Qed.

Lemma right_form_length l carts lbs : List.length (right_form l carts lbs) = List.length carts.
Proof. rewrite right_form_eq. apply map_length. Qed.

Lemma right_form_nth l carts lbs i j :
  i < List.length lbs -> j < List.length carts ->
  nth i (nth j (right_form l carts lbs) []) szero = entry_of l (nth i lbs dl) (nth j carts dc).
Proof.
  intros Hi Hj. rewrite right_form_eq.
  rewrite (nth_map_lt _ carts j dc []) by assumption.
  now rewrite (nth_map_lt _ lbs i dl szero).
Qed.

Lemma transpose_nth {A} (d : A) n rows i j :
  i < n -> j < List.length rows ->
  nth j (nth i (transpose d n rows) []) d = nth i (nth j rows []) d.
Proof.
  intros Hi Hj. unfold transpose. change (map ?f (seq 0 n)) with (mk n f).
  rewrite nth_mk by assumption.
  now rewrite (nth_map_lt _ rows j [] d).
Qed.

Lemma transpose_length {A} (d : A) n rows : List.length (transpose d n rows) = n.
Proof. unfold transpose. now rewrite map_length, seq_length. Qed.

Lemma left_is_transpose l carts lbs i j :
  i < List.length lbs -> j < List.length carts ->
  nth j (nth i (left_form l carts lbs) []) szero = nth i (nth j (right_form l carts lbs) []) szero.
Proof.
  intros Hi Hj. unfold left_form. apply transpose_nth; [assumption|].
  now rewrite right_form_length.
Qed.

Lemma left_form_length l carts lbs : List.length (left_form l carts lbs) = List.length lbs.
Proof. unfold left_form. apply transpose_length. Qed.

Lemma left_form_nth l carts lbs i j :
  i < List.length lbs -> j < List.length carts ->
  nth j (nth i (left_form l carts lbs) []) szero = entry_of l (nth i lbs dl) (nth j carts dc).
Proof. intros Hi Hj. rewrite left_is_transpose by assumption. now apply right_form_nth. Qed.

Lemma entry_sign l lb c : entry_of l lb c = sneg (is_neg lb) (entry_of l (unsigned lb) c).
Proof.
  destruct lb as [[neg sine] m]. unfold entry_of, unsigned, is_neg, entry_with, sneg, sdiv_sqrt, smul, s_sqrt.
  cbn [fst snd]. f_equal. destruct neg; ring.
Qed.

Definition get (sd : side) (M : list (list surd)) (i j : nat) : surd :=
  match sd with
  | SLeft => nth j (nth i M []) szero
  | SRight => nth i (nth j M []) szero
  end.

Lemma form_get sd l carts lbs i j :
  i < List.length lbs -> j < List.length carts ->
  get sd (form sd l carts lbs) i j = entry_of l (nth i lbs dl) (nth j carts dc).
Proof. intros Hi Hj. destruct sd; cbn [get form]; [now apply left_form_nth | now apply right_form_nth]. Qed.

Definition default_left (l : nat) : list (list surd) :=
  left_form l (default_comps l) (default_labels l).

Lemma convention_entry sd l carts lbs i j p q :
  i < List.length lbs -> j < List.length carts ->
  p < List.length (default_labels l) -> q < List.length (default_comps l) ->
  nth p (default_labels l) dl = unsigned (nth i lbs dl) ->
  nth q (default_comps l) dc = nth j carts dc ->
  get sd (form sd l carts lbs) i j
  = sneg (is_neg (nth i lbs dl)) (get SLeft (default_left l) p q).
Proof.
  intros Hi Hj Hp Hq Ep Eq. rewrite form_get by assumption.
  unfold default_left. change (left_form l ?c ?b) with (form SLeft l c b).
  rewrite form_get by assumption. rewrite Ep, Eq. apply entry_sign.
Qed.

Lemma default_labels_complete l sine m :
  m <= l -> (sine = true -> 1 <= m) -> In (false, sine, m) (default_labels l).
Proof.
  intros Hm Hs. unfold default_labels. destruct (Nat.eqb_spec l 1) as [->|Hl].
  - destruct sine.
    + specialize (Hs eq_refl). assert (m = 1) by lia. subst. cbn. tauto.
    + assert (m = 0 \/ m = 1) as [->| ->] by lia; cbn; tauto.
  - apply in_or_app. destruct sine.
    + left. specialize (Hs eq_refl). apply in_map_iff. exists (l - m). split.
      * f_equal. lia.
      * apply in_seq. lia.
    + right. apply in_map_iff. exists m. split; [reflexivity|]. apply in_seq. lia.
Qed.

Lemma flat_map_tri (f : nat -> list comp) n :
  (forall k, k < n -> List.length (f k) = S k) ->
  2 * List.length (flat_map f (seq 0 n)) = n * (n + 1).
Proof.
  induction n as [|n IH]; intros H; [reflexivity|].
  rewrite seq_S, flat_map_app, app_length. cbn [flat_map plus]. rewrite app_nil_r.
  rewrite H by lia. specialize (IH (fun k Hk => H k (Nat.lt_lt_succ_r _ _ Hk))). lia.
Qed.

Lemma default_comps_length l : List.length (default_comps l) = ncart l.
Proof.
  unfold default_comps, ncart.
  match goal with |- List.length (flat_map ?f _) = _ =>
    assert (E : 2 * List.length (flat_map f (seq 0 (S l))) = (l + 1) * (l + 2)) end.
  { rewrite flat_map_tri; [lia|]. intros k Hk. cbn zeta. rewrite map_length, seq_length. lia. }
  rewrite <- E. rewrite Nat.mul_comm. now rewrite Nat.div_mul.
Qed.

Lemma default_labels_length l : List.length (default_labels l) = 2 * l + 1.
Proof.
  unfold default_labels. destruct (Nat.eqb_spec l 1) as [->|Hl]; [reflexivity|].
  rewrite app_length, !map_length, !seq_length. lia.
Qed.

Definition wf_label (l : nat) (lb : label) : Prop := snd lb <= l /\ (snd (fst lb) = true -> 1 <= snd lb).

Lemma parse_index_fmt l m : m <= l -> parse_index l (fmt_N (N.of_nat m)) = Some m.
Proof.
  intros Hm. unfold parse_index, fmt_N. rewrite NilEmpty.usu, DecimalN.Unsigned.of_to.
  assert (N.leb (N.of_nat m) (N.of_nat l) = true) as -> by (apply N.leb_le; lia).
  rewrite String.eqb_refl. cbn [andb]. now rewrite Nnat.Nat2N.id.
Qed.

Lemma parse_index_sound l s m : parse_index l s = Some m -> s = fmt_N (N.of_nat m) /\ m <= l.
Proof.
  unfold parse_index. destruct (NilEmpty.uint_of_string s) as [d|]; [|discriminate].
  destruct (N.leb (N.of_uint d) (N.of_nat l)) eqn:E1; [|discriminate].
  destruct (String.eqb (fmt_N (N.of_uint d)) s) eqn:E2; [|discriminate].
  cbn [andb]. intros H. injection H as <-. rewrite Nnat.N2Nat.id.
  apply String.eqb_eq in E2. apply N.leb_le in E1. split; [now symmetry|lia].
Qed.

Lemma parse_fmt l lb : wf_label l lb -> parse_label l (fmt_label lb) = Some lb.
Proof.
  destruct lb as [[neg sine] m]. intros [Hm Hs]. cbn [fst snd] in Hm, Hs.
  destruct neg, sine; cbn -[parse_index fmt_N]; rewrite parse_index_fmt by assumption;
    try reflexivity; specialize (Hs eq_refl); destruct m; [lia|reflexivity|lia|reflexivity].
Qed.

Lemma parse_unsigned_sound l neg s lb :
  parse_unsigned l neg s = Some lb ->
  exists sine m, lb = (neg, sine, m) /\ s = ((if sine then "s" else "c") ++ fmt_N (N.of_nat m))%string
                 /\ wf_label l lb.
Proof.
  destruct s as [|ch rest]; [discriminate|]. cbn [parse_unsigned].
  destruct (Ascii.eqb_spec ch "c"%char) as [->|Hc].
  - destruct (parse_index l rest) as [m|] eqn:E; [|discriminate]. intros H; injection H as <-.
    apply parse_index_sound in E as [-> Hm]. exists false, m.
    split; [reflexivity|]. split; [reflexivity|]. split; [assumption|discriminate].
  - destruct (Ascii.eqb_spec ch "s"%char) as [->|Hs]; [|discriminate].
    destruct (parse_index l rest) as [m|] eqn:E; [|discriminate].
    destruct (Nat.leb_spec 1 m) as [H1|H1]; [|discriminate]. intros H; injection H as <-.
    apply parse_index_sound in E as [-> Hm]. exists true, m.
    split; [reflexivity|]. split; [reflexivity|]. split; [assumption|intros _; assumption].
Qed.

Lemma parse_label_sound l s lb :
  parse_label l s = Some lb -> s = fmt_label lb /\ wf_label l lb.
Proof.
  destruct s as [|ch rest]; [discriminate|]. cbn [parse_label].
  destruct (Ascii.eqb_spec ch "-"%char) as [->|Hd]; intros H;
    apply parse_unsigned_sound in H as (sine & m & -> & -> & W); (split; [reflexivity|exact W]).
Qed.

Lemma parse_labels_sound l ss lbs :
  parse_labels l ss = Some lbs ->
  List.length lbs = List.length ss
  /\ forall i, i < List.length ss ->
       nth i ss ""%string = fmt_label (nth i lbs dl) /\ wf_label l (nth i lbs dl).
Proof.
  revert lbs. induction ss as [|s ss IH]; intros lbs H; cbn [parse_labels] in H.
  - injection H as <-. split; [reflexivity|]. intros i Hi. cbn in Hi. lia.
  - destruct (parse_label l s) as [lb|] eqn:E; [|discriminate].
    destruct (parse_labels l ss) as [lbs'|]; [|discriminate]. injection H as <-.
    destruct (IH lbs' eq_refl) as [Hl Hn]. split; [cbn; now rewrite Hl|].
    intros [|i] Hi; cbn [nth].
    + now apply parse_label_sound.
    + apply Hn. cbn in Hi. lia.
Qed.

Lemma parse_labels_fmt l lbs :
  (forall lb, In lb lbs -> wf_label l lb) -> parse_labels l (map fmt_label lbs) = Some lbs.
Proof.
  induction lbs as [|lb lbs IH]; intros H; [reflexivity|]. cbn [map parse_labels].
  rewrite parse_fmt by (apply H; now left). rewrite IH; [reflexivity|].
  intros x Hx. apply H. now right.
Qed.

Lemma default_labels_wf l lb : In lb (default_labels l) -> wf_label l lb /\ unsigned lb = lb.
Proof.
  unfold default_labels. destruct (Nat.eqb_spec l 1) as [->|Hl].
  - cbn. intros [<-|[<-|[<-|[]]]]; unfold wf_label; cbn; repeat split; try lia; discriminate.
  - intros H. apply in_app_or in H as [H|H]; apply in_map_iff in H as (k & <- & Hk);
      apply in_seq in Hk; unfold wf_label; cbn; repeat split; try lia; discriminate.
Qed.

Lemma comp_eqb_refl c : comp_eqb c c = true.
Proof. destruct c as [[x y] z]. cbn. now rewrite !Nat.eqb_refl. Qed.
Lemma comp_eqb_eq c d : comp_eqb c d = true -> c = d.
Proof.
  destruct c as [[x y] z], d as [[x' y'] z']. cbn. intros H.
  apply andb_prop in H as [H Hz]. apply andb_prop in H as [Hx Hy].
  apply Nat.eqb_eq in Hx, Hy, Hz. now subst.
Qed.
Lemma label_eqb_refl a : label_eqb a a = true.
Proof. destruct a as [[n s] m]. cbn. now rewrite !Bool.eqb_reflx, Nat.eqb_refl. Qed.
Lemma label_eqb_eq a b : label_eqb a b = true -> a = b.
Proof.
  destruct a as [[n s] m], b as [[n' s'] m']. cbn. intros H.
  apply andb_prop in H as [H Hm]. apply andb_prop in H as [Hn Hs].
  apply Bool.eqb_prop in Hn, Hs. apply Nat.eqb_eq in Hm. now subst.
Qed.

Lemma carts_ok_default l : carts_ok l (default_comps l) = true.
Proof.
  unfold carts_ok. rewrite default_comps_length, Nat.eqb_refl. cbn [andb].
  apply andb_true_intro. split.
  - apply forallb_forall. intros [[x y] z] H. apply Nat.eqb_eq. exact (default_comps_degree l _ H).
  - apply forallb_forall. intros c H. apply existsb_exists. exists c. split; [assumption|apply comp_eqb_refl].
Qed.

Lemma carts_ok_inv l carts : carts_ok l carts = true ->
  List.length carts = ncart l
  /\ (forall x y z, In (x, y, z) carts -> x + y + z = l)
  /\ (forall x y z, x + y + z = l -> In (x, y, z) carts).
Proof.
  unfold carts_ok. intro H. apply andb_prop in H as [H H3]. apply andb_prop in H as [H1 H2].
  rewrite forallb_forall in H2, H3. split; [now apply Nat.eqb_eq|]. split.
  - intros x y z Hin. apply Nat.eqb_eq. exact (H2 _ Hin).
  - intros x y z Hs. specialize (H3 _ (default_comps_all l x y z Hs)).
    apply existsb_exists in H3 as (c & Hin & E). apply comp_eqb_eq in E. now subst.
Qed.

Lemma labels_ok_default l : labels_ok l (default_labels l) = true.
Proof.
  unfold labels_ok. rewrite default_labels_length, Nat.eqb_refl. cbn [andb].
  apply forallb_forall. intros d H. apply existsb_exists. exists d. split; [assumption|].
  destruct (default_labels_wf l d H) as [_ ->]. apply label_eqb_refl.
Qed.

Lemma default_generated sd l :
  generate_transformation l (default_comps l) (default_label_strings l) sd
  = Some (form sd l (default_comps l) (default_labels l)).
Proof.
  unfold generate_transformation, default_label_strings.
  rewrite carts_ok_default, parse_labels_fmt by (intros lb H; now apply default_labels_wf).
  now rewrite labels_ok_default.
Qed.

Lemma accepted_inv l carts strs sd M :
  generate_transformation l carts strs sd = Some M ->
  exists lbs, parse_labels l strs = Some lbs /\ carts_ok l carts = true /\ labels_ok l lbs = true
              /\ M = form sd l carts lbs.
Proof.
  unfold generate_transformation. destruct (carts_ok l carts); [|discriminate].
  destruct (parse_labels l strs) as [lbs|]; [|discriminate].
  destruct (labels_ok l lbs) eqn:E; [|discriminate]. intros H; injection H as <-.
  exists lbs. repeat split; assumption.
Qed.

Lemma convention_honoured l carts strs sd M :
  generate_transformation l carts strs sd = Some M ->
  exists lbs,
    parse_labels l strs = Some lbs /\ List.length lbs = List.length strs
    /\ (forall i, i < List.length strs -> nth i strs ""%string = fmt_label (nth i lbs dl))
    /\ forall i j, i < List.length strs -> j < List.length carts ->
       exists p q, p < 2 * l + 1 /\ q < ncart l
         /\ nth p (default_labels l) dl = unsigned (nth i lbs dl)
         /\ nth q (default_comps l) dc = nth j carts dc
         /\ get sd M i j = sneg (is_neg (nth i lbs dl)) (get SLeft (default_left l) p q).
Proof.
  intros H. apply accepted_inv in H as (lbs & Hp & Hc & Hl & ->).
  destruct (parse_labels_sound l strs lbs Hp) as [Hlen Hn].
  exists lbs. split; [assumption|]. split; [assumption|]. split; [intros i Hi; now apply Hn|].
  intros i j Hi Hj.
  (* position of the function *)
  destruct (Hn i Hi) as [_ W]. destruct (nth i lbs dl) as [[neg sine] m] eqn:Elb.
  destruct W as [Wm Ws].
  destruct (In_nth _ _ dl (default_labels_complete l sine m Wm Ws)) as (p & Hp1 & Hp2).
  (* position of the component *)
  pose proof (nth_In carts dc Hj) as Hsum. destruct (nth j carts dc) as [[x y] z] eqn:Ec.
  apply (proj1 (proj2 (carts_ok_inv l carts Hc))) in Hsum.
  destruct (In_nth _ _ dc (default_comps_all l x y z Hsum)) as (q & Hq1 & Hq2).
  exists p, q. rewrite default_labels_length in Hp1. rewrite default_comps_length in Hq1.
  split; [assumption|]. split; [assumption|]. split; [exact Hp2|]. split; [exact Hq2|].
  rewrite <- Elb.
  apply convention_entry; try (rewrite ?default_labels_length, ?default_comps_length; assumption).
  - now rewrite Hlen.
  - now rewrite Elb.
  - now rewrite Ec.
Qed.

Lemma accepted_wellformed l carts strs sd M :
  generate_transformation l carts strs sd = Some M ->
  List.length strs = 2 * l + 1
  /\ (forall s, In s strs -> exists neg sine m,
        s = fmt_label (neg, sine, m) /\ m <= l /\ (sine = true -> 1 <= m))
  /\ (forall sine m, m <= l -> (sine = true -> 1 <= m) ->
        In (fmt_label (false, sine, m)) strs \/ In (fmt_label (true, sine, m)) strs)
  /\ List.length carts = ncart l
  /\ (forall x y z, In (x, y, z) carts -> x + y + z = l)
  /\ (forall x y z, x + y + z = l -> In (x, y, z) carts).
Proof.
  intros H. apply accepted_inv in H as (lbs & Hp & Hc & Hl & _).
  destruct (parse_labels_sound l strs lbs Hp) as [Hlen Hn].
  unfold labels_ok in Hl. apply andb_prop in Hl as [Hl1 Hl2]. apply Nat.eqb_eq in Hl1.
  rewrite forallb_forall in Hl2.
  split; [now rewrite <- Hlen|]. split.
  { intros s Hs. destruct (In_nth _ _ ""%string Hs) as (i & Hi & <-).
    destruct (Hn i Hi) as [E W]. destruct (nth i lbs dl) as [[neg sine] m].
    exists neg, sine, m. split; [assumption|exact W]. }
  split.
  { intros sine m Hm Hs. specialize (Hl2 _ (default_labels_complete l sine m Hm Hs)).
    apply existsb_exists in Hl2 as (lb & Hin & E). apply label_eqb_eq in E.
    destruct (In_nth _ _ dl Hin) as (i & Hi & Ei). rewrite Hlen in Hi.
    destruct (Hn i Hi) as [Es _]. rewrite Ei in Es.
    destruct lb as [[neg s'] m']. cbn in E. injection E as -> ->.
    destruct neg; [right|left]; rewrite <- Es; now apply nth_In. }
  exact (carts_ok_inv l carts Hc).
Qed.

(* concrete malformed requests (the first three are accepted by the unfixed code) *)
Example reject_c_minus_1 :
  generate_transformation 1 (default_comps 1) ["c-1"; "s1"; "c0"]%string SLeft = None.
Proof. vm_compute. reflexivity. Qed.
Example reject_s_minus_2 :
  generate_transformation 2 (default_comps 2) ["s-2"; "s1"; "c0"; "c1"; "c2"]%string SRight = None.
Proof. vm_compute. reflexivity. Qed.
Example reject_minus_c_minus_0 :
  generate_transformation 0 (default_comps 0) ["-c-0"]%string SLeft = None.
Proof. vm_compute. reflexivity. Qed.
Example reject_double_minus :
  generate_transformation 1 (default_comps 1) ["--c1"; "s1"; "c0"]%string SLeft = None.
Proof. vm_compute. reflexivity. Qed.
Example reject_duplicate :
  generate_transformation 1 (default_comps 1) ["c1"; "-c1"; "c0"]%string SLeft = None.
Proof. vm_compute. reflexivity. Qed.
Example reject_wrong_count :
  generate_transformation 1 (default_comps 1) ["c1"; "s1"; "c0"; "c0"]%string SLeft = None.
Proof. vm_compute. reflexivity. Qed.
Example reject_wrong_m :
  generate_transformation 1 (default_comps 1) ["c1"; "s1"; "c2"]%string SLeft = None.
Proof. vm_compute. reflexivity. Qed.
Example reject_s0 :
  generate_transformation 1 (default_comps 1) ["c1"; "s1"; "s0"]%string SLeft = None.
Proof. vm_compute. reflexivity. Qed.
Example reject_leading_zero :
  generate_transformation 1 (default_comps 1) ["c1"; "s1"; "c00"]%string SLeft = None.
Proof. vm_compute. reflexivity. Qed.
Example reject_bad_carts :
  generate_transformation 1 [(1, 0, 0); (1, 0, 0); (0, 0, 1)]%nat ["c1"; "s1"; "c0"]%string SLeft = None.
Proof. vm_compute. reflexivity. Qed.
(* and a well-formed non-default request is accepted (the hypotheses above are satisfiable) *)
Example accept_orca_f :
  exists M, generate_transformation 3 (rev (default_comps 3))
              ["c0"; "c1"; "s1"; "c2"; "s2"; "-c3"; "-s3"]%string SLeft = Some M.
Proof. eexists. vm_compute. reflexivity. Qed.

Lemma list_eqb_refl {A} (e : A -> A -> bool) l : (forall x, e x x = true) -> list_eqb e l l = true.
Proof.
  intro He. unfold list_eqb. rewrite Nat.eqb_refl. cbn [andb].
  induction l as [|a l IH]; [reflexivity|]. cbn [combine forallb]. now rewrite He, IH.
Qed.

Lemma mat_eqb_refl M : mat_eqb M M = true.
Proof.
  apply list_eqb_refl. intro row. apply list_eqb_refl. intros [r q]. unfold surd_eqb, Qc_eq_bool. cbn [fst snd].
  destruct (Qc_eq_dec r r); [|congruence]. destruct (Qc_eq_dec q q); [reflexivity|congruence].
Qed.

Lemma transpose_involutive {A} (d : A) n m rows :
  List.length rows = n -> (forall r, In r rows -> List.length r = m) ->
  transpose d n (transpose d m rows) = rows.
Proof.
  intros Hn Hm. apply (nth_ext _ _ [] []); [now rewrite transpose_length|].
  intros j Hj. rewrite transpose_length in Hj. unfold transpose at 1. change (map ?f (seq 0 n)) with (mk n f).
  rewrite nth_mk by assumption. rewrite <- Hn in Hj. apply (nth_ext _ _ d d).
  - rewrite map_length, transpose_length. symmetry. now apply Hm, nth_In.
  - intros i Hi. rewrite map_length, transpose_length in Hi.
    rewrite (nth_map_lt _ _ i [] d) by (now rewrite transpose_length). now apply transpose_nth.
Qed.

Lemma left_default_transpose l :
  transpose szero (2 * l + 1) (right_form l (default_comps l) (default_labels l))
  = left_form l (default_comps l) (default_labels l).
Proof. unfold left_form. now rewrite default_labels_length. Qed.

Lemma right_default_transpose l :
  transpose szero (ncart l) (left_form l (default_comps l) (default_labels l))
  = right_form l (default_comps l) (default_labels l).
Proof.
  unfold left_form. apply transpose_involutive.
  - now rewrite right_form_length, default_comps_length.
  - intros r Hr. rewrite right_form_eq in Hr. apply in_map_iff in Hr as (c & <- & _). apply map_length.
Qed.

Lemma default_labels_doc l : list_eqb label_eqb (default_labels l) (doc_order l) = true.
Proof.
  assert (E : doc_order l = default_labels l); [|rewrite E; apply list_eqb_refl, label_eqb_refl].
  unfold doc_order, default_labels. destruct (Nat.eqb l 1); [reflexivity|].
  replace (2 * l + 1) with (l + S l) by lia. rewrite seq_app, map_app. f_equal.
  - apply map_ext_in. intros k Hk. apply in_seq in Hk. destruct (Nat.ltb_spec k l); [reflexivity|lia].
  - apply (nth_ext _ _ dl dl); [now rewrite !map_length, !seq_length|].
    intros n Hn. rewrite map_length, seq_length in Hn.
    rewrite !(nth_map_lt _ _ n 0 dl), !seq_nth by (rewrite ?seq_length; lia).
    destruct (Nat.ltb_spec (0 + l + n) l); [lia|]. f_equal. lia.
Qed.

Lemma qsum_filter {A} (keep : A -> bool) (f : A -> Qc) l :
  (forall x, keep x = false -> f x = 0%Qc) -> qsum (map f (filter keep l)) = qsum (map f l).
Proof.
  intro H. unfold qsum. generalize 0%Qc. induction l as [|a l IH]; intro acc; [reflexivity|]. cbn [filter map].
  destruct (keep a) eqn:E; cbn [map fold_left]; rewrite IH; [reflexivity|]. rewrite (H a E). f_equal. ring.
Qed.

Lemma forallb_ext {A} (f g : A -> bool) l : (forall x, f x = g x) -> forallb f l = forallb g l.
Proof. intro H. induction l as [|a l IH]; [reflexivity|]. cbn [forallb]. now rewrite H, IH. Qed.

Definition nzc (kv : comp * Qc) : bool := negb (qzero (snd kv)).

Lemma nzc_false kv : nzc kv = false -> snd kv = 0%Qc.
Proof. intro H. apply negb_false_iff in H. now apply Qc_eq_bool_correct. Qed.

(* [gram] with the values of g1 read from a table: g1 walks through a unary division and a product for each of
   the three factors of each pair of components *)
Definition g1_tab (n : nat) : list Z := map g1 (seq 0 n).

Definition gram_t (t : list Z) (a b : comp) : Z :=
  let '(a1, a2, a3) := a in let '(b1, b2, b3) := b in
  let g n := nth n t (g1 n) in (g (a1 + b1)%nat * g (a2 + b2)%nat * g (a3 + b3)%nat)%Z.

Lemma gram_t_eq n a b : gram_t (g1_tab n) a b = gram a b.
Proof.
  assert (H : forall k, nth k (g1_tab n) (g1 k) = g1 k).
  { intro k. unfold g1_tab. rewrite map_nth. f_equal.
    destruct (Nat.lt_ge_cases k n); [now rewrite seq_nth|now rewrite nth_overflow by now rewrite seq_length]. }
  destruct a as [[a1 a2] a3], b as [[b1 b2] b3]. unfold gram_t, gram. cbv zeta. now rewrite !H.
Qed.

Lemma qsum_scale {A} (f : A -> Qc) c l : (qsum (map f l) * c)%Qc = qsum (map (fun x => (f x * c)%Qc) l).
Proof.
  unfold qsum. replace 0%Qc with (0 * c)%Qc at 2 by ring. generalize 0%Qc.
  induction l as [|a l IH]; intro acc; [reflexivity|]. cbn [map fold_left]. rewrite IH. f_equal. ring.
Qed.

Lemma zq_add a b : zq (a + b) = (zq a + zq b)%Qc.
Proof. apply Qc_is_canon. unfold zq, Qcplus, Q2Qc. cbn [this]. rewrite !Qred_correct. now rewrite inject_Z_plus. Qed.

Lemma zq_mul a b : zq (a * b) = (zq a * zq b)%Qc.
Proof. apply Qc_is_canon. unfold zq, Qcmult, Q2Qc. cbn [this]. rewrite !Qred_correct. now rewrite inject_Z_mult. Qed.

Definition zsum (l : list Z) : Z := fold_left Z.add l 0%Z.

Lemma zq_zsum {A} (f : A -> Z) l : zq (zsum (map f l)) = qsum (map (fun x => zq (f x)) l).
Proof.
  unfold zsum, qsum. change 0%Qc with (zq 0). generalize 0%Z.
  induction l as [|a l IH]; intro acc; [reflexivity|]. cbn [map fold_left]. now rewrite IH, zq_add.
Qed.

Lemma zq_num (x : Qc) : Qden x = 1%positive -> zq (Qnum x) = x.
Proof. destruct x as [[n d] H]. cbn. intros ->. apply Qc_is_canon. apply Qred_correct. Qed.

Lemma zq_nz d : d <> 0%Z -> zq d <> 0%Qc.
Proof.
  intros Hd E. apply Hd. pose proof (Qred_correct (inject_Z d)) as Q.
  change (Qred (inject_Z d)) with (this (zq d)) in Q. rewrite E in Q. unfold Qeq in Q. cbn in Q. lia.
Qed.

(* [orthonormal] without the vanishing coefficients (two thirds of a row): G r_j is summed over the support of
   r_j only, and r_i . G r_j over the support of r_i.  The inner sum runs over Z: the coefficients of a row have
   a small common denominator d, and r_b d is an integer (tested; otherwise the sum is left as it is). *)
Definition gram_apply_s (t : list Z) (p : hdict) : hdict :=
  let d := fold_right (fun kv : comp * Qc => Z.lcm (Zpos (Qden (snd kv)))) 1%Z p in
  let q := map (fun kv => (fst kv, (snd kv * zq d)%Qc)) (filter nzc p) in
  let di := (/ zq d)%Qc in
  if forallb (fun kv : comp * Qc => Pos.eqb (Qden (snd kv)) 1) q && negb (Z.eqb d 0)
  then map (fun '(a, _) =>
         (a, (zq (zsum (map (fun kv : comp * Qc => gram_t t a (fst kv) * Qnum (snd kv))%Z q)) * di)%Qc)) p
  else gram_apply p.

Lemma gram_apply_s_eq n p : gram_apply_s (g1_tab n) p = gram_apply p.
Proof.
  unfold gram_apply_s. cbv zeta. set (d := fold_right _ _ _). destruct (forallb _ _ && _) eqn:E; [|reflexivity].
  apply andb_prop in E as [Hi Hd]. rewrite forallb_forall in Hi. apply negb_true_iff, Z.eqb_neq, zq_nz in Hd.
  apply map_ext. intros [a r]. f_equal. rewrite zq_zsum, map_map, qsum_scale. cbn [fst snd].
  rewrite <- (qsum_filter nzc (fun '(b, rb) => if Z.eqb (gram a b) 0 then 0%Qc else (zq (gram a b) * rb)%Qc) p).
  - apply f_equal, map_ext_in. intros [b rb] Hb. cbn [fst snd].
    assert (Hq : Qden (rb * zq d)%Qc = 1%positive).
    { apply Pos.eqb_eq. exact (Hi _ (in_map (fun kv : comp * Qc => (fst kv, (snd kv * zq d)%Qc)) _ _ Hb)). }
    rewrite gram_t_eq, zq_mul, (zq_num _ Hq).
    destruct (Z.eqb_spec (gram a b) 0) as [->|_]; [change (zq 0) with 0%Qc; ring|now field].
  - intros [b rb] H. apply nzc_false in H. cbn [snd] in H. rewrite H. destruct (Z.eqb _ _); ring.
Qed.

Definition dot_s (p g : hdict) : Qc :=
  qsum (map (fun '((_, x), (_, y)) => (x * y)%Qc) (filter (fun pq => nzc (fst pq)) (combine p g))).

Lemma dot_s_eq p g : dot_s p g = dot p g.
Proof.
  apply qsum_filter. intros [[a x] [b y]] H. apply nzc_false in H. cbn [fst snd] in H. rewrite H. ring.
Qed.

Definition orthonormal_s (n : nat) (polys : list (Qc * hdict)) : bool :=
  let t := g1_tab n in
  let gs := map (fun '(_, p) => gram_apply_s t p) polys in
  forallb (fun i =>
    let '(rho, p) := nth i polys (0%Qc, []) in
    forallb (fun j =>
      let d := dot_s p (nth j gs []) in
      if Nat.eqb i j then Qc_eq_bool (rho * d)%Qc 1%Qc else qzero d)
      (seq 0 (List.length polys)))
    (seq 0 (List.length polys)).

Lemma orthonormal_s_eq n polys : orthonormal_s n polys = orthonormal polys.
Proof.
  unfold orthonormal_s, orthonormal. cbv zeta.
  rewrite (map_ext _ (fun '(_, p) => gram_apply p)) by (intros [r p]; apply gram_apply_s_eq).
  apply forallb_ext. intro i. destruct (nth i polys _) as [rho p]. apply forallb_ext. intro j.
  now rewrite dot_s_eq.
Qed.

(* The last conjunct of [check_l], on a matrix built once.  The other seven (the entry point returns the two forms,
   their shapes, each is the transpose of the other, the documented order) hold for every l, and evaluating them
   would build the matrix five more times. *)
Definition check_core (l : nat) : bool :=
  let carts := default_comps l in
  match opt_all (map (row_poly carts) (left_form l carts (default_labels l))) with
  | None => false
  | Some polys =>
      forallb (fun '(_, p) => homogeneous l p && harmonic l p) polys
      && orthonormal_s (2 * l + 1) polys
      && forallb (fun '(lb, (_, p)) => let '(_, sine, m) := lb in axial_ok l m sine p)
                 (combine (doc_order l) polys)
      && partners_ok l (doc_order l) polys
      && all_used carts polys
  end.

Lemma check_l_core l : check_core l = true -> check_l l = true.
Proof.
  intro H. unfold check_l. cbv zeta. rewrite !default_generated. cbn [omat_eqb form].
  rewrite left_default_transpose, right_default_transpose, !mat_eqb_refl, default_labels_doc.
  rewrite left_form_length, right_form_length, default_labels_length, default_comps_length, !Nat.eqb_refl.
  unfold check_core in H. cbv zeta in H. destruct (opt_all _) as [polys|]; [|exact H].
  rewrite orthonormal_s_eq in H. exact H.
Qed.

Lemma check_core_all : forallb check_core (seq 0 11) = true.
Proof. vm_compute. reflexivity. Qed.

Lemma check_le10 : forall l, l <= 10 -> check_l l = true.
Proof.
  intros l Hl. apply check_l_core. apply (proj1 (forallb_forall _ _) check_core_all). apply in_seq. lia.
Qed.

(* [g1 n] (Model/SphExact.v) is the moment m_n of Gauss/Moment1D.v at v = 1:  m_0 = 1, m_1 = 0,
   m_(n+2) = (n+1) v m_n.  With v = 1/(4a) (two Gaussians of exponent a on one centre: p = 2a) m_n = g1 n v^(n/2),
   and v^l is common to all pairs of components of one shell; this is the overlap used by [orthonormal]. *)
Lemma g1_SS n : g1 (S (S n)) = (Z.of_nat (S n) * g1 n)%Z.
Proof.
  unfold g1. change (Nat.even (S (S n))) with (Nat.even n).
  destruct (Nat.even n) eqn:E; [|now rewrite Z.mul_0_r].
  apply Nat.even_spec in E as [k ->].
  replace (S (S (2 * k))) with (2 * S k) by lia.
  rewrite !(Nat.mul_comm 2), !Nat.div_mul by lia.
  cbn [zdf_odd]. f_equal. lia.
Qed.

Lemma zdf_odd_pos n : (0 < zdf_odd n)%Z.
Proof. induction n as [|n IH]; cbn [zdf_odd]; lia. Qed.

Lemma g1_nonneg n : (0 <= g1 n)%Z.
Proof. unfold g1. destruct (Nat.even n); [pose proof (zdf_odd_pos (n / 2))|]; lia. Qed.

Section GramMoment.
Context {F : Type} (K : Fops F) (Kf : is_field K).
Add Field KFg : Kf.

Lemma gram1_is_moment n : mom K (f1 K) n = ofnat K (Z.to_nat (g1 n)).
Proof.
  assert (H : mom K (f1 K) n = ofnat K (Z.to_nat (g1 n))
              /\ mom K (f1 K) (S n) = ofnat K (Z.to_nat (g1 (S n)))).
  { induction n as [|n [IH1 IH2]].
    - split.
      + rewrite mom_0. change (Z.to_nat (g1 0)) with 1%nat. cbn [ofnat]. ring.
      + rewrite mom_1. change (Z.to_nat (g1 1)) with 0%nat. reflexivity.
    - split; [exact IH2|]. rewrite mom_SS, IH1, g1_SS.
      rewrite Z2Nat.inj_mul by (try apply g1_nonneg; lia).
      rewrite Nat2Z.id, (ofnat_mul K Kf). ring. }
  exact (proj1 H).
Qed.
End GramMoment.

(* the hypothesis [is_field K] is satisfiable: the executable instance *)
Definition K0 : Fops Qc := QcK true (Q2Qc 0) (fun x => x) (fun x => x) (fun x => x) (fun _ x => x).
Example gram1_is_moment_Qc n : mom K0 (f1 K0) n = ofnat K0 (Z.to_nat (g1 n)).
Proof. apply gram1_is_moment. apply QcK_field. Qed.
