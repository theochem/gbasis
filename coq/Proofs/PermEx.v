(* Proofs/PermEx.v — data and boolean checkers for the concrete instances of the theorems of
   Proofs/PermP.v that Props/C11.v and Props/C09_block4.v state: non-trivial data (three shells of
   different sizes, Cartesian and spherical, several segments) on which the hypotheses (block
   shapes, block symmetry, eight-fold symmetry) are decided and the conclusions hold by evaluation.
   The instance of the number interface is the ring of integers with constant stand-ins for
   division / square root (the permutation theorems assume nothing about the numbers), so that
   everything reduces by vm_compute. *)
From Coq Require Import List Arith Lia Bool ZArith Permutation.
From GB Require Import Base.Field Base.Tables Base.Blocks Model.Shell Model.Spherical Model.Assembly
  Model.Assembly14 Model.Overlap Model.OneBody Proofs.PermP.
Import ListNotations.

Definition ZK : Fops Z :=
  mkFops Z 0%Z 1%Z Z.add Z.mul Z.sub Z.opp (fun _ _ => 2%Z) (fun _ => 1%Z) Z.leb Z.eqb 3%Z
         (fun _ => 1%Z) (fun _ => 1%Z) (fun _ => 0%Z) (fun _ _ => 1%Z) (fun x => x).

Ltac cases3 i Hi := destruct i as [|[|[|i]]]; [ | | | exfalso; cbn in Hi; lia ].

(* Deciding the hypotheses on a finite family of blocks.  The n^2 (n^4) blocks are tabulated and
   boolean tests read the table; [ok2] and [ex_blocks_ok] take the table as one argument so that
   it is evaluated once for all tests (a case split over the shells with one evaluation per
   branch computes every block several times and is far slower to check). *)
Definition all2 (n : nat) (q : nat -> nat -> bool) : bool :=
  forallb (fun i => forallb (q i) (seq 0 n)) (seq 0 n).

Lemma all2_lt n q i j : all2 n q = true -> i < n -> j < n -> q i j = true.
Proof.
  intros H Hi Hj. unfold all2 in H. rewrite forallb_forall in H.
  specialize (H i ltac:(apply in_seq; lia)). rewrite forallb_forall in H. apply H, in_seq. lia.
Qed.

Definition all4 (n : nat) (q : nat -> nat -> nat -> nat -> bool) : bool := all2 n (fun i j => all2 n (q i j)).

Lemma all4_lt n q i j k l : all4 n q = true -> i < n -> j < n -> k < n -> l < n -> q i j k l = true.
Proof. intros H Hi Hj Hk Hl. apply (all2_lt n _ i j) in H; [|exact Hi|exact Hj]. now apply (all2_lt n _ k l) in H. Qed.

Definition tab2 {B} (n : nat) (f : nat -> nat -> B) : list (list B) := mk n (fun i => mk n (f i)).
Definition get2 {B} (d : B) (T : list (list B)) (i j : nat) : B := nth j (nth i T []) d.
Definition tab4 {B} (n : nat) (f : nat -> nat -> nat -> nat -> B) : list (list (list (list B))) :=
  tab2 n (fun i j => tab2 n (f i j)).

Lemma get2_tab2 {B} (d : B) n f i j : i < n -> j < n -> get2 d (tab2 n f) i j = f i j.
Proof. intros Hi Hj. unfold get2, tab2. now rewrite !nth_mk by assumption. Qed.
Lemma get4_tab4 {B} (d : B) n f i j k l : i < n -> j < n -> k < n -> l < n -> get4 d (tab4 n f) i j k l = f i j k l.
Proof. intros Hi Hj Hk Hl. unfold get4, tab4, tab2. now rewrite !nth_mk by assumption. Qed.

Definition lenb {B} (q : B -> bool) (w : nat) (l : list B) : bool := Nat.eqb (length l) w && forallb q l.

Lemma lenb_spec {B} (q : B -> bool) (Q : B -> Prop) w l :
  (forall x, q x = true -> Q x) -> lenb q w l = true -> length l = w /\ Forall Q l.
Proof.
  intros Hq H. apply andb_prop in H. destruct H as [HL HF]. split; [now apply Nat.eqb_eq|].
  apply Forall_forall. intros x Hx. apply Hq. rewrite forallb_forall in HF. now apply HF.
Qed.

Section Check.
Context {A : Type} (azero : A) (dec : forall x y : A, {x = y} + {x <> y}).
Notation R2 := (list (list A)).
Notation R4 := (list (list (list (list A)))).
Notation sw := (swapax azero).

Definition eq2b (x y : R2) : bool := if list_eq_dec (list_eq_dec dec) x y then true else false.
Definition eq4b (x y : R4) : bool :=
  if list_eq_dec (list_eq_dec (list_eq_dec (list_eq_dec dec))) x y then true else false.

Lemma eq2b_eq x y : eq2b x y = true -> x = y.
Proof. unfold eq2b. now destruct (list_eq_dec _ x y). Qed.
Lemma eq4b_eq x y : eq4b x y = true -> x = y.
Proof. unfold eq4b. now destruct (list_eq_dec _ x y). Qed.

Definition shape2b (n : nat) (r1 r2 : nat -> nat) (T : list (list R2)) : bool :=
  all2 n (fun i j => lenb (fun v : list A => Nat.eqb (length v) (r2 j)) (r1 i) (get2 [] T i j)).

Definition symb (n : nat) (g : R2 -> R2) (T : list (list R2)) : bool :=
  all2 n (fun i j => eq2b (get2 [] T j i) (g (get2 [] T i j))).

Definition ok2 (n : nat) (r : nat -> nat) (g : R2 -> R2) (T : list (list R2)) : bool :=
  shape2b n r r T && symb n g T.

Lemma shape2b_sound n r1 r2 Bf : shape2b n r1 r2 (tab2 n Bf) = true -> shape2 n n r1 r2 Bf.
Proof.
  intros H i j Hi Hj. apply (all2_lt n _ i j) in H; try assumption. cbv beta in H.
  rewrite get2_tab2 in H by assumption. revert H. apply lenb_spec. intros v. apply Nat.eqb_eq.
Qed.

Lemma symb_sound n g Bf : symb n g (tab2 n Bf) = true -> forall i j, i < n -> j < n -> Bf j i = g (Bf i j).
Proof.
  intros H i j Hi Hj. apply (all2_lt n _ i j) in H; try assumption. cbv beta in H.
  rewrite !get2_tab2 in H by assumption. now apply eq2b_eq.
Qed.

Lemma ok2_sound n r g Bf : ok2 n r g (tab2 n Bf) = true ->
  shape2 n n r r Bf /\ forall i j, i < n -> j < n -> Bf j i = g (Bf i j).
Proof. intros H. apply andb_prop in H. split; [now apply shape2b_sound|now apply symb_sound]. Qed.

Definition shape4b (n : nat) (r : nat -> nat) (T : list (list (list (list R4)))) : bool :=
  all4 n (fun i j k l =>
    lenb (lenb (lenb (fun v : list A => Nat.eqb (length v) (r l)) (r k)) (r j)) (r i) (get4 [] T i j k l)).

Definition sym8b (n : nat) (T : list (list (list (list R4)))) : bool :=
  all4 n (fun i j k l => let B := get4 [] T i j k l in
    eq4b (get4 [] T i j l k) (sw 2 3 B) && eq4b (get4 [] T j i k l) (sw 0 1 B) &&
    eq4b (get4 [] T j i l k) (sw 0 1 (sw 2 3 B)) && eq4b (get4 [] T k l i j) (sw 0 2 (sw 1 3 B)) &&
    eq4b (get4 [] T l k i j) (sw 0 1 (sw 0 2 (sw 1 3 B))) && eq4b (get4 [] T k l j i) (sw 2 3 (sw 0 2 (sw 1 3 B))) &&
    eq4b (get4 [] T l k j i) (sw 0 3 (sw 1 2 B))).

Lemma shape4b_sound n r Bf : shape4b n r (tab4 n Bf) = true -> shape4 n r Bf.
Proof.
  intros H i j k l Hi Hj Hk Hl. apply (all4_lt n _ i j k l) in H; try assumption. cbv beta in H.
  rewrite get4_tab4 in H by assumption. revert H.
  apply (lenb_spec _ (shp3 (r j) (r k) (r l))). intros m3. apply (lenb_spec _ (shp2 (r k) (r l))).
  intros m2. apply (lenb_spec _ (shp1 (r l))). intros v. apply Nat.eqb_eq.
Qed.

Lemma sym8b_sound n Bf : sym8b n (tab4 n Bf) = true -> sym8 azero n Bf.
Proof.
  intros H i j k l Hi Hj Hk Hl. apply (all4_lt n _ i j k l) in H; try assumption. cbv beta zeta in H.
  rewrite !get4_tab4 in H by assumption. rewrite !andb_true_iff in H.
  destruct H as [[[[[[E1 E2] E3] E4] E5] E6] E7]. repeat split; now apply eq4b_eq.
Qed.
End Check.

(* blocks: three shells with 1, 2 and 3 functions, new order (2, 0, 1) *)
Definition r3 (i : nat) : nat := match i with 0 => 1 | 1 => 2 | _ => 3 end.
Definition p3 : list nat := [2; 0; 1].
Definition g2 (x y : nat) : nat := (x + 1) * (y + 1) + 10 * (x + y).
Definition g2z (x y : nat) : Z := ((Z.of_nat x + 1) * (Z.of_nat y + 1) + 10 * (Z.of_nat x + Z.of_nat y))%Z.
Definition Bex (i j : nat) : list (list nat) :=
  mk (r3 i) (fun a => mk (r3 j) (fun b => g2 (off r3 i + a) (off r3 j + b))).
Definition Bas (i j : nat) : list (list nat) :=
  mk (r3 i) (fun a => mk (r3 j) (fun b => 100 * (off r3 i + a) + (off r3 j + b))).

(* Hermitian class: antisymmetric real part, aconj = negation *)
Definition Bh (i j : nat) : list (list Z) :=
  mk (r3 i) (fun a => mk (r3 j) (fun b =>
    (Z.of_nat (off r3 i + a) * Z.of_nat (off r3 i + a) - Z.of_nat (off r3 j + b) * Z.of_nat (off r3 j + b))%Z)).

Definition sh_a : @sh Z := mkSh false [] [[2%Z]].                                  (* 1 function *)
Definition sh_b : @sh Z := mkSh false [] [[1%Z; 2%Z; 3%Z]; [1%Z; 1%Z; 1%Z]].        (* M=2, L=3: 6 *)
Definition sh_c : @sh Z := mkSh true [[1%Z; 0%Z; 1%Z]; [0%Z; 2%Z; (-1)%Z]] [[1%Z; 1%Z; 2%Z]].  (* sph 2x3 *)
Definition l1 : list (@sh Z * list (list Z)) :=
  [ (sh_a, [[5%Z]]); (sh_b, [[1%Z; 2%Z; 3%Z]; [4%Z; 5%Z; 6%Z]]); (sh_c, [[7%Z; 8%Z; 9%Z]]) ].

(* two indices, Assembly14 (labels), mixed types, M > 1 *)
Definition ss3 : list (@sh Z) := [sh_a; sh_b; sh_c].
Definition nM (i : nat) : nat := match i with 1 => 2 | _ => 1 end.
Definition nL (i : nat) : nat := match i with 0 => 1 | _ => 3 end.
(* raw blocks [m1][c1][m2][c2], symmetric under exchange of the two shells *)
Definition raw2 (i j : nat) : list (list (list (list Z))) :=
  mk (nM i) (fun m1 => mk (nL i) (fun c1 => mk (nM j) (fun m2 => mk (nL j) (fun c2 =>
    g2z (100 * i + 10 * m1 + c1) (100 * j + 10 * m2 + c2))))).
Definition w14 (i : nat) : nat := match i with 0 => 1 | 1 => 6 | _ => 2 end.

(* the whole-basis model Overlap.two_symm_integral with shells s, p (2 segments), d (spherical) *)
Definition shl (l : nat) (nseg : nat) (sph : bool) : shell Z :=
  mkShell Z l 0%Z 1%Z 2%Z [1%Z; 2%Z] [repeat 1%Z nseg; repeat 2%Z nseg] sph [] [].
Definition basis3 : list (shell Z) := [shl 0 1 false; shl 1 2 false; shl 2 1 true].
Definition blockf_ex (s1 s2 : shell Z) : list (list (list (list Z))) :=
  mk (nseg s1) (fun m1 => mk (length (comps_of s1)) (fun c1 =>
  mk (nseg s2) (fun m2 => mk (length (comps_of s2)) (fun c2 =>
    g2z (100 * s_l s1 + 10 * m1 + c1) (100 * s_l s2 + 10 * m2 + c2))))).
Definition wb (i : nat) : nat := match i with 0 => 1 | 1 => 6 | _ => 5 end.

(* four indices (Assembly14.four_symm): shells with 1, 2 (two segments) and 2 (spherical, from 3
   Cartesian components) functions *)
Definition sh_b2 : @sh Z := mkSh false [] [[1%Z]; [3%Z]].
Definition ss4 : list (@sh Z) := [sh_a; sh_b2; sh_c].
Definition nL4 (i : nat) : nat := match i with 2 => 3 | _ => 1 end.
Definition w4 (i : nat) : nat := match i with 0 => 1 | _ => 2 end.
Definition v4 (a b c d : nat) : Z := (g2z a b * g2z c d + g2z a b + g2z c d)%Z.
Definition raw4 (i j k l : nat) : list (list (list (list (list (list (list (list Z))))))) :=
  mk (nM i) (fun m1 => mk (nL4 i) (fun c1 => mk (nM j) (fun m2 => mk (nL4 j) (fun c2 =>
  mk (nM k) (fun m3 => mk (nL4 k) (fun c3 => mk (nM l) (fun m4 => mk (nL4 l) (fun c4 =>
    v4 (100 * i + 10 * m1 + c1) (100 * j + 10 * m2 + c2)
       (100 * k + 10 * m3 + c3) (100 * l + 10 * m4 + c4))))))))).
Definition sel4 (ip : list nat) (m : list (list (list (list Z)))) : list (list (list (list Z))) :=
  map (fun x1 => map (fun x2 => map (fun x3 => map (fun x4 => get4 0%Z m x1 x2 x3 x4) ip) ip) ip) ip.

Lemma B4f_tab {F A} (azero : A) aadd (ascale : F -> A -> A) mode ss bf bf' n i j k l :
  (forall i j k l, bf' i j k l = bf i j k l) -> i < n -> j < n -> k < n -> l < n ->
  B4f azero aadd ascale mode ss (get4 [] (tab4 n bf')) i j k l = B4f azero aadd ascale mode ss bf i j k l.
Proof. intros E Hi Hj Hk Hl. unfold B4f. cbv zeta. now rewrite get4_tab4, E by assumption. Qed.

Lemma shape4_B4f_tab {F A} (azero : A) aadd (ascale : F -> A -> A) mode ss bf bf' n r :
  (forall i j k l, bf' i j k l = bf i j k l) ->
  shape4 n r (B4f azero aadd ascale mode ss (get4 [] (tab4 n bf'))) -> shape4 n r (B4f azero aadd ascale mode ss bf).
Proof.
  intros E H i j k l Hi Hj Hk Hl. rewrite <- (B4f_tab azero aadd ascale mode ss bf bf' n) by assumption. now apply H.
Qed.
Lemma sym8_B4f_tab {F A} (azero : A) aadd (ascale : F -> A -> A) mode ss bf bf' n :
  (forall i j k l, bf' i j k l = bf i j k l) ->
  sym8 azero n (B4f azero aadd ascale mode ss (get4 [] (tab4 n bf'))) -> sym8 azero n (B4f azero aadd ascale mode ss bf).
Proof.
  intros E H i j k l Hi Hj Hk Hl. rewrite <- !(B4f_tab azero aadd ascale mode ss bf bf' n) by assumption. now apply H.
Qed.

(* raw4 with the labels computed in Z: evaluating raw4 itself spends nearly all its time on the unary
   100 * i + 10 * m + c, four labels an entry, each converted to Z four times *)
Definition lab (i m c : nat) : Z := (100 * Z.of_nat i + 10 * Z.of_nat m + Z.of_nat c)%Z.
Definition v4z (a b c d : Z) : Z :=
  let g x y := ((x + 1) * (y + 1) + 10 * (x + y))%Z in
  let p := g a b in let q := g c d in (p * q + p + q)%Z.
Definition raw4z (i j k l : nat) : list (list (list (list (list (list (list (list Z))))))) :=
  mk (nM i) (fun m1 => mk (nL4 i) (fun c1 => mk (nM j) (fun m2 => mk (nL4 j) (fun c2 =>
  mk (nM k) (fun m3 => mk (nL4 k) (fun c3 => mk (nM l) (fun m4 => mk (nL4 l) (fun c4 =>
    v4z (lab i m1 c1) (lab j m2 c2) (lab k m3 c3) (lab l m4 c4))))))))).

Lemma lab_eq i m c : Z.of_nat (100 * i + 10 * m + c) = lab i m c.
Proof. unfold lab. lia. Qed.

Lemma raw4z_eq i j k l : raw4z i j k l = raw4 i j k l.
Proof.
  unfold raw4z, raw4. do 8 (apply mk_ext; intros ? _).
  rewrite <- !lab_eq. reflexivity.
Qed.

Lemma ex_blocks_ok :
  (fun R => (fun T2 T0 => shape4b 3 w4 T2 && sym8b 0%Z Z.eq_dec 3 T2 && sym8b 0%Z Z.eq_dec 3 T0)
              (tab4 3 (B4f 0%Z Z.add Z.mul 2 ss4 (get4 [] R))) (tab4 3 (B4f 0%Z Z.add Z.mul 0 ss4 (get4 [] R))))
    (tab4 3 raw4z) = true.
Proof. vm_compute. reflexivity. Qed.

Lemma ex_sym8 : sym8 0%Z 3 (B4f 0%Z Z.add Z.mul 2 ss4 raw4).
Proof.
  apply (sym8_B4f_tab _ _ _ _ _ _ raw4z _ raw4z_eq). apply (sym8b_sound 0%Z Z.eq_dec).
  exact (proj2 (andb_prop _ _ (proj1 (andb_prop _ _ ex_blocks_ok)))).
Qed.
Lemma ex_sym8_cart : sym8 0%Z 3 (B4f 0%Z Z.add Z.mul 0 ss4 raw4).
Proof.
  apply (sym8_B4f_tab _ _ _ _ _ _ raw4z _ raw4z_eq). apply (sym8b_sound 0%Z Z.eq_dec). exact (proj2 (andb_prop _ _ ex_blocks_ok)).
Qed.
Lemma four_symm_ext {F A} (azero : A) aadd (ascale : F -> A -> A) mode ss bf bf' :
  (forall i j k l, bf' i j k l = bf i j k l) ->
  four_symm azero aadd ascale mode ss bf' = four_symm azero aadd ascale mode ss bf.
Proof.
  intros E. unfold four_symm. cbv zeta.
  rewrite (EriStructP.all_writes_ext azero (length ss) _ (B4f azero aadd ascale mode ss bf)); [reflexivity|].
  intros i j k l _ _ _ _. unfold B4f. cbv zeta. now rewrite E.
Qed.

Lemma ex_four_symm_perm_z :
  four_symm 0%Z Z.add Z.mul 2 (sel (mkSh false [] []) p3 ss4)
    (fun a b c d => raw4z (nth a p3 0) (nth b p3 0) (nth c p3 0) (nth d p3 0))
  = sel4 (iperm w4 p3) (four_symm 0%Z Z.add Z.mul 2 ss4 raw4z).
Proof. vm_compute. reflexivity. Qed.

(* the hypotheses of the orientation theorems (a field; alpha + beta <> 0; 2 <> 0) hold at the
   executable rational instance *)
From Coq Require Import QArith Qcanon.
From GB Require Import Model.MomentInt.
Definition QK : Fops Qc := QcK true (Q2Qc 3) (fun x => x) (fun x => x) (fun x => x) (fun _ x => x).
Lemma ex_orient_hyps :
  is_field QK /\ psum QK (f1 QK) (fadd QK (f1 QK) (f1 QK)) <> f0 QK /\ fadd QK (f1 QK) (f1 QK) <> f0 QK.
Proof.
  split; [apply QcK_field|]. split; intro H; apply (f_equal (fun q : Qc => Qnum (this q))) in H;
    vm_compute in H; discriminate.
Qed.
