(* Proofs/ParsersP.v — lemmas about Model/Parsers.v: the printers are inverted by the parsers
   (any number of elements, blocks, primitives, columns; any layout), and make_contractions. *)
From Coq Require Import List String Ascii Bool Arith Lia ZifyBool.
From GB Require Import Model.Parsers.
Import ListNotations.
Open Scope string_scope.
Open Scope list_scope.
Open Scope nat_scope.

(* the character classes are unions of intervals of [code c]: [lia] (through ZifyBool) decides the inclusions *)
Definition visible (c : ascii) : bool := printable c && negb (is_space c).
Definition dotword (c : ascii) : bool := is_word c || (code c =? 46).

Lemma class_visible c : is_class c = true -> visible c = true.
Proof. unfold is_class, is_digit, visible, printable, is_space. lia. Qed.
Lemma dotword_visible c : dotword c = true -> visible c = true.
Proof. unfold dotword, is_word, is_letter, is_upper, is_lower, is_digit, visible, printable, is_space. lia. Qed.
Lemma word_dotword c : is_word c = true -> dotword c = true.
Proof. unfold dotword. lia. Qed.
Lemma word_notdot c : is_word c = true -> (code c =? 46) = false.
Proof. unfold is_word, is_letter, is_upper, is_lower, is_digit. lia. Qed.
Lemma letter_word c : is_letter c = true -> is_word c = true.
Proof. unfold is_word. lia. Qed.
Lemma space_printable c : is_space c = true -> printable c = true.
Proof. unfold is_space, printable. lia. Qed.

Lemma forallb_imp {A} (p q : A -> bool) l :
  (forall x, p x = true -> q x = true) -> forallb p l = true -> forallb q l = true.
Proof. intros Hpq H. rewrite forallb_forall in *. auto. Qed.
Lemma forallb_Forall {A} (p : A -> bool) (P : A -> Prop) l :
  (forall x, p x = true -> P x) -> forallb p l = true -> Forall P l.
Proof. intros HP H. rewrite forallb_forall in H. apply Forall_forall. auto. Qed.
Lemma forallb_nth {A} (p : A -> bool) l k d :
  forallb p l = true -> k < List.length l -> p (nth k l d) = true.
Proof. intros H Hk. rewrite forallb_forall in H. apply H, nth_In, Hk. Qed.
Lemma nth_map_default {A B} (f : A -> B) l k d d' :
  k < List.length l -> nth k (map f l) d' = f (nth k l d).
Proof. intros Hk. rewrite (nth_indep _ d' (f d)) by (rewrite map_length; exact Hk). apply map_nth. Qed.
Lemma map_nth_seq {A} (l : list A) d : map (fun k => nth k l d) (seq 0 (List.length l)) = l.
Proof.
  induction l; simpl; auto. f_equal. rewrite <- seq_shift, map_map. exact IHl.
Qed.
Lemma Forall_mapi_from {A B} (P : B -> Prop) (f : nat -> A -> list B) l : forall n,
  (forall k x, In x l -> Forall P (f k x)) -> Forall P (mapi_from n f l).
Proof.
  induction l; simpl; intros n Hf; auto. apply Forall_app. split; auto.
Qed.
Lemma filter_map_app {A B} (f : A -> option B) l1 l2 :
  filter_map f (l1 ++ l2) = filter_map f l1 ++ filter_map f l2.
Proof. induction l1; simpl; auto. destruct (f a); simpl; congruence. Qed.
Lemma filter_map_none {A B} (f : A -> option B) l :
  Forall (fun x => f x = None) l -> filter_map f l = [].
Proof. induction 1; simpl; auto. rewrite H. auto. Qed.
Lemma concat_map_single {A B} (f : A -> B) l : List.concat (map (fun x => [f x]) l) = map f l.
Proof. induction l; simpl; congruence. Qed.
Lemma combine_fst_snd {A B} (l : list A) : forall l' : list B, List.length l = List.length l' ->
  map fst (combine l l') = l /\ map snd (combine l l') = l'.
Proof.
  induction l as [|a l IH]; intros [|b l'] H; try discriminate; auto. simpl.
  destruct (IH l') as [-> ->]; auto.
Qed.
Lemma map_opt_total {A B} (f : A -> option B) l :
  Forall (fun x => f x <> None) l -> exists r, map_opt f l = Some r.
Proof.
  induction 1 as [|x l Hx _ [r IH]]; simpl; [eexists; reflexivity|].
  destruct (f x); [|congruence]. rewrite IH. eexists. reflexivity.
Qed.
Lemma map_opt_map_Some {A B} (f : A -> option B) l : forall r, map_opt f l = Some r -> map f l = map Some r.
Proof.
  induction l as [|a l IH]; simpl; intros r H; [injection H as <-; reflexivity|].
  destruct (f a) as [b|]; [|discriminate]. destruct (map_opt f l) as [bs|]; [|discriminate].
  injection H as <-. simpl. rewrite (IH bs eq_refl). reflexivity.
Qed.
Lemma map_opt_of_map {A B} (f : A -> option B) l : forall r, map f l = map Some r -> map_opt f l = Some r.
Proof.
  induction l as [|a l IH]; intros [|b r] H; try discriminate; auto.
  injection H as Ha Hr. simpl. rewrite Ha, (IH r Hr). reflexivity.
Qed.

Lemma sapp_nil_r s : s +++ "" = s.
Proof. induction s; simpl; congruence. Qed.
Lemma sapp_assoc a b c : (a +++ b) +++ c = a +++ (b +++ c).
Proof. induction a; simpl; congruence. Qed.
Lemma forall_s_app p a b : forall_s p (a +++ b) = forall_s p a && forall_s p b.
Proof. induction a; simpl; auto. rewrite IHa, andb_assoc. reflexivity. Qed.
Lemma forall_s_imp (p q : ascii -> bool) s :
  (forall c, p c = true -> q c = true) -> forall_s p s = true -> forall_s q s = true.
Proof.
  intros Hpq. induction s; simpl; auto. intros H. apply andb_true_iff in H as [H1 H2].
  rewrite (Hpq _ H1), IHs; auto.
Qed.
Lemma forall_s_spaces p n : p " "%char = true -> forall_s p (spaces n) = true.
Proof. intros Hp. induction n; simpl; auto. rewrite Hp, IHn. reflexivity. Qed.

Definition tok_ok (t : string) : bool := nonempty t && nospace t.

Lemma split_ws_nonnil s : split_ws s <> [].
Proof. destruct s; simpl; try discriminate. destruct (is_space a); try discriminate.
  destruct (split_ws s); discriminate. Qed.

Lemma split_ws_nospace_app t s :
  nospace t = true ->
  split_ws (t +++ s) = (t +++ hd "" (split_ws s)) :: tl (split_ws s).
Proof.
  induction t as [|c t IH]; simpl; intros H.
  - destruct (split_ws s) eqn:E; [exfalso; eapply split_ws_nonnil; eauto | reflexivity].
  - unfold nospace in H. simpl in H. apply andb_true_iff in H as [H1 H2].
    apply negb_true_iff in H1. rewrite H1. rewrite IH by exact H2. reflexivity.
Qed.

Lemma tokens_space s : tokens (String " " s) = tokens s.
Proof. reflexivity. Qed.
Lemma tokens_spaces_app n s : tokens (spaces n +++ s) = tokens s.
Proof. induction n; simpl; auto. Qed.
Lemma tokens_spaces n : tokens (spaces n) = [].
Proof. induction n; simpl; auto. Qed.
Lemma nonempty_app t s : nonempty t = true -> nonempty (t +++ s) = true.
Proof. destruct t; simpl; [discriminate | auto]. Qed.
Lemma tokens_tok_space t s : tok_ok t = true -> tokens (t +++ String " " s) = t :: tokens s.
Proof.
  intros H. apply andb_true_iff in H as [H1 H2]. unfold tokens.
  rewrite split_ws_nospace_app by exact H2. simpl. rewrite sapp_nil_r.
  rewrite H1. reflexivity.
Qed.
Lemma tokens_tok_spaces t n : tok_ok t = true -> tokens (t +++ spaces n) = [t].
Proof.
  intros H. destruct n; simpl.
  - apply andb_true_iff in H as [H1 H2]. unfold tokens.
    rewrite split_ws_nospace_app by exact H2. simpl. rewrite sapp_nil_r, H1. reflexivity.
  - rewrite tokens_tok_space by auto. rewrite tokens_spaces. reflexivity.
Qed.

Lemma tokens_join toks : forall n k,
  forallb tok_ok toks = true -> tokens (join (S n) toks +++ spaces k) = toks.
Proof.
  induction toks as [|t r IH]; intros n k H.
  - simpl. apply tokens_spaces.
  - simpl in H. apply andb_true_iff in H as [Ht Hr].
    destruct r as [|t2 r2].
    + simpl. apply tokens_tok_spaces; auto.
    + change (join (S n) (t :: t2 :: r2)) with (t +++ spaces (S n) +++ join (S n) (t2 :: r2)).
      rewrite !sapp_assoc. simpl spaces.
      change (String " " (spaces n) +++ (join (S n) (t2 :: r2) +++ spaces k))
        with (String " " (spaces n +++ (join (S n) (t2 :: r2) +++ spaces k))).
      rewrite tokens_tok_space by auto. rewrite tokens_spaces_app.
      rewrite IH by auto. reflexivity.
Qed.

Lemma printable_join toks : forall n,
  forallb (forall_s printable) toks = true -> forall_s printable (join n toks) = true.
Proof.
  induction toks as [|t r IH]; intros n H; simpl; auto.
  simpl in H. apply andb_true_iff in H as [Ht Hr]. destruct r as [|t2 r2]; auto.
  rewrite !forall_s_app, Ht, forall_s_spaces by reflexivity. simpl. apply IH; auto.
Qed.

Definition good_tok (s : string) : bool := nonempty s && forall_s visible s.

Lemma good_tok_of p s :
  (forall c, p c = true -> visible c = true) -> nonempty s && forall_s p s = true -> good_tok s = true.
Proof.
  intros Hp H. apply andb_true_iff in H as [Hn H]. unfold good_tok. rewrite Hn. exact (forall_s_imp p _ s Hp H).
Qed.
Lemma good_tok_ok s : good_tok s = true -> tok_ok s = true /\ forall_s printable s = true.
Proof.
  unfold good_tok, tok_ok, nospace. intros H. apply andb_true_iff in H as [-> H].
  split; [simpl|]; apply (forall_s_imp visible _ s); auto; unfold visible; lia.
Qed.

Lemma render_line p toks : forallb good_tok toks = true ->
  tokens (render p toks) = toks /\ forall_s printable (render p toks) = true.
Proof.
  destruct p as [[ind sep] trail]. intros H. unfold render. split.
  - rewrite tokens_spaces_app. apply tokens_join. revert H. apply forallb_imp. apply good_tok_ok.
  - rewrite !forall_s_app, !forall_s_spaces by reflexivity. rewrite printable_join; auto.
    revert H. apply forallb_imp. apply good_tok_ok.
Qed.

Lemma class_tok_good s : class_tok s = true -> good_tok s = true.
Proof. apply good_tok_of, class_visible. Qed.
Lemma pure_word_good s : pure_word s = true -> good_tok s = true.
Proof. apply good_tok_of. intros c Hc. apply dotword_visible, word_dotword, Hc. Qed.

Lemma wf_lit_facts s : wf_lit s = true -> class_tok s = true /\ float_ok s = true /\ pure_word s = false.
Proof. unfold wf_lit. lia. Qed.
Lemma wf_sym_short s : wf_sym s = true -> short_word s = true.
Proof.
  unfold wf_sym, short_word, pure_word. intros H.
  apply andb_true_iff in H as [H H3]. apply andb_true_iff in H as [H1 H2].
  rewrite H1, H3. rewrite (forall_s_imp _ _ _ letter_word H2). reflexivity.
Qed.
Lemma short_pure s : short_word s = true -> pure_word s = true.
Proof. unfold short_word. lia. Qed.

Lemma letter_facts b l : l <= 7 ->
  is_word (letter_of b l) = true /\ angmom_of_char (letter_of b l) = Some l.
Proof.
  intros H. destruct b; do 8 (destruct l as [|l]; [vm_compute; auto|]); lia.
Qed.
Lemma letters_facts b ls : forallb (fun l => l <=? 7) ls = true ->
  forall_s is_word (letters b ls) = true /\ map_opt angmom_of_char (chars (letters b ls)) = Some ls.
Proof.
  induction ls as [|l r IH]; simpl; intros H; auto.
  apply andb_true_iff in H as [H1 H2]. apply Nat.leb_le in H1.
  destruct (letter_facts b l H1) as [Hw Ha]. destruct (IH H2) as [Hw' Ha'].
  rewrite Hw, Hw', Ha, Ha'. auto.
Qed.
Lemma letters_word lo ls :
  nonempty (letters false ls) = true -> forallb (fun l => l <=? 7) ls = true -> pure_word (letters lo ls) = true.
Proof.
  intros Hne H7. unfold pure_word. destruct (letters_facts lo ls H7) as [-> _].
  destruct ls; [discriminate|reflexivity].
Qed.

Lemma words_not_ww_tail s : forall_s is_word s = true -> ww_tail s = false.
Proof.
  induction s as [|c r IH]; simpl; auto. intros H. apply andb_true_iff in H as [H1 H2].
  rewrite (word_notdot c H1), (IH H2), andb_false_r. reflexivity.
Qed.
Lemma pure_word_not_ww s : pure_word s = true -> is_ww s = false.
Proof.
  unfold pure_word. intros H. apply andb_true_iff in H as [_ H]. destruct s as [|c r]; simpl in *; auto.
  apply andb_true_iff in H as [H1 H2]. rewrite (words_not_ww_tail r H2), andb_false_r. reflexivity.
Qed.

Lemma two_word_line q sym t2 : wf_sym sym = true -> pure_word t2 = true ->
  let l := render q [sym; t2] in
  is_blank l = false /\ header_nw l = Some (sym, t2) /\ header_gbs l = Some sym /\
  forall_s printable l = true /\ bad_gbs_line l = false.
Proof.
  intros Hs H2. cbv zeta. pose proof (wf_sym_short sym Hs) as Hsh.
  destruct (render_line q [sym; t2]) as [Ht Hp].
  { simpl. rewrite (pure_word_good _ (short_pure _ Hsh)), (pure_word_good _ H2). reflexivity. }
  unfold is_blank, header_nw, header_gbs, bad_gbs_line. rewrite Ht. simpl rev.
  rewrite Hsh, H2, (pure_word_not_ww _ H2). auto.
Qed.

Record wfb (b : block) : Prop := {
  wfb_ne : nonempty (letters false (b_ls b)) = true;
  wfb_l7 : forallb (fun l => l <=? 7) (b_ls b) = true;
  wfb_k : 1 <= List.length (b_exps b);
  wfb_m : 1 <= List.length (b_cols b);
  wfb_exps : forallb wf_lit (b_exps b) = true;
  wfb_cols : forallb (fun col => (List.length col =? List.length (b_exps b)) && forallb wf_lit col) (b_cols b) = true;
  wfb_lm : List.length (b_ls b) = 1 \/ List.length (b_ls b) = List.length (b_cols b)
}.
Lemma wf_block_wfb b : wf_block b = true -> wfb b.
Proof.
  unfold wf_block. intros H. repeat (apply andb_true_iff in H as [H ?]).
  constructor; auto; try (apply Nat.leb_le; auto).
  apply orb_true_iff in H0 as [H0|H0]; apply Nat.eqb_eq in H0; auto.
Qed.
Lemma wfb_col b col : wfb b -> In col (b_cols b) ->
  List.length col = List.length (b_exps b) /\ forallb wf_lit col = true.
Proof.
  intros W Hc. pose proof (wfb_cols b W) as HC. rewrite forallb_forall in HC. specialize (HC col Hc). lia.
Qed.

Lemma row_toks_lits b k : wfb b -> k < List.length (b_exps b) ->
  forallb wf_lit (row_toks b k) = true /\ 2 <= List.length (row_toks b k).
Proof.
  intros W Hk. unfold row_toks. split.
  - simpl. rewrite (forallb_nth _ _ _ _ (wfb_exps b W) Hk). simpl.
    rewrite forallb_forall. intros x Hx. apply in_map_iff in Hx as [col [<- Hc]].
    destruct (wfb_col b col W Hc) as [HC1 HC2]. apply forallb_nth; auto. lia.
  - simpl. rewrite map_length. pose proof (wfb_m b W). lia.
Qed.

Section RowLine.
  Variables (p : nat * nat * nat) (toks : list string).
  Hypothesis Hl : forallb wf_lit toks = true.
  Hypothesis H2 : 2 <= List.length toks.

  Lemma row_line : tokens (render p toks) = toks /\ forall_s printable (render p toks) = true.
  Proof. apply render_line. revert Hl. apply forallb_imp. intros s Hs. apply class_tok_good, wf_lit_facts, Hs. Qed.
  Lemma row_tokens : tokens (render p toks) = toks.
  Proof. apply row_line. Qed.
  Lemma row_row_of : row_of (render p toks) = Some (hd "" toks, tl toks).
  Proof.
    unfold row_of. rewrite row_tokens. destruct toks as [|e [|c cs]]; simpl in H2; try lia.
    assert (forallb class_tok (e :: c :: cs) = true) as ->; auto.
    revert Hl. apply forallb_imp. apply wf_lit_facts.
  Qed.
  Lemma row_not_blank : is_blank (render p toks) = false.
  Proof. unfold is_blank. rewrite row_tokens. destruct toks; simpl in H2; [lia|reflexivity]. Qed.
  Lemma row_first_notword : pure_word (hd "" toks) = false.
  Proof.
    destruct toks; simpl in *; [lia|]. apply andb_true_iff in Hl as [Hs _]. apply wf_lit_facts; auto.
  Qed.
  Lemma row_no_header : header_nw (render p toks) = None /\ header_gbs (render p toks) = None.
  Proof.
    unfold header_nw, header_gbs. rewrite row_tokens. pose proof row_first_notword as Hw.
    destruct toks as [|e [|c [|c2 cs]]]; auto. simpl in Hw. unfold short_word. rewrite Hw. auto.
  Qed.
  Lemma row_sheader_gbs : sheader_gbs (render p toks) = None.
  Proof.
    unfold sheader_gbs. rewrite row_tokens. pose proof row_first_notword as Hw.
    destruct toks as [|e [|c [|c2 [|c3 cs]]]]; auto. simpl in Hw. rewrite Hw. reflexivity.
  Qed.
  Lemma row_not_bad : bad_gbs_line (render p toks) = false.
  Proof.
    unfold bad_gbs_line. rewrite row_tokens.
    destruct (rev toks) as [|c [|b rest]] eqn:E; auto.
    - apply (f_equal (@List.length string)) in E. rewrite rev_length in E. simpl in E. lia.
    - assert (In b toks) as Hb. { apply in_rev. rewrite E. simpl. auto. }
      rewrite forallb_forall in Hl. destruct (wf_lit_facts b (Hl b Hb)) as (_ & _ & ->).
      rewrite andb_false_r. reflexivity.
  Qed.
End RowLine.

Section SplitP.
  Context {H : Type} (hdr : string -> option H).

  Lemma segs_nohdr_false B rest :
    Forall (fun l => hdr l = None) B ->
    segs hdr false (B ++ rest) = (B ++ fst (segs hdr false rest), snd (segs hdr false rest)).
  Proof.
    induction 1 as [|l B Hl HB IH]; simpl.
    - destruct (segs hdr false rest); reflexivity.
    - rewrite IH, Hl. destruct (is_blank l); reflexivity.
  Qed.
  Lemma segs_nohdr_true B rest :
    Forall (fun l => hdr l = None) B ->
    existsb (fun l => negb (is_blank l)) B = true ->
    segs hdr true (B ++ rest) = (B ++ fst (segs hdr false rest), snd (segs hdr false rest)).
  Proof.
    induction 1 as [|l B Hl HB IH]; simpl; [discriminate|].
    intros Hex. destruct (is_blank l) eqn:E; simpl in Hex.
    - rewrite IH by auto. reflexivity.
    - rewrite segs_nohdr_false by auto. reflexivity.
  Qed.
  Lemma segs_hdr l h r :
    is_blank l = false -> hdr l = Some h ->
    segs hdr false (l :: r) = ([], (h, fst (segs hdr true r)) :: snd (segs hdr true r)).
  Proof.
    intros Hb Hh. simpl. rewrite Hb, Hh. destruct (segs hdr true r); reflexivity.
  Qed.
  (* a header line, its body (no header lines, at least one non-blank line), then anything *)
  Lemma segs_block F l h B rest :
    Forall (fun l => hdr l = None) F ->
    is_blank l = false -> hdr l = Some h ->
    Forall (fun l => hdr l = None) B ->
    existsb (fun l => negb (is_blank l)) B = true ->
    segs hdr false ((F ++ [l] ++ B) ++ rest)
    = (F, (h, B ++ fst (segs hdr false rest)) :: snd (segs hdr false rest)).
  Proof.
    intros HF Hb Hh HB Hex. rewrite <- !app_assoc. rewrite segs_nohdr_false by auto.
    change ([l] ++ B ++ rest) with (l :: (B ++ rest)).
    rewrite (segs_hdr l h) by auto. rewrite segs_nohdr_true by auto. cbn [fst snd].
    rewrite app_nil_r. reflexivity.
  Qed.
End SplitP.

Definition good_rows (rows : list (list string)) : Prop :=
  forall row, In row rows -> forallb wf_lit row = true /\ 2 <= List.length row.

Section Rows.
  Variables (L : layout) (pos : list nat) (rows : list (list string)).
  Hypothesis Hrows : good_rows rows.

  Lemma print_rows_Forall (P : string -> Prop) :
    (forall q, Forall P (lay_fill L q)) ->
    (forall q row, forallb wf_lit row = true -> 2 <= List.length row -> P (render q row)) ->
    Forall P (print_rows L pos rows).
  Proof.
    intros Hf Hr. unfold print_rows. apply Forall_mapi_from. intros k row Hin.
    apply Forall_app. split; auto. constructor; auto. destruct (Hrows row Hin). apply Hr; auto.
  Qed.

  Lemma print_rows_rows :
    (forall q, Forall (fun l => row_of l = None) (lay_fill L q)) ->
    filter_map row_of (print_rows L pos rows) = map (fun row => (hd "" row, tl row)) rows.
  Proof.
    intros Hf. unfold print_rows. generalize 0. revert Hrows.
    induction rows as [|row r IH]; intros Hg n; simpl; auto.
    rewrite <- app_assoc, !filter_map_app. rewrite filter_map_none by auto. simpl.
    destruct (Hg row) as [G1 G2]; [left; auto|]. rewrite row_row_of by auto.
    cbn [app]. f_equal. apply IH. intros x Hx. apply Hg. right; auto.
  Qed.

  Lemma print_rows_nonblank :
    rows <> [] -> existsb (fun l => negb (is_blank l)) (print_rows L pos rows) = true.
  Proof.
    intros Hne. unfold print_rows. generalize 0. destruct rows as [|row r]; [congruence|]. intros n.
    simpl. rewrite !existsb_app. simpl.
    destruct (Hrows row) as [G1 G2]; [left; auto|]. rewrite row_not_blank by auto.
    simpl. rewrite orb_true_r. reflexivity.
  Qed.
End Rows.

Lemma block_rows_good b : wfb b -> good_rows (block_rows b).
Proof.
  intros W row Hin. unfold block_rows in Hin. apply in_map_iff in Hin as [k [<- Hk]].
  apply in_seq in Hk. apply row_toks_lits; auto. lia.
Qed.
Lemma block_rows_ne b : wfb b -> block_rows b <> [].
Proof.
  intros W. unfold block_rows. pose proof (wfb_k b W). destruct (b_exps b); simpl in *; [lia|discriminate].
Qed.

Lemma transpose_some rows M :
  rows <> [] -> Forall (fun r : list string => List.length r = M) rows ->
  transpose rows = Some (cols_of_rows M rows).
Proof.
  intros Hne HF. destruct rows as [|r0 rs]; [congruence|]. unfold transpose.
  assert (List.length r0 = M) as H0 by (inversion HF; auto).
  assert (forallb (fun r : list string => List.length r =? List.length r0) (r0 :: rs) = true) as ->.
  { rewrite forallb_forall. intros r Hr. rewrite Forall_forall in HF. rewrite (HF r Hr), H0.
    apply Nat.eqb_refl. }
  rewrite H0. reflexivity.
Qed.

Lemma transpose_rows (cols : list (list string)) K :
  1 <= K -> Forall (fun col => List.length col = K) cols ->
  transpose (map (fun k => map (fun col => nth k col "") cols) (seq 0 K)) = Some cols.
Proof.
  intros HK Hc. rewrite (transpose_some _ (List.length cols)).
  - f_equal. unfold cols_of_rows.
    rewrite <- (map_nth_seq cols []) at 2.
    apply map_ext_in. intros j Hj. apply in_seq in Hj. rewrite map_map.
    rewrite Forall_forall in Hc. assert (In (nth j cols []) cols) as Hin by (apply nth_In; lia).
    rewrite <- (map_nth_seq (nth j cols []) "") at 1. rewrite (Hc _ Hin).
    apply map_ext_in. intros k Hk. rewrite (nth_map_default _ cols j [] ""); auto. lia.
  - destruct K; [lia|]. simpl. discriminate.
  - rewrite Forall_forall. intros r Hr. apply in_map_iff in Hr as [k [<- _]]. apply map_length.
Qed.

Lemma parsed_body L pos b B' : wfb b ->
  (forall q, Forall (fun l => row_of l = None) (lay_fill L q)) ->
  Forall (fun l => row_of l = None) B' ->
  exists rows, rows_of_body (print_rows L pos (block_rows b) ++ B') = rows /\ rows <> [] /\
    rows_float_ok rows = true /\ map fst rows = b_exps b /\ transpose (map snd rows) = Some (b_cols b).
Proof.
  intros W Hf HB. pose proof (block_rows_good b W) as Hg. eexists. split; [|split; [|split; [|split]]].
  - unfold rows_of_body. rewrite filter_map_app, (filter_map_none _ B'), app_nil_r by auto.
    apply print_rows_rows; auto.
  - intros E. apply map_eq_nil in E. exact (block_rows_ne b W E).
  - unfold rows_float_ok. rewrite forallb_forall. intros r Hr.
    apply in_map_iff in Hr as [row [<- Hin]]. destruct (Hg row Hin) as [G1 G2].
    destruct row as [|e cs]; simpl in *; [lia|]. apply andb_true_iff in G1 as [Ge Gc].
    destruct (wf_lit_facts e Ge) as (_ & -> & _). simpl. revert Gc. apply forallb_imp. apply wf_lit_facts.
  - unfold block_rows. rewrite !map_map. simpl. apply map_nth_seq.
  - unfold block_rows. rewrite !map_map. simpl. apply transpose_rows; [exact (wfb_k b W)|].
    apply Forall_forall. intros col Hc. apply (wfb_col b col W Hc).
Qed.

(* parsers.py:69-70 and :161-164, one column per letter *)
Lemma enum_cols {A B R} (F : B -> option A -> R) (ls : list B) : forall pre cs,
  List.length ls <= List.length cs ->
  map (fun il => F (snd il) (nth_error (pre ++ cs) (fst il))) (enumerate_from (List.length pre) ls)
  = map (fun lc => F (fst lc) (Some (snd lc))) (combine ls cs).
Proof.
  induction ls as [|l r IH]; intros pre [|c cs] H; simpl in *; auto; [lia|]. f_equal.
  - rewrite nth_error_app2, Nat.sub_diag by lia. reflexivity.
  - specialize (IH (pre ++ [c]) cs). rewrite last_length, <- app_assoc in IH. apply IH. lia.
Qed.

Lemma process_nw_block L pos b lo B' : wfb b ->
  (forall q, Forall (fun l => row_of l = None) (lay_fill L q)) ->
  Forall (fun l => row_of l = None) B' ->
  process_nw (letters lo (b_ls b)) (print_rows L pos (block_rows b) ++ B') = Some (expected_block b).
Proof.
  intros W Hf HB. unfold process_nw.
  destruct (letters_facts lo (b_ls b) (wfb_l7 b W)) as [_ ->].
  destruct (parsed_body L pos b B' W Hf HB) as (rows & -> & _ & -> & -> & ->). cbn [negb].
  unfold expected_block. pose proof (wfb_ne b W) as Hne. pose proof (wfb_lm b W) as Hlm.
  destruct (b_ls b) as [|l [|l2 r]] eqn:E; simpl in Hne; try discriminate; auto.
  destruct Hlm as [Hlm|Hlm]; [simpl in Hlm; lia|].
  apply map_opt_of_map. rewrite map_map.
  apply (enum_cols (fun l o => match o with Some col => Some (l, b_exps b, [col]) | None => None end) _ []). lia.
Qed.

Lemma dict_get_absent d a : ~ In a (keys d) -> dict_get d a = [].
Proof.
  induction d as [|[k w] r IH]; simpl; auto. intros H.
  destruct (String.eqb k a) eqn:E; [apply String.eqb_eq in E; tauto | apply IH; tauto].
Qed.
Lemma dict_set_absent d a v : ~ In a (keys d) -> dict_set d a v = d ++ [(a, v)].
Proof.
  induction d as [|[k w] r IH]; simpl; auto. intros H.
  destruct (String.eqb k a) eqn:E; [apply String.eqb_eq in E; tauto | rewrite IH; tauto].
Qed.
Lemma dict_get_set d a v : dict_get (dict_set d a v) a = v.
Proof.
  induction d as [|[k w] r IH]; simpl.
  - rewrite String.eqb_refl. reflexivity.
  - destruct (String.eqb k a) eqn:E; simpl; rewrite E; auto.
Qed.
Lemma dict_set_set d a v w : dict_set (dict_set d a v) a w = dict_set d a w.
Proof.
  induction d as [|[k u] r IH]; simpl.
  - rewrite String.eqb_refl. reflexivity.
  - destruct (String.eqb k a) eqn:E; simpl; rewrite E; congruence.
Qed.
Lemma dict_append_append d a s1 s2 :
  dict_append (dict_append d a s1) a s2 = dict_append d a (s1 ++ s2).
Proof. unfold dict_append. rewrite dict_get_set, dict_set_set, app_assoc. reflexivity. Qed.
Lemma dict_append_absent d a s : ~ In a (keys d) -> dict_append d a s = d ++ [(a, s)].
Proof. intros H. unfold dict_append. rewrite dict_get_absent, dict_set_absent; auto. Qed.

Lemma nodupb_NoDup l : nodupb l = true -> NoDup l.
Proof.
  induction l as [|a r IH]; simpl; intros H; [constructor|].
  apply andb_true_iff in H as [H1 H2]. constructor; auto. apply negb_true_iff in H1. intros Hin.
  assert (existsb (String.eqb a) r = true); [|congruence].
  apply existsb_exists. exists a. split; auto. apply String.eqb_refl.
Qed.

Lemma fresh_keys (d : dict) (e : string * list block) (r : ast) v :
  NoDup (keys d ++ fst e :: map fst r) -> ~ In (fst e) (keys d) /\ NoDup (keys (d ++ [(fst e, v)]) ++ map fst r).
Proof.
  intros Hnd. split.
  - apply NoDup_remove_2 in Hnd. intros Hin. apply Hnd. apply in_or_app. left. exact Hin.
  - unfold keys in *. rewrite map_app. simpl. rewrite <- app_assoc. exact Hnd.
Qed.

Lemma fold_expected (a : ast) : forall d,
  NoDup (keys d ++ map fst a) ->
  fold_left (fun d e => dict_append d (fst e) (expected_shells (snd e))) a d = d ++ expected a.
Proof.
  induction a as [|e r IH]; intros d Hnd; simpl.
  - rewrite app_nil_r. reflexivity.
  - destruct (fresh_keys d e r (expected_shells (snd e)) Hnd) as [Hnin Hnd'].
    rewrite dict_append_absent, IH, <- app_assoc by auto. reflexivity.
Qed.

Definition wfe (e : string * list block) : Prop :=
  wf_sym (fst e) = true /\ snd e <> [] /\ Forall wfb (snd e).

Lemma wf_ast_wfe a : wf_ast a = true -> Forall wfe a /\ NoDup (map fst a).
Proof.
  unfold wf_ast. intros H. apply andb_true_iff in H as [H1 H2]. split; [|apply nodupb_NoDup; auto].
  rewrite forallb_forall in H1. apply Forall_forall. intros e He. specialize (H1 e He).
  apply andb_true_iff in H1 as [H1 H3]. apply andb_true_iff in H1 as [H1 H4]. apply Nat.leb_le in H4.
  repeat split; auto.
  - destruct (snd e); simpl in *; [lia|discriminate].
  - rewrite forallb_forall in H3. apply Forall_forall. intros b Hb. apply wf_block_wfb; auto.
Qed.

Definition layout_lines (L : layout) (P : string -> Prop) : Prop :=
  Forall P (lay_pre L) /\ Forall P (lay_post L) /\ forall q, Forall P (lay_fill L q).

Section NW.
  Variable L : layout.
  Hypothesis HL : layout_ok_nw L.

  Lemma filler_nw_facts s : filler_nw s = true ->
    forall_s printable s = true /\ header_nw s = None /\ row_of s = None.
  Proof.
    unfold filler_nw. intros H. apply andb_true_iff in H as [H H3]. apply andb_true_iff in H as [H1 H2].
    destruct (header_nw s); try discriminate. destruct (row_of s); try discriminate. auto.
  Qed.
  Lemma nw_lines (P : string -> Prop) : (forall s, filler_nw s = true -> P s) -> layout_lines L P.
  Proof.
    intros HP. destruct HL as (Hpre & Hpost & Hfill). pose proof (forallb_Forall filler_nw P) as HF.
    unfold layout_lines. auto.
  Qed.
  Lemma nw_lines_hdr : layout_lines L (fun l => header_nw l = None).
  Proof. apply nw_lines. intros s Hs. apply (filler_nw_facts s Hs). Qed.
  Lemma nw_lines_row : layout_lines L (fun l => row_of l = None).
  Proof. apply nw_lines. intros s Hs. apply (filler_nw_facts s Hs). Qed.

  (* lines of [rest] that come before its first header are not rows *)
  Definition tail_ok (rest : list string) : Prop :=
    Forall (fun l => row_of l = None) (fst (segs header_nw false rest)).

  Lemma nw_block i sym j b rest d :
    wf_sym sym = true -> wfb b -> tail_ok rest ->
    parse_nw_from d (print_block_nw L i sym j b ++ rest)
      = parse_nw_from (dict_append d sym (expected_block b)) rest
    /\ tail_ok (print_block_nw L i sym j b ++ rest).
  Proof.
    intros Hs W Ht. unfold print_block_nw.
    destruct (two_word_line (lay_pad L [i; j]) sym _ Hs (letters_word (lay_lower L [i; j]) _ (wfb_ne b W) (wfb_l7 b W)))
      as (Hb & Hh & _).
    destruct nw_lines_hdr as (_ & _ & Hfh). destruct nw_lines_row as (_ & _ & Hfr).
    pose proof (block_rows_good b W) as Hg.
    assert (Forall (fun l => header_nw l = None) (print_rows L [i; j] (block_rows b))) as Hnh.
    { apply print_rows_Forall; auto. intros. apply row_no_header; auto. }
    pose proof (print_rows_nonblank L [i; j] (block_rows b) Hg (block_rows_ne b W)) as Hex.
    unfold parse_nw_from, tail_ok.
    rewrite (segs_block header_nw _ _ _ _ rest (Hfh [i; j]) Hb Hh Hnh Hex).
    cbn [fst snd]. split; [|apply Hfr].
    cbn [fold_opt step_nw]. rewrite process_nw_block; auto.
  Qed.

  Lemma nw_mapi {A} (pr : nat -> A -> list string) (upd : dict -> A -> dict) (ok : A -> Prop) :
    (forall m x rest d, ok x -> tail_ok rest ->
       parse_nw_from d (pr m x ++ rest) = parse_nw_from (upd d x) rest /\ tail_ok (pr m x ++ rest)) ->
    forall xs m rest d, Forall ok xs -> tail_ok rest ->
    parse_nw_from d (mapi_from m pr xs ++ rest) = parse_nw_from (fold_left upd xs d) rest
    /\ tail_ok (mapi_from m pr xs ++ rest).
  Proof.
    intros Hone. induction xs as [|x r IH]; intros m rest d HW Ht; simpl; auto.
    inversion HW as [|? ? Wx Wr]; subst. rewrite <- app_assoc.
    destruct (IH (S m) rest (upd d x) Wr Ht) as [E1 T1].
    destruct (Hone m x _ d Wx T1) as [E2 T2]. rewrite E2, E1. auto.
  Qed.

  Lemma fold_blocks sym bs : forall d, bs <> [] ->
    fold_left (fun d b => dict_append d sym (expected_block b)) bs d
    = dict_append d sym (expected_shells bs).
  Proof.
    intros d Hne. destruct bs as [|b r]; [congruence|]. clear Hne. simpl.
    unfold expected_shells. simpl. generalize (expected_block b) as s. revert d.
    induction r as [|b2 r IH]; intros d s; simpl.
    - rewrite app_nil_r. reflexivity.
    - rewrite dict_append_append, IH, app_assoc. reflexivity.
  Qed.

  Lemma nw_elems (a : ast) : forall i rest d,
    Forall wfe a -> tail_ok rest ->
    parse_nw_from d (mapi_from i (print_elem_nw L) a ++ rest)
      = parse_nw_from (fold_left (fun d e => dict_append d (fst e) (expected_shells (snd e))) a d) rest
    /\ tail_ok (mapi_from i (print_elem_nw L) a ++ rest).
  Proof.
    apply (nw_mapi (print_elem_nw L) (fun d e => dict_append d (fst e) (expected_shells (snd e))) wfe).
    intros i e rest d (Hs & Hne & Wb) Ht. rewrite <- (fold_blocks (fst e) (snd e) d Hne).
    apply (nw_mapi (print_block_nw L i (fst e)) (fun d b => dict_append d (fst e) (expected_block b)) wfb); auto.
    intros j b rest' d'. apply nw_block, Hs.
  Qed.

  Lemma nw_post d : parse_nw_from d (lay_post L) = Some d /\ tail_ok (lay_post L).
  Proof.
    destruct nw_lines_hdr as (_ & Hh & _). destruct nw_lines_row as (_ & Hr & _).
    unfold parse_nw_from, tail_ok. rewrite <- (app_nil_r (lay_post L)).
    rewrite segs_nohdr_false by auto. simpl. rewrite app_nil_r. auto.
  Qed.

  Lemma nw_printable (a : ast) : Forall wfe a -> nw_fragment (print_nwchem a L) = true.
  Proof.
    intros HW. destruct (nw_lines (fun s => forall_s printable s = true)) as (Hpre & Hpost & Hfill).
    { intros s Hs. apply (filler_nw_facts s Hs). }
    unfold nw_fragment, print_nwchem. apply forallb_forall, Forall_forall.
    apply Forall_app. split; auto. apply Forall_app. split; auto.
    apply Forall_mapi_from. intros i e He. rewrite Forall_forall in HW. destruct (HW e He) as (Hs & _ & Wb).
    unfold print_elem_nw. apply Forall_mapi_from. intros j b Hb. rewrite Forall_forall in Wb.
    specialize (Wb b Hb). unfold print_block_nw. apply Forall_app. split; auto. apply Forall_app. split.
    - constructor; auto.
      apply (two_word_line (lay_pad L [i; j]) (fst e) _ Hs (letters_word (lay_lower L [i; j]) _ (wfb_ne b Wb) (wfb_l7 b Wb))).
    - apply print_rows_Forall; auto. apply block_rows_good; auto. intros. apply row_line; auto.
  Qed.

  Theorem roundtrip_nwchem (a : ast) :
    wf_ast a = true -> parse_nwchem_model (print_nwchem a L) = Some (expected a).
  Proof.
    intros Hwf. destruct (wf_ast_wfe a Hwf) as [HW Hnd].
    unfold parse_nwchem_model. rewrite nw_printable by auto.
    unfold print_nwchem. destruct nw_lines_hdr as (Hh & _ & _).
    unfold parse_nw_from. rewrite segs_nohdr_false by auto. cbn [snd].
    destruct (nw_post (fold_left (fun d e => dict_append d (fst e) (expected_shells (snd e))) a [])) as [Ep Tp].
    destruct (nw_elems a 0 (lay_post L) [] HW Tp) as [E _]. unfold parse_nw_from in E, Ep.
    rewrite E, Ep. rewrite fold_expected by (simpl; auto). reflexivity.
  Qed.
End NW.

Lemma ww_tail_dotword s : ww_tail s = true -> forall_s dotword s = true.
Proof.
  induction s as [|c r IH]; simpl; auto. destruct (code c =? 46) eqn:E.
  - intros H. unfold dotword at 1. rewrite E, orb_true_r. simpl.
    unfold pure_word in H. apply andb_true_iff in H as [_ H].
    eapply forall_s_imp; [|exact H]. apply word_dotword.
  - intros H. apply andb_true_iff in H as [H1 H2]. rewrite (word_dotword c H1). simpl. auto.
Qed.
Lemma is_ww_good s : is_ww s = true -> good_tok s = true.
Proof.
  intros H. apply (good_tok_of dotword _ dotword_visible).
  destruct s as [|c r]; simpl in *; [discriminate|]. apply andb_true_iff in H as [H1 H2].
  rewrite (word_dotword c H1), (ww_tail_dotword r H2). reflexivity.
Qed.
Lemma ssegs_nosh final B rest :
  Forall (fun l => sheader_gbs l = None) B ->
  ssegs final (B ++ rest) = (B ++ fst (ssegs final rest), snd (ssegs final rest)).
Proof.
  induction 1 as [|l B Hl HB IH]; simpl.
  - destruct (ssegs final rest); reflexivity.
  - rewrite IH, Hl. reflexivity.
Qed.
Lemma ssegs_sh final l g r :
  sheader_gbs l = Some g -> existsb (fun x => negb (is_blank x)) r = true ->
  ssegs final (l :: r) = ([], (g, fst (ssegs final r)) :: snd (ssegs final r)).
Proof.
  intros Hl Hex. simpl. rewrite Hl, Hex, orb_true_r. destruct (ssegs final r); reflexivity.
Qed.
Lemma ssegs_block final F l g B rest :
  Forall (fun l => sheader_gbs l = None) F ->
  sheader_gbs l = Some g ->
  Forall (fun l => sheader_gbs l = None) B ->
  existsb (fun x => negb (is_blank x)) B = true ->
  ssegs final ((F ++ [l] ++ B) ++ rest)
  = (F, (g, B ++ fst (ssegs final rest)) :: snd (ssegs final rest)).
Proof.
  intros HF Hl HB Hex. rewrite <- !app_assoc. rewrite ssegs_nosh by auto.
  change ([l] ++ B ++ rest) with (l :: (B ++ rest)).
  rewrite (ssegs_sh final l g) by (auto; rewrite existsb_app, Hex; reflexivity).
  rewrite ssegs_nosh by auto. cbn [fst snd]. rewrite app_nil_r. reflexivity.
Qed.

(* one unit per letter: the slices coeffs_seg[:, i:i+1] *)
Definition units (sb : block) : list shell :=
  map (fun lc => (fst lc, b_exps sb, [snd lc])) (combine (b_ls sb) (b_cols sb)).

Lemma block_units_sub L pos sb lo B' : wfb sb -> List.length (b_ls sb) = List.length (b_cols sb) ->
  (forall q, Forall (fun l => row_of l = None) (lay_fill L q)) ->
  Forall (fun l => row_of l = None) B' ->
  block_units (letters lo (b_ls sb), print_rows L pos (block_rows sb) ++ B') = Some (units sb).
Proof.
  intros W Hlm Hf HB. unfold block_units.
  destruct (letters_facts lo (b_ls sb) (wfb_l7 sb W)) as [_ ->].
  destruct (parsed_body L pos sb B' W Hf HB) as (rows & -> & Hne & -> & He & Ht). cbn [negb].
  destruct rows as [|r rs]; [congruence|]. rewrite He, Ht. apply f_equal.
  apply (enum_cols (fun l o => (l, b_exps sb, match o with Some col => [col] | None => [] end)) _ []). lia.
Qed.

Section GBS.
  Variable close : string -> string -> bool.
  Hypothesis close_refl : forall s, close s s = true.
  Variable L : layout.
  Hypothesis HL : layout_ok_gbs L.

  Lemma filler_gbs_facts s : filler_gbs s = true ->
    forall_s printable s = true /\ bad_gbs_line s = false /\
    header_gbs s = None /\ sheader_gbs s = None /\ row_of s = None.
  Proof.
    unfold filler_gbs. intros H. apply andb_true_iff in H as [H H5]. apply andb_true_iff in H as [H H4].
    apply andb_true_iff in H as [H H3]. apply andb_true_iff in H as [H1 H2].
    apply negb_true_iff in H2.
    destruct (header_gbs s); try discriminate. destruct (sheader_gbs s); try discriminate.
    destruct (row_of s); try discriminate. auto.
  Qed.
  Lemma gbs_lines (P : string -> Prop) : (forall s, filler_gbs s = true -> P s) -> layout_lines L P.
  Proof.
    intros HP. destruct HL as (Hpre & Hpost & Hfill & _). pose proof (forallb_Forall filler_gbs P) as HF.
    unfold layout_lines. auto.
  Qed.
  Lemma gbs_lines_hdr : layout_lines L (fun l => header_gbs l = None).
  Proof. apply gbs_lines. intros s Hs. apply (filler_gbs_facts s Hs). Qed.
  Lemma gbs_lines_sh : layout_lines L (fun l => sheader_gbs l = None).
  Proof. apply gbs_lines. intros s Hs. apply (filler_gbs_facts s Hs). Qed.
  Lemma gbs_lines_row : layout_lines L (fun l => row_of l = None).
  Proof. apply gbs_lines. intros s Hs. apply (filler_gbs_facts s Hs). Qed.
  Lemma tok2_ok q : pure_word (lay_tok2 L q) = true.
  Proof. destruct HL as (_ & _ & _ & H & _). auto. Qed.
  Lemma tok3_ok q : is_ww (lay_tok3 L q) = true.
  Proof. destruct HL as (_ & _ & _ & _ & H). auto. Qed.

  Lemma gbs_sheader_line q lo ls p2 p3 :
    nonempty (letters false ls) = true -> forallb (fun l => l <=? 7) ls = true ->
    let l := render q [letters lo ls; lay_tok2 L p2; lay_tok3 L p3] in
    sheader_gbs l = Some (letters lo ls) /\ header_gbs l = None /\
    forall_s printable l = true /\ bad_gbs_line l = false.
  Proof.
    intros Hne H7. cbv zeta. pose proof (letters_word lo ls Hne H7) as Hpw.
    pose proof (tok2_ok p2) as H2. pose proof (tok3_ok p3) as H3.
    destruct (render_line q [letters lo ls; lay_tok2 L p2; lay_tok3 L p3]) as [Ht Hp].
    { simpl. rewrite (pure_word_good _ Hpw), (pure_word_good _ H2), (is_ww_good _ H3). reflexivity. }
    unfold sheader_gbs, header_gbs, bad_gbs_line. rewrite Ht. simpl rev. rewrite Hpw, H2, H3. repeat split; auto. rewrite Hpw. reflexivity.
  Qed.
  Definition stail_ok (final : bool) (rest : list string) : Prop :=
    Forall (fun l => row_of l = None) (fst (ssegs final rest)).

  Definition subb (sb : block) : Prop := wfb sb /\ List.length (b_ls sb) = List.length (b_cols sb).

  Lemma gbs_sub final i j m sb rest :
    subb sb -> stail_ok final rest ->
    chunk_units final (print_sub_gbs L i j m sb ++ rest)
      = option_map (app (units sb)) (chunk_units final rest)
    /\ stail_ok final (print_sub_gbs L i j m sb ++ rest).
  Proof.
    intros [W Hlm] Ht. unfold print_sub_gbs.
    destruct (gbs_sheader_line (lay_pad L [i; j; m]) (lay_lower L [i; j; m]) (b_ls sb) [i; j; m] [i; j; m]
                (wfb_ne sb W) (wfb_l7 sb W)) as (Hh & _).
    destruct gbs_lines_sh as (_ & _ & Hfs). destruct gbs_lines_row as (_ & _ & Hfr).
    pose proof (block_rows_good sb W) as Hg.
    assert (Forall (fun l => sheader_gbs l = None) (print_rows L [i; j; m] (block_rows sb))) as Hnh.
    { apply print_rows_Forall; auto. intros. apply row_sheader_gbs; auto. }
    pose proof (print_rows_nonblank L [i; j; m] (block_rows sb) Hg (block_rows_ne sb W)) as Hex.
    unfold chunk_units, stail_ok.
    rewrite (ssegs_block final _ _ _ _ rest (Hfs [i; j; m]) Hh Hnh Hex).
    cbn [fst snd]. split; [|apply Hfr].
    cbn [map concat_opt]. rewrite (block_units_sub L _ sb _ _ W Hlm Hfr Ht).
    destruct (concat_opt (map block_units (snd (ssegs final rest)))); reflexivity.
  Qed.

  Lemma chunk_units_mapi {A} final (pr : nat -> A -> list string) (us : A -> list shell) (ok : A -> Prop) :
    (forall m x rest, ok x -> stail_ok final rest ->
       chunk_units final (pr m x ++ rest) = option_map (app (us x)) (chunk_units final rest)
       /\ stail_ok final (pr m x ++ rest)) ->
    forall xs m rest, Forall ok xs -> stail_ok final rest ->
    chunk_units final (mapi_from m pr xs ++ rest)
      = option_map (app (List.concat (map us xs))) (chunk_units final rest)
    /\ stail_ok final (mapi_from m pr xs ++ rest).
  Proof.
    intros Hone. induction xs as [|x r IH]; intros m rest HW Ht; simpl.
    - split; auto. destruct (chunk_units final rest); reflexivity.
    - inversion HW as [|? ? Wx Wr]; subst. rewrite <- app_assoc.
      destruct (IH (S m) rest Wr Ht) as [E1 T1]. destruct (Hone m x _ Wx T1) as [E2 T2].
      rewrite E2, E1. split; auto. destruct (chunk_units final rest); simpl; auto. rewrite app_assoc. reflexivity.
  Qed.

  Definition U (b : block) : list shell := List.concat (map units (gbs_subblocks b)).

  Lemma subblocks_subb b : wfb b -> Forall subb (gbs_subblocks b).
  Proof.
    intros W. unfold gbs_subblocks. pose proof (wfb_ne b W) as Hne. pose proof (wfb_lm b W) as Hlm.
    destruct (b_ls b) as [|l [|l2 r]] eqn:E; simpl in Hne; try discriminate.
    - apply Forall_forall. intros sb Hsb. apply in_map_iff in Hsb as [col [<- Hc]].
      destruct (wfb_col b col W Hc) as [HC1 HC2].
      split; [|reflexivity]. constructor; simpl; auto.
      + pose proof (wfb_l7 b W) as H7. rewrite E in H7. exact H7.
      + exact (wfb_k b W).
      + exact (wfb_exps b W).
      + rewrite HC1, HC2, Nat.eqb_refl. reflexivity.
    - constructor; [|constructor]. split; auto. destruct Hlm as [Hlm|Hlm]; simpl in Hlm; [lia|].
      rewrite E. exact Hlm.
  Qed.

  Lemma gbs_blocks final i bs : forall j rest,
    Forall wfb bs -> stail_ok final rest ->
    chunk_units final (mapi_from j (print_block_gbs L i) bs ++ rest)
      = option_map (app (List.concat (map U bs))) (chunk_units final rest)
    /\ stail_ok final (mapi_from j (print_block_gbs L i) bs ++ rest).
  Proof.
    apply (chunk_units_mapi final (print_block_gbs L i) U wfb). intros j b rest Wb Ht.
    apply (chunk_units_mapi final (print_sub_gbs L i j) units subb); auto.
    - intros m sb rest'. apply gbs_sub.
    - apply subblocks_subb, Wb.
  Qed.

  Lemma chunk_units_fillers final T :
    Forall (fun l => sheader_gbs l = None) T -> Forall (fun l => row_of l = None) T ->
    chunk_units final T = Some [] /\ stail_ok final T.
  Proof.
    intros H1 H2. unfold chunk_units, stail_ok. rewrite <- (app_nil_r T). rewrite ssegs_nosh by auto.
    simpl. rewrite app_nil_r. auto.
  Qed.

  Lemma push_snoc acc cur s :
    push close (acc ++ [cur]) s
    = if fuses close cur s
      then acc ++ [(fst (fst s), snd (fst s), snd cur ++ snd s)]
      else (acc ++ [cur]) ++ [s].
  Proof.
    unfold push. rewrite rev_app_distr. simpl. destruct (fuses close cur s); [rewrite rev_involutive|]; reflexivity.
  Qed.

  Lemma forall2b_refl e : forall2b close e e = true.
  Proof. induction e; simpl; auto. rewrite close_refl, IHe. reflexivity. Qed.

  Lemma push_columns l e r : forall acc cs,
    fold_left (push close) (map (fun c => (l, e, [c])) r) (acc ++ [(l, e, cs)]) = acc ++ [(l, e, cs ++ r)].
  Proof.
    induction r as [|c r IH]; intros acc cs; simpl.
    - rewrite app_nil_r. reflexivity.
    - rewrite push_snoc. unfold fuses. rewrite !Nat.eqb_refl, forall2b_refl. simpl.
      rewrite IH, <- app_assoc. reflexivity.
  Qed.

  (* a one-letter block with columns c0 .. cM written as M+1 one-column blocks: the parser's loop over them
     = ONE step of the loop with the whole shell *)
  Lemma push_one_letter l e c0 cs acc :
    fold_left (push close) (map (fun c => ((l, e, [c]) : shell)) (c0 :: cs)) acc
    = push close acc (l, e, c0 :: cs).
  Proof.
    simpl. destruct acc as [|cur acc' _] using rev_ind.
    - apply (push_columns l e cs [] [c0]).
    - rewrite !push_snoc. change (fuses close cur (l, e, [c0])) with (fuses close cur (l, e, c0 :: cs)).
      destruct (fuses close cur (l, e, c0 :: cs)); simpl.
      + rewrite push_columns, <- app_assoc. reflexivity.
      + apply (push_columns l e cs (acc' ++ [cur]) [c0]).
  Qed.

  Lemma push_block_units b acc : wfb b ->
    fold_left (push close) (U b) acc = fold_left (push close) (expected_block b) acc.
  Proof.
    intros W. unfold U, expected_block, gbs_subblocks.
    pose proof (wfb_ne b W) as Hne. pose proof (wfb_m b W) as Hm.
    destruct (b_ls b) as [|l [|l2 r]] eqn:E; simpl in Hne; try discriminate.
    - rewrite map_map. unfold units. simpl.
      rewrite (concat_map_single (fun c : list string => ((l, b_exps b, [c]) : shell))).
      destruct (b_cols b) as [|c0 cs]; simpl in Hm; [lia|].
      rewrite push_one_letter. reflexivity.
    - simpl map. cbn [List.concat]. rewrite app_nil_r. unfold units. rewrite E. reflexivity.
  Qed.

  Lemma push_blocks_units bs : forall acc, Forall wfb bs ->
    fold_left (push close) (List.concat (map U bs)) acc = fold_left (push close) (expected_shells bs) acc.
  Proof.
    induction bs as [|b r IH]; intros acc HW; simpl; auto.
    inversion HW as [|? ? Wb Wr]; subst. unfold expected_shells. simpl.
    rewrite !fold_left_app, push_block_units by auto. apply IH. exact Wr.
  Qed.

  Lemma push_fold_nofuse S : no_fuse close S = true -> fold_left (push close) S [] = S.
  Proof.
    assert (forall r s acc, no_fuse close (s :: r) = true ->
                            fold_left (push close) r (acc ++ [s]) = acc ++ s :: r) as H.
    { induction r as [|u r IH]; intros s acc H; auto.
      cbn [no_fuse] in H. apply andb_true_iff in H as [H1 H2]. apply negb_true_iff in H1.
      simpl. rewrite push_snoc, H1, IH, <- app_assoc by exact H2. reflexivity. }
    destruct S as [|s r]; auto. apply (H r s []).
  Qed.

  Section LinesForall.
    Variable P : string -> Prop.
    Hypothesis HPf : forall s, filler_gbs s = true -> P s.
    Hypothesis HPs : forall q lo ls p2 p3, nonempty (letters false ls) = true ->
      forallb (fun l => l <=? 7) ls = true -> P (render q [letters lo ls; lay_tok2 L p2; lay_tok3 L p3]).
    Hypothesis HPr : forall q row, forallb wf_lit row = true -> 2 <= List.length row -> P (render q row).

    Lemma gbs_body_Forall i bs : forall j, Forall wfb bs -> Forall P (mapi_from j (print_block_gbs L i) bs).
    Proof.
      intros j HW. destruct (gbs_lines P HPf) as (_ & _ & Hfill).
      apply Forall_mapi_from. intros k b Hb. rewrite Forall_forall in HW.
      unfold print_block_gbs. apply Forall_mapi_from. intros m sb Hsb.
      pose proof (subblocks_subb b (HW b Hb)) as Hs. rewrite Forall_forall in Hs. destruct (Hs sb Hsb) as [W _].
      unfold print_sub_gbs. apply Forall_app. split; auto. apply Forall_app. split.
      - constructor; auto. apply HPs; [exact (wfb_ne sb W) | exact (wfb_l7 sb W)].
      - apply print_rows_Forall; auto. apply block_rows_good; auto.
    Qed.
  End LinesForall.

  Lemma sheader_not_blank l g : sheader_gbs l = Some g -> is_blank l = false.
  Proof. unfold sheader_gbs, is_blank. destruct (tokens l); [discriminate|reflexivity]. Qed.

  Lemma existsb_mapi_from_first {A B} (p : B -> bool) (f : nat -> A -> list B) l n :
    l <> [] -> (forall k x, In x l -> existsb p (f k x) = true) -> existsb p (mapi_from n f l) = true.
  Proof.
    intros Hne H. destruct l as [|a r]; [congruence|]. simpl. rewrite existsb_app, H by (left; auto). reflexivity.
  Qed.

  Lemma gbs_body_nonblank i bs j : bs <> [] -> Forall wfb bs ->
    existsb (fun l => negb (is_blank l)) (mapi_from j (print_block_gbs L i) bs) = true.
  Proof.
    intros Hne HW. apply existsb_mapi_from_first; auto. intros k b Hb. rewrite Forall_forall in HW.
    specialize (HW b Hb). unfold print_block_gbs. apply existsb_mapi_from_first.
    - unfold gbs_subblocks. pose proof (wfb_m b HW). destruct (b_ls b) as [|l [|l2 r]]; try discriminate.
      destruct (b_cols b); simpl in *; [lia|discriminate].
    - intros m sb Hsb. pose proof (subblocks_subb b HW) as Hs. rewrite Forall_forall in Hs.
      destruct (Hs sb Hsb) as [W _]. unfold print_sub_gbs. rewrite !existsb_app. simpl.
      destruct (gbs_sheader_line (lay_pad L [i; k; m]) (lay_lower L [i; k; m]) (b_ls sb) [i; k; m] [i; k; m]
                  (wfb_ne sb W) (wfb_l7 sb W)) as (Hh & _).
      rewrite (sheader_not_blank _ _ Hh). simpl. rewrite orb_true_r. reflexivity.
  Qed.

  Definition etail_ok (rest : list string) : Prop :=
    Forall (fun l => sheader_gbs l = None) (fst (segs header_gbs false rest)) /\
    Forall (fun l => row_of l = None) (fst (segs header_gbs false rest)).

  Definition pushed (a : ast) : dict := map (fun e => (fst e, fold_left (push close) (expected_shells (snd e)) [])) a.

  Lemma gbs_elem i e rest d :
    wfe e -> ~ In (fst e) (keys d) -> etail_ok rest ->
    parse_gbs_from close d (print_elem_gbs L i e ++ rest)
      = parse_gbs_from close (d ++ [(fst e, fold_left (push close) (expected_shells (snd e)) [])]) rest
    /\ etail_ok (print_elem_gbs L i e ++ rest).
  Proof.
    intros (Hs & Hne & HW) Hnin [Ht1 Ht2]. unfold print_elem_gbs.
    destruct (two_word_line (lay_pad L [i]) (fst e) _ Hs (tok2_ok [i])) as (Hb & _ & Hh & _).
    destruct gbs_lines_hdr as (_ & _ & Hfh). destruct gbs_lines_sh as (_ & _ & Hfs).
    destruct gbs_lines_row as (_ & _ & Hfr).
    assert (Forall (fun l => header_gbs l = None) (mapi_from 0 (print_block_gbs L i) (snd e))) as Hnh.
    { apply gbs_body_Forall; auto.
      - intros s Hf. apply (filler_gbs_facts s Hf).
      - intros q lo ls p2 p3 H1 H2. apply (gbs_sheader_line q lo ls p2 p3 H1 H2).
      - intros. apply row_no_header; auto. }
    pose proof (gbs_body_nonblank i (snd e) 0 Hne HW) as Hex.
    unfold parse_gbs_from, etail_ok.
    rewrite (segs_block header_gbs _ _ _ _ rest (Hfh [i]) Hb Hh Hnh Hex).
    cbn [fst snd]. split; [|split; auto].
    cbn [run_chunks].
    set (final := match snd (segs header_gbs false rest) with [] => true | _ :: _ => false end).
    destruct (chunk_units_fillers final _ Ht1 Ht2) as [Ec Tc].
    destruct (gbs_blocks final i (snd e) 0 _ HW Tc) as [Eb _].
    rewrite Eb, Ec. cbn [option_map]. rewrite app_nil_r.
    rewrite dict_get_absent, dict_set_absent by auto.
    rewrite push_blocks_units by auto. reflexivity.
  Qed.

  Lemma gbs_elems (a : ast) : forall i rest d,
    Forall wfe a -> NoDup (keys d ++ map fst a) -> etail_ok rest ->
    parse_gbs_from close d (mapi_from i (print_elem_gbs L) a ++ rest)
      = parse_gbs_from close (d ++ pushed a) rest
    /\ etail_ok (mapi_from i (print_elem_gbs L) a ++ rest).
  Proof.
    induction a as [|e r IH]; intros i rest d HW Hnd Ht; simpl.
    - rewrite app_nil_r. auto.
    - inversion HW as [|? ? We Wr]; subst. rewrite <- app_assoc.
      destruct (fresh_keys d e r (fold_left (push close) (expected_shells (snd e)) []) Hnd) as [Hnin Hnd'].
      destruct (IH (S i) rest _ Wr Hnd' Ht) as [E1 T1].
      destruct (gbs_elem i e _ d We Hnin T1) as [E2 T2].
      rewrite E2, E1, <- app_assoc. auto.
  Qed.

  Lemma gbs_in_fragment (a : ast) : Forall wfe a -> gbs_fragment (print_gbs a L) = true.
  Proof.
    intros HW. unfold gbs_fragment, print_gbs.
    set (P := fun l => forall_s printable l && negb (bad_gbs_line l) = true).
    assert (forall l, forall_s printable l = true /\ bad_gbs_line l = false -> P l) as HP.
    { intros l [H1 H2]. unfold P. rewrite H1, H2. reflexivity. }
    assert (forall s, filler_gbs s = true -> P s) as HPf.
    { intros s Hs. apply HP. split; apply (filler_gbs_facts s Hs). }
    destruct (gbs_lines P HPf) as (Hpre & Hpost & Hfill).
    apply forallb_forall. apply Forall_forall.
    apply Forall_app. split; auto. apply Forall_app. split; auto.
    apply Forall_mapi_from. intros i e He. rewrite Forall_forall in HW. destruct (HW e He) as (Hs & _ & Wb).
    unfold print_elem_gbs. apply Forall_app. split; auto.
    apply Forall_app. split.
    - constructor; auto. apply HP. split; apply (two_word_line (lay_pad L [i]) (fst e) _ Hs (tok2_ok [i])).
    - apply gbs_body_Forall; auto.
      + intros q lo ls p2 p3 H1 H2. apply HP. split; apply (gbs_sheader_line q lo ls p2 p3 H1 H2).
      + intros q row H1 H2. apply HP. split; [apply row_line | apply row_not_bad]; auto.
  Qed.

  Theorem roundtrip_gbs_pushed (a : ast) :
    wf_ast a = true -> parse_gbs_model close (print_gbs a L) = Some (pushed a).
  Proof.
    intros Hwf. destruct (wf_ast_wfe a Hwf) as [HW Hnd].
    unfold parse_gbs_model. rewrite gbs_in_fragment by auto.
    unfold print_gbs. destruct gbs_lines_hdr as (Hh & Hhp & _).
    destruct gbs_lines_sh as (_ & Hsp & _). destruct gbs_lines_row as (_ & Hrp & _).
    unfold parse_gbs_from. rewrite segs_nohdr_false by auto. cbn [snd].
    assert (etail_ok (lay_post L)) as Tp.
    { unfold etail_ok. rewrite <- (app_nil_r (lay_post L)), segs_nohdr_false by auto. simpl.
      rewrite app_nil_r. auto. }
    destruct (gbs_elems a 0 (lay_post L) [] HW Hnd Tp) as [E _]. unfold parse_gbs_from in E.
    rewrite E. rewrite <- (app_nil_r (lay_post L)), segs_nohdr_false by auto. reflexivity.
  Qed.

  Theorem roundtrip_gbs (a : ast) :
    wf_ast_gbs close a = true -> parse_gbs_model close (print_gbs a L) = Some (expected a).
  Proof.
    intros Hwf. unfold wf_ast_gbs in Hwf. apply andb_true_iff in Hwf as [Hwf Hnf].
    rewrite roundtrip_gbs_pushed by exact Hwf. f_equal. apply map_ext_in. intros e He.
    rewrite forallb_forall in Hnf. rewrite push_fold_nofuse; auto.
  Qed.
End GBS.

Section MC.
  Context {C : Type}.
  Notation contraction := (@contraction C).

  Definition c_place (c : contraction) : nat * C * shell := fst c.
  Definition c_type (c : contraction) : string := snd c.

  (* where the shells must go: atom after atom, each atom's shells in the order of the dict *)
  Fixpoint placed_from (d : dict) (ic : nat) (ats : list (string * C)) : list (nat * C * shell) :=
    match ats with
    | [] => []
    | (a, co) :: r =>
        map (fun sh => (ic, co, sh)) (match dict_find d a with Some s => s | None => [] end)
        ++ placed_from d (S ic) r
    end.
  Definition expand (ct : ctypes) (n : nat) : list string :=
    match ct with CStr s => repeat s n | CList l => l | CTuple l => l end.

  Definition nshells (d : dict) (ac : string * C) : nat :=
    List.length (match dict_find d (fst ac) with Some s => s | None => [] end).

  Lemma placed_length d ats : forall ic, List.length (placed_from d ic ats) = list_sum (map (nshells d) ats).
  Proof.
    induction ats as [|[a co] r IH]; intros ic; simpl; auto. rewrite app_length, map_length, IH. reflexivity.
  Qed.

  Fixpoint zip_types (us : list (nat * C * shell)) (types : list string) : option (list contraction * list string) :=
    match us, types with
    | [], _ => Some ([], types)
    | _ :: _, [] => None
    | u :: r, t :: ts => match norm_type t, zip_types r ts with
                         | Some t', Some (out, rest) => Some ((u, t') :: out, rest)
                         | _, _ => None
                         end
    end.

  Lemma place_zip ic co shells : forall types,
    place ic co shells types = zip_types (map (fun sh => (ic, co, sh)) shells) types.
  Proof. induction shells as [|sh r IH]; intros [|t ts]; simpl; auto. rewrite IH. reflexivity. Qed.

  Lemma zip_types_app us1 us2 : forall types,
    zip_types (us1 ++ us2) types
    = match zip_types us1 types with
      | Some (o1, rest) => match zip_types us2 rest with
                           | Some (o2, rest') => Some (o1 ++ o2, rest')
                           | None => None
                           end
      | None => None
      end.
  Proof.
    induction us1 as [|u r IH]; intros types; simpl.
    - destruct (zip_types us2 types) as [[o2 rest']|]; reflexivity.
    - destruct types as [|t ts]; auto. rewrite IH. destruct (norm_type t); auto.
      destruct (zip_types r ts) as [[o1 rest]|]; auto. destruct (zip_types us2 rest) as [[o2 rest']|]; reflexivity.
  Qed.

  Lemma zip_types_full us : forall types, List.length types = List.length us ->
    zip_types us types = option_map (fun tys => (combine us tys, [])) (map_opt norm_type types).
  Proof.
    induction us as [|u r IH]; intros [|t ts] Hl; try discriminate; auto. simpl.
    rewrite IH by (simpl in Hl; lia). destruct (norm_type t), (map_opt norm_type ts); reflexivity.
  Qed.

  Lemma place_all_eq d ats : forall ic types,
    Forall (fun ac : string * C => dict_find d (fst ac) <> None) ats ->
    List.length types = list_sum (map (nshells d) ats) ->
    place_all d ic ats types = option_map (combine (placed_from d ic ats)) (map_opt norm_type types).
  Proof.
    intros ic types Hd Hl.
    assert (place_all d ic ats types = option_map fst (zip_types (placed_from d ic ats) types)) as ->.
    { clear Hl. revert ic types. induction ats as [|[a co] r IH]; intros ic types; simpl; auto.
      inversion Hd as [|? ? Ha Hr]; subst. simpl in Ha. destruct (dict_find d a) as [shells|]; [|congruence].
      rewrite zip_types_app, <- place_zip. destruct (place ic co shells types) as [[o1 rest]|]; auto.
      rewrite (IH Hr (S ic) rest). destruct (zip_types _ rest) as [[o2 rest']|]; reflexivity. }
    rewrite zip_types_full by (rewrite placed_length; exact Hl). destruct (map_opt norm_type types); reflexivity.
  Qed.

  Lemma total_shells_combine d atoms (coords : list C) n :
    List.length atoms = List.length coords -> total_shells d atoms = Some n ->
    Forall (fun ac : string * C => dict_find d (fst ac) <> None) (combine atoms coords) /\
    n = list_sum (map (nshells d) (combine atoms coords)).
  Proof.
    unfold total_shells. revert coords n.
    induction atoms as [|a r IH]; intros [|co cs] n Hl H; simpl in *; try discriminate.
    - inversion H; auto.
    - destruct (dict_find d a) as [s|] eqn:Ea; [|discriminate]. specialize (IH cs).
      destruct (map_opt (dict_find d) r) as [ss|]; [|discriminate].
      inversion H; subst. destruct (IH _ (eq_add_S _ _ Hl) eq_refl) as [IH1 IH2]. split.
      + constructor; auto. simpl. rewrite Ea. discriminate.
      + unfold nshells at 1. simpl. rewrite Ea, <- IH2. reflexivity.
  Qed.

  Definition type_ok (ct : ctypes) : bool :=
    match ct with CStr s => match norm_type s with Some _ => true | None => false end | _ => true end.

  (* the private copy of the type list (:220-226) is [expand ct n]; a single string is checked once *)
  Lemma mc_unfold d atoms (coords : list C) ct :
    fst (make_contractions_model (d, atoms, coords, ct))
    = if List.length atoms =? List.length coords
      then match total_shells d atoms with
           | Some n => if type_ok ct && (List.length (expand ct n) =? n)
                       then place_all d 0 (combine atoms coords) (expand ct n) else None
           | None => None
           end
      else None.
  Proof.
    unfold make_contractions_model. cbn [fst]. destruct (_ =? _); cbn [negb]; auto.
    destruct (total_shells d atoms) as [n|]; auto.
    destruct ct as [s|l|l]; cbn [expand type_ok]; [destruct (norm_type s); auto|..]; destruct (_ =? n); reflexivity.
  Qed.

  (* atom order, shells of each atom in dict order at that atom's coordinates, icenter = atom index,
     types assigned shell by shell in order, as many contractions as shells *)
  Theorem mc_spec d atoms (coords : list C) ct res :
    fst (make_contractions_model (d, atoms, coords, ct)) = Some res ->
    List.length atoms = List.length coords /\
    map c_place res = placed_from d 0 (combine atoms coords) /\
    map (fun c => Some (c_type c)) res = map norm_type (expand ct (List.length res)) /\
    total_shells d atoms = Some (List.length res).
  Proof.
    rewrite mc_unfold. destruct (List.length atoms =? List.length coords) eqn:El; [|discriminate].
    apply Nat.eqb_eq in El. destruct (total_shells d atoms) as [n|] eqn:Et; [|discriminate].
    destruct (type_ok ct && (List.length (expand ct n) =? n)) eqn:E; [|discriminate].
    apply andb_true_iff in E as [_ E]. apply Nat.eqb_eq in E.
    destruct (total_shells_combine d atoms coords n El Et) as [Hd Hn].
    rewrite place_all_eq by (auto; congruence).
    destruct (map_opt norm_type (expand ct n)) as [tys|] eqn:Ety; [|discriminate]. intros H. injection H as <-.
    apply map_opt_map_Some in Ety.
    assert (List.length (placed_from d 0 (combine atoms coords)) = List.length tys) as Hlen.
    { rewrite placed_length, <- Hn, <- E, <- (map_length norm_type), Ety. apply map_length. }
    destruct (combine_fst_snd _ tys Hlen) as [Hf Hs].
    unfold Parsers.contraction.
    assert (List.length (combine (placed_from d 0 (combine atoms coords)) tys) = n) as ->.
    { rewrite combine_length, <- Hlen, Nat.min_id, placed_length. auto. }
    split; [exact El|]. split; [exact Hf|]. split; [|reflexivity].
    rewrite Ety. rewrite <- Hs at 2. rewrite map_map. reflexivity.
  Qed.

  (* valid arguments are accepted: list, tuple or string alike *)
  Definition valid_type (t : string) : Prop := norm_type t <> None.

End MC.

(* a 6-31G-like lithium (S, SP, S, P), a two-column generalized D shell and a K shell, D/E/plain literals *)
Definition ex_ast : ast :=
  [("Li", [ {| b_ls := [0]; b_exps := ["0.6424189150D+03"; "0.9679851530D+02"; "0.2209112120D+02"];
               b_cols := [["0.2142607810D-02"; "0.1620887150D-01"; "0.7731557250D-01"]] |};
            {| b_ls := [0; 1]; b_exps := ["2.324918408"; "0.6324303556"; "0.07905343475"];
               b_cols := [["-0.03509174574"; "-0.1912328431"; "1.083987795"];
                          ["0.008941508043"; "0.1410094640"; "0.9453636953"]] |};
            {| b_ls := [0]; b_exps := ["0.3596197175E-01"]; b_cols := [["0.1000000000E+01"]] |};
            {| b_ls := [2]; b_exps := ["1.8190000"; "0.7276000"];
               b_cols := [["0.27051341"; "0.55101250"]; ["-0.7938035"; "-0.0914252"]] |} ]);
   ("H",  [ {| b_ls := [0]; b_exps := ["18.73113696"; "2.825394365"; "0.6401216923"];
               b_cols := [["0.03349460434"; "0.2347269535"; "0.8137573261"]] |};
            {| b_ls := [0]; b_exps := ["0.1612777588"]; b_cols := [["1.0000000"]] |};
            {| b_ls := [7]; b_exps := ["1.5E+00"]; b_cols := [["1."]] |} ])].

Definition ex_layout_nw : layout :=
  {| lay_pre := ["#  6-31G  EMSL  Basis Set Exchange Library"; ""; "BASIS ""ao basis"" PRINT"];
     lay_post := ["END"; ""];
     lay_fill := fun pos => match pos with
                            | [_; 0] => ["#BASIS SET: (10s,4p,2d) -> [3s,2p,1d]"]
                            | [_; _; 1] => ["   "]
                            | _ => []
                            end;
     lay_pad := fun pos => match pos with [_; _] => (0, 3, 0) | _ => (6, 11, 1) end;
     lay_lower := fun pos => match pos with [_; 2] => true | _ => false end;
     lay_tok2 := fun _ => "0"; lay_tok3 := fun _ => "1.00" |}.
Definition ex_layout_gbs : layout :=
  {| lay_pre := ["!----------------------------------------"; "! Basis Set Exchange"; ""];
     lay_post := ["****"];
     lay_fill := fun pos => match pos with
                            | [S _] => ["****"]
                            | [_; _; _; 1] => ["! a comment between two rows"]
                            | _ => []
                            end;
     lay_pad := fun pos => match pos with [_] => (0, 4, 0) | [_; _; _] => (0, 2, 0) | _ => (6, 6, 0) end;
     lay_lower := fun _ => false;
     lay_tok2 := fun pos => match pos with [_] => "0" | _ => "3" end;
     lay_tok3 := fun _ => "1.00" |}.
(* no preamble at all, no filler, minimal blanks *)
Definition ex_layout_bare : layout :=
  {| lay_pre := []; lay_post := []; lay_fill := fun _ => []; lay_pad := fun _ => (0, 0, 0);
     lay_lower := fun _ => false; lay_tok2 := fun _ => "0"; lay_tok3 := fun _ => "1.00" |}.

Lemma close_lit_refl s : close_lit s s = true.
Proof. apply String.eqb_refl. Qed.
Lemma ex_ast_wf : wf_ast ex_ast = true /\ wf_ast_gbs close_lit ex_ast = true.
Proof.
  assert (wf_ast ex_ast = true) as H by (vm_compute; reflexivity).
  split; [exact H|]. unfold wf_ast_gbs. rewrite H. vm_compute. reflexivity.
Qed.
Ltac by_cases_on_pos :=
  intros pos; cbn [lay_fill lay_tok2 lay_tok3 ex_layout_nw ex_layout_gbs ex_layout_bare];
  repeat match goal with
         | |- context [match ?x with _ => _ end] => is_var x; destruct x
         end; reflexivity.
Lemma ex_layout_nw_ok : layout_ok_nw ex_layout_nw /\ layout_ok_nw ex_layout_bare.
Proof.
  split; (split; [vm_compute; reflexivity | split; [vm_compute; reflexivity|]]); by_cases_on_pos.
Qed.
Lemma ex_layout_gbs_ok : layout_ok_gbs ex_layout_gbs /\ layout_ok_gbs ex_layout_bare.
Proof.
  split; (split; [vm_compute; reflexivity | split; [vm_compute; reflexivity|]]);
    (split; [|split]); by_cases_on_pos.
Qed.
