(* Proofs/TwoElecP.v — the recursions of Model/TwoElec.v (_two_elec_int.py) compute the bivariate Gaussian
   moments of Gauss/Wick2D.v read through the functional Phi.  First the recursions as functions of the
   indices (vertical with weight w = rho/p, electron transfer, horizontal; all angular momenta, any field),
   each with the polynomial in s it stands for; then the tables the model builds, which hold these functions
   exactly inside the validity regions (m + a <= L, idx + c <= L, idx + b <= L); then the whole block: every
   entry of eri_block = norms * Sum_prims weights * Phi_0 (R4), and peval R4 s = product over the axes of
   the four-index moments M4.  The horizontal recursion is the one of Proofs/OneElecP.v (Hf_one, H3g_one). *)
From Coq Require Import List Arith Lia Field.
From GB Require Import Base.Field Base.FNum Base.Tables Gauss.Moment1D Gauss.SPoly Gauss.Wick2D
  Model.Shell Model.MomentInt Model.OneElec Model.TwoElec Proofs.OneElecP.
Import ListNotations.

Section Abstract.
Context {F : Type} (K : Fops F) (Kf : is_field K).
Add Field KFt : Kf.
Local Open Scope F_scope.
Notation "0" := (f0 K) : F_scope.
Notation "1" := (f1 K) : F_scope.
Infix "+" := (fadd K) : F_scope.
Infix "*" := (fmul K) : F_scope.
Infix "-" := (fsub K) : F_scope.
Infix "/" := (fdiv K) : F_scope.
Notation "- x" := (fopp K x) : F_scope.
Notation "# n" := (ofnat K n) (at level 5) : F_scope.
Notation padd := (padd K).
Notation pscale := (pscale K).
Notation psub := (psub K).
Notation Phi := (Phi K).
Notation peval := (peval K).

Section VRR2.
Variables (pa pcw v w : F).       (* PA, (rho/p) PQ, 1/(2p), rho/p along one axis *)
Variable beta : nat -> F.         (* ANY sequence *)

Fixpoint W2 (a : nat) : (nat -> F) * (nat -> F) :=   (* (V a, V (a+1)) *)
  match a with
  | O => (beta, fun m => pa * beta m - pcw * beta (S m))
  | S a' => let '(Va, Va1) := W2 a' in
            (Va1, fun m => pa * Va1 m - pcw * Va1 (S m) + #(S a') * v * (Va m - w * Va (S m)))
  end.
Definition Vf2 a := fst (W2 a).
Lemma Vf2_0 m : Vf2 O m = beta m. Proof. reflexivity. Qed.
Lemma Vf2_1 m : Vf2 (S O) m = pa * beta m - pcw * beta (S m). Proof. reflexivity. Qed.
Lemma Vf2_SS a m : Vf2 (S (S a)) m =
  pa * Vf2 (S a) m - pcw * Vf2 (S a) (S m) + #(S a) * v * (Vf2 a m - w * Vf2 a (S m)).
Proof. unfold Vf2. cbn [W2]. destruct (W2 a) as [Va Va1]. reflexivity. Qed.

Fixpoint Pw2 (a : nat) : list F * list F :=
  match a with
  | O => ([1], [pa; - pcw])
  | S a' => let '(Pa, Pa1) := Pw2 a' in
     (Pa1, padd (psub (pscale pa Pa1) (pscale pcw (0 :: Pa1)))
                (pscale (#(S a') * v) (psub Pa (pscale w (0 :: Pa)))))
  end.
Definition Pw a := fst (Pw2 a).
Lemma Pw_SS a : Pw (S (S a)) = padd (psub (pscale pa (Pw (S a))) (pscale pcw (0 :: Pw (S a))))
                                   (pscale (#(S a) * v) (psub (Pw a) (pscale w (0 :: Pw a)))).
Proof. unfold Pw. cbn [Pw2]. destruct (Pw2 a) as [Pa Pa1]. reflexivity. Qed.

(* the array entry is Phi_m of that polynomial, for every m and every beta *)
Corollary vrr2_entry_is_Phi a m : Vf2 a m = Phi beta m (Pw a).
Proof.
  revert m. induction a as [| |a IH0 IH1] using nat_ind2; intros m.
  - rewrite Vf2_0. unfold Pw. cbn [Pw2 fst SPoly.Phi]. ring.
  - rewrite Vf2_1. unfold Pw. cbn [Pw2 fst SPoly.Phi]. ring.
  - rewrite Vf2_SS, Pw_SS. unfold SPoly.psub.
    rewrite !(Phi_padd K Kf), !(Phi_pscale K Kf), !(Phi_padd K Kf), !(Phi_pscale K Kf),
            !(Phi_shift K Kf), !IH0, !IH1. ring.
Qed.

(* its value at every s is the Gaussian moment with variance v (1 - w s), centre pa - s pcw *)
Definition Gs2 (s : F) (a : nat) : F := S3 K (v * (1 - w * s)) (pa - s * pcw) 0 0 0%nat 0%nat a 0%nat.
Lemma Gs2_0 s : Gs2 s O = 1.
Proof. unfold Gs2. apply (S3_000 K Kf). Qed.
Lemma Gs2_S s a : Gs2 s (S a) = (pa - s * pcw) * Gs2 s a
   + v * (1 - w * s) * match a with O => 0 | S a' => #a * Gs2 s a' end.
Proof. unfold Gs2. rewrite (OS3_a K Kf). unfold lower, dn. destruct a; ring. Qed.

Theorem Pw_eval a s : peval (Pw a) s = Gs2 s a.
Proof.
  induction a as [| |a IH0 IH1] using nat_ind2.
  - rewrite Gs2_0. unfold Pw. cbn [Pw2 fst SPoly.peval]. ring.
  - rewrite Gs2_S, Gs2_0. unfold Pw. cbn [Pw2 fst SPoly.peval]. ring.
  - rewrite Pw_SS. unfold SPoly.psub.
    rewrite !(peval_padd K Kf), !(peval_pscale K Kf), !(peval_padd K Kf), !(peval_pscale K Kf),
            !(peval_shift K Kf), IH0, IH1, (Gs2_S s (S a)). ring.
Qed.

End VRR2.

Lemma Vf2_local pa pcw v w (b1 b2 : nat -> F) a m :
  (forall k, k <= a -> b1 (m + k)%nat = b2 (m + k)%nat) ->
  Vf2 pa pcw v w b1 a m = Vf2 pa pcw v w b2 a m.
Proof.
  revert m. induction a as [| |a IH0 IH1] using nat_ind2; intros m H.
  - rewrite !Vf2_0. specialize (H 0%nat ltac:(lia)). now rewrite Nat.add_0_r in H.
  - pose proof (H 0%nat ltac:(lia)) as H0. pose proof (H 1%nat ltac:(lia)) as H1.
    rewrite Nat.add_0_r in H0. rewrite Nat.add_1_r in H1. rewrite !Vf2_1. now rewrite H0, H1.
  - rewrite !Vf2_SS.
    rewrite (IH1 m), (IH0 m) by (intros; apply H; lia).
    rewrite (IH1 (S m)), (IH0 (S m))
      by (intros k Hk; replace (S m + k)%nat with (m + S k)%nat by lia; apply H; lia).
    reflexivity.
Qed.

(* the two-electron vertical recursion IS the one-electron recursion of Gauss/SPoly.v (Vf) for the
   rescaled sequence beta'_m = w^m beta_m and pc := PQ: V'[m][a] = w^m V[m][a] *)
Theorem Vf2_via_SPoly pa pq v w (beta : nat -> F) a m :
  fpow K w m * Vf2 pa (w * pq) v w beta a m = Vf K pa pq v (fun m => fpow K w m * beta m) a m.
Proof.
  revert m. induction a as [| |a IH0 IH1] using nat_ind2; intros m.
  - rewrite Vf2_0, Vf_0. reflexivity.
  - rewrite Vf2_1, Vf_1. cbn [fpow]. ring.
  - rewrite Vf2_SS, Vf_SS, <- !IH0, <- !IH1. cbn [fpow]. ring.
Qed.

Section ET.
Variables (coef twoq r : F).

Fixpoint ET2 (E0 : nat -> F) (c : nat) : (nat -> F) * (nat -> F) :=     (* (E c, E (c+1)) *)
  match c with
  | O => (E0, fun a => coef * E0 a + #a / twoq * E0 (a - 1)%nat - r * E0 (S a))
  | S c' => let '(Ec, Ec1) := ET2 E0 c' in
            (Ec1, fun a => coef * Ec1 a + #a / twoq * Ec1 (a - 1)%nat + #(S c') / twoq * Ec a
                           - r * Ec1 (S a))
  end.
Definition ETf (E0 : nat -> F) (c a : nat) : F := fst (ET2 E0 c) a.
Lemma ETf_0 E0 a : ETf E0 0 a = E0 a. Proof. reflexivity. Qed.
Lemma ETf_1 E0 a : ETf E0 1 a = coef * E0 a + #a / twoq * E0 (a - 1)%nat - r * E0 (S a).
Proof. reflexivity. Qed.
Lemma ETf_SS E0 c a : ETf E0 (S (S c)) a =
  coef * ETf E0 (S c) a + #a / twoq * ETf E0 (S c) (a - 1)%nat + #(S c) / twoq * ETf E0 c a
  - r * ETf E0 (S c) (S a).
Proof. unfold ETf. cbn [ET2]. destruct (ET2 E0 c) as [Ec Ec1]. reflexivity. Qed.
(* the code's rule, uniform in c *)
Lemma ETf_S E0 c a : ETf E0 (S c) a =
  coef * ETf E0 c a + #a / twoq * ETf E0 c (a - 1)%nat + #c / twoq * ETf E0 (c - 1)%nat a
  - r * ETf E0 c (S a).
Proof.
  destruct c as [|c].
  - rewrite ETf_1, !ETf_0. cbn [ofnat]. rewrite (div_as_mul K Kf 0). ring.
  - rewrite ETf_SS. replace (S c - 1)%nat with c by lia. reflexivity.
Qed.

Lemma ETf_local E0 E0' : forall c a, (forall j, a - c <= j <= a + c -> E0 j = E0' j) ->
  ETf E0 c a = ETf E0' c a.
Proof.
  induction c as [| |c IH0 IH1] using nat_ind2; intros a H.
  - rewrite !ETf_0. apply H. lia.
  - rewrite !ETf_1. rewrite (H a), (H (a - 1)%nat), (H (S a)) by lia. reflexivity.
  - rewrite !ETf_SS.
    rewrite (IH1 a), (IH1 (a - 1)%nat), (IH1 (S a)), (IH0 a) by (intros; apply H; lia).
    reflexivity.
Qed.

Lemma ETf_ext E0 E0' : (forall a, E0 a = E0' a) -> forall c a, ETf E0 c a = ETf E0' c a.
Proof. intros H c a. apply ETf_local. intros; apply H. Qed.

Lemma ETf_scale E0 (k : F) : forall c a, ETf (fun a => E0 a * k) c a = ETf E0 c a * k.
Proof.
  induction c as [| |c IH0 IH1] using nat_ind2; intros a.
  - rewrite !ETf_0. reflexivity.
  - rewrite !ETf_1. ring.
  - rewrite !ETf_SS, !IH1, !IH0. ring.
Qed.
Lemma ETf_factor (E0 g : nat -> F) k c a : (forall j, E0 j = g j * k) -> ETf E0 c a = ETf g c a * k.
Proof. intros H. rewrite (ETf_ext E0 (fun j => g j * k) H). apply ETf_scale. Qed.

(* the same recursion on polynomials in s (the coefficients do not depend on s) *)
Fixpoint ETp2 (P0 : nat -> list F) (c : nat) : (nat -> list F) * (nat -> list F) :=
  match c with
  | O => (P0, fun a => psub (padd (pscale coef (P0 a)) (pscale (#a / twoq) (P0 (a - 1)%nat)))
                            (pscale r (P0 (S a))))
  | S c' => let '(Pc, Pc1) := ETp2 P0 c' in
            (Pc1, fun a => psub (padd (padd (pscale coef (Pc1 a)) (pscale (#a / twoq) (Pc1 (a - 1)%nat)))
                                      (pscale (#(S c') / twoq) (Pc a)))
                                (pscale r (Pc1 (S a))))
  end.
Definition ETp (P0 : nat -> list F) (c a : nat) : list F := fst (ETp2 P0 c) a.
Lemma ETp_0 P0 a : ETp P0 0 a = P0 a. Proof. reflexivity. Qed.
Lemma ETp_1 P0 a : ETp P0 1 a =
  psub (padd (pscale coef (P0 a)) (pscale (#a / twoq) (P0 (a - 1)%nat))) (pscale r (P0 (S a))).
Proof. reflexivity. Qed.
Lemma ETp_SS P0 c a : ETp P0 (S (S c)) a =
  psub (padd (padd (pscale coef (ETp P0 (S c) a)) (pscale (#a / twoq) (ETp P0 (S c) (a - 1)%nat)))
             (pscale (#(S c) / twoq) (ETp P0 c a)))
       (pscale r (ETp P0 (S c) (S a))).
Proof. unfold ETp. cbn [ETp2]. destruct (ETp2 P0 c) as [Pc Pc1]. reflexivity. Qed.

Lemma ETp_linear (ell : list F -> F) :
  (forall f g, ell (padd f g) = ell f + ell g) -> (forall k f, ell (pscale k f) = k * ell f) ->
  forall P0 c a, ell (ETp P0 c a) = ETf (fun a => ell (P0 a)) c a.
Proof.
  intros Hadd Hsc P0 c. induction c as [| |c IH0 IH1] using nat_ind2; intros a.
  - reflexivity.
  - rewrite ETp_1, ETf_1. unfold SPoly.psub. rewrite !Hadd, !Hsc. ring.
  - rewrite ETp_SS, ETf_SS. unfold SPoly.psub. rewrite !Hadd, !Hsc, !IH1, !IH0. ring.
Qed.
End ET.

Section Axis.
Variables (p q PA QC PQ : F).
Hypothesis Hp : p <> 0.
Hypothesis Hq : q <> 0.
Hypothesis Hpq : p + q <> 0.
Hypothesis H2 : 1 + 1 <> 0.

Let w := rho K p q / p.
Let twop := (1 + 1) * p.
Let twoq := (1 + 1) * q.
Let coef := QC + p / q * PA.

Theorem Pw_is_moment a s :
  peval (Pw PA (w * PQ) (1 / twop) w a) s = Ms K p q PA QC PQ s a 0.
Proof.
  rewrite Pw_eval. unfold Gs2, Ms.
  rewrite (proj1 (M_i0 K Kf _ _ _ _ _ a)).
  f_equal.
  - unfold sig11, w, twop. field. split; assumption.
  - unfold mean1, w. ring.
Qed.

Theorem etransfer_table_is_moment s (E0 : nat -> F) :
  (forall a, E0 a = Ms K p q PA QC PQ s a 0) ->
  forall c a, ETf coef twoq (p / q) E0 c a = Ms K p q PA QC PQ s a c.
Proof.
  intros H0 c. induction c as [| |c IH0 IH1] using nat_ind2; intros a.
  - rewrite ETf_0. apply H0.
  - rewrite ETf_1, !H0, (etransfer_correct K Kf p q PA QC PQ Hp Hq Hpq H2 s a 0).
    fold coef twoq. cbn [ofnat]. rewrite (div_as_mul K Kf 0). ring.
  - rewrite ETf_SS, !IH1, !IH0, (etransfer_correct K Kf p q PA QC PQ Hp Hq Hpq H2 s a (S c)).
    fold coef twoq. replace (S c - 1)%nat with c by lia. reflexivity.
Qed.

Definition Pac (c a : nat) : list F :=
  ETp coef twoq (p / q) (Pw PA (w * PQ) (1 / twop) w) c a.

(* One axis, end to end: the vertical recursion at m = 0 followed by the electron transfer yields
   Phi_0 of a polynomial whose value at every s is the bivariate moment M_s(a, c). *)
Theorem eri_axis_correct (beta : nat -> F) c a :
  ETf coef twoq (p / q) (fun a => Vf2 PA (w * PQ) (1 / twop) w beta a 0) c a = Phi beta 0 (Pac c a)
  /\ forall s, peval (Pac c a) s = Ms K p q PA QC PQ s a c.
Proof.
  split.
  - unfold Pac.
    rewrite (ETp_linear coef twoq (p / q) (Phi beta 0) (Phi_padd K Kf beta 0)
               (fun k f => Phi_pscale K Kf beta 0 k f)).
    apply ETf_ext. intros a'. apply vrr2_entry_is_Phi.
  - intros s. unfold Pac.
    rewrite (ETp_linear coef twoq (p / q) (fun f => peval f s)
               (fun f g => peval_padd K Kf f g s) (fun k f => peval_pscale K Kf k f s)).
    apply etransfer_table_is_moment. intros a'. apply Pw_is_moment.
Qed.
End Axis.

Fixpoint pmul (f g : list F) : list F :=
  match f with [] => [] | c :: f' => padd (pscale c g) (0 :: pmul f' g) end.
(* the product of OneElecP, by recursion on the other factor *)
Lemma pmul_flip f g : pmul f g = OneElecP.pmul K g f.
Proof. induction f as [|c f IH]; cbn [pmul OneElecP.pmul]; [reflexivity|]. now rewrite IH. Qed.
Lemma peval_pmul f g s : peval (pmul f g) s = peval f s * peval g s.
Proof. rewrite pmul_flip, (OneElecP.peval_pmul K Kf). ring. Qed.
Lemma Phi_ext b1 b2 : (forall m, b1 m = b2 m) -> forall f m, Phi b1 m f = Phi b2 m f.
Proof. intros H f m. now apply OneElecP.Phi_ext. Qed.
(* a pass whose starting sequence is itself Phi of a polynomial Q multiplies the polynomials *)
Lemma Phi_compose beta Q P m : Phi (fun m' => Phi beta m' Q) m P = Phi beta m (pmul P Q).
Proof. rewrite pmul_flip. symmetry. apply (OneElecP.Phi_pmul K Kf). Qed.

Section ThreeD.
Variables (p q : F) (PAx PAy PAz QCx QCy QCz PQx PQy PQz : F).
Hypothesis Hp : p <> 0.
Hypothesis Hq : q <> 0.
Hypothesis Hpq : p + q <> 0.
Hypothesis H2 : 1 + 1 <> 0.
Variable beta : nat -> F.

Let w := rho K p q / p.
Let v := 1 / ((1 + 1) * p).
Let twoq := (1 + 1) * q.
Let r := p / q.

(* the vertical recursion run along x, then y (every ax), then z (every ax, ay) *)
Definition V3 (ax ay az m : nat) : F :=
  Vf2 PAz (w * PQz) v w
    (fun m2 => Vf2 PAy (w * PQy) v w (fun m1 => Vf2 PAx (w * PQx) v w beta ax m1) ay m2) az m.
Definition P3 (ax ay az : nat) : list F :=
  pmul (Pw PAz (w * PQz) v w az) (pmul (Pw PAy (w * PQy) v w ay) (Pw PAx (w * PQx) v w ax)).

Theorem V3_is_Phi ax ay az m : V3 ax ay az m = Phi beta m (P3 ax ay az).
Proof.
  unfold V3, P3. rewrite vrr2_entry_is_Phi.
  rewrite <- Phi_compose. apply Phi_ext. intros m2.
  rewrite vrr2_entry_is_Phi, <- Phi_compose. apply Phi_ext. intros m1. apply vrr2_entry_is_Phi.
Qed.
Theorem P3_eval ax ay az s :
  peval (P3 ax ay az) s = Ms K p q PAz QCz PQz s az 0
                          * (Ms K p q PAy QCy PQy s ay 0 * Ms K p q PAx QCx PQx s ax 0).
Proof.
  unfold P3. rewrite !peval_pmul. unfold w, v.
  rewrite (Pw_is_moment p q PAx QCx PQx Hp H2), (Pw_is_moment p q PAy QCy PQy Hp H2),
          (Pw_is_moment p q PAz QCz PQz Hp H2). reflexivity.
Qed.

(* the electron transfer run along x, then y, then z, on a three-index table W *)
Definition E3 (W : nat -> nat -> nat -> F) (cx cy cz ax ay az : nat) : F :=
  ETf (QCz + r * PAz) twoq r (fun az' =>
    ETf (QCy + r * PAy) twoq r (fun ay' =>
      ETf (QCx + r * PAx) twoq r (fun ax' => W ax' ay' az') cx ax) cy ay) cz az.
Definition R3 (cx cy cz ax ay az : nat) : list F :=
  ETp (QCz + r * PAz) twoq r (fun az' =>
    ETp (QCy + r * PAy) twoq r (fun ay' =>
      ETp (QCx + r * PAx) twoq r (fun ax' => P3 ax' ay' az') cx ax) cy ay) cz az.

Lemma R3_linear (ell : list F -> F) :
  (forall f g, ell (padd f g) = ell f + ell g) -> (forall k f, ell (pscale k f) = k * ell f) ->
  forall cx cy cz ax ay az,
  ell (R3 cx cy cz ax ay az) = E3 (fun ax' ay' az' => ell (P3 ax' ay' az')) cx cy cz ax ay az.
Proof.
  intros Ha Hs cx cy cz ax ay az. unfold R3, E3.
  rewrite (ETp_linear _ twoq r ell Ha Hs). apply ETf_ext. intros az'.
  rewrite (ETp_linear _ twoq r ell Ha Hs). apply ETf_ext. intros ay'.
  apply (ETp_linear _ twoq r ell Ha Hs).
Qed.

Lemma E3_ext W W' cx cy cz ax ay az :
  (forall x y z, W x y z = W' x y z) -> E3 W cx cy cz ax ay az = E3 W' cx cy cz ax ay az.
Proof.
  intros H. unfold E3. apply ETf_ext. intros z. apply ETf_ext. intros y. apply ETf_ext. intros x. apply H.
Qed.

Lemma E3_product (fx fy fz : nat -> F) cx cy cz ax ay az :
  E3 (fun x y z => fx x * fy y * fz z) cx cy cz ax ay az
  = ETf (QCx + r * PAx) twoq r fx cx ax * ETf (QCy + r * PAy) twoq r fy cy ay
    * ETf (QCz + r * PAz) twoq r fz cz az.
Proof.
  unfold E3.
  rewrite (ETf_factor _ twoq r _ fz
             (ETf (QCx + r * PAx) twoq r fx cx ax * ETf (QCy + r * PAy) twoq r fy cy ay)); [ring|].
  intros z.
  rewrite (ETf_factor _ twoq r _ fy (ETf (QCx + r * PAx) twoq r fx cx ax * fz z)); [ring|]. intros y.
  rewrite (ETf_factor _ twoq r _ fx (fy y * fz z)); [ring|]. intros x. ring.
Qed.

(* Three axes, end to end: [a0|c0]^(0) after the vertical and the transfer recursions is Phi_0 of a
   polynomial in s whose value at every s is the product over the axes of the bivariate moments. *)
Theorem eri_3d_correct cx cy cz ax ay az :
  E3 (fun ax ay az => V3 ax ay az 0) cx cy cz ax ay az = Phi beta 0 (R3 cx cy cz ax ay az)
  /\ forall s, peval (R3 cx cy cz ax ay az) s
               = Ms K p q PAx QCx PQx s ax cx * Ms K p q PAy QCy PQy s ay cy
                 * Ms K p q PAz QCz PQz s az cz.
Proof.
  split.
  - rewrite (R3_linear (Phi beta 0) (Phi_padd K Kf beta 0) (fun k f => Phi_pscale K Kf beta 0 k f)).
    apply E3_ext. intros x y z. apply V3_is_Phi.
  - intros s.
    rewrite (R3_linear (fun f => peval f s) (fun f g => peval_padd K Kf f g s)
               (fun k f => peval_pscale K Kf k f s)).
    rewrite (E3_ext _ (fun x y z => Ms K p q PAx QCx PQx s x 0 * Ms K p q PAy QCy PQy s y 0
                                    * Ms K p q PAz QCz PQz s z 0) cx cy cz ax ay az)
      by (intros; rewrite P3_eval; ring).
    rewrite E3_product. unfold twoq, r.
    rewrite (etransfer_table_is_moment p q PAx QCx PQx Hp Hq Hpq H2 s) by reflexivity.
    rewrite (etransfer_table_is_moment p q PAy QCy PQy Hp Hq Hpq H2 s) by reflexivity.
    rewrite (etransfer_table_is_moment p q PAz QCz PQz Hp Hq Hpq H2 s) by reflexivity.
    reflexivity.
Qed.
End ThreeD.

Section HRR.
Variable ab : F.
(* H[b+1][a] = H[b][a+1] + AB H[b][a]   (_two_elec_int.py:567-790, _one_elec_int.py:181-199) *)
Fixpoint Hf (T : nat -> F) (b : nat) (a : nat) : F :=
  match b with O => T a | S b' => Hf T b' (S a) + ab * Hf T b' a end.

Lemma Hf_one T : forall b a, Hf T b a = OneElecP.Hf K ab T b a.
Proof. induction b as [|b IH]; intros a; cbn [Hf OneElecP.Hf]; [reflexivity|]. now rewrite !IH. Qed.

Lemma Hf_local T T' : forall b a, (forall j, a <= j <= a + b -> T j = T' j) -> Hf T b a = Hf T' b a.
Proof. induction b as [|b IH]; intros a H; cbn [Hf]; [apply H; lia|].
  rewrite (IH (S a)), (IH a) by (intros; apply H; lia). reflexivity. Qed.
Lemma Hf_ext T T' : (forall j, T j = T' j) -> forall b a, Hf T b a = Hf T' b a.
Proof. intros H b a. apply Hf_local. intros; apply H. Qed.
Lemma Hf_add T1 T2 : forall b a, Hf (fun j => T1 j + T2 j) b a = Hf T1 b a + Hf T2 b a.
Proof. induction b as [|b IH]; intros a; cbn [Hf]; [reflexivity|]. rewrite !IH. ring. Qed.
Lemma Hf_scale T k : forall b a, Hf (fun j => T j * k) b a = Hf T b a * k.
Proof. induction b as [|b IH]; intros a; cbn [Hf]; [reflexivity|]. rewrite !IH. ring. Qed.

(* binomial coefficients by Pascal's rule, computed in the field *)
Fixpoint binF (n k : nat) : F :=
  match n, k with
  | _, O => 1
  | O, S _ => 0
  | S n', S k' => binF n' k' + binF n' (S k')
  end.
(* (x - B)^b = ((x - A) + AB)^b : the entry is the binomial combination of the [a+k | 0] entries *)
Theorem hrr_binomial T : forall b a,
  Hf T b a = sumn 0 (fadd K) (S b) (fun k => binF b k * fpow K ab (b - k) * T (a + k)%nat).
Proof. intros b a. rewrite Hf_one. apply (Hf_binomial K Kf). Qed.
End HRR.

End Abstract.

Section Lists.
Context {F : Type} (K : Fops F) (Kf : is_field K).
Add Field KFtl : Kf.
Local Open Scope F_scope.
Notation "0" := (f0 K) : F_scope.
Notation "1" := (f1 K) : F_scope.
Infix "+" := (fadd K) : F_scope.
Infix "*" := (fmul K) : F_scope.
Infix "-" := (fsub K) : F_scope.
Infix "/" := (fdiv K) : F_scope.
Notation "- x" := (fopp K x) : F_scope.
Notation "# n" := (ofnat K n) (at level 5) : F_scope.

Section VPassList.
Variables (L n : nat) (pa pcw twop w : F) (v0 : list (list F)).
Hypothesis Hlen0 : forall m, m <= L -> length (nth m v0 []) = n.
Definition chan (ch : nat) : nat -> F := fun m => nth ch (nth m v0 []) 0.

Definition Pv (a : nat) (tab : list (list F)) : Prop :=
  (forall m, m <= L -> length (nth m tab []) = n) /\
  (forall m ch, m + a <= L -> ch < n ->
     nth ch (nth m tab []) 0 = Vf2 K pa pcw (1 / twop) w (chan ch) a m).

Lemma vstep2_inv j x y : Pv j x -> (0 < j -> Pv (j - 1) y) ->
  Pv (S j) (vstep2 K L pa pcw twop w j x y).
Proof.
  intros [Lx Ex] Hy. split.
  - intros m Hm. unfold vstep2. rewrite nth_mk by lia.
    destruct (Nat.eqb_spec m L) as [E|NE]; [rewrite map_length; now apply Lx|].
    destruct j as [|j].
    + rewrite zip2_length, !Lx by lia. apply Nat.min_id.
    + destruct (Hy ltac:(lia)) as [Ly _].
      rewrite !zip2_length, !Lx, !Ly by lia. rewrite !Nat.min_id. reflexivity.
  - intros m ch Hm Hch. unfold vstep2. rewrite nth_mk by lia.
    destruct (Nat.eqb_spec m L) as [E|NE]; [lia|].
    destruct j as [|j].
    + rewrite (nth_zip2 _ _ _ _ 0 0 0) by (rewrite Lx; lia).
      rewrite !Ex by lia. rewrite Vf2_1, !Vf2_0. reflexivity.
    + destruct (Hy ltac:(lia)) as [Ly Ey]. replace (S j - 1)%nat with j in * by lia.
      rewrite (nth_zip2 _ _ _ _ 0 0 0)
        by (rewrite ?zip2_length, ?Lx, ?Ly, ?Nat.min_id; lia).
      rewrite (nth_zip2 _ _ _ _ 0 0 0) by (rewrite Lx; lia).
      rewrite (nth_zip2 _ _ _ _ 0 0 0) by (rewrite Ly; lia).
      rewrite !Ex, !Ey by lia. cbv beta. rewrite Vf2_SS, (div_as_mul K Kf (#(S j))). ring.
Qed.

Lemma vpass2_Pv a : a <= L -> Pv a (nth a (vpass2 K L pa pcw twop w v0) []).
Proof.
  intros Ha. apply (iter2_spec (vstep2 K L pa pcw twop w) Pv [] vstep2_inv L 0 v0 []); [|lia|exact Ha].
  split; [exact Hlen0|]. intros m' ch' _ _. reflexivity.
Qed.

(* _two_elec_int.py:346-399: inside the validity region the table holds the abstract recursion *)
Theorem vpass2_entry a m ch : m + a <= L -> ch < n ->
  nth ch (nth m (nth a (vpass2 K L pa pcw twop w v0) []) []) 0
  = Vf2 K pa pcw (1 / twop) w (chan ch) a m.
Proof. intros Hm Hch. apply vpass2_Pv; [lia|exact Hm|exact Hch]. Qed.
Theorem vpass2_row_length a m : a <= L -> m <= L ->
  length (nth m (nth a (vpass2 K L pa pcw twop w v0) []) []) = n.
Proof. intros Ha Hm. now apply vpass2_Pv. Qed.
End VPassList.

Lemma vpass2_spec L pa pcw twop w :
  pass_spec K L (vpass2 K L pa pcw twop w) (Vf2 K pa pcw (1 / twop) w).
Proof.
  intros v0 n Hlen. split.
  - now apply vpass2_row_length.
  - intros a m ch Hm Hch. now apply (vpass2_entry L n pa pcw twop w v0).
Qed.

Lemma cget_mk3 (L : nat) (f : nat -> nat -> nat -> F) x y z : x <= L -> y <= L -> z <= L ->
  cget K (mk (S L) (fun x => mk (S L) (fun y => mk (S L) (fun z => f x y z)))) x y z = f x y z.
Proof. intros Hx Hy Hz. unfold cget. rewrite nth_mk by lia. rewrite nth_mk by lia.
  rewrite nth_mk by lia. reflexivity. Qed.

Section VrrCube.
Variables (L : nat) (pax pay paz pqx pqy pqz twop w : F) (base : nat -> F).
Let v := 1 / twop.

Definition V3g (ax ay az m : nat) : F :=
  Vf2 K paz (w * pqz) v w
    (fun m2 => Vf2 K pay (w * pqy) v w (fun m1 => Vf2 K pax (w * pqx) v w base ax m1) ay m2) az m.

Theorem vrr2_cube_entry ax ay az : ax + ay + az <= L ->
  cget K (vrr2_cube K L pax pay paz pqx pqy pqz twop w base) ax ay az = V3g ax ay az 0.
Proof.
  intros H. unfold vrr2_cube. cbv zeta. rewrite cget_mk3 by lia.
  etransitivity.
  - apply (core3_entry K L _ _ _ _ _ _ (mk (S L) (fun m => [base m])) ax ay az 0
             (vpass2_spec L pax (w * pqx) twop w) (vpass2_spec L pay (w * pqy) twop w)
             (vpass2_spec L paz (w * pqz) twop w) (Vf2_local K _ _ _ _) (Vf2_local K _ _ _ _)); [|lia].
    intros m Hm. rewrite nth_mk by lia. reflexivity.
  - unfold V3g. apply (Vf2_local K). intros k Hk. apply (Vf2_local K). intros k' Hk'.
    apply (Vf2_local K). intros k'' Hk''. unfold col. rewrite nth_mk by lia. reflexivity.
Qed.
End VrrCube.

(* index along the axis, and the line of the cube through (x, y, z) along the axis *)
Definition idx (axis x y z : nat) : nat := match axis with O => x | S O => y | _ => z end.
Definition line (axis : nat) (t : @cube F) (x y z : nat) : nat -> F :=
  fun a => match axis with O => cget K t a y z | S O => cget K t x a z | _ => cget K t x y a end.

Section TPassList.
Variables (L Lc axis : nat) (coef twoq r : F) (t : @cube F).

Definition Pt (c : nat) (cu : @cube F) : Prop :=
  forall x y z, x <= L -> y <= L -> z <= L -> idx axis x y z + c <= L ->
    cget K cu x y z = ETf K coef twoq r (line axis t x y z) c (idx axis x y z).

Lemma tstep_inv c cur prev : Pt c cur -> (0 < c -> Pt (c - 1) prev) ->
  Pt (S c) (tstep K L axis coef twoq r c cur prev).
Proof.
  unfold Pt. intros Hc Hp x y z Hx Hy Hz Hi. unfold tstep. rewrite cget_mk3 by assumption.
  fold (idx axis x y z).
  destruct (Nat.eqb_spec (idx axis x y z) L) as [E|NE]; [lia|].
  rewrite (ETf_S K Kf).
  assert (Eprev : #c / twoq * cget K prev x y z
                  = #c / twoq * ETf K coef twoq r (line axis t x y z) (c - 1) (idx axis x y z)).
  { destruct c as [|c]; [cbn [ofnat]; rewrite (div_as_mul K Kf 0); ring|].
    rewrite (Hp ltac:(lia) x y z) by (assumption || lia). reflexivity. }
  rewrite Eprev. rewrite (Hc x y z) by (assumption || lia).
  destruct axis as [|[|ax]]; cbn [idx line] in *.
  - rewrite (Hc (S x) y z), (Hc (x - 1)%nat y z) by (cbn [idx]; lia). reflexivity.
  - rewrite (Hc x (S y) z), (Hc x (y - 1)%nat z) by (cbn [idx]; lia). reflexivity.
  - rewrite (Hc x y (S z)), (Hc x y (z - 1)%nat) by (cbn [idx]; lia). reflexivity.
Qed.

(* _two_elec_int.py:413-526: the column a = L is never written, so the table holds the abstract
   transfer recursion exactly on idx + c <= L *)
Theorem tpass_entry c x y z : c <= Lc -> x <= L -> y <= L -> z <= L -> idx axis x y z + c <= L ->
  cget K (nth c (tpass K L Lc axis coef twoq r t) []) x y z
  = ETf K coef twoq r (line axis t x y z) c (idx axis x y z).
Proof.
  intros Hc Hx Hy Hz Hi. unfold tpass.
  assert (G : Pt (0 + c) (nth c (iter2 (tstep K L axis coef twoq r) Lc 0 t []) [])).
  { apply (iter2_spec (tstep K L axis coef twoq r) Pt); [| | |exact Hc].
    - intros j cu pv. apply tstep_inv.
    - intros x' y' z' _ _ _ _. rewrite (ETf_0 K). destruct axis as [|[|ax]]; reflexivity.
    - intros Hlt. lia. }
  apply G; assumption.
Qed.
End TPassList.

Section TPass3.
Variables (L Lc : nat) (coefx coefy coefz twoq r : F) (W : @cube F).

Definition E3g (Wf : nat -> nat -> nat -> F) (cx cy cz ax ay az : nat) : F :=
  ETf K coefz twoq r (fun az' =>
    ETf K coefy twoq r (fun ay' =>
      ETf K coefx twoq r (fun ax' => Wf ax' ay' az') cx ax) cy ay) cz az.

Definition tpass3 : list (list (list (@cube F))) :=
  map (fun tx => map (fun ty => tpass K L Lc 2 coefz twoq r ty) (tpass K L Lc 1 coefy twoq r tx))
      (tpass K L Lc 0 coefx twoq r W).

Theorem tpass3_entry cx cy cz ax ay az :
  cx <= Lc -> cy <= Lc -> cz <= Lc -> ax + cx <= L -> ay + cy <= L -> az + cz <= L ->
  cget K (nth cz (nth cy (nth cx tpass3 []) []) []) ax ay az
  = E3g (fun x y z => cget K W x y z) cx cy cz ax ay az.
Proof.
  intros Hcx Hcy Hcz Hx Hy Hz. unfold tpass3, E3g.
  rewrite (nth_map_lt (A:=@cube F) (B:=list (list (@cube F))) _ _ cx [] []) by (unfold tpass; rewrite iter2_length; lia).
  rewrite (nth_map_lt (A:=@cube F) (B:=list (@cube F)) _ _ cy [] []) by (unfold tpass; rewrite iter2_length; lia).
  rewrite (tpass_entry L Lc 2) by (cbn [idx]; lia). unfold line, idx; cbv beta iota.
  apply (ETf_local K). intros jz Hjz. unfold line; cbv beta iota.
  rewrite (tpass_entry L Lc 1) by (cbn [idx]; lia). unfold line, idx; cbv beta iota.
  apply (ETf_local K). intros jy Hjy. unfold line; cbv beta iota.
  rewrite (tpass_entry L Lc 0) by (cbn [idx]; lia). unfold line, idx; cbv beta iota.
  reflexivity.
Qed.

Theorem tpass3_entry_region (Wf : nat -> nat -> nat -> F) cx cy cz ax ay az :
  (forall x y z, x + y + z <= L -> cget K W x y z = Wf x y z) ->
  cx <= Lc -> cy <= Lc -> cz <= Lc -> ax + ay + az + cx + cy + cz <= L ->
  cget K (nth cz (nth cy (nth cx tpass3 []) []) []) ax ay az = E3g Wf cx cy cz ax ay az.
Proof.
  intros HW Hcx Hcy Hcz Hreg. rewrite tpass3_entry by lia. unfold E3g.
  apply (ETf_local K). intros jz Hjz. cbv beta.
  apply (ETf_local K). intros jy Hjy. cbv beta.
  apply (ETf_local K). intros jx Hjx. cbv beta.
  apply HW. lia.
Qed.
End TPass3.

Section Hrr3.
Variables (L lb : nat) (abx aby abz : F) (t : @cube F).

Definition H3g (Tf : nat -> nat -> nat -> F) (bx by_ bz ax ay az : nat) : F :=
  Hf K abz (fun az' => Hf K aby (fun ay' => Hf K abx (fun ax' => Tf ax' ay' az') bx ax) by_ ay) bz az.

Lemma H3g_one Tf bx by_ bz ax ay az :
  H3g Tf bx by_ bz ax ay az = H3 K abx aby abz Tf bx by_ bz ax ay az.
Proof.
  unfold H3g, H3. rewrite Hf_one. apply OneElecP.Hf_ext. intros az'.
  rewrite Hf_one. apply OneElecP.Hf_ext. intros ay'. apply Hf_one.
Qed.

Theorem hrr3_entry bx by_ bz ax ay az :
  bx <= lb -> by_ <= lb -> bz <= lb -> ax + bx <= L -> ay + by_ <= L -> az + bz <= L ->
  cget K (nth bz (nth by_ (nth bx (hrr K L lb abx aby abz t) []) []) []) ax ay az
  = H3g (fun x y z => cget K t x y z) bx by_ bz ax ay az.
Proof. intros. rewrite H3g_one. now apply hrr_entry. Qed.
End Hrr3.

Section Channel.
Variables (La Lc lb ld : nat) (abx aby abz cdx cdy cdz : F) (comps3 comps4 : list comp)
          (getc : nat -> nat -> nat -> nat -> nat -> nat -> F).

(* the abstract value: HRR on (a, b) of HRR on (c, d) of the contracted [a0|c0] integrals *)
Definition chan_val (cx cy cz dx dy dz bx by_ bz ax ay az : nat) : F :=
  H3g abx aby abz (fun ax' ay' az' =>
    H3g cdx cdy cdz (fun cx' cy' cz' => getc cx' cy' cz' ax' ay' az') dx dy dz cx cy cz)
    bx by_ bz ax ay az.

Lemma H3g_local ex ey ez (T T' : nat -> nat -> nat -> F) bx by_ bz ax ay az :
  (forall x y z, ax <= x <= ax + bx -> ay <= y <= ay + by_ -> az <= z <= az + bz -> T x y z = T' x y z) ->
  H3g ex ey ez T bx by_ bz ax ay az = H3g ex ey ez T' bx by_ bz ax ay az.
Proof.
  intros H. unfold H3g.
  apply (Hf_local K). intros jz Hjz. apply (Hf_local K). intros jy Hjy.
  apply (Hf_local K). intros jx Hjx. now apply H.
Qed.

Theorem eri_channel_entry i3 i4 bx by_ bz ax ay az :
  i3 < length comps3 -> i4 < length comps4 ->
  let c3 := nth i3 comps3 (0, 0, 0)%nat in let c4 := nth i4 comps4 (0, 0, 0)%nat in
  let cx := fst (fst c3) in let cy := snd (fst c3) in let cz := snd c3 in
  let dx := fst (fst c4) in let dy := snd (fst c4) in let dz := snd c4 in
  dx <= ld -> dy <= ld -> dz <= ld -> cx + dx <= Lc -> cy + dy <= Lc -> cz + dz <= Lc ->
  bx <= lb -> by_ <= lb -> bz <= lb -> ax + bx <= La -> ay + by_ <= La -> az + bz <= La ->
  cget K (nth bz (nth by_ (nth bx
     (nth i4 (nth i3 (eri_channel K La Lc lb ld abx aby abz cdx cdy cdz comps3 comps4 getc) []) [])
     []) []) []) ax ay az
  = chan_val cx cy cz dx dy dz bx by_ bz ax ay az.
Proof.
  intros Hi3 Hi4 c3 c4 cx cy cz dx dy dz Hdx Hdy Hdz Hcx Hcy Hcz Hbx Hby Hbz Hax Hay Haz.
  unfold eri_channel. cbv zeta.
  rewrite (nth_map_lt (A:=comp) _ _ i3 (0, 0, 0)%nat []) by exact Hi3.
  rewrite (nth_map_lt (A:=comp) _ _ i4 (0, 0, 0)%nat []) by exact Hi4.
  fold c3 c4. fold cx cy cz dx dy dz.
  rewrite hrr3_entry by assumption.
  unfold chan_val. apply H3g_local. intros x y z Hx Hy Hz.
  rewrite cget_mk3 by lia.
  rewrite nth_mk by lia. rewrite nth_mk by lia. rewrite nth_mk by lia.
  rewrite hrr3_entry by assumption.
  apply H3g_local. intros x' y' z' Hx' Hy' Hz'.
  rewrite cget_mk3 by lia. reflexivity.
Qed.
End Channel.

Definition compsum (c : comp) : nat := (fst (fst c) + snd (fst c) + snd c)%nat.

Definition eri_prims (s1 s2 s3 s4 : shell F) : list (list (list (list (ecube (F:=F))))) :=
  let L := (s_l s1 + s_l s2 + s_l s3 + s_l s4)%nat in let Lc := (s_l s3 + s_l s4)%nat in
  map (fun alpha => map (fun beta => map (fun gamma => map (fun delta =>
      eri_prim K L Lc (coord3 s1) (coord3 s2) (coord3 s3) (coord3 s4) alpha beta gamma delta)
      (s_exps s4)) (s_exps s3)) (s_exps s2)) (s_exps s1).

Theorem eri_block_entry (s1 s2 s3 s4 : shell F) m1 i1 m2 i2 m3 i3 m4 i4 :
  m1 < nseg s1 -> m2 < nseg s2 -> m3 < nseg s3 -> m4 < nseg s4 ->
  i1 < length (comps_of s1) -> i2 < length (comps_of s2) ->
  i3 < length (comps_of s3) -> i4 < length (comps_of s4) ->
  let c1 := nth i1 (comps_of s1) (0, 0, 0)%nat in let c2 := nth i2 (comps_of s2) (0, 0, 0)%nat in
  let c3 := nth i3 (comps_of s3) (0, 0, 0)%nat in let c4 := nth i4 (comps_of s4) (0, 0, 0)%nat in
  compsum c1 <= s_l s1 -> compsum c2 <= s_l s2 -> compsum c3 <= s_l s3 -> compsum c4 <= s_l s4 ->
  nth i4 (nth m4 (nth i3 (nth m3 (nth i2 (nth m2 (nth i1 (nth m1 (eri_block K s1 s2 s3 s4)
    []) []) []) []) []) []) []) 0
  = chan_val (s_x s1 - s_x s2) (s_y s1 - s_y s2) (s_z s1 - s_z s2)
             (s_x s3 - s_x s4) (s_y s3 - s_y s4) (s_z s3 - s_z s4)
             (eri_contract K (wts K s1) (wts K s2) (wts K s3) (wts K s4) (eri_prims s1 s2 s3 s4) m1 m2 m3 m4)
             (fst (fst c3)) (snd (fst c3)) (snd c3) (fst (fst c4)) (snd (fst c4)) (snd c4)
             (fst (fst c2)) (snd (fst c2)) (snd c2) (fst (fst c1)) (snd (fst c1)) (snd c1)
    * inv_sqrt_df K c1 * inv_sqrt_df K c2 * inv_sqrt_df K c3 * inv_sqrt_df K c4.
Proof.
  intros Hm1 Hm2 Hm3 Hm4 Hi1 Hi2 Hi3 Hi4 c1 c2 c3 c4 Hc1 Hc2 Hc3 Hc4.
  unfold compsum in *.
  unfold eri_block. cbv zeta.
  rewrite nth_mk by assumption. rewrite nth_mk by assumption. rewrite nth_mk by assumption.
  rewrite nth_mk by assumption. rewrite nth_mk by assumption. rewrite nth_mk by assumption.
  rewrite nth_mk by assumption. rewrite nth_mk by assumption.
  rewrite nth_mk by assumption. rewrite nth_mk by assumption. rewrite nth_mk by assumption.
  rewrite nth_mk by assumption.
  rewrite !(nth_map_lt (A:=comp) (inv_sqrt_df K) _ _ (0, 0, 0)%nat 0) by assumption.
  fold c1 c2 c3 c4.
  rewrite eri_channel_entry by (try assumption; fold c3 c4; lia).
  reflexivity.
Qed.

(* the all-s closed form (_two_elec_int.py:8-145) is the general path with L = 0 *)
Definition eri_pref (A B C D : F * F * F) (alpha beta gamma delta : F) : F :=
  let p := alpha + beta in let q := gamma + delta in
  let ab2 := (fst (fst A) - fst (fst B)) * (fst (fst A) - fst (fst B))
             + (snd (fst A) - snd (fst B)) * (snd (fst A) - snd (fst B))
             + (snd A - snd B) * (snd A - snd B) in
  let cd2 := (fst (fst C) - fst (fst D)) * (fst (fst C) - fst (fst D))
             + (snd (fst C) - snd (fst D)) * (snd (fst C) - snd (fst D))
             + (snd C - snd D) * (snd C - snd D) in
  (1 + 1) * (fpi K * fpi K * fsqrt K (fpi K)) / (p * q * fsqrt K (p + q))
  * fexp K (- (alpha * beta / p * ab2)) * fexp K (- (gamma * delta / q * cd2)).
Definition eri_T (A B C D : F * F * F) (alpha beta gamma delta : F) : F :=
  let p := alpha + beta in let q := gamma + delta in
  let Px := (alpha * fst (fst A) + beta * fst (fst B)) / p in
  let Py := (alpha * snd (fst A) + beta * snd (fst B)) / p in
  let Pz := (alpha * snd A + beta * snd B) / p in
  let Qx := (gamma * fst (fst C) + delta * fst (fst D)) / q in
  let Qy := (gamma * snd (fst C) + delta * snd (fst D)) / q in
  let Qz := (gamma * snd C + delta * snd D) / q in
  p * q / (p + q) * ((Px - Qx) * (Px - Qx) + (Py - Qy) * (Py - Qy) + (Pz - Qz) * (Pz - Qz)).

Theorem all_s_closed_form A B C D alpha beta gamma delta :
  eri_prim K 0 0 A B C D alpha beta gamma delta
  = [[[ [[[ fapx K (eri_pref A B C D alpha beta gamma delta
                    * fboys K 0 (eri_T A B C D alpha beta gamma delta)) ]]] ]]].
Proof.
  destruct A as [[Ax Ay] Az], B as [[Bx By] Bz], C as [[Cx Cy] Cz], D as [[Dx Dy] Dz].
  reflexivity.
Qed.

Section EriPrim.
Variables (Ax Ay Az Bx By Bz Cx Cy Cz Dx Dy Dz alpha beta gamma delta : F).
Let A := (Ax, Ay, Az). Let B := (Bx, By, Bz). Let C := (Cx, Cy, Cz). Let D := (Dx, Dy, Dz).
Let p := alpha + beta.
Let q := gamma + delta.
Let Px := (alpha * Ax + beta * Bx) / p. Let Py := (alpha * Ay + beta * By) / p.
Let Pz := (alpha * Az + beta * Bz) / p.
Let Qx := (gamma * Cx + delta * Dx) / q. Let Qy := (gamma * Cy + delta * Dy) / q.
Let Qz := (gamma * Cz + delta * Dz) / q.
(* beta_m = fapx (pref * F_m(T)) : the sequence the model feeds to the recursions *)
Definition eri_base (m : nat) : F :=
  fapx K (eri_pref A B C D alpha beta gamma delta * fboys K m (eri_T A B C D alpha beta gamma delta)).

Lemma eri_prim_tpass3 L Lc :
  eri_prim K L Lc A B C D alpha beta gamma delta
  = tpass3 L Lc (Qx - Cx + p / q * (Px - Ax)) (Qy - Cy + p / q * (Py - Ay)) (Qz - Cz + p / q * (Pz - Az))
      ((1 + 1) * q) (p / q)
      (vrr2_cube K L (Px - Ax) (Py - Ay) (Pz - Az) (Px - Qx) (Py - Qy) (Pz - Qz) ((1 + 1) * p)
         (p * q / (p + q) / p) eri_base).
Proof. reflexivity. Qed.

Theorem eri_prim_entry L Lc cx cy cz ax ay az :
  cx <= Lc -> cy <= Lc -> cz <= Lc -> ax + ay + az + cx + cy + cz <= L ->
  eget K (eri_prim K L Lc A B C D alpha beta gamma delta) cx cy cz ax ay az
  = E3 K p q (Px - Ax) (Py - Ay) (Pz - Az) (Qx - Cx) (Qy - Cy) (Qz - Cz)
      (fun ax ay az => V3 K p q (Px - Ax) (Py - Ay) (Pz - Az) (Px - Qx) (Py - Qy) (Pz - Qz)
                          eri_base ax ay az 0)
      cx cy cz ax ay az.
Proof.
  intros Hcx Hcy Hcz Hreg. unfold eget. rewrite eri_prim_tpass3.
  apply (tpass3_entry_region L Lc _ _ _ _ _ _
           (fun ax ay az => V3g (Px - Ax) (Py - Ay) (Pz - Az) (Px - Qx) (Py - Qy) (Pz - Qz)
                              ((1 + 1) * p) (p * q / (p + q) / p) eri_base ax ay az 0));
    try assumption.
  intros x y z Hxyz. now apply vrr2_cube_entry.
Qed.

(* The primitive integrals [a0|c0]^(0) of the model are Phi_0 (s^k |-> beta_k) of a polynomial in s
   whose value at every s is the exact integrand: the product over the three axes of the bivariate
   Gaussian moments with the covariance and the means of DESIGN.md 2.4. *)
Theorem eri_prim_correct L Lc cx cy cz ax ay az :
  p <> 0 -> q <> 0 -> p + q <> 0 -> 1 + 1 <> 0 ->
  cx <= Lc -> cy <= Lc -> cz <= Lc -> ax + ay + az + cx + cy + cz <= L ->
  let R := R3 K p q (Px - Ax) (Py - Ay) (Pz - Az) (Qx - Cx) (Qy - Cy) (Qz - Cz)
              (Px - Qx) (Py - Qy) (Pz - Qz) cx cy cz ax ay az in
  eget K (eri_prim K L Lc A B C D alpha beta gamma delta) cx cy cz ax ay az = Phi K eri_base 0 R
  /\ forall s, peval K R s
       = Ms K p q (Px - Ax) (Qx - Cx) (Px - Qx) s ax cx
         * Ms K p q (Py - Ay) (Qy - Cy) (Py - Qy) s ay cy
         * Ms K p q (Pz - Az) (Qz - Cz) (Pz - Qz) s az cz.
Proof.
  intros Hp Hq Hpq H2 Hcx Hcy Hcz Hreg R.
  rewrite eri_prim_entry by assumption.
  apply (eri_3d_correct K Kf p q _ _ _ _ _ _ _ _ _ Hp Hq Hpq H2).
Qed.
End EriPrim.

End Lists.

Section Whole.
Context {F : Type} (K : Fops F) (Kf : is_field K).
Add Field KFtw : Kf.
Local Open Scope F_scope.
Notation "0" := (f0 K) : F_scope.
Notation "1" := (f1 K) : F_scope.
Infix "+" := (fadd K) : F_scope.
Infix "*" := (fmul K) : F_scope.
Infix "-" := (fsub K) : F_scope.
Infix "/" := (fdiv K) : F_scope.
Notation padd := (padd K).
Notation pscale := (pscale K).
Notation Phi := (Phi K).
Notation peval := (peval K).

Definition tab6 := nat -> nat -> nat -> nat -> nat -> nat -> F.

Fixpoint Hp (ab : F) (T : nat -> list F) (b a : nat) : list F :=
  match b with O => T a | S b' => padd (Hp ab T b' (S a)) (pscale ab (Hp ab T b' a)) end.
Lemma Hp_linear (ell : list F -> F) :
  (forall f g, ell (padd f g) = ell f + ell g) -> (forall k f, ell (pscale k f) = k * ell f) ->
  forall ab T b a, ell (Hp ab T b a) = Hf K ab (fun j => ell (T j)) b a.
Proof. intros Ha Hs ab T. induction b as [|b IH]; intros a; cbn [Hp Hf]; [reflexivity|].
  rewrite Ha, Hs, !IH. reflexivity. Qed.

Lemma csum_map {A B} ws m (g : A -> B) (xs : list A) (f : B -> F) :
  csum K ws m (map g xs) f = csum K ws m xs (fun x => f (g x)).
Proof. unfold csum. revert ws. induction xs as [|x xs IH]; intros [|w ws]; cbn [map combine]; try reflexivity.
  cbn [FNum.fsum fold_right]. f_equal. apply IH. Qed.
Lemma csum_ext_in {A} ws m (xs : list A) (f f' : A -> F) :
  (forall x, In x xs -> f x = f' x) -> csum K ws m xs f = csum K ws m xs f'.
Proof. unfold csum. revert ws. induction xs as [|x xs IH]; intros [|w ws] H; cbn [map combine]; try reflexivity.
  cbn [FNum.fsum fold_right snd fst]. rewrite (H x) by (now left). f_equal.
  apply IH. intros y Hy. apply H. now right. Qed.

Lemma csum_linear (Lam : tab6 -> F) :
  (forall G G', (forall a b c d e g, G a b c d e g = G' a b c d e g) -> Lam G = Lam G') ->
  (forall G1 G2, Lam (fun a b c d e g => G1 a b c d e g + G2 a b c d e g) = Lam G1 + Lam G2) ->
  (forall G k, Lam (fun a b c d e g => G a b c d e g * k) = Lam G * k) ->
  forall {A} ws m (xs : list A) (f : A -> tab6),
  Lam (fun a b c d e g => csum K ws m xs (fun x => f x a b c d e g))
  = csum K ws m xs (fun x => Lam (f x)).
Proof.
  intros Hext Hadd Hsc A ws m xs f. unfold csum.
  assert (Hz : Lam (fun _ _ _ _ _ _ => 0) = 0).
  { rewrite (Hext _ (fun a b c d e g => (fun _ _ _ _ _ _ => 0) a b c d e g * 0))
      by (intros; cbv beta; ring). rewrite Hsc. ring. }
  revert ws. induction xs as [|x xs IH]; intros [|w ws]; cbn [map combine FNum.fsum fold_right]; try exact Hz.
  cbn [snd fst].
  rewrite (Hadd (fun a b c d e g => f x a b c d e g * wcoef K m w)
                (fun a b c d e g => fold_right (fadd K) 0
                   (map (fun wx : F * list F * A => f (snd wx) a b c d e g * wcoef K m (fst wx)) (combine ws xs)))).
  rewrite Hsc. f_equal. apply IH.
Qed.

Section ChanPoly.
Variables (abx aby abz cdx cdy cdz : F).
(* the polynomial counterpart of chan_val *)
Definition chan_poly (G : nat -> nat -> nat -> nat -> nat -> nat -> list F)
           (cx cy cz dx dy dz bx by_ bz ax ay az : nat) : list F :=
  Hp abz (fun az' => Hp aby (fun ay' => Hp abx (fun ax' =>
    Hp cdz (fun cz' => Hp cdy (fun cy' => Hp cdx (fun cx' => G cx' cy' cz' ax' ay' az') dx cx) dy cy) dz cz)
    bx ax) by_ ay) bz az.

Lemma chan_poly_linear (ell : list F -> F) :
  (forall f g, ell (padd f g) = ell f + ell g) -> (forall k f, ell (pscale k f) = k * ell f) ->
  forall G cx cy cz dx dy dz bx by_ bz ax ay az,
  ell (chan_poly G cx cy cz dx dy dz bx by_ bz ax ay az)
  = chan_val K abx aby abz cdx cdy cdz (fun cx' cy' cz' ax' ay' az' => ell (G cx' cy' cz' ax' ay' az'))
             cx cy cz dx dy dz bx by_ bz ax ay az.
Proof.
  intros Ha Hs G cx cy cz dx dy dz bx by_ bz ax ay az. unfold chan_poly, chan_val, H3g.
  rewrite (Hp_linear ell Ha Hs). apply (Hf_ext K). intros az'.
  rewrite (Hp_linear ell Ha Hs). apply (Hf_ext K). intros ay'.
  rewrite (Hp_linear ell Ha Hs). apply (Hf_ext K). intros ax'.
  rewrite (Hp_linear ell Ha Hs). apply (Hf_ext K). intros cz'.
  rewrite (Hp_linear ell Ha Hs). apply (Hf_ext K). intros cy'.
  rewrite (Hp_linear ell Ha Hs). reflexivity.
Qed.

Lemma Hf_factor ab (T g : nat -> F) k b a : (forall j, T j = g j * k) -> Hf K ab T b a = Hf K ab g b a * k.
Proof. intros H. rewrite (Hf_ext K ab T (fun j => g j * k) H). apply (Hf_scale K Kf). Qed.

(* per-axis four-index quantity: HRR on (a, b) of HRR on (c, d) *)
Definition hh (ab cd : F) (g : nat -> nat -> F) (a b c d : nat) : F :=
  Hf K ab (fun a' => Hf K cd (fun c' => g a' c') d c) b a.

(* hh is characterised by: hh a 0 c 0 = g a c and the two rules "(x-B) = (x-A) + AB", "(x-D) = (x-C) + CD" *)
Lemma hh_00 ab cd g a c : hh ab cd g a 0 c 0 = g a c.
Proof. reflexivity. Qed.
Lemma hh_Sb ab cd g a b c d : hh ab cd g a (S b) c d = hh ab cd g (S a) b c d + ab * hh ab cd g a b c d.
Proof. reflexivity. Qed.
Lemma hh_Sd ab cd g a b c d : hh ab cd g a b c (S d) = hh ab cd g a b (S c) d + cd * hh ab cd g a b c d.
Proof.
  unfold hh. cbn [Hf].
  rewrite (Hf_ext K ab (fun a' => Hf K cd (fun c' => g a' c') d (S c) + cd * Hf K cd (fun c' => g a' c') d c)
                       (fun a' => Hf K cd (fun c' => g a' c') d (S c) + Hf K cd (fun c' => g a' c') d c * cd))
    by (intros; ring).
  rewrite (Hf_add K Kf ab (fun a' => Hf K cd (fun c' => g a' c') d (S c))
                          (fun a' => Hf K cd (fun c' => g a' c') d c * cd)).
  rewrite (Hf_scale K Kf). ring.
Qed.

Lemma H3g_product ex ey ez (fx fy fz : nat -> F) bx by_ bz ax ay az :
  H3g K ex ey ez (fun x y z => fx x * fy y * fz z) bx by_ bz ax ay az
  = Hf K ex fx bx ax * Hf K ey fy by_ ay * Hf K ez fz bz az.
Proof.
  unfold H3g.
  rewrite (Hf_factor ez _ fz (Hf K ex fx bx ax * Hf K ey fy by_ ay)); [ring|]. intros z.
  rewrite (Hf_factor ey _ fy (Hf K ex fx bx ax * fz z)); [ring|]. intros y.
  rewrite (Hf_factor ex _ fx (fy y * fz z)); [ring|]. intros x. ring.
Qed.
Lemma chan_val_product (gx gy gz : nat -> nat -> F) cx cy cz dx dy dz bx by_ bz ax ay az :
  chan_val K abx aby abz cdx cdy cdz
    (fun cx' cy' cz' ax' ay' az' => gx ax' cx' * gy ay' cy' * gz az' cz')
    cx cy cz dx dy dz bx by_ bz ax ay az
  = hh abx cdx gx ax bx cx dx * hh aby cdy gy ay by_ cy dy * hh abz cdz gz az bz cz dz.
Proof.
  unfold chan_val, hh. rewrite <- H3g_product. apply H3g_local. intros x y z _ _ _.
  apply (H3g_product cdx cdy cdz (gx x) (gy y) (gz z)).
Qed.

Lemma chan_val_ext (G G' : tab6) cx cy cz dx dy dz bx by_ bz ax ay az :
  (forall cx' cy' cz' ax' ay' az', G cx' cy' cz' ax' ay' az' = G' cx' cy' cz' ax' ay' az') ->
  chan_val K abx aby abz cdx cdy cdz G cx cy cz dx dy dz bx by_ bz ax ay az
  = chan_val K abx aby abz cdx cdy cdz G' cx cy cz dx dy dz bx by_ bz ax ay az.
Proof.
  intros H. unfold chan_val. apply H3g_local. intros x y z _ _ _.
  apply H3g_local. intros x' y' z' _ _ _. apply H.
Qed.
Lemma chan_val_add (G1 G2 : tab6) cx cy cz dx dy dz bx by_ bz ax ay az :
  chan_val K abx aby abz cdx cdy cdz
    (fun cx' cy' cz' ax' ay' az' => G1 cx' cy' cz' ax' ay' az' + G2 cx' cy' cz' ax' ay' az')
    cx cy cz dx dy dz bx by_ bz ax ay az
  = chan_val K abx aby abz cdx cdy cdz G1 cx cy cz dx dy dz bx by_ bz ax ay az
    + chan_val K abx aby abz cdx cdy cdz G2 cx cy cz dx dy dz bx by_ bz ax ay az.
Proof.
  unfold chan_val, H3g.
  repeat (rewrite <- (Hf_add K Kf); apply (Hf_ext K); intro).
  reflexivity.
Qed.
Lemma chan_val_scale (G : tab6) k cx cy cz dx dy dz bx by_ bz ax ay az :
  chan_val K abx aby abz cdx cdy cdz
    (fun cx' cy' cz' ax' ay' az' => G cx' cy' cz' ax' ay' az' * k)
    cx cy cz dx dy dz bx by_ bz ax ay az
  = chan_val K abx aby abz cdx cdy cdz G cx cy cz dx dy dz bx by_ bz ax ay az * k.
Proof.
  unfold chan_val, H3g.
  repeat (rewrite <- (Hf_scale K Kf); apply (Hf_ext K); intro).
  reflexivity.
Qed.
Lemma chan_val_csum {A} ws m (xs : list A) (f : A -> tab6) cx cy cz dx dy dz bx by_ bz ax ay az :
  chan_val K abx aby abz cdx cdy cdz (fun a b c d e g => csum K ws m xs (fun x => f x a b c d e g))
    cx cy cz dx dy dz bx by_ bz ax ay az
  = csum K ws m xs (fun x => chan_val K abx aby abz cdx cdy cdz (f x) cx cy cz dx dy dz bx by_ bz ax ay az).
Proof.
  apply (csum_linear (fun G => chan_val K abx aby abz cdx cdy cdz G cx cy cz dx dy dz bx by_ bz ax ay az)).
  - intros G G' H. now apply chan_val_ext.
  - intros G1 G2. apply chan_val_add.
  - intros G k. apply chan_val_scale.
Qed.
Lemma chan_val_local (G G' : tab6) cx cy cz dx dy dz bx by_ bz ax ay az :
  (forall cx' cy' cz' ax' ay' az',
     cx <= cx' <= cx + dx -> cy <= cy' <= cy + dy -> cz <= cz' <= cz + dz ->
     ax <= ax' <= ax + bx -> ay <= ay' <= ay + by_ -> az <= az' <= az + bz ->
     G cx' cy' cz' ax' ay' az' = G' cx' cy' cz' ax' ay' az') ->
  chan_val K abx aby abz cdx cdy cdz G cx cy cz dx dy dz bx by_ bz ax ay az
  = chan_val K abx aby abz cdx cdy cdz G' cx cy cz dx dy dz bx by_ bz ax ay az.
Proof.
  intros H. unfold chan_val. apply H3g_local. intros x y z Hx Hy Hz.
  apply H3g_local. intros x' y' z' Hx' Hy' Hz'. now apply H.
Qed.
End ChanPoly.

Section Final.
Variables (s1 s2 s3 s4 : shell F) (m1 i1 m2 i2 m3 i3 m4 i4 : nat).
Let c1 := nth i1 (comps_of s1) (0, 0, 0)%nat.
Let c2 := nth i2 (comps_of s2) (0, 0, 0)%nat.
Let c3 := nth i3 (comps_of s3) (0, 0, 0)%nat.
Let c4 := nth i4 (comps_of s4) (0, 0, 0)%nat.
Let abx := s_x s1 - s_x s2. Let aby := s_y s1 - s_y s2. Let abz := s_z s1 - s_z s2.
Let cdx := s_x s3 - s_x s4. Let cdy := s_y s3 - s_y s4. Let cdz := s_z s3 - s_z s4.

(* weighted centre along one axis *)
Definition wctr (a b x y : F) : F := (a * x + b * y) / (a + b).

(* the s-polynomial of the primitive quartet (alpha beta | gamma delta) for this entry *)
Definition R4 (alpha beta gamma delta : F) : list F :=
  let p := alpha + beta in let q := gamma + delta in
  let Px := wctr alpha beta (s_x s1) (s_x s2) in let Py := wctr alpha beta (s_y s1) (s_y s2) in
  let Pz := wctr alpha beta (s_z s1) (s_z s2) in
  let Qx := wctr gamma delta (s_x s3) (s_x s4) in let Qy := wctr gamma delta (s_y s3) (s_y s4) in
  let Qz := wctr gamma delta (s_z s3) (s_z s4) in
  chan_poly abx aby abz cdx cdy cdz
    (R3 K p q (Px - s_x s1) (Py - s_y s1) (Pz - s_z s1) (Qx - s_x s3) (Qy - s_y s3) (Qz - s_z s3)
        (Px - Qx) (Py - Qy) (Pz - Qz))
    (fst (fst c3)) (snd (fst c3)) (snd c3) (fst (fst c4)) (snd (fst c4)) (snd c4)
    (fst (fst c2)) (snd (fst c2)) (snd c2) (fst (fst c1)) (snd (fst c1)) (snd c1).

(* the exact per-axis integrand at s: E[(y1+a1)^a (y1+a1+AB)^b (y2+c1)^c (y2+c1+CD)^d] *)
Definition M4 (alpha beta gamma delta : F) (xa xb xc xd : F) (s : F) (a b c d : nat) : F :=
  let p := alpha + beta in let q := gamma + delta in
  let P := wctr alpha beta xa xb in let Q := wctr gamma delta xc xd in
  hh (xa - xb) (xc - xd) (fun a' c' => Ms K p q (P - xa) (Q - xc) (P - Q) s a' c') a b c d.

(* the value of the s-polynomial of one primitive quartet (2 and the exponent sums must be non-zero) *)
Theorem R4_eval alpha beta gamma delta s :
  1 + 1 <> 0 -> alpha + beta <> 0 -> gamma + delta <> 0 -> (alpha + beta) + (gamma + delta) <> 0 ->
  peval (R4 alpha beta gamma delta) s
  = M4 alpha beta gamma delta (s_x s1) (s_x s2) (s_x s3) (s_x s4) s
       (fst (fst c1)) (fst (fst c2)) (fst (fst c3)) (fst (fst c4))
    * M4 alpha beta gamma delta (s_y s1) (s_y s2) (s_y s3) (s_y s4) s
       (snd (fst c1)) (snd (fst c2)) (snd (fst c3)) (snd (fst c4))
    * M4 alpha beta gamma delta (s_z s1) (s_z s2) (s_z s3) (s_z s4) s
       (snd c1) (snd c2) (snd c3) (snd c4).
Proof.
  intros H2 Hp Hq Hpq. unfold R4. cbv zeta.
  rewrite (chan_poly_linear abx aby abz cdx cdy cdz (fun f => peval f s)
             (fun f g => peval_padd K Kf f g s) (fun k f => peval_pscale K Kf k f s)).
  etransitivity.
  { apply chan_val_ext. intros cx' cy' cz' ax' ay' az'.
    apply (proj2 (eri_3d_correct K Kf _ _ _ _ _ _ _ _ _ _ _ Hp Hq Hpq H2 (fun _ => 0) cx' cy' cz' ax' ay' az')). }
  rewrite chan_val_product. reflexivity.
Qed.

Hypothesis Hapx : forall x, fapx K x = x.
Hypothesis H2 : 1 + 1 <> 0.
Hypothesis Hp : forall alpha beta, In alpha (s_exps s1) -> In beta (s_exps s2) -> alpha + beta <> 0.
Hypothesis Hq : forall gamma delta, In gamma (s_exps s3) -> In delta (s_exps s4) -> gamma + delta <> 0.
Hypothesis Hpq : forall alpha beta gamma delta, In alpha (s_exps s1) -> In beta (s_exps s2) ->
  In gamma (s_exps s3) -> In delta (s_exps s4) -> (alpha + beta) + (gamma + delta) <> 0.
Hypothesis Hm1 : m1 < nseg s1. Hypothesis Hm2 : m2 < nseg s2.
Hypothesis Hm3 : m3 < nseg s3. Hypothesis Hm4 : m4 < nseg s4.
Hypothesis Hi1 : i1 < length (comps_of s1). Hypothesis Hi2 : i2 < length (comps_of s2).
Hypothesis Hi3 : i3 < length (comps_of s3). Hypothesis Hi4 : i4 < length (comps_of s4).
Hypothesis Hc1 : compsum c1 <= s_l s1. Hypothesis Hc2 : compsum c2 <= s_l s2.
Hypothesis Hc3 : compsum c3 <= s_l s3. Hypothesis Hc4 : compsum c4 <= s_l s4.

Theorem two_elec_correct :
  nth i4 (nth m4 (nth i3 (nth m3 (nth i2 (nth m2 (nth i1 (nth m1 (eri_block K s1 s2 s3 s4)
    []) []) []) []) []) []) []) 0
  = csum K (wts K s1) m1 (s_exps s1) (fun alpha =>
      csum K (wts K s2) m2 (s_exps s2) (fun beta =>
        csum K (wts K s3) m3 (s_exps s3) (fun gamma =>
          csum K (wts K s4) m4 (s_exps s4) (fun delta =>
            Phi (eri_base K (s_x s1) (s_y s1) (s_z s1) (s_x s2) (s_y s2) (s_z s2)
                            (s_x s3) (s_y s3) (s_z s3) (s_x s4) (s_y s4) (s_z s4)
                            alpha beta gamma delta) 0 (R4 alpha beta gamma delta)))))
    * inv_sqrt_df K c1 * inv_sqrt_df K c2 * inv_sqrt_df K c3 * inv_sqrt_df K c4
  /\ forall alpha beta gamma delta s,
       In alpha (s_exps s1) -> In beta (s_exps s2) -> In gamma (s_exps s3) -> In delta (s_exps s4) ->
       peval (R4 alpha beta gamma delta) s
       = M4 alpha beta gamma delta (s_x s1) (s_x s2) (s_x s3) (s_x s4) s
            (fst (fst c1)) (fst (fst c2)) (fst (fst c3)) (fst (fst c4))
         * M4 alpha beta gamma delta (s_y s1) (s_y s2) (s_y s3) (s_y s4) s
            (snd (fst c1)) (snd (fst c2)) (snd (fst c3)) (snd (fst c4))
         * M4 alpha beta gamma delta (s_z s1) (s_z s2) (s_z s3) (s_z s4) s
            (snd c1) (snd c2) (snd c3) (snd c4).
Proof.
  split.
  - rewrite (eri_block_entry K s1 s2 s3 s4 m1 i1 m2 i2 m3 i3 m4 i4) by assumption.
    fold c1 c2 c3 c4. fold abx aby abz cdx cdy cdz.
    f_equal. f_equal. f_equal. f_equal.
    unfold eri_contract, eri_prims. cbv zeta.
    rewrite chan_val_csum, csum_map. apply csum_ext_in. intros alpha Ha.
    rewrite chan_val_csum, csum_map. apply csum_ext_in. intros beta Hb.
    rewrite chan_val_csum, csum_map. apply csum_ext_in. intros gamma Hg.
    rewrite chan_val_csum, csum_map. apply csum_ext_in. intros delta Hd.
    unfold R4. cbv zeta.
    rewrite (chan_poly_linear abx aby abz cdx cdy cdz (Phi _ 0) (Phi_padd K Kf _ 0)
               (fun k f => Phi_pscale K Kf _ 0 k f)).
    apply chan_val_local.
    intros cx' cy' cz' ax' ay' az' Hcx Hcy Hcz Hax Hay Haz.
    rewrite Hapx. unfold coord3, wctr. unfold compsum in *.
    pose proof (eri_prim_correct K Kf (s_x s1) (s_y s1) (s_z s1) (s_x s2) (s_y s2) (s_z s2)
                  (s_x s3) (s_y s3) (s_z s3) (s_x s4) (s_y s4) (s_z s4) alpha beta gamma delta
                  (s_l s1 + s_l s2 + s_l s3 + s_l s4) (s_l s3 + s_l s4) cx' cy' cz' ax' ay' az'
                  (Hp _ _ Ha Hb) (Hq _ _ Hg Hd) (Hpq _ _ _ _ Ha Hb Hg Hd) H2) as E.
    cbv zeta in E. apply E; lia.
  - intros alpha beta gamma delta s Ha Hb Hg Hd. apply R4_eval; auto.
Qed.
End Final.
End Whole.

From Coq Require Import QArith Qcanon.
Definition KQ4 : Fops Qc :=
  QcK true (Q2Qc 3) (fun x => x) (fun x => x) (fun x => x)
      (fun m _ => qc_of 1 (Pos.of_nat (2 * m + 1))).       (* an arbitrary "Boys" sequence 1/(2m+1) *)
Lemma KQ4_field : is_field KQ4. Proof. apply QcK_field. Qed.

(* p = 3/2, q = 2 *)
Example eri_hyps_ex :
  qc_of 3 2 <> f0 KQ4 /\ qc_of 2 1 <> f0 KQ4 /\ fadd KQ4 (qc_of 3 2) (qc_of 2 1) <> f0 KQ4
  /\ fadd KQ4 (f1 KQ4) (f1 KQ4) <> f0 KQ4.
Proof. repeat split; apply qc_neq; vm_compute; reflexivity. Qed.

(* a concrete primitive quartet: the model entry [xz, 0 | x, 0] of a (d s | p s)-type table equals
   Phi_0 of the polynomial of eri_prim_correct, both sides computed *)
Example eri_prim_correct_ex :
  let A := (qc_of 1 2, qc_of 0 1, qc_of (-1) 4) in let B := (qc_of 0 1, qc_of 1 1, qc_of 1 2) in
  let C := (qc_of (-1) 1, qc_of 1 4, qc_of 0 1) in let D := (qc_of 3 4, qc_of (-1) 2, qc_of 1 1) in
  let al := qc_of 1 2 in let be := qc_of 1 1 in let ga := qc_of 3 2 in let de := qc_of 1 2 in
  let p := fadd KQ4 al be in let q := fadd KQ4 ga de in
  let ctr := fun a b x y => fdiv KQ4 (fadd KQ4 (fmul KQ4 a x) (fmul KQ4 b y)) (fadd KQ4 a b) in
  let Px := ctr al be (qc_of 1 2) (qc_of 0 1) in let Py := ctr al be (qc_of 0 1) (qc_of 1 1) in
  let Pz := ctr al be (qc_of (-1) 4) (qc_of 1 2) in
  let Qx := ctr ga de (qc_of (-1) 1) (qc_of 3 4) in let Qy := ctr ga de (qc_of 1 4) (qc_of (-1) 2) in
  let Qz := ctr ga de (qc_of 0 1) (qc_of 1 1) in
  eget KQ4 (eri_prim KQ4 3 1 A B C D al be ga de) 1 0 0 1 0 1
  = Phi KQ4 (eri_base KQ4 (qc_of 1 2) (qc_of 0 1) (qc_of (-1) 4) (qc_of 0 1) (qc_of 1 1) (qc_of 1 2)
                          (qc_of (-1) 1) (qc_of 1 4) (qc_of 0 1) (qc_of 3 4) (qc_of (-1) 2) (qc_of 1 1)
                          al be ga de) 0
        (R3 KQ4 p q (fsub KQ4 Px (qc_of 1 2)) (fsub KQ4 Py (qc_of 0 1)) (fsub KQ4 Pz (qc_of (-1) 4))
            (fsub KQ4 Qx (qc_of (-1) 1)) (fsub KQ4 Qy (qc_of 1 4)) (fsub KQ4 Qz (qc_of 0 1))
            (fsub KQ4 Px Qx) (fsub KQ4 Py Qy) (fsub KQ4 Pz Qz) 1 0 0 1 0 1).
Proof. apply Qc_is_canon. vm_compute. reflexivity. Qed.

(* a concrete quartet of shells (p d | s p), two primitives each, meeting every hypothesis of
   two_elec_correct for the entry [0][1][0][2][0][0][0][1] *)
Definition ex_shell (l : nat) (x y : Qc) (e1 e2 : Qc) : shell Qc :=
  mkShell Qc l x y (qc_of 0 1) [e1; e2] [[qc_of 1 1]; [qc_of 1 2]] false [] [].
Definition ex_s1 := ex_shell 1 (qc_of 0 1) (qc_of 1 2) (qc_of 1 1) (qc_of 1 2).
Definition ex_s2 := ex_shell 2 (qc_of 1 1) (qc_of 0 1) (qc_of 3 2) (qc_of 1 4).
Definition ex_s3 := ex_shell 0 (qc_of (-1) 2) (qc_of 1 1) (qc_of 2 1) (qc_of 1 2).
Definition ex_s4 := ex_shell 1 (qc_of 1 4) (qc_of (-1) 1) (qc_of 1 1) (qc_of 3 4).
Example two_elec_hyps_ex :
  (forall x, fapx KQ4 x = x) /\ fadd KQ4 (f1 KQ4) (f1 KQ4) <> f0 KQ4
  /\ (forall alpha beta, In alpha (s_exps ex_s1) -> In beta (s_exps ex_s2) -> fadd KQ4 alpha beta <> f0 KQ4)
  /\ (forall gamma delta, In gamma (s_exps ex_s3) -> In delta (s_exps ex_s4) -> fadd KQ4 gamma delta <> f0 KQ4)
  /\ (forall alpha beta gamma delta, In alpha (s_exps ex_s1) -> In beta (s_exps ex_s2) ->
        In gamma (s_exps ex_s3) -> In delta (s_exps ex_s4) ->
        fadd KQ4 (fadd KQ4 alpha beta) (fadd KQ4 gamma delta) <> f0 KQ4)
  /\ (0 < nseg ex_s1 /\ 0 < nseg ex_s2 /\ 0 < nseg ex_s3 /\ 0 < nseg ex_s4)%nat
  /\ (1 < length (comps_of ex_s1) /\ 2 < length (comps_of ex_s2)
      /\ 0 < length (comps_of ex_s3) /\ 1 < length (comps_of ex_s4))%nat
  /\ (compsum (nth 1 (comps_of ex_s1) (0, 0, 0)) <= s_l ex_s1
      /\ compsum (nth 2 (comps_of ex_s2) (0, 0, 0)) <= s_l ex_s2
      /\ compsum (nth 0 (comps_of ex_s3) (0, 0, 0)) <= s_l ex_s3
      /\ compsum (nth 1 (comps_of ex_s4) (0, 0, 0)) <= s_l ex_s4)%nat.
Proof.
  split; [reflexivity|]. split; [apply qc_neq; vm_compute; reflexivity|].
  split; [intros alpha beta [<-|[<-|[]]] [<-|[<-|[]]]; apply qc_neq; reflexivity|].
  split; [intros gamma delta [<-|[<-|[]]] [<-|[<-|[]]]; apply qc_neq; reflexivity|].
  split; [intros alpha beta gamma delta [<-|[<-|[]]] [<-|[<-|[]]] [<-|[<-|[]]] [<-|[<-|[]]];
          apply qc_neq; reflexivity|].
  split; [vm_compute; repeat split; repeat constructor|].
  split; vm_compute; repeat split; repeat constructor.
Qed.
