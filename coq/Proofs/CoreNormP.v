(* Proofs/CoreNormP.v — the primitive normalisation constant of contractions.py:455-461
   ([norm_prim] of Model/MomentInt.v) normalises the self-overlap spec to 1.

   Part 1 (any field): on one centre (A = B, alpha = beta) the 1-D spec integral is a pure Gaussian
   moment,  T1 A A C alpha alpha 0 i j = m_{i+j},  with  m_{2n} = (2n-1)!! v^n,  m_{2n+1} = 0,
   v = 1/(4 alpha).
   Part 2 (the reals, [RK] of Proofs/ScreeningP.v: real sqrt, exp, PI):
     norm_prim_sq          N(alpha,a)^2 (pi/(2 alpha))^{3/2} prod_i (2a_i-1)!!/(4 alpha)^{a_i} = 1
     norm_prim_self_overlap N(alpha,a)^2 x ovl_prim s s a a alpha alpha = 1     (the spec of Proofs/CoreBlockP.v)
   for every alpha > 0 and every component a with a_x+a_y+a_z = l.  x^{3/2} is written x * sqrt x. *)
From Coq Require Import List Arith Lia Field.
From GB Require Import Base.Field Base.FNum Base.Tables Gauss.Moment1D Model.Shell Model.MomentInt
  Proofs.CoreSumP Proofs.CoreBlockP.
Import ListNotations.

Section Generic.
Context {F : Type} (K : Fops F) (Kf : is_field K).
Add Field KFn1 : Kf.
Local Open Scope F_scope.
Notation "0" := (f0 K) : F_scope.
Notation "1" := (f1 K) : F_scope.
Infix "+" := (fadd K) : F_scope.
Infix "*" := (fmul K) : F_scope.
Infix "-" := (fsub K) : F_scope.
Infix "/" := (fdiv K) : F_scope.

Section Moments.
Variable v : F.

Lemma mom_even_odd n :
  mom K v (2 * n) = fdf_odd K n * fpow K v n /\ mom K v (S (2 * n)) = 0.
Proof.
  induction n as [|n [IHe IHo]].
  - split; [cbn [Nat.mul fdf_odd fpow]; rewrite mom_0; ring | apply mom_1].
  - replace (2 * S n)%nat with (S (S (2 * n))) by lia. split.
    + rewrite mom_SS, IHe. cbn [fdf_odd fpow].
      replace (2 * n + 1)%nat with (S (2 * n)) by lia. ring.
    + rewrite mom_SS, IHo. ring.
Qed.

(* both functions on the Gaussian centre: no linear factor shifts, the integral is the bare moment *)
Lemma S3_centre c n i j : S3 K v 0 0 c n 0 i j = mom K v (n + i + j).
Proof.
  revert n j. induction i as [|i IHi]; intros n j.
  - revert n. induction j as [|j IHj]; intros n.
    + unfold S3, g3. cbn [plin_pow Eaux]. rewrite !Nat.add_0_r. ring.
    + rewrite (S3_Sj K Kf), (IHj n), (IHj (S n)).
      replace (S n + 0 + j)%nat with (n + 0 + S j)%nat by lia. ring.
  - rewrite (S3_Si K Kf), (IHi n j), (IHi (S n) j).
    replace (S n + i + j)%nat with (n + S i + j)%nat by lia. ring.
Qed.

End Moments.

Theorem T1_self (A C alpha : F) i j : psum K alpha alpha <> 0 ->
  T1 K A A C alpha alpha 0 i j = mom K (1 / twop K alpha alpha) (i + j).
Proof.
  intros Hp. unfold T1, T3.
  assert (E : PA K A A alpha alpha = 0).
  { unfold PA, Pw. unfold psum in *. field. exact Hp. }
  assert (E' : PB K A A alpha alpha = 0) by exact E.
  rewrite E, E'. now rewrite S3_centre.
Qed.

Corollary T1_self_diag (A C alpha : F) n : psum K alpha alpha <> 0 ->
  T1 K A A C alpha alpha 0 n n = fdf_odd K n * fpow K (1 / twop K alpha alpha) n.
Proof.
  intros Hp. rewrite T1_self by exact Hp. replace (n + n)%nat with (2 * n)%nat by lia.
  apply mom_even_odd.
Qed.
End Generic.

From Coq Require Import Reals Lra Psatz RealField.
From GB Require Import Proofs.ScreeningP.
Local Open Scope R_scope.

Lemma fpow_R x n : FNum.fpow RK x n = x ^ n.
Proof. induction n as [|n IH]; cbn [FNum.fpow pow]; [reflexivity|]. rewrite IH. reflexivity. Qed.

Lemma ofnat_R n : ofnat RK n = INR n.
Proof.
  induction n as [|n IH]; [reflexivity|]. cbn [ofnat]. rewrite IH, S_INR.
  change (1 + INR n = INR n + 1). ring.
Qed.

Lemma fdf_odd_pos n : 0 < fdf_odd RK n.
Proof.
  induction n as [|n IH]; cbn [fdf_odd].
  - change (0 < 1). lra.
  - change (0 < ofnat RK (2 * n + 1) * fdf_odd RK n). rewrite ofnat_R.
    apply Rmult_lt_0_compat; [|exact IH]. apply lt_0_INR. lia.
Qed.

Definition pow32 (x : R) : R := x * sqrt x.

Lemma pow34_sq x : 0 <= x -> pow34 RK x * pow34 RK x = pow32 x.
Proof.
  intros Hx. unfold pow34, pow32. cbn [fmul fsqrt RK].
  set (r := sqrt (sqrt x)).
  assert (Er : r * r = sqrt x) by (apply sqrt_sqrt, sqrt_pos).
  assert (Es : sqrt x * sqrt x = x) by (apply sqrt_sqrt, Hx).
  replace (r * r * r * (r * r * r)) with ((r * r) * (r * r) * (r * r)) by ring.
  rewrite Er, Es. reflexivity.
Qed.

Lemma pow32_inv x : 0 < x -> pow32 x * pow32 (/ x) = 1.
Proof.
  intros Hx. unfold pow32. rewrite sqrt_inv.
  assert (0 < sqrt x) by (now apply sqrt_lt_R0). field. split; lra.
Qed.

Definition dfprod (c : Shell.comp) : R := fdf_odd RK (cx c) * fdf_odd RK (cy c) * fdf_odd RK (cz c).

Lemma norm_prim_sq_raw l c alpha : 0 < alpha ->
  norm_prim RK l c alpha * norm_prim RK l c alpha
  = pow32 (2 * alpha / PI) * (4 * alpha) ^ l / dfprod c.
Proof.
  intros Ha. destruct c as [[ax ay] az]. unfold norm_prim, dfprod, cx, cy, cz. cbn [fst snd].
  cbn [fapx fmul fdiv fsqrt fadd f1 fpi RK].
  rewrite fpow_R.
  replace ((1 + 1) * alpha / PI) with (2 * alpha / PI) by (field; apply PI_neq0).
  replace ((1 + 1 + 1 + 1) * alpha) with (4 * alpha) by ring.
  set (x := 2 * alpha / PI).
  assert (Hx : 0 <= x).
  { unfold x. apply Rlt_le. apply Rdiv_lt_0_compat; [lra|apply PI_RGT_0]. }
  set (P := (4 * alpha) ^ l).
  assert (HP : 0 <= P) by (unfold P; apply pow_le; lra).
  set (Dd := fdf_odd RK ax * fdf_odd RK ay * fdf_odd RK az).
  assert (HD : 0 < Dd).
  { unfold Dd. repeat apply Rmult_lt_0_compat; apply fdf_odd_pos. }
  assert (HsD : 0 < sqrt Dd) by (now apply sqrt_lt_R0).
  replace (pow34 RK x * sqrt P / sqrt Dd * (pow34 RK x * sqrt P / sqrt Dd))
    with ((pow34 RK x * pow34 RK x) * (sqrt P * sqrt P) / (sqrt Dd * sqrt Dd)) by (field; lra).
  rewrite (pow34_sq x Hx), (sqrt_sqrt P HP), (sqrt_sqrt Dd (Rlt_le _ _ HD)). reflexivity.
Qed.

Theorem norm_prim_sq (l : nat) (c : Shell.comp) (alpha : R) :
  0 < alpha -> (cx c + cy c + cz c)%nat = l ->
  norm_prim RK l c alpha * norm_prim RK l c alpha
  * pow32 (PI / (2 * alpha))
  * (fdf_odd RK (cx c) / (4 * alpha) ^ cx c * (fdf_odd RK (cy c) / (4 * alpha) ^ cy c)
     * (fdf_odd RK (cz c) / (4 * alpha) ^ cz c)) = 1.
Proof.
  intros Ha Hl. rewrite (norm_prim_sq_raw l c alpha Ha). subst l. rewrite !pow_add.
  unfold dfprod.
  pose proof (fdf_odd_pos (cx c)). pose proof (fdf_odd_pos (cy c)). pose proof (fdf_odd_pos (cz c)).
  assert (H4 : forall n, (4 * alpha) ^ n <> 0) by (intros n; apply pow_nonzero; lra).
  pose proof PI_RGT_0 as Hpi.
  assert (Hx : 0 < 2 * alpha / PI) by (apply Rdiv_lt_0_compat; lra).
  replace (PI / (2 * alpha)) with (/ (2 * alpha / PI)) by (field; split; lra).
  pose proof (pow32_inv _ Hx) as E.
  set (p := pow32 (2 * alpha / PI)) in *. set (q := pow32 (/ (2 * alpha / PI))) in *.
  transitivity (p * q); [|exact E].
  field. repeat split; try apply H4; lra.
Qed.

(* ... and that closed form is the overlap spec of the primitive with itself *)
Lemma base_self A alpha : 0 < alpha -> base RK A A alpha alpha = sqrt (PI / (2 * alpha)).
Proof.
  intros Ha. unfold base, hmean, psum.
  cbn [fmul fdiv fsqrt fadd fsub fopp fexp fpi RK].
  replace (- (alpha * alpha / (alpha + alpha) * ((A - A) * (A - A)))) with 0 by (field; lra).
  rewrite exp_0. replace (alpha + alpha) with (2 * alpha) by ring. ring.
Qed.

Theorem ovl_prim_self (s : shell R) (c : Shell.comp) (alpha : R) : 0 < alpha ->
  ovl_prim RK s s c c alpha alpha
  = pow32 (PI / (2 * alpha))
    * (fdf_odd RK (cx c) / (4 * alpha) ^ cx c * (fdf_odd RK (cy c) / (4 * alpha) ^ cy c)
       * (fdf_odd RK (cz c) / (4 * alpha) ^ cz c)).
Proof.
  intros Ha. unfold ovl_prim, mom_prim, KAB. rewrite !base_self by exact Ha.
  assert (Hp : psum RK alpha alpha <> f0 RK).
  { unfold psum. change (alpha + alpha <> 0). lra. }
  rewrite !(T1_self_diag RK RK_field) by exact Hp.
  change (cx (0, 0, 0)%nat) with 0%nat. change (cy (0, 0, 0)%nat) with 0%nat.
  change (cz (0, 0, 0)%nat) with 0%nat.
  rewrite !fpow_R. unfold twop, psum.
  cbn [fmul fdiv fadd f1 RK].
  replace (1 / ((1 + 1) * (alpha + alpha))) with (/ (4 * alpha)) by (field; lra).
  rewrite !pow_inv.
  unfold pow32.
  assert (Hq : 0 <= PI / (2 * alpha)).
  { apply Rlt_le, Rdiv_lt_0_compat; [apply PI_RGT_0|lra]. }
  pose proof (sqrt_sqrt _ Hq) as Es. set (r := sqrt (PI / (2 * alpha))) in *.
  rewrite <- Es. unfold Rdiv. ring.
Qed.

Theorem norm_prim_self_overlap (s : shell R) (c : Shell.comp) (alpha : R) :
  0 < alpha -> (cx c + cy c + cz c)%nat = s_l s ->
  norm_prim RK (s_l s) c alpha * norm_prim RK (s_l s) c alpha * ovl_prim RK s s c c alpha alpha = 1.
Proof.
  intros Ha Hl. rewrite (ovl_prim_self s c alpha Ha).
  rewrite <- (norm_prim_sq (s_l s) c alpha Ha Hl). ring.
Qed.

(* the hypotheses are satisfiable: a d-type component at exponent 3/2 *)
Example norm_prim_self_overlap_ex :
  let s := mkShell R 2 0 0 0 [3 / 2] [[1]] false [] [] in
  norm_prim RK 2 (1, 1, 0)%nat (3 / 2) * norm_prim RK 2 (1, 1, 0)%nat (3 / 2)
  * ovl_prim RK s s (1, 1, 0)%nat (1, 1, 0)%nat (3 / 2) (3 / 2) = 1.
Proof.
  intros s. apply (norm_prim_self_overlap s (1, 1, 0)%nat (3 / 2)); [lra|reflexivity].
Qed.

(* the hypotheses of the block theorems hold for every pair of real shells with positive exponents,
   and the prefactor KAB is the textbook (pi/p)^{3/2} exp(-mu |A-B|^2) *)
Lemma two_neq_0_R : fadd RK (f1 RK) (f1 RK) <> f0 RK.
Proof. change (1 + 1 <> 0). lra. Qed.

Lemma fapx_id_R : forall x : R, fapx RK x = x.
Proof. reflexivity. Qed.

Lemma exps_ok_pos_R (sa sb : shell R) :
  (forall x, In x (s_exps sa) -> 0 < x) -> (forall x, In x (s_exps sb) -> 0 < x) -> exps_ok RK sa sb.
Proof.
  intros Ha Hb alpha beta Hia Hib. specialize (Ha _ Hia). specialize (Hb _ Hib).
  unfold psum. change (alpha + beta <> 0). lra.
Qed.

Theorem KAB_closed_form (sa sb : shell R) (alpha beta : R) : 0 < alpha -> 0 < beta ->
  KAB RK sa sb alpha beta
  = pow32 (PI / (alpha + beta))
    * exp (- (alpha * beta / (alpha + beta))
           * ((s_x sa - s_x sb) * (s_x sa - s_x sb) + (s_y sa - s_y sb) * (s_y sa - s_y sb)
              + (s_z sa - s_z sb) * (s_z sa - s_z sb))).
Proof.
  intros Ha Hb. unfold KAB, base, hmean, psum.
  cbn [fmul fdiv fsqrt fadd fsub fopp fexp fpi RK].
  assert (Hq : 0 <= PI / (alpha + beta)).
  { apply Rlt_le, Rdiv_lt_0_compat; [apply PI_RGT_0|lra]. }
  unfold pow32. pose proof (sqrt_sqrt _ Hq) as Es. set (r := sqrt (PI / (alpha + beta))) in *.
  rewrite <- Es.
  set (m := alpha * beta / (alpha + beta)).
  replace (- m * ((s_x sa - s_x sb) * (s_x sa - s_x sb) + (s_y sa - s_y sb) * (s_y sa - s_y sb)
                  + (s_z sa - s_z sb) * (s_z sa - s_z sb)))
    with (- (m * ((s_x sa - s_x sb) * (s_x sa - s_x sb))) + - (m * ((s_y sa - s_y sb) * (s_y sa - s_y sb)))
          + - (m * ((s_z sa - s_z sb) * (s_z sa - s_z sb)))) by ring.
  rewrite !exp_plus. ring.
Qed.
