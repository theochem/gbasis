(* Proofs/ContractionP.v — C13: contractions behave as the linear combinations they denote.

   Every block model contracts primitive quantities with the (K, M) coefficient matrix by finite sums
   over the (exponent, coefficient-row) pairs of a shell ([prims]): [ssum f ps m] is the sum over
   (alpha, row) in ps of f alpha * row[m].  Two relations say all that a block sees of the primitives:
     [sum_equiv], [shell_equiv]: no such sum tells the two apart (one column of a generalized shell,
       a permutation of the pairs, (alpha, r1), (alpha, r2) in place of (alpha, r1 + r2));
     [sum_lin], [shell_lin]: the sums are c1 x (those of u) + c2 x (those of v) (a sum of coefficient
       matrices, a multiple, one column scaled).
   Each kernel shape (the double sum [dsum] behind block_of: overlap, moments, differential operators,
   angular momentum; the evaluation block; the one- and two-electron Boys-type kernels, which contract
   before the horizontal recursion) has one congruence lemma for shell_equiv and one linearity lemma
   per shell position for shell_lin; the contraction norm 1/sqrt(self-overlap) turns a column factor k
   into k/|k|.  Generalized = segmented is then carried through the assembly (one-index for a whole
   basis, two-index for one pair of shells), the positive column scale through the two-index assembly
   with Overlap. *)
From Coq Require Import List Arith Lia Bool Field Permutation.
From GB Require Import Base.Field Base.FNum Base.Tables Base.Sums Base.Blocks Model.Shell Model.MomentInt
  Model.Spherical Model.Assembly Model.Overlap Model.DiffOp Model.OneElec Model.TwoElec Model.Eval
  Proofs.BlockP Proofs.OverlapP.
From GB Require Proofs.AssemblyP Proofs.OneElecP Proofs.CoreSumP.
Import ListNotations.

(* rewrites of a shell that keep its frame (l, centre, type, conventions) *)
Section Rewrites.
Context {F : Type}.
Definition prim := (F * list F)%type.
Definition prims (s : shell F) : list prim := combine (s_exps s) (s_coeffs s).
Definition set_prims (s : shell F) (ps : list prim) : shell F :=
  mkShell F (s_l s) (s_x s) (s_y s) (s_z s) (map fst ps) (map snd ps) (s_sph s) (s_comps s) (s_labels s).
Definition set_coeffs (s : shell F) (C : list (list F)) : shell F :=
  mkShell F (s_l s) (s_x s) (s_y s) (s_z s) (s_exps s) C (s_sph s) (s_comps s) (s_labels s).

Lemma combine_fst_snd {A B} (l : list (A * B)) : combine (map fst l) (map snd l) = l.
Proof. induction l as [|[a b] l IH]; cbn; [reflexivity|]. now rewrite IH. Qed.

Lemma prims_set_prims s ps : prims (set_prims s ps) = ps.
Proof. unfold prims, set_prims. cbn [s_exps s_coeffs]. apply combine_fst_snd. Qed.

Definition wf_shell (s : shell F) : Prop := length (s_coeffs s) = length (s_exps s).

Lemma split_combine_maps {A B} (l : list A) (l' : list B) : length l' = length l ->
  map fst (combine l l') = l /\ map snd (combine l l') = l'.
Proof.
  revert l'. induction l as [|a l IH]; intros [|b l'] H; cbn in *; try lia; [now split|].
  destruct (IH l') as [E1 E2]; [lia|]. now rewrite E1, E2.
Qed.

Lemma set_prims_prims s : wf_shell s -> set_prims s (prims s) = s.
Proof.
  intros H. destruct s as [l x y z es cs sph comps labels]. unfold set_prims, prims, wf_shell in *.
  cbn [s_l s_x s_y s_z s_exps s_coeffs s_sph s_comps s_labels] in *.
  destruct (split_combine_maps es cs H) as [E1 E2]. now rewrite E1, E2.
Qed.

Definition col_rows (m : nat) (d : F) (C : list (list F)) : list (list F) :=
  map (fun row => [nth m row d]) C.
End Rewrites.

Section P.
Context {F : Type} (K : Fops F) (Kf : is_field K).
Add Field KF : Kf.
Local Open Scope F_scope.
Notation "0" := (f0 K) : F_scope.
Notation "1" := (f1 K) : F_scope.
Infix "+" := (fadd K) : F_scope.
Infix "*" := (fmul K) : F_scope.
Infix "-" := (fsub K) : F_scope.
Infix "/" := (fdiv K) : F_scope.
Notation "- x" := (fopp K x) : F_scope.
Notation fsum := (FNum.fsum K).

Definition col_shell (s : shell F) (m : nat) : shell F := set_coeffs s (col_rows m 0 (s_coeffs s)).

Definition same_frame (s s' : shell F) : Prop :=
  s_l s' = s_l s /\ s_x s' = s_x s /\ s_y s' = s_y s /\ s_z s' = s_z s /\ comps_of s' = comps_of s.

Lemma same_frame_set_prims s ps : same_frame s (set_prims s ps).
Proof. repeat split. Qed.
Lemma same_frame_set_coeffs s C : same_frame s (set_coeffs s C).
Proof. repeat split. Qed.
Lemma same_frame_coeffs s C C' : same_frame (set_coeffs s C) (set_coeffs s C').
Proof. repeat split. Qed.
Lemma same_frame_refl s : same_frame s s.
Proof. repeat split. Qed.
Lemma same_frame_col s m : same_frame s (col_shell s m).
Proof. repeat split. Qed.

Definition ncomp (s : shell F) : nat := length (comps_of s).
Definition cnth (s : shell F) (i : nat) : comp := nth i (comps_of s) (0, 0, 0)%nat.

Lemma same_frame_ncomp s s' : same_frame s s' -> ncomp s' = ncomp s.
Proof. intros (_ & _ & _ & _ & H). unfold ncomp. now rewrite H. Qed.

Lemma fsum_map_scale_r {A} k (f : A -> F) l : fsum (map (fun x => f x * k) l) = fsum (map f l) * k.
Proof. exact (Sums.fsum_map_scale_r K Kf k f l). Qed.

Definition ssum (f : F -> F) (ps : list (@prim F)) (m : nat) : F :=
  fsum (map (fun q : prim => f (fst q) * nth m (snd q) 0) ps).

Lemma ssum_ext f g ps m : (forall a, f a = g a) -> ssum f ps m = ssum g ps m.
Proof. intros H. unfold ssum. apply fsum_map_ext_in. intros q _. now rewrite H. Qed.

Lemma ssum_app f p1 p2 m : ssum f (p1 ++ p2) m = ssum f p1 m + ssum f p2 m.
Proof. unfold ssum. now rewrite map_app, (fsum_app K Kf). Qed.

Lemma ssum_col f es C m : ssum f (combine es (col_rows m 0 C)) 0 = ssum f (combine es C) m.
Proof.
  unfold ssum, col_rows. revert C. induction es as [|e es IH]; intros [|row C]; cbn [combine map]; try reflexivity.
  rewrite !fsum_cons, IH. reflexivity.
Qed.

Lemma ssum_perm f ps ps' m : Permutation ps ps' -> ssum f ps m = ssum f ps' m.
Proof. intros H. unfold ssum. apply (fsum_perm K Kf). now apply Permutation_map. Qed.

Lemma ssum_split f l1 l2 a r r1 r2 m :
  nth m r 0 = nth m r1 0 + nth m r2 0 ->
  ssum f (l1 ++ (a, r1) :: (a, r2) :: l2) m = ssum f (l1 ++ (a, r) :: l2) m.
Proof.
  intros H. rewrite !ssum_app. unfold ssum. cbn [map fst snd]. rewrite !fsum_cons, H. ring.
Qed.

Definition rows_add (C1 C2 : list (list F)) : list (list F) := map2 (map2 (fadd K)) C1 C2.
Definition rows_scale (k : F) (C : list (list F)) : list (list F) := map (map (fmul K k)) C.

Lemma nth_map2_add r1 r2 m : length r1 = length r2 ->
  nth m (map2 (fadd K) r1 r2) 0 = nth m r1 0 + nth m r2 0.
Proof.
  revert r2 m. induction r1 as [|x r1 IH]; intros [|y r2] m H; cbn in H; try lia.
  - destruct m; cbn; ring.
  - destruct m; cbn [map2 nth]; [reflexivity|]. apply IH. lia.
Qed.

Lemma nth_map_scale k r m : nth m (map (fmul K k) r) 0 = k * nth m r 0.
Proof.
  revert m. induction r as [|x r IH]; intros [|m]; cbn [map nth]; try ring; try reflexivity. apply IH.
Qed.

Definition same_shape (C1 C2 : list (list F)) : Prop :=
  Forall2 (fun r1 r2 : list F => length r1 = length r2) C1 C2.

Lemma ssum_add f es C1 C2 m : same_shape C1 C2 ->
  ssum f (combine es (rows_add C1 C2)) m = ssum f (combine es C1) m + ssum f (combine es C2) m.
Proof.
  intros H. revert es. unfold ssum, rows_add.
  induction H as [|r1 r2 C1 C2 Hr _ IH]; intros [|e es]; cbn [map2 combine map]; try (cbn; ring).
  rewrite !fsum_cons, IH. cbn [fst snd]. rewrite nth_map2_add by exact Hr. ring.
Qed.

Lemma ssum_scale f es k C m :
  ssum f (combine es (rows_scale k C)) m = k * ssum f (combine es C) m.
Proof.
  unfold ssum, rows_scale. revert C. induction es as [|e es IH]; intros [|r C]; cbn [map combine]; try (cbn; ring).
  rewrite !fsum_cons, IH. cbn [fst snd]. rewrite nth_map_scale. ring.
Qed.

Definition scale_col_rows (m0 : nat) (k : F) (C : list (list F)) : list (list F) :=
  map (fun row => mk (length row) (fun j => if Nat.eqb j m0 then k * nth j row 0 else nth j row 0)) C.
Definition colfac (m0 : nat) (k : F) (m : nat) : F := if Nat.eqb m m0 then k else 1.

Lemma nth_scale_col_row m0 k row m :
  nth m (mk (length row) (fun j => if Nat.eqb j m0 then k * nth j row 0 else nth j row 0)) 0
  = colfac m0 k m * nth m row 0.
Proof.
  unfold colfac. destruct (Nat.ltb_spec m (length row)) as [Hlt|Hge].
  - rewrite nth_mk by exact Hlt. destruct (Nat.eqb m m0); ring.
  - rewrite !nth_overflow by (rewrite ?mk_length; lia). ring.
Qed.

Lemma ssum_scale_col f es m0 k C m :
  ssum f (combine es (scale_col_rows m0 k C)) m = colfac m0 k m * ssum f (combine es C) m.
Proof.
  unfold ssum, scale_col_rows. revert C. induction es as [|e es IH]; intros [|r C]; cbn [map combine]; try (cbn; ring).
  rewrite !fsum_cons, IH. cbn [fst snd]. rewrite nth_scale_col_row. ring.
Qed.

Lemma length_scale_col_rows m0 k C : length (scale_col_rows m0 k C) = length C.
Proof. apply map_length. Qed.

Lemma ssum_flin c1 c2 f f1 f2 w p m : (forall a, f a = c1 * f1 a + c2 * f2 a) ->
  ssum (fun a => f a * w a) p m = c1 * ssum (fun a => f1 a * w a) p m + c2 * ssum (fun a => f2 a * w a) p m.
Proof.
  intros H. unfold ssum. rewrite <- !(fsum_map_scale K Kf), <- (fsum_map_add K Kf). apply fsum_map_ext_in. intros q _. rewrite H. ring.
Qed.

Definition sum_equiv (p : list (@prim F)) (m : nat) (p' : list (@prim F)) (m' : nat) : Prop :=
  forall f, ssum f p' m' = ssum f p m.

Lemma sum_equiv_refl p m : sum_equiv p m p m.
Proof. intros f. reflexivity. Qed.
Lemma sum_equiv_perm p p' m : Permutation p p' -> sum_equiv p m p' m.
Proof. intros H f. symmetry. now apply ssum_perm. Qed.
Lemma sum_equiv_col es C m : sum_equiv (combine es C) m (combine es (col_rows m 0 C)) 0.
Proof. intros f. apply ssum_col. Qed.
Lemma sum_equiv_split l1 l2 a r r1 r2 m : r = map2 (fadd K) r1 r2 -> length r1 = length r2 ->
  sum_equiv (l1 ++ (a, r) :: l2) m (l1 ++ (a, r1) :: (a, r2) :: l2) m.
Proof. intros Hr Hl f. apply ssum_split. subst r. now apply nth_map2_add. Qed.

Definition sum_lin (m : nat) (c1 c2 : F) (p p1 p2 : list (@prim F)) : Prop :=
  forall f, ssum f p m = c1 * ssum f p1 m + c2 * ssum f p2 m.

Lemma sum_lin_add m es C1 C2 : same_shape C1 C2 ->
  sum_lin m 1 1 (combine es (rows_add C1 C2)) (combine es C1) (combine es C2).
Proof. intros H f. rewrite (ssum_add _ _ _ _ _ H). ring. Qed.
Lemma sum_lin_scale m es k C : sum_lin m k 0 (combine es (rows_scale k C)) (combine es C) (combine es C).
Proof. intros f. rewrite ssum_scale. ring. Qed.
Lemma sum_lin_scale_col m es m0 k C :
  sum_lin m (colfac m0 k m) 0 (combine es (scale_col_rows m0 k C)) (combine es C) (combine es C).
Proof. intros f. rewrite ssum_scale_col. ring. Qed.

Lemma lin11 x y z : x = 1 * y + 1 * z -> x = y + z.
Proof. intros ->. ring. Qed.
Lemma lin10 k x y : x = k * y + 0 * y -> x = k * y.
Proof. intros ->. ring. Qed.

(* h alpha beta: primitive quantity; wa, wb: primitive norms *)
Definition dsum (h : F -> F -> F) (wa wb : F -> F) (pa pb : list (@prim F)) (ma mb : nat) : F :=
  ssum (fun beta => ssum (fun alpha => h alpha beta * wa alpha) pa ma * wb beta) pb mb.

Lemma dsum_congr h wa wb pa pb ma mb pa' pb' ma' mb' :
  sum_equiv pa ma pa' ma' -> sum_equiv pb mb pb' mb' ->
  dsum h wa wb pa' pb' ma' mb' = dsum h wa wb pa pb ma mb.
Proof. intros Ha Hb. unfold dsum. rewrite Hb. apply ssum_ext. intros beta. now rewrite Ha. Qed.

Lemma dsum_lin_a h wa wb c1 c2 p p1 p2 pb ma mb : sum_lin ma c1 c2 p p1 p2 ->
  dsum h wa wb p pb ma mb = c1 * dsum h wa wb p1 pb ma mb + c2 * dsum h wa wb p2 pb ma mb.
Proof. intros H. unfold dsum. apply ssum_flin. intros beta. apply H. Qed.

Lemma dsum_lin_b h wa wb c1 c2 pa p p1 p2 ma mb : sum_lin mb c1 c2 p p1 p2 ->
  dsum h wa wb pa p ma mb = c1 * dsum h wa wb pa p1 ma mb + c2 * dsum h wa wb pa p2 ma mb.
Proof. intros H. unfold dsum. apply H. Qed.

Lemma combine3_map {A B X} (f : A -> X) (w : A -> F) (e : list A) (C : list B) :
  combine (map f e) (combine (map w e) C)
  = map (fun q : A * B => (f (fst q), (w (fst q), snd q))) (combine e C).
Proof. revert C; induction e as [|a e IH]; intros [|c C]; cbn; try reflexivity. now rewrite IH. Qed.

Definition pf_of (g : F -> F -> comp -> comp -> F) (ea eb : list F) (ca cb : comp) : list (list F) :=
  map (fun beta => map (fun alpha => g alpha beta ca cb) ea) eb.

Lemma entry_sum_dsum sa sb (h : F -> F -> F) (wa wb : F -> F) ma mb :
  entry_sum K sa sb (map (fun beta => map (fun alpha => h alpha beta) (s_exps sa)) (s_exps sb))
            (map wa (s_exps sa)) (map wb (s_exps sb)) ma mb
  = dsum h wa wb (prims sa) (prims sb) ma mb.
Proof.
  unfold entry_sum, dsum, ssum, prims.
  rewrite (combine3_map (fun beta => map (fun alpha => h alpha beta) (s_exps sa)) wb).
  rewrite map_map. apply fsum_map_ext_in. intros [beta rowb] _. cbn [fst snd].
  rewrite (combine3_map (fun alpha => h alpha beta) wa). rewrite map_map. reflexivity.
Qed.

Lemma block_of_ext sa sb pf pf' : (forall ca cb, pf ca cb = pf' ca cb) ->
  block_of K sa sb pf = block_of K sa sb pf'.
Proof.
  intros H. unfold block_of. cbv zeta.
  replace (map (fun '(ca, na) => map (fun '(cb, nb) => contract_b K sa sb (contract_a K sa (pf ca cb) na) nb)
              (combine (comps_of sb) (norms K sb))) (combine (comps_of sa) (norms K sa)))
    with (map (fun '(ca, na) => map (fun '(cb, nb) => contract_b K sa sb (contract_a K sa (pf' ca cb) na) nb)
              (combine (comps_of sb) (norms K sb))) (combine (comps_of sa) (norms K sa))); [reflexivity|].
  apply map_ext. intros [ca na]. apply map_ext. intros [cb nb]. now rewrite H.
Qed.

Lemma nth_norms s i : i < ncomp s ->
  nth i (norms K s) [] = map (norm_prim K (s_l s) (cnth s i)) (s_exps s).
Proof. exact (CoreSumP.nth_norms K s i). Qed.

Definition nth4' (ma ia mb ib : nat) (blk : list (list (list (list F)))) : F :=
  nth ib (nth mb (nth ia (nth ma blk []) []) []) 0.

Definition kentry (g : F -> F -> comp -> comp -> F) (sa sb : shell F) (ma ia mb ib : nat) : F :=
  dsum (fun a b => g a b (cnth sa ia) (cnth sb ib))
       (norm_prim K (s_l sa) (cnth sa ia)) (norm_prim K (s_l sb) (cnth sb ib))
       (prims sa) (prims sb) ma mb.

Definition mk4 (n1 n2 n3 n4 : nat) (f : nat -> nat -> nat -> nat -> F) : list (list (list (list F))) :=
  mk n1 (fun a => mk n2 (fun b => mk n3 (fun c => mk n4 (fun d => f a b c d)))).

Lemma mk4_ext n1 n2 n3 n4 f g :
  (forall a b c d, a < n1 -> b < n2 -> c < n3 -> d < n4 -> f a b c d = g a b c d) ->
  mk4 n1 n2 n3 n4 f = mk4 n1 n2 n3 n4 g.
Proof.
  intros H. unfold mk4. apply mk_ext; intros a Ha. apply mk_ext; intros b Hb.
  apply mk_ext; intros c Hc. apply mk_ext; intros d Hd. now apply H.
Qed.

Lemma nth4_mk4 n1 n2 n3 n4 f a b c d : a < n1 -> b < n2 -> c < n3 -> d < n4 ->
  nth4' a b c d (mk4 n1 n2 n3 n4 f) = f a b c d.
Proof.
  intros Ha Hb Hc Hd. unfold nth4', mk4.
  rewrite nth_mk by exact Ha. rewrite nth_mk by exact Hb. rewrite nth_mk by exact Hc. now rewrite nth_mk by exact Hd.
Qed.

Definition kblock (g : F -> F -> comp -> comp -> F) (sa sb : shell F) : list (list (list (list F))) :=
  block_of K sa sb (pf_of g (s_exps sa) (s_exps sb)).

Theorem kblock_form g sa sb :
  kblock g sa sb = mk4 (nseg sa) (ncomp sa) (nseg sb) (ncomp sb) (kentry g sa sb).
Proof.
  unfold kblock. rewrite (CoreSumP.block_of_as_mk K). apply mk4_ext. intros ma ia mb ib Hma Hia Hmb Hib.
  unfold nth4. rewrite (block_of_entry K sa sb _ ma ia mb ib Hma Hia Hmb Hib).
  rewrite (nth_norms sa ia Hia), (nth_norms sb ib Hib).
  unfold pf_of, kentry. fold (cnth sa ia) (cnth sb ib).
  apply (entry_sum_dsum sa sb (fun a b => g a b (cnth sa ia) (cnth sb ib))).
Qed.

Lemma nseg_col_shell s m : m < nseg s -> nseg (col_shell s m) = 1%nat.
Proof.
  unfold nseg, col_shell, set_coeffs, col_rows. cbn [s_coeffs]. destruct (s_coeffs s); cbn; [lia|reflexivity].
Qed.

Lemma sum_equiv_col_shell s m : sum_equiv (prims s) m (prims (col_shell s m)) 0.
Proof. exact (sum_equiv_col (s_exps s) (s_coeffs s) m). Qed.

(* rows of equal length: a permutation of the primitives keeps the number of columns *)
Definition rect_rows (M : nat) (C : list (list F)) : Prop := Forall (fun r => length r = M) C.

Lemma nseg_perm s ps M : rect_rows M (s_coeffs s) -> wf_shell s -> s_coeffs s <> [] ->
  Permutation (prims s) ps -> nseg (set_prims s ps) = nseg s.
Proof.
  intros HR Hwf Hne HP. unfold nseg, set_prims. cbn [s_coeffs].
  assert (HM : forall q, In q (prims s) -> length (snd q) = M).
  { intros [a r] Hin. apply in_combine_r in Hin. unfold rect_rows in HR. rewrite Forall_forall in HR. now apply HR. }
  assert (E1 : length (hd [] (s_coeffs s)) = M).
  { destruct (s_coeffs s) as [|r C]; [congruence|]. inversion HR; subst. reflexivity. }
  rewrite E1. destruct ps as [|q ps].
  - apply Permutation_sym, Permutation_nil in HP. unfold prims, wf_shell in *.
    destruct (s_exps s), (s_coeffs s); cbn in *; try congruence; try lia; try discriminate.
  - cbn [map hd]. apply HM. apply (Permutation_in _ (Permutation_sym HP)). now left.
Qed.

Lemma hd_coeffs_of_prims (s : shell F) q l : prims s = q :: l -> hd [] (s_coeffs s) = snd q.
Proof. unfold prims. destruct (s_exps s), (s_coeffs s); cbn; try discriminate. intros H. now inversion H. Qed.

Lemma nseg_split s l1 l2 a r r1 r2 :
  prims s = l1 ++ (a, r) :: l2 -> r = map2 (fadd K) r1 r2 -> length r1 = length r2 ->
  nseg (set_prims s (l1 ++ (a, r1) :: (a, r2) :: l2)) = nseg s.
Proof.
  intros Hp Hr Hl. unfold nseg at 2. unfold nseg, set_prims. cbn [s_coeffs].
  destruct l1 as [|q l1]; cbn [app] in *.
  - rewrite (hd_coeffs_of_prims s _ _ Hp). cbn [map hd snd]. subst r. now rewrite map2_length.
  - rewrite (hd_coeffs_of_prims s _ _ Hp). reflexivity.
Qed.

Lemma nseg_rows_add (s : shell F) C1 C2 : same_shape C1 C2 ->
  nseg (set_coeffs s (rows_add C1 C2)) = nseg (set_coeffs s C1) /\
  nseg (set_coeffs s C2) = nseg (set_coeffs s C1).
Proof.
  intros H. unfold nseg, set_coeffs, rows_add. cbn [s_coeffs].
  destruct H as [|r1 r2 C1 C2 Hr _]; [split; reflexivity|]. cbn [map2 hd]. split; [now apply map2_length|now symmetry].
Qed.

Lemma nseg_rows_scale (s : shell F) k C : nseg (set_coeffs s (rows_scale k C)) = nseg (set_coeffs s C).
Proof. unfold nseg, set_coeffs, rows_scale. cbn [s_coeffs]. destruct C; [reflexivity|]. cbn [map hd]. apply map_length. Qed.

Definition scale_col (s : shell F) (m0 : nat) (k : F) : shell F :=
  set_coeffs s (scale_col_rows m0 k (s_coeffs s)).

Lemma nseg_scale_col s m0 k : nseg (scale_col s m0 k) = nseg s.
Proof.
  unfold nseg, scale_col, set_coeffs, scale_col_rows. cbn [s_coeffs].
  destruct (s_coeffs s) as [|r C]; [reflexivity|]. cbn [map hd]. apply mk_length.
Qed.

Definition shell_equiv (s s' : shell F) : Prop :=
  same_frame s s' /\ nseg s' = nseg s /\ forall m, sum_equiv (prims s) m (prims s') m.

Lemma shell_equiv_refl s : shell_equiv s s.
Proof. split; [apply same_frame_refl|]. split; [reflexivity|]. intros m. apply sum_equiv_refl. Qed.

Lemma shell_equiv_perm s ps : Permutation (prims s) ps -> nseg (set_prims s ps) = nseg s ->
  shell_equiv s (set_prims s ps).
Proof.
  intros HP HN. split; [apply same_frame_set_prims|]. split; [exact HN|].
  intros m. rewrite prims_set_prims. now apply sum_equiv_perm.
Qed.

Lemma shell_equiv_split s l1 l2 a r r1 r2 :
  prims s = l1 ++ (a, r) :: l2 -> r = map2 (fadd K) r1 r2 -> length r1 = length r2 ->
  shell_equiv s (set_prims s (l1 ++ (a, r1) :: (a, r2) :: l2)).
Proof.
  intros Hp Hr Hl. split; [apply same_frame_set_prims|]. split; [now apply (nseg_split s l1 l2 a r r1 r2)|].
  intros m. rewrite prims_set_prims, Hp. now apply sum_equiv_split.
Qed.

Definition shell_lin (m : nat) (c1 c2 : F) (t u v : shell F) : Prop :=
  same_frame u t /\ same_frame u v /\ nseg t = nseg u /\ nseg v = nseg u /\
  sum_lin m c1 c2 (prims t) (prims u) (prims v).

Lemma shell_lin_coeffs s m c1 c2 C C1 C2 :
  sum_lin m c1 c2 (combine (s_exps s) C) (combine (s_exps s) C1) (combine (s_exps s) C2) ->
  nseg (set_coeffs s C) = nseg (set_coeffs s C1) -> nseg (set_coeffs s C2) = nseg (set_coeffs s C1) ->
  shell_lin m c1 c2 (set_coeffs s C) (set_coeffs s C1) (set_coeffs s C2).
Proof.
  intros H N1 N2. exact (conj (same_frame_coeffs s C1 C) (conj (same_frame_coeffs s C1 C2) (conj N1 (conj N2 H)))).
Qed.

Lemma shell_lin_add s m C1 C2 : same_shape C1 C2 ->
  shell_lin m 1 1 (set_coeffs s (rows_add C1 C2)) (set_coeffs s C1) (set_coeffs s C2).
Proof.
  intros H. destruct (nseg_rows_add s C1 C2 H) as [N1 N2].
  exact (shell_lin_coeffs s m 1 1 _ C1 C2 (sum_lin_add m (s_exps s) C1 C2 H) N1 N2).
Qed.

Lemma shell_lin_scale s m k C : shell_lin m k 0 (set_coeffs s (rows_scale k C)) (set_coeffs s C) (set_coeffs s C).
Proof.
  exact (shell_lin_coeffs s m k 0 _ C C (sum_lin_scale m (s_exps s) k C) (nseg_rows_scale s k C) eq_refl).
Qed.

Lemma shell_lin_scale_col s m0 k m : shell_lin m (colfac m0 k m) 0 (scale_col s m0 k) s s.
Proof.
  exact (conj (same_frame_set_coeffs s _) (conj (same_frame_refl s) (conj (nseg_scale_col s m0 k)
           (conj eq_refl (sum_lin_scale_col m (s_exps s) m0 k (s_coeffs s)))))).
Qed.

Lemma kentry_congr g sa sb sa' sb' ma mb ma' mb' ia ib :
  same_frame sa sa' -> same_frame sb sb' ->
  sum_equiv (prims sa) ma (prims sa') ma' -> sum_equiv (prims sb) mb (prims sb') mb' ->
  kentry g sa' sb' ma' ia mb' ib = kentry g sa sb ma ia mb ib.
Proof.
  intros (A1 & _ & _ & _ & A5) (B1 & _ & _ & _ & B5) Ha Hb. unfold kentry, cnth. rewrite A1, A5, B1, B5.
  now apply dsum_congr.
Qed.

Lemma kentry_col g sa sb ma ia mb ib :
  kentry g (col_shell sa ma) (col_shell sb mb) 0 ia 0 ib = kentry g sa sb ma ia mb ib.
Proof.
  exact (kentry_congr g sa sb _ _ ma mb 0 0 ia ib (same_frame_col sa ma) (same_frame_col sb mb)
           (sum_equiv_col_shell sa ma) (sum_equiv_col_shell sb mb)).
Qed.

Lemma kentry_col_a g sa sb ma ia mb ib :
  kentry g (col_shell sa ma) sb 0 ia mb ib = kentry g sa sb ma ia mb ib.
Proof.
  exact (kentry_congr g sa sb _ sb ma mb 0 mb ia ib (same_frame_col sa ma) (same_frame_refl sb)
           (sum_equiv_col_shell sa ma) (sum_equiv_refl _ _)).
Qed.

Lemma kentry_col_b g sa sb ma ia mb ib :
  kentry g sa (col_shell sb mb) ma ia 0 ib = kentry g sa sb ma ia mb ib.
Proof.
  exact (kentry_congr g sa sb sa _ ma mb ma 0 ia ib (same_frame_refl sa) (same_frame_col sb mb)
           (sum_equiv_refl _ _) (sum_equiv_col_shell sb mb)).
Qed.

Theorem kblock_segmented g sa sb ma mb : ma < nseg sa -> mb < nseg sb ->
  kblock g (col_shell sa ma) (col_shell sb mb)
  = mk4 1 (ncomp sa) 1 (ncomp sb) (fun _ ia _ ib => nth4' ma ia mb ib (kblock g sa sb)).
Proof.
  intros Hma Hmb. rewrite !kblock_form. rewrite (nseg_col_shell sa ma Hma), (nseg_col_shell sb mb Hmb).
  change (ncomp (col_shell sa ma)) with (ncomp sa). change (ncomp (col_shell sb mb)) with (ncomp sb).
  apply mk4_ext. intros a ia b ib Ha Hia Hb Hib.
  assert (a = 0%nat) by lia. assert (b = 0%nat) by lia. subst a b.
  rewrite nth4_mk4 by assumption. apply kentry_col.
Qed.

Theorem kblock_congr g sa sb sa' sb' : shell_equiv sa sa' -> shell_equiv sb sb' ->
  kblock g sa' sb' = kblock g sa sb.
Proof.
  intros (Fa & Na & Ea) (Fb & Nb & Eb).
  rewrite !kblock_form, Na, Nb, (same_frame_ncomp sa sa' Fa), (same_frame_ncomp sb sb' Fb).
  apply mk4_ext. intros. now apply kentry_congr.
Qed.

Lemma kentry_lin_a g t u v sb c1 c2 ma ia mb ib : shell_lin ma c1 c2 t u v ->
  kentry g t sb ma ia mb ib = c1 * kentry g u sb ma ia mb ib + c2 * kentry g v sb ma ia mb ib.
Proof.
  intros ((A1 & _ & _ & _ & A5) & (B1 & _ & _ & _ & B5) & _ & _ & H). unfold kentry, cnth.
  rewrite A1, A5, B1, B5. now apply dsum_lin_a.
Qed.

Lemma kentry_lin_b g sa t u v c1 c2 ma ia mb ib : shell_lin mb c1 c2 t u v ->
  kentry g sa t ma ia mb ib = c1 * kentry g sa u ma ia mb ib + c2 * kentry g sa v ma ia mb ib.
Proof.
  intros ((A1 & _ & _ & _ & A5) & (B1 & _ & _ & _ & B5) & _ & _ & H). unfold kentry, cnth.
  rewrite A1, A5, B1, B5. now apply dsum_lin_b.
Qed.

Lemma kentry_scale_col g sa sb m0a ka m0b kb ma ia mb ib :
  kentry g (scale_col sa m0a ka) (scale_col sb m0b kb) ma ia mb ib
  = colfac m0a ka ma * colfac m0b kb mb * kentry g sa sb ma ia mb ib.
Proof.
  rewrite (kentry_lin_a g _ _ _ _ _ _ ma ia mb ib (shell_lin_scale_col sa m0a ka ma)).
  rewrite (kentry_lin_b g _ _ _ _ _ _ ma ia mb ib (shell_lin_scale_col sb m0b kb mb)). ring.
Qed.

(* multipole moments / overlap: _moment_int.py *)
Definition mm_kern (Cx Cy Cz : F) (km : nat) (sa sb : shell F) (o : comp) (alpha beta : F) (ca cb : comp) : F :=
  prim3 K (table K (s_x sa) (s_x sb) Cx alpha beta (s_l sa) (s_l sb) km,
           table K (s_y sa) (s_y sb) Cy alpha beta (s_l sa) (s_l sb) km,
           table K (s_z sa) (s_z sb) Cz alpha beta (s_l sa) (s_l sb) km) o ca cb.

Lemma mm_block_kernel Cx Cy Cz orders sa sb :
  mm_block K Cx Cy Cz orders sa sb
  = map (fun o => kblock (mm_kern Cx Cy Cz (omax orders) sa sb o) sa sb) orders.
Proof.
  unfold mm_block. cbv zeta. apply map_ext. intros o. unfold kblock. apply block_of_ext. intros ca cb.
  unfold tabs, pf_of, mm_kern. rewrite map_map. apply map_ext. intros beta. now rewrite map_map.
Qed.

(* differential operators (kinetic energy, momentum): _diff_operator_int.py *)
Definition do_kern (D : nat) (sa sb : shell F) (o : comp) (alpha beta : F) (ca cb : comp) : F :=
  prim3 K (dtable K (s_x sa) (s_x sb) alpha beta (s_l sa) (s_l sb) D,
           dtable K (s_y sa) (s_y sb) alpha beta (s_l sa) (s_l sb) D,
           dtable K (s_z sa) (s_z sb) alpha beta (s_l sa) (s_l sb) D) o ca cb.

Lemma diffop_block_kernel orders sa sb :
  diffop_block K orders sa sb = map (fun o => kblock (do_kern (omax orders) sa sb o) sa sb) orders.
Proof.
  unfold diffop_block. cbv zeta. apply map_ext. intros o. unfold kblock. apply block_of_ext. intros ca cb.
  unfold dtabs, pf_of, do_kern. rewrite map_map. apply map_ext. intros beta. now rewrite map_map.
Qed.

(* angular momentum: component c of angular_momentum.py's integrand *)
Definition am_kern (c : nat) (sa sb : shell F) (alpha beta : F) (ca cb : comp) : F :=
  nth c (angmom_prim K
           (dtable K (s_x sa) (s_x sb) alpha beta (s_l sa) (s_l sb) 1,
            dtable K (s_y sa) (s_y sb) alpha beta (s_l sa) (s_l sb) 1,
            dtable K (s_z sa) (s_z sb) alpha beta (s_l sa) (s_l sb) 1)
           (table K (s_x sa) (s_x sb) 0 alpha beta (s_l sa) (s_l sb) (omax [(1, 0, 0)%nat]),
            table K (s_y sa) (s_y sb) 0 alpha beta (s_l sa) (s_l sb) (omax [(1, 0, 0)%nat]),
            table K (s_z sa) (s_z sb) 0 alpha beta (s_l sa) (s_l sb) (omax [(1, 0, 0)%nat])) ca cb) 0.

Lemma angmom_block_kernel sa sb :
  angmom_block_re K sa sb
  = zip4 (fun xy z => xy ++ [z]) (zip4 (fun x y => [x; y]) (kblock (am_kern 0 sa sb) sa sb) (kblock (am_kern 1 sa sb) sa sb))
         (kblock (am_kern 2 sa sb) sa sb).
Proof.
  unfold angmom_block_re. cbv zeta.
  assert (E : forall c, block_of K sa sb (fun ca cb =>
              map (fun '(drow, mrow) => map (fun '(d, m) => nth c (angmom_prim K d m ca cb) 0) (combine drow mrow))
                  (combine (dtabs K 1 sa sb) (tabs K 0 0 0 [(1, 0, 0)%nat] sa sb)))
            = kblock (am_kern c sa sb) sa sb).
  { intros c. unfold kblock. apply block_of_ext. intros ca cb. unfold dtabs, tabs, pf_of, am_kern.
    rewrite combine_map_same, map_map. apply map_ext. intros beta.
    rewrite combine_map_same, map_map. reflexivity. }
  now rewrite !E.
Qed.

Lemma mm_kern_frame Cx Cy Cz km sa sb sa' sb' o : same_frame sa sa' -> same_frame sb sb' ->
  mm_kern Cx Cy Cz km sa' sb' o = mm_kern Cx Cy Cz km sa sb o.
Proof.
  intros (A1 & A2 & A3 & A4 & _) (B1 & B2 & B3 & B4 & _). unfold mm_kern.
  now rewrite A1, A2, A3, A4, B1, B2, B3, B4.
Qed.
Lemma mm_kern_frame_c Cx Cy Cz km sa sb Ca Cb o :
  mm_kern Cx Cy Cz km (set_coeffs sa Ca) (set_coeffs sb Cb) o = mm_kern Cx Cy Cz km sa sb o.
Proof. reflexivity. Qed.

Section MM.
Variables (Cx Cy Cz : F) (orders : list comp).
Notation MM := (mm_block K Cx Cy Cz orders).

Theorem mm_generalized_is_segmented sa sb ma mb : ma < nseg sa -> mb < nseg sb ->
  MM (col_shell sa ma) (col_shell sb mb)
  = map (fun blk => mk4 1 (ncomp sa) 1 (ncomp sb) (fun _ ia _ ib => nth4' ma ia mb ib blk)) (MM sa sb).
Proof.
  intros Hma Hmb. rewrite !mm_block_kernel, map_map. apply map_ext. intros o.
  rewrite (mm_kern_frame _ _ _ _ sa sb _ _ o (same_frame_col sa ma) (same_frame_col sb mb)).
  now apply kblock_segmented.
Qed.

Theorem mm_block_congr sa sb sa' sb' : shell_equiv sa sa' -> shell_equiv sb sb' -> MM sa' sb' = MM sa sb.
Proof.
  intros Ha Hb. rewrite !mm_block_kernel. apply map_ext. intros o.
  rewrite (mm_kern_frame _ _ _ _ sa sb sa' sb' o (proj1 Ha) (proj1 Hb)). now apply kblock_congr.
Qed.

Definition mm_entry' (sa sb : shell F) (d ma ia mb ib : nat) : F := nth4' ma ia mb ib (nth d (MM sa sb) []).

Lemma nth4_nil a b c d : nth4' a b c d [] = 0.
Proof. unfold nth4'. now destruct a, b, c, d. Qed.

Lemma mm_entry_kentry sa sb d ma ia mb ib :
  d < length orders -> ma < nseg sa -> ia < ncomp sa -> mb < nseg sb -> ib < ncomp sb ->
  mm_entry' sa sb d ma ia mb ib
  = kentry (mm_kern Cx Cy Cz (omax orders) sa sb (nth d orders (0, 0, 0)%nat)) sa sb ma ia mb ib.
Proof.
  intros Hd Hma Hia Hmb Hib. unfold mm_entry'. rewrite mm_block_kernel.
  rewrite (nth_map_lt _ orders d (0, 0, 0)%nat []) by exact Hd. rewrite kblock_form. now apply nth4_mk4.
Qed.

Theorem mm_entry_lin_a t u v sb c1 c2 d ma ia mb ib : shell_lin ma c1 c2 t u v ->
  d < length orders -> ma < nseg u -> ia < ncomp u -> mb < nseg sb -> ib < ncomp sb ->
  mm_entry' t sb d ma ia mb ib = c1 * mm_entry' u sb d ma ia mb ib + c2 * mm_entry' v sb d ma ia mb ib.
Proof.
  intros L Hd Hma Hia Hmb Hib. pose proof L as (Ft & Fv & Nt & Nv & _).
  rewrite !mm_entry_kentry
    by (rewrite ?Nt, ?Nv, ?(same_frame_ncomp u t Ft), ?(same_frame_ncomp u v Fv); assumption).
  rewrite (mm_kern_frame _ _ _ _ u sb t sb _ Ft (same_frame_refl sb)),
          (mm_kern_frame _ _ _ _ u sb v sb _ Fv (same_frame_refl sb)).
  now apply kentry_lin_a.
Qed.

Theorem mm_entry_lin_b sa t u v c1 c2 d ma ia mb ib : shell_lin mb c1 c2 t u v ->
  d < length orders -> ma < nseg sa -> ia < ncomp sa -> mb < nseg u -> ib < ncomp u ->
  mm_entry' sa t d ma ia mb ib = c1 * mm_entry' sa u d ma ia mb ib + c2 * mm_entry' sa v d ma ia mb ib.
Proof.
  intros L Hd Hma Hia Hmb Hib. pose proof L as (Ft & Fv & Nt & Nv & _).
  rewrite !mm_entry_kentry
    by (rewrite ?Nt, ?Nv, ?(same_frame_ncomp u t Ft), ?(same_frame_ncomp u v Fv); assumption).
  rewrite (mm_kern_frame _ _ _ _ sa u sa t _ (same_frame_refl sa) Ft),
          (mm_kern_frame _ _ _ _ sa u sa v _ (same_frame_refl sa) Fv).
  now apply kentry_lin_b.
Qed.

Theorem mm_scale_col_unnormalised sa sb m0a ka m0b kb d ma ia mb ib :
  d < length orders -> ma < nseg sa -> ia < ncomp sa -> mb < nseg sb -> ib < ncomp sb ->
  mm_entry' (scale_col sa m0a ka) (scale_col sb m0b kb) d ma ia mb ib
  = colfac m0a ka ma * colfac m0b kb mb * mm_entry' sa sb d ma ia mb ib.
Proof.
  intros Hd Hma Hia Hmb Hib.
  rewrite !mm_entry_kentry by (assumption || (rewrite ?nseg_scale_col; assumption)).
  change (mm_kern Cx Cy Cz (omax orders) (scale_col sa m0a ka) (scale_col sb m0b kb) ?o)
    with (mm_kern Cx Cy Cz (omax orders) sa sb o).
  apply kentry_scale_col.
Qed.

End MM.

Definition ov_kern (sa sb : shell F) : F -> F -> comp -> comp -> F :=
  mm_kern 0 0 0 (omax [(0, 0, 0)%nat]) sa sb (0, 0, 0)%nat.

Lemma overlap_block_kernel sa sb : overlap_block K sa sb = kblock (ov_kern sa sb) sa sb.
Proof. unfold overlap_block. rewrite mm_block_kernel. reflexivity. Qed.

(* self-overlap of function (m, c) of a shell: what assign_norm_cont reads *)
Definition selfov (s : shell F) (m c : nat) : F := nth4' m c m c (overlap_block K s s).

Lemma norm_cont_form s :
  norm_cont K s = mk (nseg s) (fun m => mk (ncomp s) (fun c => fapx K (1 / fsqrt K (selfov s m c)))).
Proof. reflexivity. Qed.

Lemma selfov_scale_col s m0 k m c : m < nseg s -> c < ncomp s ->
  selfov (scale_col s m0 k) m c = colfac m0 k m * colfac m0 k m * selfov s m c.
Proof.
  intros Hm Hc. unfold selfov. rewrite !overlap_block_kernel, !kblock_form.
  rewrite !nth4_mk4 by (rewrite ?nseg_scale_col; assumption).
  change (ov_kern (scale_col s m0 k) (scale_col s m0 k)) with (ov_kern s s).
  apply kentry_scale_col.
Qed.

Definition ncget (n : list (list F)) (m c : nat) : F := nth c (nth m n []) 0.

(* [ka] stands for |k|: any number with sqrt(k^2 x) = ka sqrt x on the self-overlaps of that column *)
Theorem norm_cont_scale_col s m0 k ka :
  (forall x, fapx K x = x) -> ka <> 0 ->
  (m0 < nseg s -> forall c, c < ncomp s -> fsqrt K (k * k * selfov s m0 c) = ka * fsqrt K (selfov s m0 c)) ->
  (m0 < nseg s -> forall c, c < ncomp s -> fsqrt K (selfov s m0 c) <> 0) ->
  norm_cont K (scale_col s m0 k)
  = mk (nseg s) (fun m => mk (ncomp s) (fun c => colfac m0 (1 / ka) m * ncget (norm_cont K s) m c)).
Proof.
  intros Hapx Hka Hsq Hnz. rewrite !norm_cont_form, nseg_scale_col.
  change (ncomp (scale_col s m0 k)) with (ncomp s).
  apply mk_ext. intros m Hm. apply mk_ext. intros c Hc.
  unfold ncget. rewrite nth_mk by exact Hm. rewrite nth_mk by exact Hc. rewrite !Hapx.
  rewrite selfov_scale_col by assumption. unfold colfac.
  destruct (Nat.eqb_spec m m0) as [->|Hne].
  - rewrite (Hsq Hm c Hc). field. split; [apply (Hnz Hm c Hc)|exact Hka].
  - replace (1 * 1 * selfov s m c) with (selfov s m c) by ring. rewrite !(Fdiv_def Kf). ring.
Qed.

(* normalised blocks: step 1 of the assembly (block *= norm_cont_a x norm_cont_b) *)
Definition nblock (g : F -> F -> comp -> comp -> F) (sa sb : shell F) : list (list (list (list F))) :=
  normalise K (fmul K) (norm_cont K sa) (norm_cont K sb) (kblock g sa sb).
Definition nentry (g : F -> F -> comp -> comp -> F) (sa sb : shell F) (ma ia mb ib : nat) : F :=
  (ncget (norm_cont K sa) ma ia * ncget (norm_cont K sb) mb ib) * kentry g sa sb ma ia mb ib.

Lemma ncget_norm_cont s m c : m < nseg s -> c < ncomp s ->
  ncget (norm_cont K s) m c = fapx K (1 / fsqrt K (selfov s m c)).
Proof. intros Hm Hc. unfold ncget. rewrite norm_cont_form. rewrite nth_mk by exact Hm. now rewrite nth_mk by exact Hc. Qed.

Lemma nblock_form g sa sb : nblock g sa sb = mk4 (nseg sa) (ncomp sa) (nseg sb) (ncomp sb) (nentry g sa sb).
Proof.
  unfold nblock. rewrite kblock_form, !norm_cont_form. unfold mk4 at 1. rewrite (CoreSumP.normalise_mk K). apply mk4_ext.
  intros ma ia mb ib Hma Hia Hmb Hib. unfold nentry.
  now rewrite !ncget_norm_cont by assumption.
Qed.

Definition scale_hyps (s : shell F) (m0 : nat) (k kabs : F) : Prop :=
  kabs <> 0 /\
  (m0 < nseg s -> forall c, c < ncomp s -> fsqrt K (k * k * selfov s m0 c) = kabs * fsqrt K (selfov s m0 c)) /\
  (m0 < nseg s -> forall c, c < ncomp s -> fsqrt K (selfov s m0 c) <> 0).

Lemma colfac_mul m0 a b m : colfac m0 a m * colfac m0 b m = colfac m0 (a * b) m.
Proof. unfold colfac. destruct (Nat.eqb m m0); ring. Qed.

Lemma ncget_scale_col s m0 k kabs m c : (forall x, fapx K x = x) -> scale_hyps s m0 k kabs ->
  m < nseg s -> c < ncomp s ->
  ncget (norm_cont K (scale_col s m0 k)) m c * colfac m0 k m = colfac m0 (k / kabs) m * ncget (norm_cont K s) m c.
Proof.
  intros Hapx [H1 [H2 H3]] Hm Hc. rewrite (norm_cont_scale_col s m0 k kabs Hapx H1 H2 H3).
  unfold ncget at 1. rewrite nth_mk by exact Hm. rewrite nth_mk by exact Hc.
  replace (k / kabs) with (1 / kabs * k) by (field; exact H1). rewrite <- colfac_mul. ring.
Qed.

Theorem nblock_scale_col_a g sa sb m0 k kabs :
  (forall x, fapx K x = x) -> scale_hyps sa m0 k kabs ->
  nblock g (scale_col sa m0 k) sb
  = mk4 (nseg sa) (ncomp sa) (nseg sb) (ncomp sb)
      (fun ma ia mb ib => colfac m0 (k / kabs) ma * nth4' ma ia mb ib (nblock g sa sb)).
Proof.
  intros Hapx Ha. rewrite !nblock_form, !nseg_scale_col.
  change (ncomp (scale_col sa m0 k)) with (ncomp sa).
  apply mk4_ext. intros ma ia mb ib Hma Hia Hmb Hib. rewrite nth4_mk4 by assumption.
  unfold nentry. rewrite (kentry_lin_a g _ _ _ sb _ _ ma ia mb ib (shell_lin_scale_col sa m0 k ma)).
  ring [(ncget_scale_col sa m0 k kabs ma ia Hapx Ha Hma Hia)].
Qed.

Theorem nblock_scale_col_b g sa sb m0 k kabs :
  (forall x, fapx K x = x) -> scale_hyps sb m0 k kabs ->
  nblock g sa (scale_col sb m0 k)
  = mk4 (nseg sa) (ncomp sa) (nseg sb) (ncomp sb)
      (fun ma ia mb ib => colfac m0 (k / kabs) mb * nth4' ma ia mb ib (nblock g sa sb)).
Proof.
  intros Hapx Hb. rewrite !nblock_form, !nseg_scale_col.
  change (ncomp (scale_col sb m0 k)) with (ncomp sb).
  apply mk4_ext. intros ma ia mb ib Hma Hia Hmb Hib. rewrite nth4_mk4 by assumption.
  unfold nentry. rewrite (kentry_lin_b g sa _ _ _ _ _ ma ia mb ib (shell_lin_scale_col sb m0 k mb)).
  ring [(ncget_scale_col sb m0 k kabs mb ib Hapx Hb Hmb Hib)].
Qed.

Theorem nblock_scale_col g sa sb m0a ka kaa m0b kb kba :
  (forall x, fapx K x = x) -> scale_hyps sa m0a ka kaa -> scale_hyps sb m0b kb kba ->
  nblock g (scale_col sa m0a ka) (scale_col sb m0b kb)
  = mk4 (nseg sa) (ncomp sa) (nseg sb) (ncomp sb)
      (fun ma ia mb ib => colfac m0a (ka / kaa) ma * colfac m0b (kb / kba) mb * nth4' ma ia mb ib (nblock g sa sb)).
Proof.
  intros Hapx Ha Hb. rewrite (nblock_scale_col_a g sa (scale_col sb m0b kb) m0a ka kaa Hapx Ha), nseg_scale_col.
  change (ncomp (scale_col sb m0b kb)) with (ncomp sb).
  apply mk4_ext. intros ma ia mb ib Hma Hia Hmb Hib.
  rewrite (nblock_scale_col_b g sa sb m0b kb kba Hapx Hb), nth4_mk4 by assumption. ring.
Qed.

(* k > 0: |k| = k *)
Theorem nblock_scale_col_pos g sa sb m0a ka m0b kb :
  (forall x, fapx K x = x) -> scale_hyps sa m0a ka ka -> scale_hyps sb m0b kb kb ->
  nblock g (scale_col sa m0a ka) (scale_col sb m0b kb) = nblock g sa sb.
Proof.
  intros Hapx Ha Hb. rewrite (nblock_scale_col g sa sb m0a ka ka m0b kb kb Hapx Ha Hb).
  rewrite (nblock_form g sa sb). apply mk4_ext. intros ma ia mb ib Hma Hia Hmb Hib.
  rewrite nth4_mk4 by assumption. destruct Ha as [Ha _]. destruct Hb as [Hb _].
  unfold colfac. destruct (Nat.eqb ma m0a), (Nat.eqb mb m0b); field; auto.
Qed.

(* k < 0: |k| = -k *)
Theorem nblock_scale_col_neg_a g sa sb m0 k :
  (forall x, fapx K x = x) -> scale_hyps sa m0 k (- k) ->
  nblock g (scale_col sa m0 k) sb
  = mk4 (nseg sa) (ncomp sa) (nseg sb) (ncomp sb)
      (fun ma ia mb ib => colfac m0 (- (1)) ma * nth4' ma ia mb ib (nblock g sa sb)).
Proof.
  intros Hapx Ha. rewrite (nblock_scale_col_a g sa sb m0 k (- k) Hapx Ha).
  apply mk4_ext. intros ma ia mb ib _ _ _ _. f_equal. f_equal. field. exact (proj1 Ha).
Qed.

(* evaluation block (evals/_deriv.py, eval.py, eval_deriv.py) *)
Section EvalBlock.
Variables (md : rowmode (F:=F)) (ef : F -> F) (o : comp).

(* value contributed by one primitive alpha to component c at point p (norm x polynomial x Gaussian) *)
Definition eval_kern (s : shell F) (p : point (F:=F)) (c : comp) (alpha : F) : F :=
  let '(ax, ay, az) := c in
  let '(e, (rx, ry, rz)) := prim_data K md ef s o p alpha in
  norm_prim K (s_l s) c alpha * (nth ax rx 0 * nth ay ry 0 * nth az rz 0) * e.

Lemma combine_map_r_prims {B} (phi : F -> B) (es : list F) (C : list (list F)) :
  combine C (map phi es) = map (fun q : prim => (snd q, phi (fst q))) (combine es C).
Proof. revert C; induction es as [|e es IH]; intros [|c C]; cbn; try reflexivity. now rewrite IH. Qed.

Definition eval_entry (s : shell F) (p : point (F:=F)) (m c : nat) : F :=
  ssum (eval_kern s p (cnth s c)) (prims s) m.

Lemma pt_vals_form s p :
  pt_vals K md ef s o (norms K s) p = mk (ncomp s) (fun c => map (eval_kern s p (cnth s c)) (s_exps s)).
Proof.
  unfold pt_vals. cbv zeta. rewrite (combine_as_mk _ _ (0, 0, 0)%nat []) by apply length_norms.
  rewrite map_mk. apply mk_ext. intros c Hc. change (nth c (comps_of s) (0, 0, 0)%nat) with (cnth s c).
  rewrite (nth_norms s c Hc). destruct (cnth s c) as [[ax ay] az]. rewrite combine_map_same, map_map. reflexivity.
Qed.

Lemma pt_mat_form s p :
  pt_mat K md (fun x => x) ef s o (norms K s) p = mk (nseg s) (fun m => mk (ncomp s) (fun c => eval_entry s p m c)).
Proof.
  unfold pt_mat. cbv zeta. rewrite pt_vals_form. apply mk_ext. intros m _. rewrite map_mk. apply mk_ext. intros c _.
  unfold eval_entry, ssum. rewrite combine_map_r_prims, map_map. fold (prims s).
  apply fsum_map_ext_in. intros q _. cbn [fst snd]. ring.
Qed.

Theorem eval_block_form s pts :
  block_with K md (fun x => x) ef s o pts
  = mk (nseg s) (fun m => mk (ncomp s) (fun c => map (fun p => eval_entry s p m c) pts)).
Proof.
  unfold block_with. cbv zeta. apply mk_ext. intros m Hm. apply mk_ext. intros c Hc.
  rewrite map_map. apply map_ext. intros p. rewrite pt_mat_form.
  rewrite nth_mk by exact Hm. now rewrite nth_mk by exact Hc.
Qed.

Lemma mk1 {A} (f : nat -> A) : mk 1 f = [f 0%nat].
Proof. reflexivity. Qed.

Lemma eval_kern_frame s s' p c alpha : same_frame s s' -> eval_kern s' p c alpha = eval_kern s p c alpha.
Proof. intros (A1 & A2 & A3 & A4 & _). unfold eval_kern, prim_data. now rewrite A1, A2, A3, A4. Qed.

Lemma eval_entry_frame s s' p m c : same_frame s s' ->
  eval_entry s' p m c = ssum (eval_kern s p (cnth s c)) (prims s') m.
Proof.
  intros Fr. unfold eval_entry, cnth. rewrite (proj2 (proj2 (proj2 (proj2 Fr)))).
  apply ssum_ext. intros alpha. now apply eval_kern_frame.
Qed.

Lemma eval_entry_congr s s' p m m' c : same_frame s s' -> sum_equiv (prims s) m (prims s') m' ->
  eval_entry s' p m' c = eval_entry s p m c.
Proof. intros Fr H. rewrite (eval_entry_frame s s' p m' c Fr). apply H. Qed.

Theorem eval_generalized_is_segmented s pts m : m < nseg s ->
  block_with K md (fun x => x) ef (col_shell s m) o pts = [nth m (block_with K md (fun x => x) ef s o pts) []].
Proof.
  intros Hm. rewrite !eval_block_form, (nseg_col_shell s m Hm), mk1. rewrite nth_mk by exact Hm.
  change (ncomp (col_shell s m)) with (ncomp s). f_equal. apply mk_ext. intros c Hc. apply map_ext. intros p.
  exact (eval_entry_congr s _ p m 0 c (same_frame_col s m) (sum_equiv_col_shell s m)).
Qed.

Theorem eval_block_congr s s' pts : shell_equiv s s' ->
  block_with K md (fun x => x) ef s' o pts = block_with K md (fun x => x) ef s o pts.
Proof.
  intros (Fr & N & E). rewrite !eval_block_form, N, (same_frame_ncomp s s' Fr).
  apply mk_ext. intros m _. apply mk_ext. intros c _. apply map_ext. intros p. now apply eval_entry_congr.
Qed.

Theorem eval_entry_lin t u v c1 c2 p m c : shell_lin m c1 c2 t u v ->
  eval_entry t p m c = c1 * eval_entry u p m c + c2 * eval_entry v p m c.
Proof.
  intros (Ft & Fv & _ & _ & H). rewrite (eval_entry_frame u t p m c Ft), (eval_entry_frame u v p m c Fv). apply H.
Qed.

Lemma eval_entry_block s pts m c n d : m < nseg s -> c < ncomp s -> n < length pts ->
  nth n (nth c (nth m (block_with K md (fun x => x) ef s o pts) []) []) 0 = eval_entry s (nth n pts d) m c.
Proof.
  intros Hm Hc Hn. rewrite eval_block_form. rewrite nth_mk by exact Hm. rewrite nth_mk by exact Hc.
  exact (nth_map_lt (fun p => eval_entry s p m c) pts n d 0 Hn).
Qed.
End EvalBlock.

Definition eval_nentry md ef o (s : shell F) (p : point (F:=F)) (m c : nat) : F :=
  ncget (norm_cont K s) m c * eval_entry md ef o s p m c.

Theorem eval_column_scale md ef o s m0 k kabs p m c :
  (forall x, fapx K x = x) -> scale_hyps s m0 k kabs -> m < nseg s -> c < ncomp s ->
  eval_nentry md ef o (scale_col s m0 k) p m c = colfac m0 (k / kabs) m * eval_nentry md ef o s p m c.
Proof.
  intros Hapx H Hm Hc. unfold eval_nentry.
  rewrite (eval_entry_lin md ef o _ _ _ _ _ p m c (shell_lin_scale_col s m0 k m)).
  ring [(ncget_scale_col s m0 k kabs m c Hapx H Hm Hc)].
Qed.

Theorem norm_cont_col_shell s m : m < nseg s ->
  norm_cont K (col_shell s m) = [nth m (norm_cont K s) []].
Proof.
  intros Hm. rewrite !norm_cont_form, (nseg_col_shell s m Hm), mk1. rewrite nth_mk by exact Hm.
  change (ncomp (col_shell s m)) with (ncomp s). f_equal. apply mk_ext. intros c Hc.
  do 3 f_equal. unfold selfov. rewrite !overlap_block_kernel, !kblock_form.
  rewrite !nth4_mk4 by (rewrite ?(nseg_col_shell s m Hm); assumption || lia).
  change (ov_kern (col_shell s m) (col_shell s m)) with (ov_kern s s). apply kentry_col.
Qed.

(* linearity of the horizontal recursion: in the Boys-type kernels the contraction happens BEFORE the
   horizontal transfer, so un-normalised linearity has to pass through it *)
Definition clin (c1 c2 : F) (t t1 t2 : cube (F:=F)) : Prop :=
  forall x y z, cget K t x y z = c1 * cget K t1 x y z + c2 * cget K t2 x y z.

Lemma cget_nil x y z : cget K [] x y z = 0.
Proof. unfold cget. now destruct x, y, z. Qed.

Definition cube_of (n : nat) (f : nat -> nat -> nat -> F) : cube (F:=F) :=
  mk n (fun x => mk n (fun y => mk n (fun z => f x y z))).

Lemma cube_of_ext n f g : (forall x y z, f x y z = g x y z) -> cube_of n f = cube_of n g.
Proof.
  intros H. unfold cube_of. apply mk_ext. intros x _. apply mk_ext. intros y _. apply mk_ext. intros z _. apply H.
Qed.

Lemma cget_mk3 n f x y z :
  cget K (mk n (fun x => mk n (fun y => mk n (fun z => f x y z)))) x y z
  = if (x <? n) && (y <? n) && (z <? n) then f x y z else 0.
Proof.
  unfold cget. rewrite nth_mk_or. destruct (x <? n); [|now rewrite !nth_nil].
  rewrite nth_mk_or. destruct (y <? n); [|now rewrite nth_nil]. apply nth_mk_or.
Qed.

Lemma clin_nil c1 c2 : clin c1 c2 [] [] [].
Proof. intros x y z. rewrite cget_nil. ring. Qed.

Lemma clin_cube_of n f f1 f2 c1 c2 : (forall x y z, f x y z = c1 * f1 x y z + c2 * f2 x y z) ->
  clin c1 c2 (cube_of n f) (cube_of n f1) (cube_of n f2).
Proof.
  intros H x y z. unfold cube_of. rewrite !cget_mk3. destruct ((x <? n) && (y <? n) && (z <? n)); [apply H|ring].
Qed.

Lemma hstep_lin L axis ab c1 c2 t t1 t2 : clin c1 c2 t t1 t2 ->
  clin c1 c2 (hstep K L axis ab t) (hstep K L axis ab t1) (hstep K L axis ab t2).
Proof.
  intros H x y z. unfold hstep. rewrite !cget_mk3.
  destruct ((x <? S L) && (y <? S L) && (z <? S L)); [|ring].
  destruct axis as [|[|a]].
  - destruct (Nat.eqb x L); [ring|]. rewrite !H. ring.
  - destruct (Nat.eqb y L); [ring|]. rewrite !H. ring.
  - destruct (Nat.eqb z L); [ring|]. rewrite !H. ring.
Qed.

Lemma hiter_lin L axis ab c1 c2 n : forall t t1 t2 k, clin c1 c2 t t1 t2 ->
  clin c1 c2 (nth k (hiter K L axis ab n t) []) (nth k (hiter K L axis ab n t1) []) (nth k (hiter K L axis ab n t2) []).
Proof.
  induction n as [|n IH]; intros t t1 t2 k H; cbn [hiter].
  - destruct k as [|k]; cbn [nth]; [exact H|]. destruct k; apply clin_nil.
  - destruct k as [|k]; cbn [nth]; [exact H|]. apply IH. now apply hstep_lin.
Qed.

Lemma nth_map_len {A B} (f : A -> list B) (l : list A) i (d : A) :
  nth i (map f l) [] = if i <? length l then f (nth i l d) else [].
Proof.
  destruct (Nat.ltb_spec i (length l)) as [Hi|Hi].
  - rewrite (nth_indep _ [] (f d)) by (now rewrite map_length). apply map_nth.
  - apply nth_overflow. now rewrite map_length.
Qed.

Lemma hrr_lin L lb abx aby abz c1 c2 t t1 t2 bx by_ bz : clin c1 c2 t t1 t2 ->
  clin c1 c2 (nth bz (nth by_ (nth bx (hrr K L lb abx aby abz t) []) []) [])
             (nth bz (nth by_ (nth bx (hrr K L lb abx aby abz t1) []) []) [])
             (nth bz (nth by_ (nth bx (hrr K L lb abx aby abz t2) []) []) []).
Proof.
  intros H. unfold hrr. rewrite !(nth_map_len _ _ bx ([] : cube (F:=F))), !(OneElecP.hiter_length K).
  destruct (bx <? S lb); [|destruct by_, bz; apply clin_nil].
  rewrite !(nth_map_len _ _ by_ ([] : cube (F:=F))), !(OneElecP.hiter_length K).
  destruct (by_ <? S lb); [|destruct bz; apply clin_nil].
  apply hiter_lin. apply hiter_lin. now apply hiter_lin.
Qed.

(* point-charge / nuclear-attraction kernel (_one_elec_int.py) *)
Definition oe_ctr (Cx Cy Cz : F) (sa sb : shell F) (pa pb : list (@prim F)) (ma mb x y z : nat) : F :=
  dsum (fun alpha beta => cget K (vrr_prim K (s_l sa + s_l sb) (s_x sa) (s_y sa) (s_z sa)
                                          (s_x sb) (s_y sb) (s_z sb) Cx Cy Cz alpha beta) x y z)
       (norm_rad K (s_l sa)) (norm_rad K (s_l sb)) pa pb ma mb.

(* entry (ia, ib) of the block whose contracted [a|0] cube is ctr: reads only the frames of the shells *)
Definition oe_fn (sa sb : shell F) (ia ib : nat) (ctr : nat -> nat -> nat -> F) : F :=
  let ca := cnth sa ia in let cb := cnth sb ib in
  let h := hrr K (s_l sa + s_l sb) (s_l sb) (s_x sa - s_x sb) (s_y sa - s_y sb) (s_z sa - s_z sb)
             (cube_of (S (s_l sa + s_l sb)) ctr) in
  cget K (nth (snd cb) (nth (snd (fst cb)) (nth (fst (fst cb)) h []) []) [])
         (fst (fst ca)) (snd (fst ca)) (snd ca)
  * nth ia (map (inv_sqrt_df K) (comps_of sa)) 0 * nth ib (map (inv_sqrt_df K) (comps_of sb)) 0.

Lemma oe_block_form Cx Cy Cz sa sb :
  one_elec_point K Cx Cy Cz sa sb
  = mk4 (nseg sa) (ncomp sa) (nseg sb) (ncomp sb)
      (fun ma ia mb ib => oe_fn sa sb ia ib (oe_ctr Cx Cy Cz sa sb (prims sa) (prims sb) ma mb)).
Proof.
  unfold one_elec_point, mk4, ncomp. cbv zeta. apply mk_ext. intros ma Hma.
  rewrite (combine_as_mk (comps_of sa) _ (0, 0, 0)%nat 0), map_mk by apply map_length.
  apply mk_ext. intros ia _. apply mk_ext. intros mb Hmb.
  rewrite (combine_as_mk (comps_of sb) _ (0, 0, 0)%nat 0), map_mk by apply map_length.
  apply mk_ext. intros ib _. rewrite nth_mk by exact Hma. rewrite nth_mk by exact Hmb.
  unfold oe_fn, cnth. cbv zeta.
  destruct (nth ia (comps_of sa) (0, 0, 0)%nat) as [[ax ay] az].
  destruct (nth ib (comps_of sb) (0, 0, 0)%nat) as [[bx by_] bz]. cbn [fst snd].
  do 7 f_equal. apply cube_of_ext. intros x y z.
  unfold oe_ctr, dsum, ssum, prims.
  rewrite (combine3_map (fun beta => map (fun alpha => vrr_prim K (s_l sa + s_l sb) (s_x sa) (s_y sa) (s_z sa)
                            (s_x sb) (s_y sb) (s_z sb) Cx Cy Cz alpha beta) (s_exps sa)) (norm_rad K (s_l sb))).
  rewrite map_map. apply fsum_map_ext_in. intros [beta rb] _. cbn [fst snd].
  rewrite (combine3_map (fun alpha => vrr_prim K (s_l sa + s_l sb) (s_x sa) (s_y sa) (s_z sa)
                            (s_x sb) (s_y sb) (s_z sb) Cx Cy Cz alpha beta) (norm_rad K (s_l sa))).
  rewrite map_map. reflexivity.
Qed.

Lemma oe_fn_ext sa sb ia ib ctr ctr' : (forall x y z, ctr x y z = ctr' x y z) ->
  oe_fn sa sb ia ib ctr = oe_fn sa sb ia ib ctr'.
Proof. intros H. unfold oe_fn. cbv zeta. now rewrite (cube_of_ext _ ctr ctr' H). Qed.

Lemma oe_fn_lin sa sb ia ib ctr ctr1 ctr2 c1 c2 :
  (forall x y z, ctr x y z = c1 * ctr1 x y z + c2 * ctr2 x y z) ->
  oe_fn sa sb ia ib ctr = c1 * oe_fn sa sb ia ib ctr1 + c2 * oe_fn sa sb ia ib ctr2.
Proof.
  intros H. unfold oe_fn. cbv zeta.
  rewrite (hrr_lin _ _ _ _ _ c1 c2 _ _ _ _ _ _ (clin_cube_of _ ctr ctr1 ctr2 c1 c2 H)). ring.
Qed.

Lemma oe_fn_frame Cx Cy Cz sa sb ta tb pa pb ma ia mb ib : same_frame sa ta -> same_frame sb tb ->
  oe_fn ta tb ia ib (oe_ctr Cx Cy Cz ta tb pa pb ma mb) = oe_fn sa sb ia ib (oe_ctr Cx Cy Cz sa sb pa pb ma mb).
Proof.
  intros (A1 & A2 & A3 & A4 & A5) (B1 & B2 & B3 & B4 & B5). unfold oe_fn, oe_ctr, cnth. cbv zeta.
  now rewrite A1, A2, A3, A4, A5, B1, B2, B3, B4, B5.
Qed.

Section OE.
Variables Cx Cy Cz : F.
Notation OE := (one_elec_point K Cx Cy Cz).

Theorem oe_congr sa sb sa' sb' : shell_equiv sa sa' -> shell_equiv sb sb' -> OE sa' sb' = OE sa sb.
Proof.
  intros (Fa & Na & Ea) (Fb & Nb & Eb).
  rewrite !oe_block_form, Na, Nb, (same_frame_ncomp sa sa' Fa), (same_frame_ncomp sb sb' Fb).
  apply mk4_ext. intros. rewrite (oe_fn_frame _ _ _ sa sb sa' sb') by assumption.
  apply oe_fn_ext. intros. now apply dsum_congr.
Qed.

Theorem oe_generalized_is_segmented sa sb ma mb : ma < nseg sa -> mb < nseg sb ->
  OE (col_shell sa ma) (col_shell sb mb)
  = [map (fun b2 => [nth mb b2 []]) (nth ma (OE sa sb) [])].
Proof.
  intros Hma Hmb. rewrite !oe_block_form, (nseg_col_shell sa ma Hma), (nseg_col_shell sb mb Hmb).
  unfold mk4. rewrite mk1. rewrite nth_mk by exact Hma. rewrite map_mk. f_equal.
  apply mk_ext. intros ia _. rewrite mk1. rewrite nth_mk by exact Hmb. f_equal.
  apply mk_ext. intros ib _. rewrite (oe_fn_frame _ _ _ sa sb) by apply same_frame_col.
  apply oe_fn_ext. intros. apply dsum_congr; apply sum_equiv_col_shell.
Qed.

Theorem oe_lin_a t u v sb c1 c2 ma ia mb ib : shell_lin ma c1 c2 t u v ->
  ma < nseg u -> ia < ncomp u -> mb < nseg sb -> ib < ncomp sb ->
  nth4' ma ia mb ib (OE t sb) = c1 * nth4' ma ia mb ib (OE u sb) + c2 * nth4' ma ia mb ib (OE v sb).
Proof.
  intros (Ft & Fv & Nt & Nv & H) Hma Hia Hmb Hib.
  rewrite !oe_block_form, !nth4_mk4
    by (rewrite ?Nt, ?Nv, ?(same_frame_ncomp u t Ft), ?(same_frame_ncomp u v Fv); assumption).
  rewrite (oe_fn_frame _ _ _ u sb t sb), (oe_fn_frame _ _ _ u sb v sb) by (assumption || apply same_frame_refl).
  apply oe_fn_lin. intros. now apply dsum_lin_a.
Qed.

Theorem oe_lin_b sa t u v c1 c2 ma ia mb ib : shell_lin mb c1 c2 t u v ->
  ma < nseg sa -> ia < ncomp sa -> mb < nseg u -> ib < ncomp u ->
  nth4' ma ia mb ib (OE sa t) = c1 * nth4' ma ia mb ib (OE sa u) + c2 * nth4' ma ia mb ib (OE sa v).
Proof.
  intros (Ft & Fv & Nt & Nv & H) Hma Hia Hmb Hib.
  rewrite !oe_block_form, !nth4_mk4
    by (rewrite ?Nt, ?Nv, ?(same_frame_ncomp u t Ft), ?(same_frame_ncomp u v Fv); assumption).
  rewrite (oe_fn_frame _ _ _ sa u sa t), (oe_fn_frame _ _ _ sa u sa v) by (assumption || apply same_frame_refl).
  apply oe_fn_lin. intros. now apply dsum_lin_b.
Qed.
End OE.

(* PointChargeIntegral.construct_array_contraction (with the la < lb swap) *)
Section PC.
Variable points : list (F * F * F * F).
Notation PCB := (point_charge_block K points).

Theorem pc_congr sa sb sa' sb' : shell_equiv sa sa' -> shell_equiv sb sb' -> PCB sa' sb' = PCB sa sb.
Proof.
  intros Ha Hb. pose proof Ha as ((A1 & _ & _ & _ & A5) & Na & _). pose proof Hb as ((B1 & _ & _ & _ & B5) & Nb & _).
  unfold point_charge_block. cbv zeta. rewrite Na, Nb, A1, A5, B1, B5.
  rewrite (map_ext _ (fun '(cx, cy, cz, q) =>
             (q, if s_l sa <? s_l sb then one_elec_point K cx cy cz sb sa else one_elec_point K cx cy cz sa sb)));
    [reflexivity|].
  intros [[[cx cy] cz] q].
  now rewrite (oe_congr cx cy cz sa sb sa' sb' Ha Hb), (oe_congr cx cy cz sb sa sb' sa' Hb Ha).
Qed.

Lemma nth_seg_slice (l : list (list (list F))) m i :
  nth 0 (nth i (map (fun b2 => [nth m b2 []]) l) []) [] = nth m (nth i l []) [].
Proof.
  revert i. induction l as [|b l IH]; intros [|i]; cbn [map nth]; try (destruct m; reflexivity). apply IH.
Qed.

Theorem pc_generalized_is_segmented sa sb ma mb : ma < nseg sa -> mb < nseg sb ->
  PCB (col_shell sa ma) (col_shell sb mb)
  = mk 1 (fun _ => mk (ncomp sa) (fun ia => mk 1 (fun _ => mk (ncomp sb) (fun ib =>
      nth ib (nth mb (nth ia (nth ma (PCB sa sb) []) []) []) [])))).
Proof.
  intros Hma Hmb. unfold point_charge_block. cbv zeta.
  rewrite (nseg_col_shell sa ma Hma), (nseg_col_shell sb mb Hmb).
  change (s_l (col_shell ?s ?m)) with (s_l s). change (comps_of (col_shell ?s ?m)) with (comps_of s).
  unfold ncomp. apply mk_ext. intros a Ha. apply mk_ext. intros ia Hia. apply mk_ext. intros b Hb.
  apply mk_ext. intros ib Hib. assert (a = 0%nat) by lia. assert (b = 0%nat) by lia. subst a b.
  rewrite nth_mk by exact Hma. rewrite nth_mk by exact Hia. rewrite nth_mk by exact Hmb.
  rewrite nth_mk by exact Hib. rewrite !map_map. apply map_ext. intros [[[cx cy] cz] q]. f_equal.
  destruct (s_l sa <? s_l sb).
  - rewrite (oe_generalized_is_segmented cx cy cz sb sa mb ma Hmb Hma). cbn [nth].
    now rewrite nth_seg_slice.
  - rewrite (oe_generalized_is_segmented cx cy cz sa sb ma mb Hma Hmb). cbn [nth].
    now rewrite nth_seg_slice.
Qed.
End PC.

(* PointChargeIntegral block entries are -q x (possibly transposed) one-electron entries: its linearity
   and column-scale laws are those of [one_elec_point] *)
Lemma pc_block_entry points sa sb ma ia mb ib :
  ma < nseg sa -> ia < ncomp sa -> mb < nseg sb -> ib < ncomp sb ->
  nth ib (nth mb (nth ia (nth ma (point_charge_block K points sa sb) []) []) []) []
  = map (fun '(cx, cy, cz, q) =>
           (- q) * (if s_l sa <? s_l sb then nth4' mb ib ma ia (one_elec_point K cx cy cz sb sa)
                    else nth4' ma ia mb ib (one_elec_point K cx cy cz sa sb))) points.
Proof.
  intros Hma Hia Hmb Hib. unfold point_charge_block, ncomp in *. cbv zeta.
  rewrite nth_mk by exact Hma. rewrite nth_mk by exact Hia. rewrite nth_mk by exact Hmb.
  rewrite nth_mk by exact Hib. rewrite map_map. apply map_ext. intros [[[cx cy] cz] q].
  destruct (s_l sa <? s_l sb); reflexivity.
Qed.

Definition oe_nentry Cx Cy Cz (sa sb : shell F) (ma ia mb ib : nat) : F :=
  (ncget (norm_cont K sa) ma ia * ncget (norm_cont K sb) mb ib) * nth4' ma ia mb ib (one_elec_point K Cx Cy Cz sa sb).

Theorem oe_column_scale_a Cx Cy Cz sa sb m0 k kabs ma ia mb ib :
  (forall x, fapx K x = x) -> scale_hyps sa m0 k kabs ->
  ma < nseg sa -> ia < ncomp sa -> mb < nseg sb -> ib < ncomp sb ->
  oe_nentry Cx Cy Cz (scale_col sa m0 k) sb ma ia mb ib = colfac m0 (k / kabs) ma * oe_nentry Cx Cy Cz sa sb ma ia mb ib.
Proof.
  intros Hapx H Hma Hia Hmb Hib. unfold oe_nentry.
  rewrite (oe_lin_a Cx Cy Cz _ _ _ sb _ _ ma ia mb ib (shell_lin_scale_col sa m0 k ma)) by assumption.
  ring [(ncget_scale_col sa m0 k kabs ma ia Hapx H Hma Hia)].
Qed.

Theorem oe_column_scale_b Cx Cy Cz sa sb m0 k kabs ma ia mb ib :
  (forall x, fapx K x = x) -> scale_hyps sb m0 k kabs ->
  ma < nseg sa -> ia < ncomp sa -> mb < nseg sb -> ib < ncomp sb ->
  oe_nentry Cx Cy Cz sa (scale_col sb m0 k) ma ia mb ib = colfac m0 (k / kabs) mb * oe_nentry Cx Cy Cz sa sb ma ia mb ib.
Proof.
  intros Hapx H Hma Hia Hmb Hib. unfold oe_nentry.
  rewrite (oe_lin_b Cx Cy Cz sa _ _ _ _ _ ma ia mb ib (shell_lin_scale_col sb m0 k mb)) by assumption.
  ring [(ncget_scale_col sb m0 k kabs mb ib Hapx H Hmb Hib)].
Qed.

(* electron-repulsion kernel (_two_elec_int.py) *)
Definition qsum (E : F -> F -> F -> F -> F) (N1 N2 N3 N4 : F -> F) (p1 p2 p3 p4 : list (@prim F))
           (m1 m2 m3 m4 : nat) : F :=
  ssum (fun a => ssum (fun b => ssum (fun c => ssum (fun d => E a b c d * N4 d) p4 m4 * N3 c) p3 m3 * N2 b)
                      p2 m2 * N1 a) p1 m1.

Lemma qsum_congr E N1 N2 N3 N4 p1 p2 p3 p4 m1 m2 m3 m4 p1' p2' p3' p4' m1' m2' m3' m4' :
  sum_equiv p1 m1 p1' m1' -> sum_equiv p2 m2 p2' m2' -> sum_equiv p3 m3 p3' m3' -> sum_equiv p4 m4 p4' m4' ->
  qsum E N1 N2 N3 N4 p1' p2' p3' p4' m1' m2' m3' m4' = qsum E N1 N2 N3 N4 p1 p2 p3 p4 m1 m2 m3 m4.
Proof.
  intros H1 H2 H3 H4. unfold qsum. rewrite H1. apply ssum_ext. intros a. f_equal.
  rewrite H2. apply ssum_ext. intros b. f_equal. rewrite H3. apply ssum_ext. intros c. f_equal. apply H4.
Qed.

Lemma combine_wts {B} (g : F * list F -> F * list F) (phi : F -> B) es (C : list (list F)) :
  combine (map g (combine es C)) (map phi es) = map (fun q => (g q, phi (fst q))) (combine es C).
Proof. revert C; induction es as [|e es IH]; intros [|c C]; cbn; try reflexivity. now rewrite IH. Qed.

Lemma csum_wts {B} (s : shell F) (phi : F -> B) (f : B -> F) m :
  csum K (wts K s) m (map phi (s_exps s)) f = ssum (fun a => f (phi a) * norm_rad K (s_l s) a) (prims s) m.
Proof.
  unfold csum, wts, ssum, prims. rewrite combine_wts, map_map. apply fsum_map_ext_in. intros [a row] _.
  unfold wcoef. cbn [fst snd]. ring.
Qed.

Definition eri_E (s1 s2 s3 s4 : shell F) (cx cy cz ax ay az : nat) (a b c d : F) : F :=
  fapx K (eget K (eri_prim K (s_l s1 + s_l s2 + s_l s3 + s_l s4) (s_l s3 + s_l s4)
                    (coord3 s1) (coord3 s2) (coord3 s3) (coord3 s4) a b c d) cx cy cz ax ay az).

Definition eri_ctr (s1 s2 s3 s4 : shell F) (p1 p2 p3 p4 : list (@prim F))
           (m1 m2 m3 m4 cx cy cz ax ay az : nat) : F :=
  qsum (eri_E s1 s2 s3 s4 cx cy cz ax ay az)
       (norm_rad K (s_l s1)) (norm_rad K (s_l s2)) (norm_rad K (s_l s3)) (norm_rad K (s_l s4))
       p1 p2 p3 p4 m1 m2 m3 m4.

Lemma eri_contract_qsum s1 s2 s3 s4 m1 m2 m3 m4 cx cy cz ax ay az :
  eri_contract K (wts K s1) (wts K s2) (wts K s3) (wts K s4)
    (map (fun alpha => map (fun beta => map (fun gamma => map (fun delta =>
       eri_prim K (s_l s1 + s_l s2 + s_l s3 + s_l s4) (s_l s3 + s_l s4)
                (coord3 s1) (coord3 s2) (coord3 s3) (coord3 s4) alpha beta gamma delta)
       (s_exps s4)) (s_exps s3)) (s_exps s2)) (s_exps s1)) m1 m2 m3 m4 cx cy cz ax ay az
  = eri_ctr s1 s2 s3 s4 (prims s1) (prims s2) (prims s3) (prims s4) m1 m2 m3 m4 cx cy cz ax ay az.
Proof.
  unfold eri_contract, eri_ctr, qsum. rewrite csum_wts. apply ssum_ext. intros a. f_equal.
  rewrite csum_wts. apply ssum_ext. intros b. f_equal.
  rewrite csum_wts. apply ssum_ext. intros c. f_equal.
  rewrite csum_wts. reflexivity.
Qed.

Lemma eri_channel_ext La Lc lb ld abx aby abz cdx cdy cdz comps3 comps4 getc getc' :
  (forall cx cy cz ax ay az, getc cx cy cz ax ay az = getc' cx cy cz ax ay az) ->
  eri_channel K La Lc lb ld abx aby abz cdx cdy cdz comps3 comps4 getc
  = eri_channel K La Lc lb ld abx aby abz cdx cdy cdz comps3 comps4 getc'.
Proof.
  intros H. unfold eri_channel. cbv zeta. apply map_ext. intros c3. apply map_ext. intros c4. f_equal.
  apply mk_ext. intros ax Hax. apply mk_ext. intros ay Hay. apply mk_ext. intros az Haz.
  rewrite !(nth_mk (S La) _ _ ax) by exact Hax. rewrite !(nth_mk (S La) _ _ ay) by exact Hay.
  rewrite !(nth_mk (S La) _ _ az) by exact Haz. do 5 f_equal.
  apply mk_ext. intros cx _. apply mk_ext. intros cy _. apply mk_ext. intros cz _. apply H.
Qed.

Definition nth8 (m1 i1 m2 i2 m3 i3 m4 i4 : nat) (b : list (list (list (list (list (list (list (list F)))))))) : F :=
  nth i4 (nth m4 (nth i3 (nth m3 (nth i2 (nth m2 (nth i1 (nth m1 b []) []) []) []) []) []) []) 0.

Definition mk8 (n1 l1 n2 l2 n3 l3 n4 l4 : nat) (f : nat -> nat -> nat -> nat -> nat -> nat -> nat -> nat -> F) :=
  mk n1 (fun m1 => mk l1 (fun i1 => mk n2 (fun m2 => mk l2 (fun i2 =>
    mk n3 (fun m3 => mk l3 (fun i3 => mk n4 (fun m4 => mk l4 (fun i4 => f m1 i1 m2 i2 m3 i3 m4 i4)))))))).

Lemma mk8_ext n1 l1 n2 l2 n3 l3 n4 l4 f g :
  (forall m1 i1 m2 i2 m3 i3 m4 i4, m1 < n1 -> i1 < l1 -> m2 < n2 -> i2 < l2 -> m3 < n3 -> i3 < l3 -> m4 < n4 -> i4 < l4 ->
     f m1 i1 m2 i2 m3 i3 m4 i4 = g m1 i1 m2 i2 m3 i3 m4 i4) ->
  mk8 n1 l1 n2 l2 n3 l3 n4 l4 f = mk8 n1 l1 n2 l2 n3 l3 n4 l4 g.
Proof.
  intros H. unfold mk8. apply mk_ext; intros m1 H1. apply mk_ext; intros i1 Hi1. apply mk_ext; intros m2 H2.
  apply mk_ext; intros i2 Hi2. apply mk_ext; intros m3 H3. apply mk_ext; intros i3 Hi3. apply mk_ext; intros m4 H4.
  apply mk_ext; intros i4 Hi4. now apply H.
Qed.

Lemma nth8_mk8 n1 l1 n2 l2 n3 l3 n4 l4 f m1 i1 m2 i2 m3 i3 m4 i4 :
  m1 < n1 -> i1 < l1 -> m2 < n2 -> i2 < l2 -> m3 < n3 -> i3 < l3 -> m4 < n4 -> i4 < l4 ->
  nth8 m1 i1 m2 i2 m3 i3 m4 i4 (mk8 n1 l1 n2 l2 n3 l3 n4 l4 f) = f m1 i1 m2 i2 m3 i3 m4 i4.
Proof. intros. unfold nth8, mk8. now rewrite !nth_mk by assumption. Qed.

(* entry (i1, i2, i3, i4) of the block whose contracted [a0|c0] table is getc: reads only the frames of the shells *)
Definition eri_fn (s1 s2 s3 s4 : shell F) (i1 i2 i3 i4 : nat) (getc : nat -> nat -> nat -> nat -> nat -> nat -> F) : F :=
  let c1 := nth i1 (comps_of s1) (0, 0, 0)%nat in let c2 := nth i2 (comps_of s2) (0, 0, 0)%nat in
  let ch := eri_channel K (s_l s1 + s_l s2) (s_l s3 + s_l s4) (s_l s2) (s_l s4)
              (s_x s1 - s_x s2) (s_y s1 - s_y s2) (s_z s1 - s_z s2)
              (s_x s3 - s_x s4) (s_y s3 - s_y s4) (s_z s3 - s_z s4) (comps_of s3) (comps_of s4) getc in
  let h := nth i4 (nth i3 ch []) [] in
  cget K (nth (snd c2) (nth (snd (fst c2)) (nth (fst (fst c2)) h []) []) [])
         (fst (fst c1)) (snd (fst c1)) (snd c1)
  * nth i1 (map (inv_sqrt_df K) (comps_of s1)) 0 * nth i2 (map (inv_sqrt_df K) (comps_of s2)) 0
  * nth i3 (map (inv_sqrt_df K) (comps_of s3)) 0 * nth i4 (map (inv_sqrt_df K) (comps_of s4)) 0.

Lemma eri_block_form s1 s2 s3 s4 :
  eri_block K s1 s2 s3 s4
  = mk8 (nseg s1) (ncomp s1) (nseg s2) (ncomp s2) (nseg s3) (ncomp s3) (nseg s4) (ncomp s4)
      (fun m1 i1 m2 i2 m3 i3 m4 i4 =>
         eri_fn s1 s2 s3 s4 i1 i2 i3 i4 (eri_ctr s1 s2 s3 s4 (prims s1) (prims s2) (prims s3) (prims s4) m1 m2 m3 m4)).
Proof.
  unfold eri_block, mk8, ncomp. cbv zeta.
  apply mk_ext; intros m1 H1. apply mk_ext; intros i1 _. apply mk_ext; intros m2 H2. apply mk_ext; intros i2 _.
  apply mk_ext; intros m3 H3. apply mk_ext; intros i3 _. apply mk_ext; intros m4 H4. apply mk_ext; intros i4 _.
  rewrite (nth_mk (nseg s1) _ _ m1) by exact H1. rewrite (nth_mk (nseg s2) _ _ m2) by exact H2.
  rewrite (nth_mk (nseg s3) _ _ m3) by exact H3. rewrite (nth_mk (nseg s4) _ _ m4) by exact H4.
  unfold eri_fn. cbv zeta.
  rewrite (eri_channel_ext _ _ _ _ _ _ _ _ _ _ _ _ _
             (eri_ctr s1 s2 s3 s4 (prims s1) (prims s2) (prims s3) (prims s4) m1 m2 m3 m4)); [reflexivity|].
  intros. apply eri_contract_qsum.
Qed.

Lemma eri_fn_ext s1 s2 s3 s4 i1 i2 i3 i4 getc getc' :
  (forall cx cy cz ax ay az, getc cx cy cz ax ay az = getc' cx cy cz ax ay az) ->
  eri_fn s1 s2 s3 s4 i1 i2 i3 i4 getc = eri_fn s1 s2 s3 s4 i1 i2 i3 i4 getc'.
Proof. intros H. unfold eri_fn. cbv zeta. now rewrite (eri_channel_ext _ _ _ _ _ _ _ _ _ _ _ _ getc getc' H). Qed.

Lemma eri_fn_frame s1 s2 s3 s4 t1 t2 t3 t4 p1 p2 p3 p4 m1 i1 m2 i2 m3 i3 m4 i4 :
  same_frame s1 t1 -> same_frame s2 t2 -> same_frame s3 t3 -> same_frame s4 t4 ->
  eri_fn t1 t2 t3 t4 i1 i2 i3 i4 (eri_ctr t1 t2 t3 t4 p1 p2 p3 p4 m1 m2 m3 m4)
  = eri_fn s1 s2 s3 s4 i1 i2 i3 i4 (eri_ctr s1 s2 s3 s4 p1 p2 p3 p4 m1 m2 m3 m4).
Proof.
  intros (A1 & A2 & A3 & A4 & A5) (B1 & B2 & B3 & B4 & B5) (C1 & C2 & C3 & C4 & C5) (D1 & D2 & D3 & D4 & D5).
  unfold eri_fn, eri_ctr, eri_E, coord3. cbv zeta.
  now rewrite A1, A2, A3, A4, A5, B1, B2, B3, B4, B5, C1, C2, C3, C4, C5, D1, D2, D3, D4, D5.
Qed.

Theorem eri_block_congr s1 s2 s3 s4 s1' s2' s3' s4' :
  shell_equiv s1 s1' -> shell_equiv s2 s2' -> shell_equiv s3 s3' -> shell_equiv s4 s4' ->
  eri_block K s1' s2' s3' s4' = eri_block K s1 s2 s3 s4.
Proof.
  intros (Fr1 & N1 & E1) (Fr2 & N2 & E2) (Fr3 & N3 & E3) (Fr4 & N4 & E4).
  rewrite !eri_block_form, N1, N2, N3, N4, (same_frame_ncomp s1 s1' Fr1), (same_frame_ncomp s2 s2' Fr2),
    (same_frame_ncomp s3 s3' Fr3), (same_frame_ncomp s4 s4' Fr4).
  apply mk8_ext. intros. rewrite (eri_fn_frame s1 s2 s3 s4 s1' s2' s3' s4') by assumption.
  apply eri_fn_ext. intros. unfold eri_ctr. apply qsum_congr; auto.
Qed.

Theorem eri_generalized_is_segmented s1 s2 s3 s4 m1 m2 m3 m4 :
  m1 < nseg s1 -> m2 < nseg s2 -> m3 < nseg s3 -> m4 < nseg s4 ->
  eri_block K (col_shell s1 m1) (col_shell s2 m2) (col_shell s3 m3) (col_shell s4 m4)
  = mk 1 (fun _ => mk (ncomp s1) (fun i1 => mk 1 (fun _ => mk (ncomp s2) (fun i2 =>
      mk 1 (fun _ => mk (ncomp s3) (fun i3 => mk 1 (fun _ => mk (ncomp s4) (fun i4 =>
        nth8 m1 i1 m2 i2 m3 i3 m4 i4 (eri_block K s1 s2 s3 s4))))))))).
Proof.
  intros H1 H2 H3 H4. rewrite (eri_block_form (col_shell s1 m1)).
  rewrite (nseg_col_shell s1 m1 H1), (nseg_col_shell s2 m2 H2), (nseg_col_shell s3 m3 H3), (nseg_col_shell s4 m4 H4).
  apply (mk8_ext 1 (ncomp s1) 1 (ncomp s2) 1 (ncomp s3) 1 (ncomp s4)). intros a i1 b i2 c i3 d i4 Ha Hi1 Hb Hi2 Hc Hi3 Hd Hi4.
  assert (a = 0%nat) by lia. assert (b = 0%nat) by lia. assert (c = 0%nat) by lia. assert (d = 0%nat) by lia.
  subst a b c d. rewrite eri_block_form, nth8_mk8 by assumption.
  rewrite (eri_fn_frame s1 s2 s3 s4) by apply same_frame_col.
  apply eri_fn_ext. intros. unfold eri_ctr. apply qsum_congr; apply sum_equiv_col_shell.
Qed.

Lemma eri_channel_lin La Lc lb ld abx aby abz cdx cdy cdz comps3 comps4 getc getc1 getc2 c1 c2 i3 i4 bx by_ bz :
  (forall cx cy cz ax ay az, getc cx cy cz ax ay az = c1 * getc1 cx cy cz ax ay az + c2 * getc2 cx cy cz ax ay az) ->
  clin c1 c2
    (nth bz (nth by_ (nth bx (nth i4 (nth i3 (eri_channel K La Lc lb ld abx aby abz cdx cdy cdz comps3 comps4 getc) []) []) []) []) [])
    (nth bz (nth by_ (nth bx (nth i4 (nth i3 (eri_channel K La Lc lb ld abx aby abz cdx cdy cdz comps3 comps4 getc1) []) []) []) []) [])
    (nth bz (nth by_ (nth bx (nth i4 (nth i3 (eri_channel K La Lc lb ld abx aby abz cdx cdy cdz comps3 comps4 getc2) []) []) []) []) []).
Proof.
  intros H. unfold eri_channel. cbv zeta.
  rewrite !(nth_map_len _ _ i3 (0, 0, 0)%nat). match goal with |- context [i3 <? ?n] => destruct (i3 <? n) end; [|destruct i4, bx, by_, bz; apply clin_nil].
  rewrite !(nth_map_len _ _ i4 (0, 0, 0)%nat). match goal with |- context [i4 <? ?n] => destruct (i4 <? n) end; [|destruct bx, by_, bz; apply clin_nil].
  apply hrr_lin. intros ax ay az. rewrite !cget_mk3.
  destruct (Nat.ltb_spec ax (S La)) as [Hax|]; cbn [andb]; [|ring].
  destruct (Nat.ltb_spec ay (S La)) as [Hay|]; cbn [andb]; [|ring].
  destruct (Nat.ltb_spec az (S La)) as [Haz|]; [|ring].
  rewrite !(nth_mk (S La) _ _ ax) by exact Hax. rewrite !(nth_mk (S La) _ _ ay) by exact Hay.
  rewrite !(nth_mk (S La) _ _ az) by exact Haz.
  apply hrr_lin. apply (clin_cube_of (S Lc)). intros cx cy cz. apply H.
Qed.

Lemma eri_fn_lin s1 s2 s3 s4 i1 i2 i3 i4 getc getc1 getc2 c1 c2 :
  (forall cx cy cz ax ay az, getc cx cy cz ax ay az = c1 * getc1 cx cy cz ax ay az + c2 * getc2 cx cy cz ax ay az) ->
  eri_fn s1 s2 s3 s4 i1 i2 i3 i4 getc
  = c1 * eri_fn s1 s2 s3 s4 i1 i2 i3 i4 getc1 + c2 * eri_fn s1 s2 s3 s4 i1 i2 i3 i4 getc2.
Proof.
  intros H. unfold eri_fn. cbv zeta.
  rewrite (eri_channel_lin _ _ _ _ _ _ _ _ _ _ _ _ getc getc1 getc2 c1 c2 i3 i4 _ _ _ H). ring.
Qed.

Section QL.
Variables (E : F -> F -> F -> F -> F) (N1 N2 N3 N4 : F -> F) (c1 c2 : F).
Notation Q := (qsum E N1 N2 N3 N4).
Lemma qsum_lin_1 p p' p'' p2 p3 p4 m1 m2 m3 m4 : sum_lin m1 c1 c2 p p' p'' ->
  Q p p2 p3 p4 m1 m2 m3 m4 = c1 * Q p' p2 p3 p4 m1 m2 m3 m4 + c2 * Q p'' p2 p3 p4 m1 m2 m3 m4.
Proof. intros H. unfold qsum. apply H. Qed.
Lemma qsum_lin_2 p1 p p' p'' p3 p4 m1 m2 m3 m4 : sum_lin m2 c1 c2 p p' p'' ->
  Q p1 p p3 p4 m1 m2 m3 m4 = c1 * Q p1 p' p3 p4 m1 m2 m3 m4 + c2 * Q p1 p'' p3 p4 m1 m2 m3 m4.
Proof. intros H. unfold qsum. apply ssum_flin. intros a. apply H. Qed.
Lemma qsum_lin_3 p1 p2 p p' p'' p4 m1 m2 m3 m4 : sum_lin m3 c1 c2 p p' p'' ->
  Q p1 p2 p p4 m1 m2 m3 m4 = c1 * Q p1 p2 p' p4 m1 m2 m3 m4 + c2 * Q p1 p2 p'' p4 m1 m2 m3 m4.
Proof. intros H. unfold qsum. apply ssum_flin. intros a. apply ssum_flin. intros b. apply H. Qed.
Lemma qsum_lin_4 p1 p2 p3 p p' p'' m1 m2 m3 m4 : sum_lin m4 c1 c2 p p' p'' ->
  Q p1 p2 p3 p m1 m2 m3 m4 = c1 * Q p1 p2 p3 p' m1 m2 m3 m4 + c2 * Q p1 p2 p3 p'' m1 m2 m3 m4.
Proof.
  intros H. unfold qsum. apply ssum_flin. intros a. apply ssum_flin. intros b. apply ssum_flin. intros c. apply H.
Qed.
End QL.

Section ERILin.
Variables (s1 s2 s3 s4 t v : shell F) (c1 c2 : F) (m1 i1 m2 i2 m3 i3 m4 i4 : nat).
Hypothesis H1 : m1 < nseg s1. Hypothesis Hi1 : i1 < ncomp s1.
Hypothesis H2 : m2 < nseg s2. Hypothesis Hi2 : i2 < ncomp s2.
Hypothesis H3 : m3 < nseg s3. Hypothesis Hi3 : i3 < ncomp s3.
Hypothesis H4 : m4 < nseg s4. Hypothesis Hi4 : i4 < ncomp s4.
Notation N8 := (nth8 m1 i1 m2 i2 m3 i3 m4 i4).

Theorem eri_block_lin_1 : shell_lin m1 c1 c2 t s1 v ->
  N8 (eri_block K t s2 s3 s4) = c1 * N8 (eri_block K s1 s2 s3 s4) + c2 * N8 (eri_block K v s2 s3 s4).
Proof.
  intros (Ft & Fv & Nt & Nv & H).
  rewrite !eri_block_form, !nth8_mk8
    by (rewrite ?Nt, ?Nv, ?(same_frame_ncomp s1 t Ft), ?(same_frame_ncomp s1 v Fv); assumption).
  rewrite (eri_fn_frame s1 s2 s3 s4 t s2 s3 s4), (eri_fn_frame s1 s2 s3 s4 v s2 s3 s4) by (assumption || apply same_frame_refl).
  apply eri_fn_lin. intros. unfold eri_ctr. now apply qsum_lin_1.
Qed.

Theorem eri_block_lin_2 : shell_lin m2 c1 c2 t s2 v ->
  N8 (eri_block K s1 t s3 s4) = c1 * N8 (eri_block K s1 s2 s3 s4) + c2 * N8 (eri_block K s1 v s3 s4).
Proof.
  intros (Ft & Fv & Nt & Nv & H).
  rewrite !eri_block_form, !nth8_mk8
    by (rewrite ?Nt, ?Nv, ?(same_frame_ncomp s2 t Ft), ?(same_frame_ncomp s2 v Fv); assumption).
  rewrite (eri_fn_frame s1 s2 s3 s4 s1 t s3 s4), (eri_fn_frame s1 s2 s3 s4 s1 v s3 s4) by (assumption || apply same_frame_refl).
  apply eri_fn_lin. intros. unfold eri_ctr. now apply qsum_lin_2.
Qed.

Theorem eri_block_lin_3 : shell_lin m3 c1 c2 t s3 v ->
  N8 (eri_block K s1 s2 t s4) = c1 * N8 (eri_block K s1 s2 s3 s4) + c2 * N8 (eri_block K s1 s2 v s4).
Proof.
  intros (Ft & Fv & Nt & Nv & H).
  rewrite !eri_block_form, !nth8_mk8
    by (rewrite ?Nt, ?Nv, ?(same_frame_ncomp s3 t Ft), ?(same_frame_ncomp s3 v Fv); assumption).
  rewrite (eri_fn_frame s1 s2 s3 s4 s1 s2 t s4), (eri_fn_frame s1 s2 s3 s4 s1 s2 v s4) by (assumption || apply same_frame_refl).
  apply eri_fn_lin. intros. unfold eri_ctr. now apply qsum_lin_3.
Qed.

Theorem eri_block_lin_4 : shell_lin m4 c1 c2 t s4 v ->
  N8 (eri_block K s1 s2 s3 t) = c1 * N8 (eri_block K s1 s2 s3 s4) + c2 * N8 (eri_block K s1 s2 s3 v).
Proof.
  intros (Ft & Fv & Nt & Nv & H).
  rewrite !eri_block_form, !nth8_mk8
    by (rewrite ?Nt, ?Nv, ?(same_frame_ncomp s4 t Ft), ?(same_frame_ncomp s4 v Fv); assumption).
  rewrite (eri_fn_frame s1 s2 s3 s4 s1 s2 s3 t), (eri_fn_frame s1 s2 s3 s4 s1 s2 s3 v) by (assumption || apply same_frame_refl).
  apply eri_fn_lin. intros. unfold eri_ctr. now apply qsum_lin_4.
Qed.
End ERILin.

Definition eri_nentry (s1 s2 s3 s4 : shell F) (m1 i1 m2 i2 m3 i3 m4 i4 : nat) : F :=
  (ncget (norm_cont K s1) m1 i1 * ncget (norm_cont K s2) m2 i2 * ncget (norm_cont K s3) m3 i3
   * ncget (norm_cont K s4) m4 i4) * nth8 m1 i1 m2 i2 m3 i3 m4 i4 (eri_block K s1 s2 s3 s4).

Section ERIScale.
Variables (s1 s2 s3 s4 : shell F) (m0 : nat) (k kabs : F) (m1 i1 m2 i2 m3 i3 m4 i4 : nat).
Hypothesis Hapx : forall x, fapx K x = x.
Hypothesis H1 : m1 < nseg s1. Hypothesis Hi1 : i1 < ncomp s1.
Hypothesis H2 : m2 < nseg s2. Hypothesis Hi2 : i2 < ncomp s2.
Hypothesis H3 : m3 < nseg s3. Hypothesis Hi3 : i3 < ncomp s3.
Hypothesis H4 : m4 < nseg s4. Hypothesis Hi4 : i4 < ncomp s4.

Theorem eri_column_scale_1 : scale_hyps s1 m0 k kabs ->
  eri_nentry (scale_col s1 m0 k) s2 s3 s4 m1 i1 m2 i2 m3 i3 m4 i4
  = colfac m0 (k / kabs) m1 * eri_nentry s1 s2 s3 s4 m1 i1 m2 i2 m3 i3 m4 i4.
Proof.
  intros H. unfold eri_nentry.
  rewrite (eri_block_lin_1 s1 s2 s3 s4 _ s1 _ 0 m1 i1 m2 i2 m3 i3 m4 i4 H1 Hi1 H2 Hi2 H3 Hi3 H4 Hi4
             (shell_lin_scale_col s1 m0 k m1)).
  ring [(ncget_scale_col s1 m0 k kabs m1 i1 Hapx H H1 Hi1)].
Qed.

Theorem eri_column_scale_2 : scale_hyps s2 m0 k kabs ->
  eri_nentry s1 (scale_col s2 m0 k) s3 s4 m1 i1 m2 i2 m3 i3 m4 i4
  = colfac m0 (k / kabs) m2 * eri_nentry s1 s2 s3 s4 m1 i1 m2 i2 m3 i3 m4 i4.
Proof.
  intros H. unfold eri_nentry.
  rewrite (eri_block_lin_2 s1 s2 s3 s4 _ s2 _ 0 m1 i1 m2 i2 m3 i3 m4 i4 H1 Hi1 H2 Hi2 H3 Hi3 H4 Hi4
             (shell_lin_scale_col s2 m0 k m2)).
  ring [(ncget_scale_col s2 m0 k kabs m2 i2 Hapx H H2 Hi2)].
Qed.

Theorem eri_column_scale_3 : scale_hyps s3 m0 k kabs ->
  eri_nentry s1 s2 (scale_col s3 m0 k) s4 m1 i1 m2 i2 m3 i3 m4 i4
  = colfac m0 (k / kabs) m3 * eri_nentry s1 s2 s3 s4 m1 i1 m2 i2 m3 i3 m4 i4.
Proof.
  intros H. unfold eri_nentry.
  rewrite (eri_block_lin_3 s1 s2 s3 s4 _ s3 _ 0 m1 i1 m2 i2 m3 i3 m4 i4 H1 Hi1 H2 Hi2 H3 Hi3 H4 Hi4
             (shell_lin_scale_col s3 m0 k m3)).
  ring [(ncget_scale_col s3 m0 k kabs m3 i3 Hapx H H3 Hi3)].
Qed.

Theorem eri_column_scale_4 : scale_hyps s4 m0 k kabs ->
  eri_nentry s1 s2 s3 (scale_col s4 m0 k) m1 i1 m2 i2 m3 i3 m4 i4
  = colfac m0 (k / kabs) m4 * eri_nentry s1 s2 s3 s4 m1 i1 m2 i2 m3 i3 m4 i4.
Proof.
  intros H. unfold eri_nentry.
  rewrite (eri_block_lin_4 s1 s2 s3 s4 _ s4 _ 0 m1 i1 m2 i2 m3 i3 m4 i4 H1 Hi1 H2 Hi2 H3 Hi3 H4 Hi4
             (shell_lin_scale_col s4 m0 k m4)).
  ring [(ncget_scale_col s4 m0 k kabs m4 i4 Hapx H H4 Hi4)].
Qed.
End ERIScale.

(* one-index assembly (base_one.py): a generalized shell gives the same rows, in the same
   order, as its single-column shells listed one after the other (segment-major flattening) *)
Definition segments (s : shell F) : list (shell F) := map (col_shell s) (seq 0 (nseg s)).
Definition segmented_basis (basis : list (shell F)) : list (shell F) := flat_map segments basis.

Section OneIndex.
Variable tabs : F -> F.

Definition seg_rows (sph : bool) (T : list (list F)) (q : list F * list (list F)) : list (list F) :=
  let r := map (fun '(x, row) => map (fmul K x) row) (combine (fst q) (snd q)) in
  if sph then apply_rows (map (fun _ => 0) (hd [] r))
                (fun x y => map (fun '(a, c) => a + c) (combine x y))
                (fun t x => map (fmul K t) x) (map (map tabs) T) r
  else r.

Lemma shell_rows_flat sph T nc blk :
  shell_rows K tabs sph T nc blk = concat (map (seg_rows sph T) (combine nc blk)).
Proof.
  unfold shell_rows, normalise1, seg_rows. cbv zeta. destruct sph.
  - rewrite map_map. f_equal. apply map_ext. intros [nrow b1]. reflexivity.
  - f_equal. apply map_ext. intros [nrow b1]. reflexivity.
Qed.

Variable blk_of : shell F -> list (list (list F)).
Definition rows_of (s : shell F) : list (list F) :=
  shell_rows K tabs (s_sph s) (shell_transform K s) (norm_cont K s) (blk_of s).

Definition seg_compatible (s : shell F) : Prop :=
  length (blk_of s) = nseg s /\ forall m, m < nseg s -> blk_of (col_shell s m) = [nth m (blk_of s) []].

Lemma rows_of_segments s : seg_compatible s -> rows_of s = concat (map rows_of (segments s)).
Proof.
  intros [HL HS]. unfold rows_of at 1. rewrite shell_rows_flat.
  rewrite (combine_as_mk (norm_cont K s) (blk_of s) [] []), norm_cont_form, mk_length
    by (now rewrite norm_cont_form, mk_length).
  unfold segments, mk. rewrite !map_map. f_equal. apply map_ext_in. intros m Hm. apply in_seq in Hm.
  unfold rows_of. rewrite shell_rows_flat, (norm_cont_col_shell s m) by lia. rewrite (HS m) by lia.
  change (s_sph (col_shell s m)) with (s_sph s). change (shell_transform K (col_shell s m)) with (shell_transform K s).
  cbn [combine map concat]. now rewrite app_nil_r.
Qed.

Lemma rows_segmented_basis basis : Forall seg_compatible basis ->
  concat (map rows_of (segmented_basis basis)) = concat (map rows_of basis).
Proof.
  induction 1 as [|s basis Hs _ IH]; [reflexivity|]. unfold segmented_basis in *. cbn [flat_map map concat].
  rewrite map_app, concat_app, IH. f_equal. symmetry. now apply rows_of_segments.
Qed.

Lemma one_index_rows_of basis T :
  one_index K tabs (map (fun s => (prep_fast K s, blk_of s)) basis) T
  = let rows := concat (map rows_of basis) in
    match T with
    | None => rows
    | Some t => apply_rows (map (fun _ => 0) (hd [] rows))
                  (fun x y => map (fun '(a, c) => a + c) (combine x y))
                  (fun t x => map (fmul K t) x) (map (map tabs) t) rows
    end.
Proof. unfold one_index. cbv zeta. rewrite map_map. reflexivity. Qed.

Theorem one_index_segmented basis T : Forall seg_compatible basis ->
  one_index K tabs (map (fun s => (prep_fast K s, blk_of s)) (segmented_basis basis)) T
  = one_index K tabs (map (fun s => (prep_fast K s, blk_of s)) basis) T.
Proof. intros H. rewrite !one_index_rows_of. cbv zeta. now rewrite (rows_segmented_basis basis H). Qed.
End OneIndex.

Lemma block_with_length md cm ef s o pts : length (block_with K md cm ef s o pts) = nseg s.
Proof. unfold block_with. cbv zeta. apply mk_length. Qed.

Lemma block_with_seg_compatible (mdf : shell F -> rowmode (F:=F)) ef o pts :
  (forall s m, mdf (col_shell s m) = mdf s) ->
  forall basis, Forall (seg_compatible (fun s => block_with K (mdf s) (fun x => x) ef s o pts)) basis.
Proof.
  intros Hmd basis. apply Forall_forall. intros s _. split; [apply block_with_length|].
  intros m Hm. rewrite Hmd. now apply eval_generalized_is_segmented.
Qed.

Theorem evaluate_deriv_basis_generalized_is_segmented basis pts o T bk :
  evaluate_deriv_basis_model K (segmented_basis basis) pts o T bk = evaluate_deriv_basis_model K basis pts o T bk.
Proof.
  unfold evaluate_deriv_basis_model. destruct (accepts bk o); [|reflexivity]. f_equal.
  apply one_index_segmented.
  exact (block_with_seg_compatible (fun s => mode_of K bk (s_l s) (comps_of s) o) (fexp K) o pts (fun _ _ => eq_refl) basis).
Qed.

(* two-index assembly (base_two_symm / base_two_asymm): the processed block of two generalized shells is
   the matrix of the processed blocks (tiles) of their single-column shells, in segment-major order on both
   sides (row (ma, i), inside the row the tiles mb = 0, 1, ..), whatever the coordinate types *)
Lemma flatten_block_mk4 M1 L1 M2 L2 (f : nat -> nat -> nat -> nat -> F) :
  flatten_block (mk4 M1 L1 M2 L2 f)
  = concat (mk M1 (fun m1 => mk L1 (fun c1 => concat (mk M2 (fun m2 => mk L2 (fun c2 => f m1 c1 m2 c2)))))).
Proof.
  unfold flatten_block, mk4. rewrite flat_map_concat_map, map_mk. f_equal. apply mk_ext. intros m1 _.
  now rewrite map_mk.
Qed.

Lemma ncget_col_shell s m c : m < nseg s -> ncget (norm_cont K (col_shell s m)) 0 c = ncget (norm_cont K s) m c.
Proof. intros Hm. unfold ncget. now rewrite (norm_cont_col_shell s m Hm). Qed.

Lemma nentry_col g sa sb ma ia mb ib : ma < nseg sa -> mb < nseg sb ->
  nentry g (col_shell sa ma) (col_shell sb mb) 0 ia 0 ib = nentry g sa sb ma ia mb ib.
Proof.
  intros Hma Hmb. unfold nentry. rewrite (ncget_col_shell sa ma ia Hma), (ncget_col_shell sb mb ib Hmb).
  now rewrite kentry_col.
Qed.

Section FrameKernel.
(* a kernel that reads only the frames of the two shells (overlap, moments, differential operators, ...) *)
Variable G : shell F -> shell F -> F -> F -> comp -> comp -> F.
Definition kblockf (s1 s2 : shell F) : list (list (list (list F))) := kblock (G s1 s2) s1 s2.
End FrameKernel.

(* sum_c t_c h(c) over the common length of a transform row and the component axis *)
Definition tl_sum (trow : list F) (L : nat) (h : nat -> F) : F :=
  fsum (map (fun tc : F * nat => fst tc * h (snd tc)) (combine trow (seq 0 L))).

Lemma tl_sum_ext trow L h h' : (forall c, h c = h' c) -> tl_sum trow L h = tl_sum trow L h'.
Proof. intros H. unfold tl_sum. apply fsum_map_ext_in. intros tc _. now rewrite H. Qed.

Lemma combine_mk_r {A} (trow : list F) L (h : nat -> A) :
  combine trow (mk L h) = map (fun tc : F * nat => (fst tc, h (snd tc))) (combine trow (seq 0 L)).
Proof.
  unfold mk. generalize (seq 0 L). intros l. revert trow. induction l as [|c l IH]; intros [|t trow]; cbn; try reflexivity.
  now rewrite IH.
Qed.

Lemma apply_rows_mk T L (h : nat -> F) :
  apply_rows 0 (fadd K) (fmul K) T (mk L h) = mk (length T) (fun j => tl_sum (nth j T []) L h).
Proof.
  unfold apply_rows. rewrite (map_as_mk _ T []). apply mk_ext. intros j _.
  unfold asum, tl_sum. rewrite combine_mk_r, map_map. reflexivity.
Qed.

Lemma transform_right_mk4 T M1 L1 M2 L2 f :
  transform_right 0 (fadd K) (fmul K) T (mk4 M1 L1 M2 L2 f)
  = mk4 M1 L1 M2 (length T) (fun m1 c1 m2 j => tl_sum (nth j T []) L2 (fun c2 => f m1 c1 m2 c2)).
Proof.
  unfold transform_right, mk4. rewrite map_mk. apply mk_ext. intros m1 _. rewrite map_mk. apply mk_ext. intros c1 _.
  rewrite map_mk. apply mk_ext. intros m2 _. apply apply_rows_mk.
Qed.

Lemma slab_fold_mk trow cs M2 L2 (g : nat -> nat -> nat -> F) :
  fold_right (slab_add (fadd K)) (mk M2 (fun _ => mk L2 (fun _ => 0)))
    (map (fun '(t, sl) => slab_scale (fmul K) t sl)
         (combine trow (map (fun c1 => mk M2 (fun m2 => mk L2 (fun c2 => g c1 m2 c2))) cs)))
  = mk M2 (fun m2 => mk L2 (fun c2 => fsum (map (fun tc : F * nat => fst tc * g (snd tc) m2 c2) (combine trow cs)))).
Proof.
  revert trow. induction cs as [|c cs IH]; intros [|t trow]; cbn [map combine fold_right]; try reflexivity.
  rewrite IH. unfold slab_add, slab_scale. rewrite map_mk, combine_mk, map_mk. apply mk_ext. intros m2 _.
  rewrite map_mk, combine_mk, map_mk. apply mk_ext. intros c2 _. reflexivity.
Qed.

Lemma transform_left_mk4 T M1 L1 M2 L2 f : 0 < L1 ->
  transform_left 0 (fadd K) (fmul K) T (mk4 M1 L1 M2 L2 f)
  = mk4 M1 (length T) M2 L2 (fun m1 i m2 c2 => tl_sum (nth i T []) L1 (fun c1 => f m1 c1 m2 c2)).
Proof.
  intros HL. unfold transform_left, mk4. rewrite map_mk. apply mk_ext. intros m1 _.
  rewrite (map_as_mk _ T []). apply mk_ext. intros i _.
  assert (Z : slab_zero 0 (hd [] (mk L1 (fun b => mk M2 (fun c => mk L2 (fun d => f m1 b c d)))))
              = mk M2 (fun _ => mk L2 (fun _ => 0))).
  { destruct L1 as [|L1']; [lia|]. unfold mk at 1. cbn [seq map hd]. unfold slab_zero. rewrite map_mk.
    apply mk_ext. intros m2 _. now rewrite map_mk. }
  rewrite Z. unfold mk at 3. rewrite (slab_fold_mk (nth i T []) (seq 0 L1) M2 L2 (fun c1 m2 c2 => f m1 c1 m2 c2)).
  reflexivity.
Qed.

(* the two transforms of the assembly (step 2 of Model/Assembly.v) on the (m1, ., m2, .) slab of a block;
   the callers pass the normalised entry for [f], which is step 1 *)
Definition proc (sph1 sph2 : bool) (T1 T2 : list (list F)) (L1 L2 : nat)
           (f : nat -> nat -> nat -> nat -> F) (m1 i m2 j : nat) : F :=
  let g := fun c2 => if sph1 then tl_sum (nth i T1 []) L1 (fun c1 => f m1 c1 m2 c2) else f m1 i m2 c2 in
  if sph2 then tl_sum (nth j T2 []) L2 g else g j.

Lemma proc_ext sph1 sph2 T1 T2 L1 L2 f f' m1 m1' i m2 m2' j :
  (forall c1 c2, f m1 c1 m2 c2 = f' m1' c1 m2' c2) ->
  proc sph1 sph2 T1 T2 L1 L2 f m1 i m2 j = proc sph1 sph2 T1 T2 L1 L2 f' m1' i m2' j.
Proof.
  intros H. unfold proc.
  assert (Hg : forall c2, (if sph1 then tl_sum (nth i T1 []) L1 (fun c1 => f m1 c1 m2 c2) else f m1 i m2 c2)
                        = (if sph1 then tl_sum (nth i T1 []) L1 (fun c1 => f' m1' c1 m2' c2) else f' m1' i m2' c2)).
  { intros c2. destruct sph1; [apply tl_sum_ext; intros c1|]; apply H. }
  destruct sph2; [apply tl_sum_ext; exact Hg|exact (Hg j)].
Qed.

Lemma transforms_mk4 (sph1 sph2 : bool) T1 T2 M1 L1 M2 L2 f : (0 < L1)%nat ->
  (let b0 := if sph1 then transform_left 0 (fadd K) (fmul K) T1 (mk4 M1 L1 M2 L2 f) else mk4 M1 L1 M2 L2 f in
   if sph2 then transform_right 0 (fadd K) (fmul K) T2 b0 else b0)
  = mk4 M1 (if sph1 then length T1 else L1) M2 (if sph2 then length T2 else L2) (proc sph1 sph2 T1 T2 L1 L2 f).
Proof.
  intros HL. cbv zeta. unfold proc. destruct sph1, sph2; rewrite ?transform_left_mk4 by exact HL;
    rewrite ?transform_right_mk4; reflexivity.
Qed.

Lemma ncomp_pos (s : shell F) : 0 < ncomp s.
Proof.
  unfold ncomp, comps_of. destruct (s_comps s) as [|c cs]; [|cbn; lia].
  unfold default_comps. cbn [seq flat_map]. rewrite app_length. cbn [seq map length]. lia.
Qed.

Lemma hcat_rows (R : nat) (ms : list (list (list F))) : ms <> [] -> Forall (fun m => length m = R) ms ->
  hcat ms = mk R (fun i => concat (map (fun m => nth i m []) ms)).
Proof.
  induction ms as [|m ms IH]; intros Hne HR; [congruence|]. inversion HR as [|? ? Hm HR']; subst.
  destruct ms as [|m' rest].
  - cbn [hcat map concat]. rewrite <- (mk_nth_id m []) at 1. apply mk_ext. intros i _. now rewrite app_nil_r.
  - change (hcat (m :: m' :: rest)) with (map (fun '(r1, r2) => r1 ++ r2) (combine m (hcat (m' :: rest)))).
    rewrite IH by (congruence || assumption). rewrite <- (mk_nth_id m []) at 1.
    rewrite combine_mk, map_mk. reflexivity.
Qed.

Section TwoIndexAny.
Variable G : shell F -> shell F -> F -> F -> comp -> comp -> F.
Variable blockf : shell F -> shell F -> list (list (list (list F))).
Hypothesis blockf_kernel : forall s1 s2, blockf s1 s2 = kblock (G s1 s2) s1 s2.
Notation PB := (pblock K 0 (fadd K) (fmul K) blockf).

Lemma pblock_form sa sb :
  pblock K 0 (fadd K) (fmul K) blockf (prep K sa) (prep K sb)
  = flatten_block (mk4 (nseg sa) (if s_sph sa then length (shell_transform K sa) else ncomp sa)
                       (nseg sb) (if s_sph sb then length (shell_transform K sb) else ncomp sb)
                       (proc (s_sph sa) (s_sph sb) (shell_transform K sa) (shell_transform K sb) (ncomp sa) (ncomp sb)
                             (nentry (G sa sb) sa sb))).
Proof.
  unfold pblock, prep, shell_block. cbn [p_shell p_norm p_T]. cbv zeta. rewrite blockf_kernel.
  change (normalise K (fmul K) (norm_cont K sa) (norm_cont K sb) (kblock (G sa sb) sa sb)) with (nblock (G sa sb) sa sb).
  rewrite nblock_form. f_equal.
  exact (transforms_mk4 (s_sph sa) (s_sph sb) (shell_transform K sa) (shell_transform K sb)
           (nseg sa) (ncomp sa) (nseg sb) (ncomp sb) (nentry (G sa sb) sa sb) (ncomp_pos sa)).
Qed.

(* the processed block of two single-column shells: the (ma, ., mb, .) slab of the block of sa, sb *)
Lemma tile_form sa sb ma mb : G (col_shell sa ma) (col_shell sb mb) = G sa sb -> ma < nseg sa -> mb < nseg sb ->
  pblock K 0 (fadd K) (fmul K) blockf (prep K (col_shell sa ma)) (prep K (col_shell sb mb))
  = mk (if s_sph sa then length (shell_transform K sa) else ncomp sa) (fun i =>
      mk (if s_sph sb then length (shell_transform K sb) else ncomp sb) (fun j =>
        proc (s_sph sa) (s_sph sb) (shell_transform K sa) (shell_transform K sb) (ncomp sa) (ncomp sb)
             (nentry (G sa sb) sa sb) ma i mb j)).
Proof.
  intros HG Hma Hmb. rewrite (pblock_form (col_shell sa ma) (col_shell sb mb)), HG, flatten_block_mk4.
  rewrite (nseg_col_shell sa ma Hma), (nseg_col_shell sb mb Hmb), mk1. cbn [concat]. rewrite app_nil_r.
  apply mk_ext. intros i _. rewrite mk1. cbn [concat]. rewrite app_nil_r.
  apply mk_ext. intros j _. apply proc_ext. intros c1 c2. now apply nentry_col.
Qed.

Theorem pblock_segment_major sa sb :
  (forall ma mb, G (col_shell sa ma) (col_shell sb mb) = G sa sb) ->
  pblock K 0 (fadd K) (fmul K) blockf (prep K sa) (prep K sb)
  = concat (mk (nseg sa) (fun ma =>
      mk (if s_sph sa then length (shell_transform K sa) else ncomp sa) (fun i =>
        concat (mk (nseg sb) (fun mb =>
          nth i (pblock K 0 (fadd K) (fmul K) blockf (prep K (col_shell sa ma)) (prep K (col_shell sb mb))) []))))).
Proof.
  intros HG. rewrite (pblock_form sa sb), flatten_block_mk4.
  f_equal. apply mk_ext. intros ma Hma. apply mk_ext. intros i Hi. f_equal. apply mk_ext. intros mb Hmb.
  rewrite (tile_form sa sb ma mb (HG ma mb) Hma Hmb). now rewrite nth_mk by exact Hi.
Qed.

Lemma nth_segments_prep s i : i < nseg s ->
  nth i (map (prep K) (segments s)) (dummy_p K) = prep K (col_shell s i).
Proof.
  intros Hi. unfold segments. rewrite map_map.
  exact (nth_mk (nseg s) (fun m => prep K (col_shell s m)) (dummy_p K) i Hi).
Qed.

Theorem two_asymm_pair_segmented sa sb T1 T2 : 0 < nseg sb ->
  (forall ma mb, G (col_shell sa ma) (col_shell sb mb) = G sa sb) ->
  two_asymm_integral K 0 (fadd K) (fmul K) blockf (segments sa) (segments sb) T1 T2
  = two_asymm_integral K 0 (fadd K) (fmul K) blockf [sa] [sb] T1 T2.
Proof.
  intros HM HG. unfold two_asymm_integral. cbv zeta.
  assert (E : two_asymm_blocks (length (map (prep K) (segments sa))) (length (map (prep K) (segments sb)))
                (fun i j => PB (nth i (map (prep K) (segments sa)) (dummy_p K)) (nth j (map (prep K) (segments sb)) (dummy_p K)))
              = two_asymm_blocks (length (map (prep K) [sa])) (length (map (prep K) [sb]))
                (fun i j => PB (nth i (map (prep K) [sa]) (dummy_p K)) (nth j (map (prep K) [sb]) (dummy_p K)))).
  { assert (LS : forall s, length (map (prep K) (segments s)) = nseg s)
      by (intros s; unfold segments; now rewrite !map_length, seq_length).
    rewrite !LS. cbn [map length].
    unfold two_asymm_blocks, vcat. rewrite !mk1. cbn [nth concat hcat]. rewrite app_nil_r.
    rewrite (pblock_segment_major sa sb HG). f_equal. apply mk_ext. intros ma Hma.
    set (R := if s_sph sa then length (shell_transform K sa) else ncomp sa).
    rewrite (hcat_rows R).
    - apply mk_ext. intros i _. f_equal. rewrite map_mk. apply mk_ext. intros mb Hmb.
      now rewrite (nth_segments_prep sa ma Hma), (nth_segments_prep sb mb Hmb).
    - destruct (nseg sb); [lia|]. unfold mk. cbn [seq map]. discriminate.
    - apply Forall_forall. intros m Hin. unfold mk in Hin. apply in_map_iff in Hin. destruct Hin as [mb [<- Hmb]].
      apply in_seq in Hmb. rewrite (nth_segments_prep sa ma Hma), (nth_segments_prep sb mb) by lia.
      rewrite (tile_form sa sb ma mb (HG ma mb)) by lia. apply mk_length. }
  now rewrite E.
Qed.
End TwoIndexAny.

Theorem overlap_pblock_segment_major sa sb :
  pblock K 0 (fadd K) (fmul K) (overlap_block K) (prep K sa) (prep K sb)
  = concat (mk (nseg sa) (fun ma =>
      mk (if s_sph sa then length (shell_transform K sa) else ncomp sa) (fun i =>
        concat (mk (nseg sb) (fun mb =>
          nth i (pblock K 0 (fadd K) (fmul K) (overlap_block K) (prep K (col_shell sa ma)) (prep K (col_shell sb mb))) []))))).
Proof. exact (pblock_segment_major ov_kern (overlap_block K) overlap_block_kernel sa sb (fun _ _ => eq_refl)). Qed.

Theorem overlap_pblock_segment_major_cart sa sb : s_sph sa = false -> s_sph sb = false ->
  pblock K 0 (fadd K) (fmul K) (overlap_block K) (prep K sa) (prep K sb)
  = concat (mk (nseg sa) (fun ma => mk (ncomp sa) (fun ia => concat (mk (nseg sb) (fun mb =>
      nth ia (pblock K 0 (fadd K) (fmul K) (overlap_block K) (prep K (col_shell sa ma)) (prep K (col_shell sb mb))) []))))).
Proof. intros Ha _. rewrite overlap_pblock_segment_major, Ha. reflexivity. Qed.

(* base_two_symm / base_two_asymm with Overlap: a positive factor on one column of each shell
   ([pos_rescaled] is one scale_col per shell; it is not closed under composition) *)
Lemma scale_col_rows_one m0 C : scale_col_rows m0 1 C = C.
Proof.
  unfold scale_col_rows. induction C as [|r C IH]; cbn [map]; [reflexivity|]. rewrite IH. f_equal.
  transitivity (mk (length r) (fun j => nth j r 0)); [|apply mk_nth_id].
  apply mk_ext. intros j _. destruct (Nat.eqb j m0); [ring|reflexivity].
Qed.

Lemma scale_col_one s m0 : scale_col s m0 1 = s.
Proof. unfold scale_col, set_coeffs. rewrite scale_col_rows_one. now destruct s. Qed.

Definition pos_rescaled (s s' : shell F) : Prop :=
  exists m0 k, s' = scale_col s m0 k /\ scale_hyps s m0 k k.

Lemma pos_rescaled_refl s : pos_rescaled s s.
Proof.
  exists (nseg s), 1. split; [symmetry; apply scale_col_one|].
  split; [exact (F_1_neq_0 Kf)|]. split; intros H; lia.
Qed.

Lemma pblock_overlap_pos s1 s1' s2 s2' : (forall x, fapx K x = x) ->
  pos_rescaled s1 s1' -> pos_rescaled s2 s2' ->
  pblock K 0 (fadd K) (fmul K) (overlap_block K) (prep K s1') (prep K s2')
  = pblock K 0 (fadd K) (fmul K) (overlap_block K) (prep K s1) (prep K s2).
Proof.
  intros Hapx [m1 [k1 [-> H1]]] [m2 [k2 [-> H2]]]. unfold pblock, prep. cbn [p_shell p_norm p_T].
  change (shell_transform K (scale_col ?s ?m ?k)) with (shell_transform K s).
  change (s_sph (scale_col ?s ?m ?k)) with (s_sph s).
  unfold shell_block. cbv zeta. rewrite !overlap_block_kernel.
  change (ov_kern (scale_col s1 m1 k1) (scale_col s2 m2 k2)) with (ov_kern s1 s2).
  change (normalise K (fmul K) (norm_cont K ?a) (norm_cont K ?b) (kblock ?g ?a ?b)) with (nblock g a b).
  now rewrite (nblock_scale_col_pos (ov_kern s1 s2) s1 s2 m1 k1 m2 k2 Hapx H1 H2).
Qed.

Section AsmExt.
Context {A : Type} (azero : A) (aadd : A -> A -> A) (ascale : F -> A -> A).
Variable blockf : shell F -> shell F -> list (list (list (list A))).
Variable R : shell F -> shell F -> Prop.
Hypothesis HR : forall s1 s1' s2 s2', R s1 s1' -> R s2 s2' ->
  pblock K azero aadd ascale blockf (prep K s1') (prep K s2')
  = pblock K azero aadd ascale blockf (prep K s1) (prep K s2).

Lemma nth_map_prep (b : list (shell F)) i d : i < length b ->
  nth i (map (prep K) b) (dummy_p K) = prep K (nth i b d).
Proof.
  apply nth_map_lt.
Qed.

Lemma two_symm_integral_rel b b' T : Forall2 R b b' ->
  two_symm_integral K azero aadd ascale blockf b' T = two_symm_integral K azero aadd ascale blockf b T.
Proof.
  intros H. rewrite !two_symm_integral_unfold. cbv zeta. rewrite !map_length, (Forall2_length' R b b' H).
  set (d := mkShell F 0 0 0 0 [] [] false [] []).
  rewrite (two_symm_blocks_ext_le azero (length b) _
            (fun i j => pblock K azero aadd ascale blockf (nth i (map (prep K) b) (dummy_p K))
                               (nth j (map (prep K) b) (dummy_p K)))); [reflexivity|].
  intros i j Hi Hj _.
  rewrite !(nth_map_prep b' _ d) by (rewrite (Forall2_length' R b b' H); assumption).
  rewrite !(nth_map_prep b _ d) by assumption.
  apply HR; apply Forall2_nth'; assumption.
Qed.

Lemma two_asymm_integral_rel b1 b1' b2 b2' T1 T2 : Forall2 R b1 b1' -> Forall2 R b2 b2' ->
  two_asymm_integral K azero aadd ascale blockf b1' b2' T1 T2
  = two_asymm_integral K azero aadd ascale blockf b1 b2 T1 T2.
Proof.
  intros H1 H2. unfold two_asymm_integral. cbv zeta.
  rewrite !map_length, (Forall2_length' R b1 b1' H1), (Forall2_length' R b2 b2' H2).
  set (d := mkShell F 0 0 0 0 [] [] false [] []).
  rewrite (AssemblyP.two_asymm_blocks_ext (length b1) (length b2) _
             (fun i j => pblock K azero aadd ascale blockf (nth i (map (prep K) b1) (dummy_p K))
                                (nth j (map (prep K) b2) (dummy_p K)))); [reflexivity|].
  intros i j Hi Hj.
  rewrite (nth_map_prep b1' _ d) by (rewrite (Forall2_length' R b1 b1' H1); assumption).
  rewrite (nth_map_prep b2' _ d) by (rewrite (Forall2_length' R b2 b2' H2); assumption).
  rewrite (nth_map_prep b1 _ d), (nth_map_prep b2 _ d) by assumption.
  apply HR; apply Forall2_nth'; assumption.
Qed.
End AsmExt.

End P.

(* concrete instances at Qc: the hypotheses of the theorems are satisfiable *)
From Coq Require Import QArith Qcanon.
Section ExQc.
Let q (n : Z) (d : positive) : Qc := Q2Qc (Qmake n d).
(* any closures may stand for the transcendental functions: the laws do not depend on them *)
Definition KQ : Fops Qc := QcK true (q 3 1) (fun _ => q 1 1) (fun x => x) (fun x => x) (fun _ x => x).
Lemma KQ_field : is_field KQ.
Proof. apply QcK_field. Qed.

Definition ex_r1 : list Qc := [q 1 1; q 1 1].
Definition ex_r2 : list Qc := [q (-5) 4; q 1 1].
(* a p shell with K = 3 primitives and M = 2 columns, off the origin; its second row is r1 + r2 *)
Definition ex_sa : shell Qc :=
  mkShell Qc 1 (q 0 1) (q 1 2) (q (-1) 1) [q 1 2; q 2 1; q 5 1]
          [[q 1 1; q 1 2]; map2 (fadd KQ) ex_r1 ex_r2; [q 3 1; q 0 1]] false [] [].
(* a d shell with K = 2, M = 1 *)
Definition ex_sb : shell Qc :=
  mkShell Qc 2 (q 1 1) (q 0 1) (q 1 4) [q 3 4; q 7 2] [[q 1 1]; [q (-1) 2]] true [] [].
Definition ex_orders : list comp := [(0, 0, 0); (1, 0, 2)]%nat.

Lemma ex_prim_perm :
  let ps := prims ex_sa in
  mm_block KQ (q 0 1) (q 1 1) (q 0 1) ex_orders
    (set_prims ex_sa [nth 2 ps (q 0 1, []); nth 0 ps (q 0 1, []); nth 1 ps (q 0 1, [])])
    (set_prims ex_sb [nth 1 (prims ex_sb) (q 0 1, []); nth 0 (prims ex_sb) (q 0 1, [])])
  = mm_block KQ (q 0 1) (q 1 1) (q 0 1) ex_orders ex_sa ex_sb.
Proof.
  cbv zeta. apply (mm_block_congr KQ); apply (shell_equiv_perm KQ KQ_field); try reflexivity.
  - change (prims ex_sa) with ([nth 0 (prims ex_sa) (q 0 1, []); nth 1 (prims ex_sa) (q 0 1, [])] ++ [nth 2 (prims ex_sa) (q 0 1, [])]).
    apply (Permutation_app_comm _ [nth 2 (prims ex_sa) (q 0 1, [])]).
  - apply perm_swap.
Qed.

Lemma ex_linear :
  let C1 := [[q 1 1; q 1 2]; [q 0 1; q 2 1]; [q 3 1; q 0 1]] in
  let C2 := [[q (-1) 3; q 1 1]; [q 4 1; q 1 7]; [q 1 1; q 1 1]] in
  mm_entry' KQ (q 0 1) (q 1 1) (q 0 1) ex_orders (set_coeffs ex_sa (rows_add KQ C1 C2)) ex_sb 1 1 2 0 4
  = fadd KQ (mm_entry' KQ (q 0 1) (q 1 1) (q 0 1) ex_orders (set_coeffs ex_sa C1) ex_sb 1 1 2 0 4)
            (mm_entry' KQ (q 0 1) (q 1 1) (q 0 1) ex_orders (set_coeffs ex_sa C2) ex_sb 1 1 2 0 4).
Proof.
  cbv zeta. apply (lin11 KQ KQ_field), (mm_entry_lin_a KQ KQ_field); try (unfold nseg, ncomp; cbn; lia).
  apply (shell_lin_add KQ KQ_field). repeat constructor.
Qed.

Lemma ex_scale_hyps : scale_hyps KQ ex_sa 1 (q (-1) 1) (q 1 1).
Proof.
  split; [exact (F_1_neq_0 KQ_field)|]. split.
  - intros _ c _. cbn [fsqrt KQ QcK]. apply Qc_is_canon. reflexivity.
  - intros _ c _. cbn [fsqrt KQ QcK]. exact (F_1_neq_0 KQ_field).
Qed.
End ExQc.

(* the reals: sqrt(k^2 x) = |k| sqrt x holds for the real square root, so a column factor k
   multiplies the contraction-normalised function by k/|k| = +1 (k > 0) or -1 (k < 0) *)
From Coq Require Import Reals Lra RealField.
Section ExR.
Local Open Scope R_scope.
Definition Rleb13 (x y : R) : bool := if Rle_dec x y then true else false.
Definition Reqb13 (x y : R) : bool := if Req_EM_T x y then true else false.
Definition RKc : Fops R :=
  mkFops R 0 1 Rplus Rmult Rminus Ropp Rdiv Rinv Rleb13 Reqb13 PI sqrt exp ln (fun _ _ => 0) (fun x => x).
Lemma RKc_field : is_field RKc.
Proof. exact Rfield. Qed.

Lemma sqrt_scale_R k x : sqrt (k * k * x) = Rabs k * sqrt x.
Proof.
  rewrite sqrt_mult_alt by (apply Rle_0_sqr). f_equal. exact (sqrt_Rsqr_abs k).
Qed.

Lemma scale_hyps_R (s : shell R) m0 k : k <> 0 ->
  ((m0 < nseg s)%nat -> forall c, (c < ncomp s)%nat -> 0 < selfov RKc s m0 c) ->
  scale_hyps RKc s m0 k (Rabs k).
Proof.
  intros Hk Hpos. split; [now apply Rabs_no_R0|]. split.
  - intros _ c _. exact (sqrt_scale_R k _).
  - intros Hm c Hc. pose proof (Hpos Hm c Hc) as H. apply sqrt_lt_R0 in H. cbn [fsqrt RKc f0]. lra.
Qed.

Definition sgnR (k : R) : R := if Rlt_dec 0 k then 1 else -1.

Theorem column_scale_R g (sa sb : shell R) m0 k : k <> 0 ->
  ((m0 < nseg sa)%nat -> forall c, (c < ncomp sa)%nat -> 0 < selfov RKc sa m0 c) ->
  nblock RKc g (scale_col RKc sa m0 k) sb
  = mk4 (nseg sa) (ncomp sa) (nseg sb) (ncomp sb)
      (fun ma ia mb ib => colfac RKc m0 (sgnR k) ma * nth4' RKc ma ia mb ib (nblock RKc g sa sb)).
Proof.
  intros Hk Hpos.
  rewrite (nblock_scale_col_a RKc RKc_field g sa sb m0 k (Rabs k) (fun x => eq_refl) (scale_hyps_R sa m0 k Hk Hpos)).
  apply mk4_ext. intros ma ia mb ib _ _ _ _. change (fmul RKc) with Rmult.
  assert (E : fdiv RKc k (Rabs k) = sgnR k); [|now rewrite E].
  unfold sgnR. cbn [fdiv RKc]. destruct (Rlt_dec 0 k) as [Hp|Hn].
  - rewrite Rabs_right by lra. field. lra.
  - rewrite Rabs_left by lra. field. lra.
Qed.

Lemma column_scale_R_ex :
  forall x : R, 0 < x -> sqrt ((-3) * (-3) * x) = 3 * sqrt x /\ sqrt x <> 0 /\ sgnR (-3) = -1 /\ sgnR (1 / 1000000) = 1.
Proof.
  intros x Hx. split; [|split; [|split]].
  - rewrite sqrt_scale_R. f_equal. rewrite Rabs_left; lra.
  - apply sqrt_lt_R0 in Hx. lra.
  - unfold sgnR. destruct (Rlt_dec 0 (-3)); lra.
  - unfold sgnR. destruct (Rlt_dec 0 (1 / 1000000)); lra.
Qed.
End ExR.
