(* Proofs/RotationEriP.v — GENERAL ROTATIONS (proper and improper) for the ELECTRON-REPULSION integrals at the level of
   the algebraic specification (property C12).

   Proofs/TwoElecP.v ([two_elec_correct]) proves: every entry of the model's [eri_block] is
        norms x sum over the primitive quartets of  Phi_0 (eri_base) (R4 alpha beta gamma delta)
   where the s-polynomial R4 has, for every s, the value
        prod over the axes of  M4 = hh AB CD (bivariate Wick moments with covariance sig11(s), sig12(s), sig22(s) - the
        SAME on the three axes - and means PA - s (rho/p) PQ, QC + s (rho/q) PQ),
   that is  E[ y1^a (y1 + AB)^b y2^c (y2 + CD)^d ]  for the six-dimensional Gaussian of Gauss/Poly6.v
   ([M4_product_is_E6]).  The means and the displacements AB, CD rotate with R; Poly6.E6_subst6_orth (covariance of
   the six-dimensional functional under the simultaneous substitution) and Poly3.rotated_factor give, FOR EVERY s,

     eri_quartet_rotation_covariant_eval :
        sum_{a' b' c' d'} D[a,a'] D[b,b'] D[c,c'] D[d,d']  prod_axes M4(R A, R B, R C, R D; a', b', c', d'; s)
          = prod_axes M4(A, B, C, D; a, b, c, d; s)

   ([R4c] is [R4] with the centres and the four exponent triples as explicit arguments; its values are the M4
   products, [R4c_eval]).  The D-combination of s-polynomials is a coefficient list ([Phi_of_Jsum]), Phi is linear and
   depends on the polynomial function only ([OneElecP.Phi_unique], characteristic 0), hence for ANY sequence bet

     Phi_R4c_rotation_covariant :  sum D D D D Phi bet m (R4c(R A, .. ; a', ..)) = Phi bet m (R4c(A, ..; a, ..)),

   and the sequence [eri_base] = prefactor x Boys function sees the centres through |A-B|^2, |C-D|^2, |P-Q|^2 only
   ([eri_base_rot]; the arguments of exp and of the Boys function are shown EQUAL, no property of exp / fboys used):

     eri_spec_rotation_covariant :
        sum D D D D  eri_quartet_spec(R A, R B, R C, R D; a', b', c', d') = eri_quartet_spec(A, B, C, D; a, b, c, d)
     eri_spec_rotation_covariant_shells : the same in the vocabulary of RigidP (mat3, rot_shell, rot_expand).
   [eri_quartet_spec] is literally the summand of [two_elec_correct] ([two_elec_summand_is_spec]). *)
From Coq Require Import List Arith Lia Field.
From GB Require Import Base.Field Base.FNum Base.Tables Gauss.Moment1D Gauss.SPoly Gauss.Poly3 Gauss.Wick2D Gauss.Poly6
  Model.Shell Model.MomentInt Model.TwoElec Proofs.OneElecP Proofs.TwoElecP Proofs.RigidP Proofs.RotationP
  Proofs.RotationMoreP.
Import ListNotations.

Section RotEri.
Context {F : Type} (K : Fops F) (Kf : is_field K).
Add Field KFreri : Kf.
Local Open Scope F_scope.
Notation "0" := (f0 K) : F_scope.
Notation "1" := (f1 K) : F_scope.
Infix "+" := (fadd K) : F_scope.
Infix "*" := (fmul K) : F_scope.
Infix "-" := (fsub K) : F_scope.
Infix "/" := (fdiv K) : F_scope.
Notation "- x" := (fopp K x) : F_scope.
Notation "# n" := (ofnat K n) (at level 5) : F_scope.
Notation Jsum := (Poly3.Jsum K).
Notation speval := (SPoly.peval K).
Notation Phi := (SPoly.Phi K).
Notation rotv := (RotationMoreP.rotv K).

(* one electron: (y + cB)^b y^a under a rotation of the displacement, for every functional J *)
Lemma smono_linear_mono3 J c b h :
  Jsum (fun a' => Jsum J (smono K c b (mono3 K a'))) h = Jsum J (smono K c b h).
Proof.
  destruct (smono_adjoint K Kf c b) as [opT A]. symmetry. apply (Jsum_monomials K Kf _ opT A).
Qed.

Lemma pair_rot (R : mat (F:=F)) (cB cB' : axis -> F) a b J :
  orth_rows K (transpose R) -> (forall i, cB' i = dot K (R i) cB) ->
  Jsum (fun a' => Jsum (fun b' => Jsum J (smono K cB' b' (mono3 K a'))) (subst_mon K (transpose R) b))
       (subst_mon K (transpose R) a)
  = Jsum J (subst K (transpose R) (smono K cB b (mono3 K a))).
Proof.
  intros HO Hc. set (Q := transpose R).
  rewrite (Jsum_swap K Kf (fun a' b' => Jsum J (smono K cB' b' (mono3 K a')))).
  rewrite (Jsum_ext K _ (fun b' => Jsum J (smono K cB' b' (subst_mon K Q a))))
    by (intro b'; apply smono_linear_mono3).
  rewrite <- (Jsum_shiftmul K Kf).
  apply (rotated_factor K Kf R cB cB' b (mono3 K a) (subst_mon K Q a) HO Hc).
  apply (peq_sym K), (subst_mono3 K Kf).
Qed.

(* two electrons: the six-variable functional of ((y1+cB)^b y1^a) (x) ((y2+cD)^d y2^c) *)
Definition quartet_poly (cB cD : axis -> F) (a b c d : mon) : poly6 (F:=F) :=
  tens K (smono K cB b (mono3 K a)) (smono K cD d (mono3 K c)).

Theorem quartet_rot (R : mat (F:=F)) (a1 c1 : axis -> F) (s11 s12 s22 : F) (cB cD : axis -> F) (a b c d : mon) :
  orth_rows K (transpose R) ->
  Jsum (fun a' => Jsum (fun b' => Jsum (fun c' => Jsum (fun d' =>
      E6 K (rotv R a1) (rotv R c1) s11 s12 s22 (quartet_poly (rotv R cB) (rotv R cD) a' b' c' d'))
    (subst_mon K (transpose R) d)) (subst_mon K (transpose R) c)) (subst_mon K (transpose R) b))
    (subst_mon K (transpose R) a)
  = E6 K a1 c1 s11 s12 s22 (quartet_poly cB cD a b c d).
Proof.
  intros HO. set (Q := transpose R).
  set (M' := M6 K (rotv R a1) (rotv R c1) s11 s12 s22).
  set (G2 := subst K Q (smono K cD d (mono3 K c))).
  (* electron 2 *)
  rewrite (Jsum_ext K _ (fun a' => Jsum (fun b' =>
             Jsum6 K M' (tens K (smono K (rotv R cB) b' (mono3 K a')) G2)) (subst_mon K Q b))).
  2:{ intro a'. apply Jsum_ext. intro b'. unfold E6, quartet_poly. fold M'.
      rewrite (Jsum_ext K _ (fun c' => Jsum (fun d' =>
                 Jsum (fun m2 => Jsum (fun m1 => M' (m1, m2)) (smono K (rotv R cB) b' (mono3 K a')))
                      (smono K (rotv R cD) d' (mono3 K c'))) (subst_mon K Q d)))
        by (intro c'; apply Jsum_ext; intro d'; apply (Jsum6_tens' K Kf)).
      rewrite (pair_rot R cD (rotv R cD) c d _ HO (fun i => eq_refl)).
      symmetry. apply (Jsum6_tens' K Kf). }
  (* electron 1 *)
  rewrite (Jsum_ext K _ (fun a' => Jsum (fun b' =>
             Jsum (fun m1 => Jsum (fun m2 => M' (m1, m2)) G2) (smono K (rotv R cB) b' (mono3 K a')))
             (subst_mon K Q b)))
    by (intro a'; apply Jsum_ext; intro b'; apply (Jsum6_tens K Kf)).
  rewrite (pair_rot R cB (rotv R cB) a b _ HO (fun i => eq_refl)).
  rewrite <- (Jsum6_tens K Kf M'). unfold G2.
  rewrite <- (subst6_tens K Kf Q _ _ M').
  change (E6 K (rotv R a1) (rotv R c1) s11 s12 s22 (subst6 K Q (quartet_poly cB cD a b c d))
          = E6 K a1 c1 s11 s12 s22 (quartet_poly cB cD a b c d)).
  rewrite (E6_subst6_orth K Kf Q (rotv R a1) (rotv R c1) s11 s12 s22 HO).
  apply E6_means_ext; intro i; apply (orth_contract K Kf R _ i HO).
Qed.

(* the per-axis four-index moments M4 of TwoElecP are this functional *)
Lemma shf_is_Hf c (T : nat -> F) : forall b a, shf K c T b a = Hf K c T b a.
Proof. induction b as [|b IH]; intro a; cbn [shf Hf]; [reflexivity|]. now rewrite !IH. Qed.

Section Quartet.
Variables (alpha beta gamma delta : F).
Let p := alpha + beta.
Let q := gamma + delta.
Hypothesis Hp : p <> 0.
Hypothesis Hq : q <> 0.
Hypothesis Hpq : p + q <> 0.
Hypothesis H2 : 1 + 1 <> 0.

Definition Pc (A B : axis -> F) : axis -> F := fun i => wctr K alpha beta (A i) (B i).
Definition Qc (C D : axis -> F) : axis -> F := fun i => wctr K gamma delta (C i) (D i).
Definition mean1v (A B C D : axis -> F) (s : F) : axis -> F :=
  fun i => mean1 K p q (Pc A B i - A i) (Pc A B i - Qc C D i) s.
Definition mean2v (A B C D : axis -> F) (s : F) : axis -> F :=
  fun i => mean2 K p q (Qc C D i - C i) (Pc A B i - Qc C D i) s.
Definition dvec (A B : axis -> F) : axis -> F := fun i => A i - B i.

Definition M4prod (A B C D : axis -> F) (s : F) (a b c d : comp) : F :=
  M4 K alpha beta gamma delta (A AX) (B AX) (C AX) (D AX) s (fst (fst a)) (fst (fst b)) (fst (fst c)) (fst (fst d))
  * M4 K alpha beta gamma delta (A AY) (B AY) (C AY) (D AY) s (snd (fst a)) (snd (fst b)) (snd (fst c)) (snd (fst d))
  * M4 K alpha beta gamma delta (A AZ) (B AZ) (C AZ) (D AZ) s (snd a) (snd b) (snd c) (snd d).

Theorem M4_product_is_E6 A B C D s a b c d :
  M4prod A B C D s a b c d
  = E6 K (mean1v A B C D s) (mean2v A B C D s) (sig11 K p q s) (sig12 K p q s) (sig22 K p q s)
      (quartet_poly (dvec A B) (dvec C D) a b c d).
Proof.
  unfold quartet_poly. rewrite (E6_tens_smono K Kf).
  unfold M4prod, M4, hh, Ms, Mw, mean1v, mean2v, Pc, Qc, dvec. cbv zeta. fold p q.
  destruct a as [[ax ay] az], b as [[bx by_] bz], c as [[cx cy] cz], d as [[dx dy] dz]. cbn [expo fst snd].
  rewrite !shf_is_Hf.
  f_equal; [f_equal|]; apply (Hf_ext K); intro a'; symmetry; apply shf_is_Hf.
Qed.

Lemma mean1v_rot (R : mat (F:=F)) A B C D s i :
  mean1v (rotv R A) (rotv R B) (rotv R C) (rotv R D) s i = rotv R (mean1v A B C D s) i.
Proof.
  unfold mean1v, mean1, Pc, Qc, wctr, rotv, dot, sum3, rho. fold p q. field. repeat split; assumption.
Qed.
Lemma mean2v_rot (R : mat (F:=F)) A B C D s i :
  mean2v (rotv R A) (rotv R B) (rotv R C) (rotv R D) s i = rotv R (mean2v A B C D s) i.
Proof.
  unfold mean2v, mean2, Pc, Qc, wctr, rotv, dot, sum3, rho. fold p q. field. repeat split; assumption.
Qed.
Lemma dvec_rot (R : mat (F:=F)) A B i : dvec (rotv R A) (rotv R B) i = rotv R (dvec A B) i.
Proof. unfold dvec, rotv, dot, sum3. ring. Qed.

Lemma quartet_poly_ext cB cB' cD cD' a b c d J :
  (forall i, cB i = cB' i) -> (forall i, cD i = cD' i) ->
  Jsum6 K J (quartet_poly cB cD a b c d) = Jsum6 K J (quartet_poly cB' cD' a b c d).
Proof. intros HB HD. unfold quartet_poly, smono. now rewrite !HB, !HD. Qed.

(* FOR EVERY s: the exact integrand of the primitive quartet is covariant *)
Theorem eri_quartet_rotation_covariant_eval (R : mat (F:=F)) A B C D s (a b c d : comp) :
  orth_rows K (transpose R) ->
  Jsum (fun a' => Jsum (fun b' => Jsum (fun c' => Jsum (fun d' =>
      M4prod (rotv R A) (rotv R B) (rotv R C) (rotv R D) s a' b' c' d')
    (subst_mon K (transpose R) d)) (subst_mon K (transpose R) c)) (subst_mon K (transpose R) b))
    (subst_mon K (transpose R) a)
  = M4prod A B C D s a b c d.
Proof.
  intros HO. rewrite M4_product_is_E6.
  rewrite <- (quartet_rot R (mean1v A B C D s) (mean2v A B C D s) _ _ _ (dvec A B) (dvec C D) a b c d HO).
  apply Jsum_ext; intro a'. apply Jsum_ext; intro b'. apply Jsum_ext; intro c'. apply Jsum_ext; intro d'.
  rewrite M4_product_is_E6.
  rewrite (E6_means_ext K _ _ (rotv R (mean1v A B C D s)) (rotv R (mean2v A B C D s)))
    by (intro i; first [apply mean1v_rot|apply mean2v_rot]).
  unfold E6. apply quartet_poly_ext; intro i; apply dvec_rot.
Qed.

(* ---- the s-polynomial of the quartet, centres and exponent triples explicit ---- *)
Definition R4c (A B C D : axis -> F) (c1 c2 c3 c4 : comp) : list F :=
  chan_poly K (A AX - B AX) (A AY - B AY) (A AZ - B AZ) (C AX - D AX) (C AY - D AY) (C AZ - D AZ)
    (R3 K p q (Pc A B AX - A AX) (Pc A B AY - A AY) (Pc A B AZ - A AZ)
        (Qc C D AX - C AX) (Qc C D AY - C AY) (Qc C D AZ - C AZ)
        (Pc A B AX - Qc C D AX) (Pc A B AY - Qc C D AY) (Pc A B AZ - Qc C D AZ))
    (fst (fst c3)) (snd (fst c3)) (snd c3) (fst (fst c4)) (snd (fst c4)) (snd c4)
    (fst (fst c2)) (snd (fst c2)) (snd c2) (fst (fst c1)) (snd (fst c1)) (snd c1).

Theorem R4c_eval A B C D c1 c2 c3 c4 s :
  speval (R4c A B C D c1 c2 c3 c4) s = M4prod A B C D s c1 c2 c3 c4.
Proof.
  unfold R4c.
  rewrite (chan_poly_linear K _ _ _ _ _ _ (fun f => speval f s)
             (fun f g => peval_padd K Kf f g s) (fun k f => peval_pscale K Kf k f s)).
  rewrite (chan_val_ext K _ _ _ _ _ _ _
    (fun cx' cy' cz' ax' ay' az' =>
       Ms K p q (Pc A B AX - A AX) (Qc C D AX - C AX) (Pc A B AX - Qc C D AX) s ax' cx'
       * Ms K p q (Pc A B AY - A AY) (Qc C D AY - C AY) (Pc A B AY - Qc C D AY) s ay' cy'
       * Ms K p q (Pc A B AZ - A AZ) (Qc C D AZ - C AZ) (Pc A B AZ - Qc C D AZ) s az' cz')).
  2:{ intros cx' cy' cz' ax' ay' az'.
      apply (proj2 (eri_3d_correct K Kf _ _ _ _ _ _ _ _ _ _ _ Hp Hq Hpq H2 (fun _ => 0) cx' cy' cz' ax' ay' az')). }
  rewrite (chan_val_product K Kf). reflexivity.
Qed.

Hypothesis char0 : forall n, #(S n) <> 0.

Theorem Phi_R4c_rotation_covariant (R : mat (F:=F)) A B C D (a b c d : comp) bet m :
  orth_rows K (transpose R) ->
  Jsum (fun a' => Jsum (fun b' => Jsum (fun c' => Jsum (fun d' =>
      Phi bet m (R4c (rotv R A) (rotv R B) (rotv R C) (rotv R D) a' b' c' d'))
    (subst_mon K (transpose R) d)) (subst_mon K (transpose R) c)) (subst_mon K (transpose R) b))
    (subst_mon K (transpose R) a)
  = Phi bet m (R4c A B C D a b c d).
Proof.
  intros HO.
  apply (Phi_of_unique K Kf char0 bet m _ (fun s => Jsum (fun a' => Jsum (fun b' => Jsum (fun c' => Jsum (fun d' =>
           speval (R4c (rotv R A) (rotv R B) (rotv R C) (rotv R D) a' b' c' d') s)
           (subst_mon K (transpose R) d)) (subst_mon K (transpose R) c)) (subst_mon K (transpose R) b))
           (subst_mon K (transpose R) a))).
  - apply (Phi_of_Jsum K Kf). intro a'. apply (Phi_of_Jsum K Kf). intro b'.
    apply (Phi_of_Jsum K Kf). intro c'. apply (Phi_of_Jsum K Kf). intro d'. apply Phi_of_poly.
  - intro s. rewrite R4c_eval, <- (eri_quartet_rotation_covariant_eval R A B C D s a b c d HO).
    apply Jsum_ext; intro a'. apply Jsum_ext; intro b'. apply Jsum_ext; intro c'. apply Jsum_ext; intro d'.
    apply R4c_eval.
Qed.

(* ---- the prefactor and the Boys argument see the centres through |A-B|^2, |C-D|^2, |P-Q|^2 only ---- *)
Definition eri_base_v (A B C D : axis -> F) : nat -> F :=
  eri_base K (A AX) (A AY) (A AZ) (B AX) (B AY) (B AZ) (C AX) (C AY) (C AZ) (D AX) (D AY) (D AZ)
           alpha beta gamma delta.

Lemma eri_base_rot (R : mat (F:=F)) A B C D m :
  orth_rows K (transpose R) ->
  eri_base_v (rotv R A) (rotv R B) (rotv R C) (rotv R D) m = eri_base_v A B C D m.
Proof.
  intros HO. unfold eri_base_v, eri_base, eri_pref, eri_T. cbv zeta. cbn [fst snd]. fold p q.
  pose proof (norm_rot K Kf R (fun i => A i - B i) HO) as NAB.
  pose proof (norm_rot K Kf R (fun i => C i - D i) HO) as NCD.
  pose proof (norm_rot K Kf R (fun i => (alpha * A i + beta * B i) / p - (gamma * C i + delta * D i) / q) HO) as NPQ.
  unfold sum3 in NAB, NCD, NPQ.
  assert (EAB : forall i, rotv R A i - rotv R B i = dot K (R i) (fun j => A j - B j))
    by (intro i; unfold rotv, dot, sum3; ring).
  assert (ECD : forall i, rotv R C i - rotv R D i = dot K (R i) (fun j => C j - D j))
    by (intro i; unfold rotv, dot, sum3; ring).
  assert (EPQ : forall i, (alpha * rotv R A i + beta * rotv R B i) / p - (gamma * rotv R C i + delta * rotv R D i) / q
                          = dot K (R i) (fun j => (alpha * A j + beta * B j) / p - (gamma * C j + delta * D j) / q))
    by (intro i; unfold rotv, dot, sum3; field; split; [exact Hq|exact Hp]).
  rewrite !EAB, !ECD, !EPQ, NAB, NCD, NPQ. reflexivity.
Qed.

(* the specification of one primitive quartet: the summand of [two_elec_correct] *)
Definition eri_quartet_spec (A B C D : axis -> F) (c1 c2 c3 c4 : comp) : F :=
  Phi (eri_base_v A B C D) 0 (R4c A B C D c1 c2 c3 c4).

(* GENERAL ROTATIONS, electron repulsion of four primitives, specification level *)
Theorem eri_spec_rotation_covariant (R : mat (F:=F)) A B C D (a b c d : comp) :
  orth_rows K (transpose R) ->
  Jsum (fun a' => Jsum (fun b' => Jsum (fun c' => Jsum (fun d' =>
      eri_quartet_spec (rotv R A) (rotv R B) (rotv R C) (rotv R D) a' b' c' d')
    (subst_mon K (transpose R) d)) (subst_mon K (transpose R) c)) (subst_mon K (transpose R) b))
    (subst_mon K (transpose R) a)
  = eri_quartet_spec A B C D a b c d.
Proof.
  intros HO. unfold eri_quartet_spec.
  rewrite <- (Phi_R4c_rotation_covariant R A B C D a b c d (eri_base_v A B C D) 0%nat HO).
  apply Jsum_ext; intro a'. apply Jsum_ext; intro b'. apply Jsum_ext; intro c'. apply Jsum_ext; intro d'.
  apply Phi_ext. intro k. now apply eri_base_rot.
Qed.
End Quartet.

(* in the vocabulary of RigidP / RotationP: shells, mat3, rot_shell, rot_expand *)
Notation centre := RotationMoreP.centre.

Lemma two_elec_summand_is_spec (s1 s2 s3 s4 : shell F) i1 i2 i3 i4 alpha beta gamma delta :
  Phi (eri_base K (s_x s1) (s_y s1) (s_z s1) (s_x s2) (s_y s2) (s_z s2)
                  (s_x s3) (s_y s3) (s_z s3) (s_x s4) (s_y s4) (s_z s4) alpha beta gamma delta) 0
      (R4 K s1 s2 s3 s4 i1 i2 i3 i4 alpha beta gamma delta)
  = eri_quartet_spec alpha beta gamma delta (centre s1) (centre s2) (centre s3) (centre s4)
      (nth i1 (comps_of s1) (0, 0, 0)%nat) (nth i2 (comps_of s2) (0, 0, 0)%nat)
      (nth i3 (comps_of s3) (0, 0, 0)%nat) (nth i4 (comps_of s4) (0, 0, 0)%nat).
Proof. reflexivity. Qed.

Lemma eri_quartet_spec_ext alpha beta gamma delta A B C D A' B' C' D' c1 c2 c3 c4 :
  (forall i, A i = A' i) -> (forall i, B i = B' i) -> (forall i, C i = C' i) -> (forall i, D i = D' i) ->
  eri_quartet_spec alpha beta gamma delta A B C D c1 c2 c3 c4
  = eri_quartet_spec alpha beta gamma delta A' B' C' D' c1 c2 c3 c4.
Proof.
  intros HA HB HC HD. unfold eri_quartet_spec, eri_base_v, R4c, Pc, Qc.
  now rewrite !HA, !HB, !HC, !HD.
Qed.

Theorem eri_spec_rotation_covariant_shells (R : @mat3 F) (s1 s2 s3 s4 : shell F) alpha beta gamma delta
        (a b c d : comp) :
  orthogonal K R -> alpha + beta <> 0 -> gamma + delta <> 0 -> (alpha + beta) + (gamma + delta) <> 0 ->
  1 + 1 <> 0 -> (forall n, #(S n) <> 0) ->
  Jsum (fun a' => Jsum (fun b' => Jsum (fun c' => Jsum (fun d' =>
      eri_quartet_spec alpha beta gamma delta (centre (rot_shell K R s1)) (centre (rot_shell K R s2))
        (centre (rot_shell K R s3)) (centre (rot_shell K R s4)) a' b' c' d')
    (rot_expand K R d)) (rot_expand K R c)) (rot_expand K R b)) (rot_expand K R a)
  = eri_quartet_spec alpha beta gamma delta (centre s1) (centre s2) (centre s3) (centre s4) a b c d.
Proof.
  intros HO Hp Hq Hpq H2 char0.
  rewrite <- (eri_spec_rotation_covariant alpha beta gamma delta Hp Hq Hpq H2 char0 (matf R)
                (centre s1) (centre s2) (centre s3) (centre s4) a b c d (orthogonal_cols K R HO)).
  unfold rot_expand.
  apply Jsum_ext; intro a'. apply Jsum_ext; intro b'. apply Jsum_ext; intro c'. apply Jsum_ext; intro d'.
  apply eri_quartet_spec_ext; intro i; apply (centre_rot K).
Qed.

End RotEri.

(* Examples over Qc: the hypotheses are satisfiable, and the statements at the proper 3-4-5 rotation R345 and the
   improper Rimp of Proofs/RotationP.v are written as executable boolean checks (consequences of the theorems).
   Stand-ins for the transcendental closures: sqrt = exp = identity (so that the ARGUMENT of exp is visible in the
   value) and a "Boys function" depending on m and on its argument; the theorems assume nothing about them. *)
From Coq Require Import ZArith QArith Qcanon.
Definition eriKQ : Fops Qc := QcK true (Q2Qc 3) (fun x => x) (fun x => x) (fun x => x) exBoys.
Section Examples.
Let KQ : Fops Qc := eriKQ.
Let KQf : is_field KQ := QcK_field _ _ _ _ _ _.
Let q (n : Z) (d : positive) : Qc := qc_of n d.

Definition eriS1 : shell Qc := mkShell Qc 1 (q 1 2) (q (-1) 1) (q 2 1) [q 3 2] [[q 1 1]] false [] [].
Definition eriS2 : shell Qc := mkShell Qc 1 (q 0 1) (q 1 3) (q (-1) 1) [q 2 3] [[q 1 1]] false [] [].
Definition eriS3 : shell Qc := mkShell Qc 1 (q 1 4) (q (-2) 1) (q 1 3) [q 1 2] [[q 1 1]] false [] [].
Definition eriS4 : shell Qc := mkShell Qc 1 (q (-1) 1) (q 1 2) (q 0 1) [q 5 4] [[q 1 1]] false [] [].

Lemma eriKQ_char0 : forall n, ofnat KQ (S n) <> f0 KQ.
Proof. apply QcK_char0. Qed.
Lemma eriKQ_exps :
  fadd KQ (q 3 2) (q 2 3) <> f0 KQ /\ fadd KQ (q 1 2) (q 5 4) <> f0 KQ
  /\ fadd KQ (fadd KQ (q 3 2) (q 2 3)) (fadd KQ (q 1 2) (q 5 4)) <> f0 KQ /\ fadd KQ (f1 KQ) (f1 KQ) <> f0 KQ.
Proof. repeat split; intro H; apply (f_equal this) in H; vm_compute in H; discriminate H. Qed.

Example eri_spec_rotation_improper :
  forall a b c d,
  Poly3.Jsum KQ (fun a' => Poly3.Jsum KQ (fun b' => Poly3.Jsum KQ (fun c' => Poly3.Jsum KQ (fun d' =>
      eri_quartet_spec KQ (q 3 2) (q 2 3) (q 1 2) (q 5 4) (centre (rot_shell KQ Rimp eriS1))
        (centre (rot_shell KQ Rimp eriS2)) (centre (rot_shell KQ Rimp eriS3)) (centre (rot_shell KQ Rimp eriS4))
        a' b' c' d')
    (rot_expand KQ Rimp d)) (rot_expand KQ Rimp c)) (rot_expand KQ Rimp b)) (rot_expand KQ Rimp a)
  = eri_quartet_spec KQ (q 3 2) (q 2 3) (q 1 2) (q 5 4) (centre eriS1) (centre eriS2) (centre eriS3) (centre eriS4)
      a b c d.
Proof.
  intros. destruct eriKQ_exps as (Hp & Hq & Hpq & H2).
  apply (eri_spec_rotation_covariant_shells KQ KQf Rimp eriS1 eriS2 eriS3 eriS4 _ _ _ _ a b c d
           orthogonal_Rimp Hp Hq Hpq H2 eriKQ_char0).
Qed.

Definition eri_eval_check (R : @mat3 Qc) (s : Qc) (t : comp * comp * comp * comp) : bool :=
  let '(a, b, c, d) := t in
  let A := centre eriS1 in let B := centre eriS2 in let C := centre eriS3 in let D := centre eriS4 in
  let rv := RotationMoreP.rotv KQ (matf R) in
  Qeq_bool
    (Poly3.Jsum KQ (fun a' => Poly3.Jsum KQ (fun b' => Poly3.Jsum KQ (fun c' => Poly3.Jsum KQ (fun d' =>
        M4prod KQ (q 3 2) (q 2 3) (q 1 2) (q 5 4) (rv A) (rv B) (rv C) (rv D) s a' b' c' d')
      (rot_expand KQ R d)) (rot_expand KQ R c)) (rot_expand KQ R b)) (rot_expand KQ R a))
    (M4prod KQ (q 3 2) (q 2 3) (q 1 2) (q 5 4) A B C D s a b c d).
Definition eri_spec_check (R : @mat3 Qc) (t : comp * comp * comp * comp) : bool :=
  let '(a, b, c, d) := t in
  Qeq_bool
    (Poly3.Jsum KQ (fun a' => Poly3.Jsum KQ (fun b' => Poly3.Jsum KQ (fun c' => Poly3.Jsum KQ (fun d' =>
        eri_quartet_spec KQ (q 3 2) (q 2 3) (q 1 2) (q 5 4) (centre (rot_shell KQ R eriS1))
          (centre (rot_shell KQ R eriS2)) (centre (rot_shell KQ R eriS3)) (centre (rot_shell KQ R eriS4))
          a' b' c' d')
      (rot_expand KQ R d)) (rot_expand KQ R c)) (rot_expand KQ R b)) (rot_expand KQ R a))
    (eri_quartet_spec KQ (q 3 2) (q 2 3) (q 1 2) (q 5 4) (centre eriS1) (centre eriS2) (centre eriS3) (centre eriS4)
       a b c d).
Definition eri_quads : list (comp * comp * comp * comp) :=
  [((1, 0, 0), (0, 0, 0), (0, 1, 0), (0, 0, 0))%nat; ((0, 0, 1), (0, 1, 0), (0, 0, 0), (1, 0, 0))%nat;
   ((0, 1, 0), (1, 0, 0), (0, 0, 1), (0, 1, 0))%nat; ((0, 0, 0), (0, 0, 0), (0, 0, 0), (0, 0, 0))%nat].
Example eri_integrand_rotation_computed :
  forallb (fun R => forallb (fun s => forallb (eri_eval_check R s) eri_quads) [q 0 1; q 1 3; q 1 1])
    [R345; Rimp] = true.
Proof.
  destruct eriKQ_exps as (Hp & Hq & Hpq & H2).
  apply forallb_forall. intros R HR. apply forallb_all. intro s. apply forallb_all. intros [[[a b] c] d].
  apply Qeq_bool_of_eq.
  apply (eri_quartet_rotation_covariant_eval KQ KQf _ _ _ _ Hp Hq Hpq (matf R)).
  apply orthogonal_cols, orthogonal_R345_Rimp, HR.
Qed.
Example eri_spec_rotation_computed :
  forallb (fun R => forallb (eri_spec_check R)
    [((1, 0, 0), (0, 0, 0), (0, 1, 0), (0, 0, 0))%nat; ((0, 0, 1), (0, 1, 0), (0, 0, 0), (1, 0, 0))%nat]) [R345; Rimp] = true.
Proof.
  destruct eriKQ_exps as (Hp & Hq & Hpq & H2).
  apply forallb_forall. intros R HR. apply forallb_all. intros [[[a b] c] d]. apply Qeq_bool_of_eq.
  apply (eri_spec_rotation_covariant_shells KQ KQf R eriS1 eriS2 eriS3 eriS4 _ _ _ _ a b c d
           (orthogonal_R345_Rimp _ _ _ _ _ _ R HR) Hp Hq Hpq H2 eriKQ_char0).
Qed.
(* not vacuous: without the representation matrices a (p s|p s) value does change *)
Example eri_spec_not_invariant :
  Qeq_bool
    (eri_quartet_spec KQ (q 3 2) (q 2 3) (q 1 2) (q 5 4) (centre (rot_shell KQ R345 eriS1))
       (centre (rot_shell KQ R345 eriS2)) (centre (rot_shell KQ R345 eriS3)) (centre (rot_shell KQ R345 eriS4))
       (1, 0, 0)%nat (0, 0, 0)%nat (0, 1, 0)%nat (0, 0, 0)%nat)
    (eri_quartet_spec KQ (q 3 2) (q 2 3) (q 1 2) (q 5 4) (centre eriS1) (centre eriS2) (centre eriS3) (centre eriS4)
       (1, 0, 0)%nat (0, 0, 0)%nat (0, 1, 0)%nat (0, 0, 0)%nat) = false.
Proof. vm_compute. reflexivity. Qed.
End Examples.

Lemma eri_rotation_hypotheses_satisfiable :
  exists (F : Type) (K : Fops F) (R1 R2 : @mat3 F) (alpha beta gamma delta : F),
    is_field K /\ orthogonal K R1 /\ orthogonal K R2
    /\ fadd K alpha beta <> f0 K /\ fadd K gamma delta <> f0 K
    /\ fadd K (fadd K alpha beta) (fadd K gamma delta) <> f0 K /\ fadd K (f1 K) (f1 K) <> f0 K
    /\ (forall n, ofnat K (S n) <> f0 K).
Proof.
  exists Qc, eriKQ, R345, Rimp, (qc_of 3 2), (qc_of 2 3), (qc_of 1 2), (qc_of 5 4).
  split; [apply QcK_field|]. split; [apply orthogonal_R345|]. split; [apply orthogonal_Rimp|].
  destruct eriKQ_exps as (Hp & Hq & Hpq & H2).
  split; [exact Hp|]. split; [exact Hq|]. split; [exact Hpq|]. split; [exact H2|]. apply eriKQ_char0.
Qed.
