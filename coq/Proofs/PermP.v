(* Proofs/PermP.v — reordering the shells of a basis only reorders the basis-function
   indices of every assembled array (property C11), for the executable assembly models
   Model/Assembly.v, Model/Assembly14.v, Model/Overlap.v, Model/OneBody.v.

   HOW A REORDERING IS GIVEN.  By an explicit index list [p : list nat]: the new shell
   list is [sel d p l = map (fun k => nth k l d) p] (new position k holds old shell
   [nth k p]).  The theorems only need [Forall (fun k => k < length l) p]: they hold for
   every SELECTION of shells (sub-bases, repetitions), permutations being the case
   [Permutation p (seq 0 (length l))].  The induced map on basis-function indices is the
   list [iperm r p] (new index x holds old index [nth x (iperm r p)]), where [r i] is the
   number of basis functions of old shell i and [off r i] the offset of its block;
   it is a permutation of 0..N-1 when p is one of 0..n-1 ([iperm_seq] and
   [Permutation_flat_map]; stated as C11_index_map_is_permutation in Props/C11.v).

   The assembled array of the reordered list is then EQUAL (as a nested list) to the
   array of the original list with every basis index looked up through [iperm r p]
   ([sel1], [sel2]; entry by entry for four indices).  No bound on the number of shells,
   their sizes, or p. *)
From Coq Require Import List Arith Lia Bool Permutation.
From GB Require Import Base.Field Base.Tables Base.Blocks Model.Shell Model.Assembly Model.Assembly14
  Model.Overlap Model.TwoElec Model.OneBody Proofs.AssemblyP Proofs.OverlapP.
From GB Require Proofs.EriStructP Proofs.BlockMatP.
Import ListNotations.

Fixpoint off (r : nat -> nat) (i : nat) : nat :=
  match i with O => 0 | S i' => off r i' + r i' end.

Definition sel {B} (d : B) (p : list nat) (l : list B) : list B := map (fun k => nth k l d) p.
Definition iperm (r : nat -> nat) (p : list nat) : list nat :=
  flat_map (fun k => seq (off r k) (r k)) p.

Definition sel1 {B} (d : B) (ip : list nat) (v : list B) : list B := map (fun x => nth x v d) ip.
Definition sel2 {B} (d : B) (ip1 ip2 : list nat) (m : list (list B)) : list (list B) :=
  map (fun x => map (fun y => nth y (nth x m []) d) ip2) ip1.

Lemma off_offs r i : off r i = BlockMatP.offs r i.
Proof. reflexivity. Qed.
Lemma off_ext r r' n : (forall i, i < n -> r i = r' i) -> off r n = off r' n.
Proof. induction n as [|n IH]; intros H; cbn [off]; [reflexivity|]. rewrite IH, H by (intros; auto; lia). reflexivity. Qed.

Lemma mk_nth_map {B} (F : nat -> B) (p : list nat) : mk (length p) (fun k => F (nth k p 0)) = map F p.
Proof. symmetry. apply (map_as_mk F p 0). Qed.
Lemma list_as_map_nth {B} (l : list B) d : l = map (fun a => nth a l d) (seq 0 (length l)).
Proof. rewrite <- (map_id l) at 1. rewrite (map_as_mk (fun x => x) l d). reflexivity. Qed.
Lemma seq_as_map s n : seq s n = map (fun a => s + a) (seq 0 n).
Proof. revert s; induction n as [|n IH]; intros s; [reflexivity|]. cbn [seq map]. rewrite Nat.add_0_r. f_equal.
  rewrite IH, <- seq_shift, map_map. apply map_ext. intros a. lia. Qed.
Lemma concat_map_map {B C} (h : B -> C) (s : nat -> list B) p :
  concat (map (fun k => map h (s k)) p) = map h (flat_map s p).
Proof. induction p as [|k p IH]; [reflexivity|]. cbn [map concat flat_map]. now rewrite map_app, IH. Qed.

Lemma length_concat_mk {B} n (f : nat -> list B) r :
  (forall k, k < n -> length (f k) = r k) -> length (concat (mk n f)) = off r n.
Proof. exact (BlockMatP.length_concat_mk n f r). Qed.

Lemma nth_concat_mk {B} n (f : nat -> list B) r d i a :
  (forall k, k < n -> length (f k) = r k) -> i < n -> a < r i ->
  nth (off r i + a) (concat (mk n f)) d = nth a (f i) d.
Proof. exact (BlockMatP.nth_concat_mk n f r d i a). Qed.

Lemma off_decompose r n x : x < off r n -> exists i a, i < n /\ a < r i /\ x = off r i + a.
Proof. exact (BlockMatP.offs_decompose r n x). Qed.

Lemma slice_concat_mk {B} n (f : nat -> list B) r d i :
  (forall k, k < n -> length (f k) = r k) -> i < n ->
  f i = map (fun x => nth x (concat (mk n f)) d) (seq (off r i) (r i)).
Proof.
  intros H Hi. rewrite (list_as_map_nth (f i) d) at 1. rewrite H by exact Hi.
  rewrite (seq_as_map (off r i)), map_map. apply map_ext_in. intros a Ha. apply in_seq in Ha.
  symmetry. apply nth_concat_mk; auto; lia.
Qed.

Lemma concat_sel {B} n (f : nat -> list B) r d p :
  (forall k, k < n -> length (f k) = r k) -> Forall (fun k => k < n) p ->
  concat (map f p) = sel1 d (iperm r p) (concat (mk n f)).
Proof.
  intros H Hp. unfold sel1, iperm. rewrite <- concat_map_map. f_equal.
  apply map_ext_in. intros k Hk. rewrite Forall_forall in Hp. now apply slice_concat_mk; auto.
Qed.

Lemma length_iperm r p : length (iperm r p) = fold_right plus 0 (map r p).
Proof. unfold iperm. induction p as [|k p IH]; [reflexivity|]. cbn [flat_map map fold_right].
  now rewrite app_length, seq_length, IH. Qed.

Lemma iperm_seq r n : iperm r (seq 0 n) = seq 0 (off r n).
Proof.
  induction n as [|n IH]; [reflexivity|].
  rewrite seq_S. unfold iperm in *. rewrite flat_map_app, IH. cbn [flat_map off]. rewrite app_nil_r.
  now rewrite <- seq_app.
Qed.
Theorem one_perm {B C} (g : B -> list C) (l : list B) (d : B) (d' : C) (p : list nat) :
  Forall (fun k => k < length l) p ->
  concat (map g (sel d p l))
  = sel1 d' (iperm (fun k => length (g (nth k l d))) p) (concat (map g l)).
Proof.
  intros Hp. unfold sel. rewrite map_map. rewrite (map_as_mk g l d).
  apply (concat_sel (length l) (fun k => g (nth k l d)) _ d' p); auto.
Qed.

Section OnePerm.
Context {F : Type} (K : Fops F).
Context {A : Type} (azero : A) (aadd : A -> A -> A) (ascale : F -> A -> A).
Definition one_piece (sb : @sh F * list (list A)) : list A :=
  axis_tr azero aadd ascale (sh_sph (fst sb)) (sh_T (fst sb)) (norm_axis ascale (sh_n (fst sb)) (snd sb)).
Lemma one_mix_pieces l : one_mix azero aadd ascale l = concat (map one_piece l).
Proof. unfold one_mix. f_equal. apply map_ext. intros [s b]. reflexivity. Qed.

End OnePerm.

Fixpoint fold1 {B} (c : B -> B -> B) (d : B) (l : list B) : B :=
  match l with
  | [] => d
  | x :: rest => match rest with [] => x | _ => c x (fold1 c d rest) end
  end.

Lemma fold1_app {B} (l : list (list B)) : fold1 (@app B) [] l = concat l.
Proof. induction l as [|x [|y l] IH]; [reflexivity|cbn; now rewrite app_nil_r|].
  change (fold1 (@app B) [] (x :: y :: l)) with (x ++ fold1 (@app B) [] (y :: l)). now rewrite IH. Qed.
Lemma fold1_map2 {B} (c : B -> B -> B) (l : list (list B)) : fold1 (map2 c) [] l = zipw c l.
Proof. induction l as [|x [|y l] IH]; [reflexivity..|].
  change (fold1 (map2 c) [] (x :: y :: l)) with (map2 c x (fold1 (map2 c) [] (y :: l))). now rewrite IH. Qed.
Lemma hcat_zipw {B} (Ms : list (list (list B))) : hcat Ms = zipw (@app B) Ms.
Proof. induction Ms as [|x [|y l] IH]; [reflexivity..|].
  rewrite hcat_cons by discriminate. now rewrite IH. Qed.

Lemma length_zipw {B} (c : B -> B -> B) R (Ms : list (list B)) : Ms <> [] ->
  Forall (fun M => length M = R) Ms -> length (zipw c Ms) = R.
Proof.
  intros Hne H. induction H as [|M Ms HM HF IH]; [congruence|].
  destruct Ms as [|M' Ms']; [exact HM|].
  change (zipw c (M :: M' :: Ms')) with (map2 c M (zipw c (M' :: Ms'))).
  rewrite map2_length; [exact HM|]. rewrite IH by discriminate. exact HM.
Qed.

Lemma nth_zipw {B} (c : B -> B -> B) (d : B) R (Ms : list (list B)) a : Ms <> [] ->
  Forall (fun M => length M = R) Ms -> a < R ->
  nth a (zipw c Ms) d = fold1 c d (map (fun M => nth a M d) Ms).
Proof.
  intros Hne H Ha. induction H as [|M Ms HM HF IH]; [congruence|].
  destruct Ms as [|M' Ms']; [reflexivity|].
  change (zipw c (M :: M' :: Ms')) with (map2 c M (zipw c (M' :: Ms'))).
  rewrite (nth_map2 c _ _ d d d) by (rewrite ?(length_zipw c R) by (auto; discriminate); lia).
  rewrite IH by discriminate. reflexivity.
Qed.

Lemma length_zipw_mk {B} (c : B -> B -> B) R n (f : nat -> list B) : 0 < n ->
  (forall k, k < n -> length (f k) = R) -> length (zipw c (mk n f)) = R.
Proof. intros Hn H. apply length_zipw; [now apply mk_nonempty|]. now apply Forall_mk. Qed.

(* row a of rows put side by side ([zipw app]) or combined entry by entry ([zipw (map2 c)]) *)
Lemma zipw_app_row {B} R n (f : nat -> list (list B)) a : 0 < n -> (forall k, k < n -> length (f k) = R) -> a < R ->
  nth a (zipw (@app B) (mk n f)) [] = concat (mk n (fun k => nth a (f k) [])).
Proof.
  intros Hn H Ha. rewrite (nth_zipw _ [] R); [|now apply mk_nonempty|now apply Forall_mk|exact Ha].
  now rewrite fold1_app, map_mk.
Qed.
Lemma zipw_map2_row {B} (c : B -> B -> B) R n (f : nat -> list (list B)) a : 0 < n ->
  (forall k, k < n -> length (f k) = R) -> a < R ->
  nth a (zipw (map2 c) (mk n f)) [] = zipw c (mk n (fun k => nth a (f k) [])).
Proof.
  intros Hn H Ha. rewrite (nth_zipw _ [] R); [|now apply mk_nonempty|now apply Forall_mk|exact Ha].
  now rewrite fold1_map2, map_mk.
Qed.

Lemma Forall_map_iff {B C} (Q : C -> Prop) (g : B -> C) l : Forall Q (map g l) <-> Forall (fun x => Q (g x)) l.
Proof. apply Forall_map. Qed.

Section TwoPerm.
Context {A : Type} (azero : A).

Definition shape2 (n1 n2 : nat) (r1 r2 : nat -> nat) (Bf : nat -> nat -> list (list A)) : Prop :=
  forall i j, i < n1 -> j < n2 -> length (Bf i j) = r1 i /\ Forall (fun row => length row = r2 j) (Bf i j).

Lemma length_row_block n1 n2 r1 r2 Bf i p2 : shape2 n1 n2 r1 r2 Bf -> i < n1 -> p2 <> [] ->
  Forall (fun k => k < n2) p2 -> length (hcat (map (fun j => Bf i j) p2)) = r1 i.
Proof.
  intros HS Hi Hne Hp. apply hcat_length; [now destruct p2|].
  apply Forall_map. rewrite Forall_forall in *. intros j Hj. now apply HS; auto.
Qed.

Lemma nth_default_row {B} (l : list (list B)) a : nth a l [] = nth a l [].
Proof. reflexivity. Qed.

Lemma row_block_sel n1 n2 r1 r2 Bf i p2 : shape2 n1 n2 r1 r2 Bf -> i < n1 -> 0 < n2 -> p2 <> [] ->
  Forall (fun k => k < n2) p2 ->
  hcat (map (fun j => Bf i j) p2)
  = map (sel1 azero (iperm r2 p2)) (hcat (mk n2 (fun j => Bf i j))).
Proof.
  intros HS Hi Hn2 Hne Hp.
  assert (HL1 : length (hcat (map (fun j => Bf i j) p2)) = r1 i) by (eapply length_row_block; eauto).
  assert (Hall : Forall (fun M : list (list A) => length M = r1 i) (mk n2 (fun j => Bf i j))).
  { apply Forall_mk. intros j Hj. now apply HS. }
  assert (Hmkne : mk n2 (fun j => Bf i j) <> []).
  { now apply mk_nonempty. }
  assert (HL2 : length (hcat (mk n2 (fun j => Bf i j))) = r1 i) by (apply hcat_length; auto).
  apply (nth_ext _ _ [] []); [now rewrite map_length, HL1, HL2|].
  intros a Ha. rewrite HL1 in Ha.
  rewrite (nth_map_lt _ _ a []) by lia.
  rewrite (hcat_row (r1 i)); [|now destruct p2| |exact Ha].
  2:{ apply Forall_map. rewrite Forall_forall in *. intros j Hj. now apply HS; auto. }
  rewrite (hcat_row (r1 i)) by assumption.
  rewrite !map_map, map_mk.
  apply (concat_sel n2 (fun j => nth a (Bf i j) []) r2 azero p2); [|exact Hp].
  intros j Hj. destruct (HS i j Hi Hj) as [HLen HF]. rewrite Forall_forall in HF. apply HF.
  apply nth_In. lia.
Qed.

(* ASYMMETRIC CLASS / general block matrix: selections p1 of the row shells and p2 of the
   column shells *)
Theorem blocks_perm n1 n2 r1 r2 (Bf : nat -> nat -> list (list A)) p1 p2 :
  shape2 n1 n2 r1 r2 Bf -> p2 <> [] ->
  Forall (fun k => k < n1) p1 -> Forall (fun k => k < n2) p2 ->
  two_asymm_blocks (length p1) (length p2) (fun k l => Bf (nth k p1 0) (nth l p2 0))
  = sel2 azero (iperm r1 p1) (iperm r2 p2) (two_asymm_blocks n1 n2 Bf).
Proof.
  intros HS Hne Hp1 Hp2. unfold two_asymm_blocks, vcat.
  assert (Hn2 : 0 < n2). { destruct p2 as [|k p2]; [congruence|]. inversion Hp2; lia. }
  rewrite (mk_nth_map (fun i => hcat (mk (length p2) (fun l => Bf i (nth l p2 0)))) p1).
  transitivity (concat (map (fun i => map (sel1 azero (iperm r2 p2)) (hcat (mk n2 (fun j => Bf i j)))) p1)).
  { f_equal. apply map_ext_in. intros i Hi. rewrite Forall_forall in Hp1.
    rewrite (mk_nth_map (fun j => Bf i j) p2). eapply row_block_sel; eauto. }
  rewrite <- (map_map (fun i => hcat (mk n2 (fun j => Bf i j))) (map (sel1 azero (iperm r2 p2)))).
  rewrite <- concat_map.
  rewrite (concat_sel n1 (fun i => hcat (mk n2 (fun j => Bf i j))) r1 [] p1); [| |exact Hp1].
  - unfold sel1, sel2. rewrite map_map. reflexivity.
  - intros i Hi. apply hcat_length.
    + now apply mk_nonempty.
    + apply Forall_mk. intros j Hj. now apply HS.
Qed.

End TwoPerm.

Section SymPerm.
Context {A : Type} (azero : A).

(* block symmetry hypotheses, for all pairs i, j < n (diagonal included) *)
Definition bsym (n : nat) (Bf : nat -> nat -> list (list A)) : Prop :=
  forall i j, i < n -> j < n -> Bf j i = transpose azero (Bf i j).
Definition bsym_h (aconj : A -> A) (n : nat) (Bf : nat -> nat -> list (list A)) : Prop :=
  forall i j, i < n -> j < n -> Bf j i = map (map aconj) (transpose azero (Bf i j)).

(* under block symmetry the mirrored assembly is the assembly of all blocks
   (Assembly.two_symm_blocks: diagonal blocks kept; Assembly14.two_symm_blocks_t:
   diagonal blocks transposed; OneBody.two_symm_blocks_h: conjugate transposes) *)
Lemma two_symm_blocks_full n Bf : bsym n Bf -> two_symm_blocks azero n Bf = two_asymm_blocks n n Bf.
Proof. intros H. unfold two_symm_blocks, two_asymm_blocks. f_equal. apply mk_ext; intros i Hi. f_equal.
  apply mk_ext; intros j Hj. destruct (Nat.leb i j); [reflexivity|]. symmetry. now apply H. Qed.
Lemma two_symm_blocks_t_full n Bf : bsym n Bf -> two_symm_blocks_t azero n Bf = two_asymm_blocks n n Bf.
Proof. intros H. unfold two_symm_blocks_t, two_asymm_blocks. f_equal. apply mk_ext; intros i Hi. f_equal.
  apply mk_ext; intros j Hj. destruct (Nat.ltb i j); [reflexivity|]. symmetry. now apply H. Qed.
Lemma two_symm_blocks_h_full aconj n Bf : bsym_h aconj n Bf ->
  two_symm_blocks_h azero aconj n Bf = two_asymm_blocks n n Bf.
Proof. intros H. unfold two_symm_blocks_h, two_asymm_blocks. f_equal. apply mk_ext; intros i Hi. f_equal.
  apply mk_ext; intros j Hj. destruct (Nat.ltb i j); [reflexivity|]. symmetry. now apply H. Qed.

Lemma sel_lt (p : list nat) n k : Forall (fun k => k < n) p -> k < length p -> nth k p 0 < n.
Proof. intros H Hk. rewrite Forall_forall in H. apply H. now apply nth_In. Qed.

Lemma symm_perm_generic (asm : nat -> (nat -> nat -> list (list A)) -> list (list A))
      (sym : nat -> (nat -> nat -> list (list A)) -> Prop) n r Bf p :
  (forall m Bf', sym m Bf' -> asm m Bf' = two_asymm_blocks m m Bf') ->
  (forall Bf', sym n Bf' -> sym (length p) (fun k l => Bf' (nth k p 0) (nth l p 0))) ->
  shape2 n n r r Bf -> sym n Bf -> Forall (fun k => k < n) p ->
  asm (length p) (fun k l => Bf (nth k p 0) (nth l p 0))
  = sel2 azero (iperm r p) (iperm r p) (asm n Bf).
Proof.
  intros Hfull Hinh HS Hs Hp. rewrite !Hfull by auto.
  destruct p as [|k0 p']; [reflexivity|].
  apply (blocks_perm azero n n r r Bf); auto. discriminate.
Qed.

Lemma bsym_inherit n Bf p : Forall (fun k => k < n) p -> bsym n Bf ->
  bsym (length p) (fun k l => Bf (nth k p 0) (nth l p 0)).
Proof. intros Hp H k l Hk Hl. apply H; eapply sel_lt; eauto. Qed.
Lemma bsym_h_inherit aconj n Bf p : Forall (fun k => k < n) p -> bsym_h aconj n Bf ->
  bsym_h aconj (length p) (fun k l => Bf (nth k p 0) (nth l p 0)).
Proof. intros Hp H k l Hk Hl. apply H; eapply sel_lt; eauto. Qed.

Theorem symm_blocks_perm n r Bf p : shape2 n n r r Bf -> bsym n Bf -> Forall (fun k => k < n) p ->
  two_symm_blocks azero (length p) (fun k l => Bf (nth k p 0) (nth l p 0))
  = sel2 azero (iperm r p) (iperm r p) (two_symm_blocks azero n Bf).
Proof. intros HS Hs Hp. apply (symm_perm_generic (two_symm_blocks azero) bsym); auto.
  - apply two_symm_blocks_full. - intros; now apply (bsym_inherit n). Qed.
Theorem symm_blocks_t_perm n r Bf p : shape2 n n r r Bf -> bsym n Bf -> Forall (fun k => k < n) p ->
  two_symm_blocks_t azero (length p) (fun k l => Bf (nth k p 0) (nth l p 0))
  = sel2 azero (iperm r p) (iperm r p) (two_symm_blocks_t azero n Bf).
Proof. intros HS Hs Hp. apply (symm_perm_generic (two_symm_blocks_t azero) bsym); auto.
  - apply two_symm_blocks_t_full. - intros; now apply (bsym_inherit n). Qed.
Theorem symm_blocks_h_perm aconj n r Bf p : shape2 n n r r Bf -> bsym_h aconj n Bf -> Forall (fun k => k < n) p ->
  two_symm_blocks_h azero aconj (length p) (fun k l => Bf (nth k p 0) (nth l p 0))
  = sel2 azero (iperm r p) (iperm r p) (two_symm_blocks_h azero aconj n Bf).
Proof. intros HS Hs Hp. apply (symm_perm_generic (two_symm_blocks_h azero aconj) (bsym_h aconj)); auto.
  - apply two_symm_blocks_h_full. - intros; now apply (bsym_h_inherit aconj n). Qed.
End SymPerm.

Lemma nth_map_sel {B C} (g : B -> C) (l : list B) d d' p k : k < length p ->
  nth k (map g (sel d p l)) d' = g (nth (nth k p 0) l d).
Proof. intros Hk. unfold sel. rewrite map_map. now rewrite (nth_map_lt _ p k 0). Qed.

Section Models.
Context {F : Type} (K : Fops F).
Context {A : Type} (azero : A) (aadd : A -> A -> A) (ascale : F -> A -> A).
Variable blockf : shell F -> shell F -> list (list (list (list A))).

Definition Bfun (b1 b2 : list (shell F)) (ds : shell F) (i j : nat) : list (list A) :=
  pblock K azero aadd ascale blockf (prep K (nth i b1 ds)) (prep K (nth j b2 ds)).

Lemma two_symm_integral_blocks basis ds :
  two_symm_integral K azero aadd ascale blockf basis None
  = two_symm_blocks azero (length basis) (Bfun basis basis ds).
Proof.
  rewrite two_symm_integral_unfold. cbv zeta. rewrite map_length.
  apply two_symm_blocks_ext_le. intros i j Hi Hj _. unfold Bfun.
  now rewrite !(nth_map_lt (prep K) basis _ ds).
Qed.

(* Overlap.two_symm_integral (overlap_integral, kinetic_energy_integral, moment_integral,
   point_charge_integral): reordering the shells reorders both basis indices *)
Theorem two_symm_integral_perm basis ds r p :
  shape2 (length basis) (length basis) r r (Bfun basis basis ds) ->
  bsym azero (length basis) (Bfun basis basis ds) ->
  Forall (fun k => k < length basis) p ->
  two_symm_integral K azero aadd ascale blockf (sel ds p basis) None
  = sel2 azero (iperm r p) (iperm r p) (two_symm_integral K azero aadd ascale blockf basis None).
Proof.
  intros HS Hs Hp. rewrite (two_symm_integral_blocks (sel ds p basis) ds), (two_symm_integral_blocks basis ds).
  unfold sel at 1. rewrite map_length.
  rewrite <- (symm_blocks_perm azero (length basis) r (Bfun basis basis ds) p) by assumption.
  apply two_symm_blocks_ext_le. intros i j Hi Hj _. unfold Bfun, sel.
  now rewrite !(nth_map_lt (fun k => nth k basis ds) p _ 0).
Qed.

(* OneBody.two_symm_integral_h (momentum_integral, angular_momentum_integral) *)
Section H.
Variable aconj : A -> A.
Lemma two_symm_blocks_h_ext_le n (bf bf' : nat -> nat -> list (list A)) :
  (forall i j, i < n -> j < n -> i <= j -> bf i j = bf' i j) ->
  two_symm_blocks_h azero aconj n bf = two_symm_blocks_h azero aconj n bf'.
Proof.
  intros H. unfold two_symm_blocks_h. f_equal. apply mk_ext; intros i Hi. f_equal.
  apply mk_ext; intros j Hj. destruct (Nat.ltb_spec i j) as [Hlt|Hge].
  - apply H; lia.
  - now rewrite (H j i Hj Hi Hge).
Qed.

Lemma two_symm_integral_h_blocks basis ds :
  two_symm_integral_h K azero aadd ascale aconj blockf basis None
  = two_symm_blocks_h azero aconj (length basis) (Bfun basis basis ds).
Proof.
  unfold two_symm_integral_h. cbv zeta. rewrite map_length.
  apply two_symm_blocks_h_ext_le. intros i j Hi Hj Hle.
  rewrite nth_mk by exact Hi. rewrite nth_mk by exact Hj.
  destruct (Nat.leb_spec i j); [|lia]. unfold Bfun.
  now rewrite !(nth_map_lt (prep K) basis _ ds).
Qed.

Theorem two_symm_integral_h_perm basis ds r p :
  shape2 (length basis) (length basis) r r (Bfun basis basis ds) ->
  bsym_h azero aconj (length basis) (Bfun basis basis ds) ->
  Forall (fun k => k < length basis) p ->
  two_symm_integral_h K azero aadd ascale aconj blockf (sel ds p basis) None
  = sel2 azero (iperm r p) (iperm r p) (two_symm_integral_h K azero aadd ascale aconj blockf basis None).
Proof.
  intros HS Hs Hp. rewrite (two_symm_integral_h_blocks (sel ds p basis) ds), (two_symm_integral_h_blocks basis ds).
  unfold sel at 1. rewrite map_length.
  rewrite <- (symm_blocks_h_perm azero aconj (length basis) r (Bfun basis basis ds) p) by assumption.
  apply two_symm_blocks_h_ext_le. intros i j Hi Hj _. unfold Bfun, sel.
  now rewrite !(nth_map_lt (fun k => nth k basis ds) p _ 0).
Qed.
End H.

(* Overlap.two_asymm_integral (overlap_integral_asymmetric): independent reorderings of the
   two bases; NO symmetry hypothesis *)
Lemma two_asymm_integral_blocks b1 b2 ds :
  two_asymm_integral K azero aadd ascale blockf b1 b2 None None
  = two_asymm_blocks (length b1) (length b2) (Bfun b1 b2 ds).
Proof.
  unfold two_asymm_integral. cbv zeta. rewrite !map_length.
  apply two_asymm_blocks_ext. intros i j Hi Hj. unfold Bfun.
  now rewrite (nth_map_lt (prep K) b1 _ ds), (nth_map_lt (prep K) b2 _ ds).
Qed.

Theorem two_asymm_integral_perm b1 b2 ds r1 r2 p1 p2 :
  shape2 (length b1) (length b2) r1 r2 (Bfun b1 b2 ds) -> p2 <> [] ->
  Forall (fun k => k < length b1) p1 -> Forall (fun k => k < length b2) p2 ->
  two_asymm_integral K azero aadd ascale blockf (sel ds p1 b1) (sel ds p2 b2) None None
  = sel2 azero (iperm r1 p1) (iperm r2 p2) (two_asymm_integral K azero aadd ascale blockf b1 b2 None None).
Proof.
  intros HS Hne Hp1 Hp2.
  rewrite (two_asymm_integral_blocks (sel ds p1 b1) (sel ds p2 b2) ds), (two_asymm_integral_blocks b1 b2 ds).
  unfold sel at 1 2. rewrite !map_length.
  rewrite <- (blocks_perm azero (length b1) (length b2) r1 r2 (Bfun b1 b2 ds) p1 p2) by assumption.
  apply two_asymm_blocks_ext. intros i j Hi Hj. unfold Bfun, sel.
  now rewrite (nth_map_lt (fun k => nth k b1 ds) p1 _ 0), (nth_map_lt (fun k => nth k b2 ds) p2 _ 0).
Qed.

(* Assembly14.two_symm_n / two_asymm_n (the label-level transcription used by C09): the raw
   block function is indexed by shell positions *)
Definition B14 (mode : nat) (ss1 ss2 : list (@sh F)) (bf : nat -> nat -> list (list (list (list A))))
           (i j : nat) : list (list A) :=
  let d := mkSh false [] [] in
  let ty s := match mode with 0 => false | 1 => true | _ => sh_sph s end in
  let s1 := nth i ss1 d in let s2 := nth j ss2 d in
  block2 azero aadd ascale (ty s1) (ty s2) s1 s2 (bf i j).

Theorem two_symm_n_perm mode ss bf r p :
  shape2 (length ss) (length ss) r r (B14 mode ss ss bf) ->
  bsym azero (length ss) (B14 mode ss ss bf) ->
  Forall (fun k => k < length ss) p ->
  two_symm_n azero aadd ascale mode (sel (mkSh false [] []) p ss) (fun k l => bf (nth k p 0) (nth l p 0))
  = sel2 azero (iperm r p) (iperm r p) (two_symm_n azero aadd ascale mode ss bf).
Proof.
  intros HS Hs Hp. unfold two_symm_n. cbv zeta. unfold sel at 1. rewrite map_length.
  change (two_symm_blocks_t azero (length ss) _) with (two_symm_blocks_t azero (length ss) (B14 mode ss ss bf)).
  rewrite <- (symm_blocks_t_perm azero (length ss) r (B14 mode ss ss bf) p) by assumption.
  rewrite !two_symm_blocks_t_full.
  - apply two_asymm_blocks_ext. intros i j Hi Hj. unfold B14, sel. cbv zeta.
    now rewrite !(nth_map_lt (fun k => nth k ss (mkSh false [] [])) p _ 0).
  - now apply (bsym_inherit azero (length ss)).
  - intros i j Hi Hj. unfold sel. rewrite !(nth_map_lt (fun k => nth k ss (mkSh false [] [])) p _ 0) by assumption.
    apply (Hs (nth i p 0) (nth j p 0)); eapply sel_lt; eauto.
Qed.

Theorem two_asymm_n_perm mode ss1 ss2 bf r1 r2 p1 p2 :
  shape2 (length ss1) (length ss2) r1 r2 (B14 mode ss1 ss2 bf) -> p2 <> [] ->
  Forall (fun k => k < length ss1) p1 -> Forall (fun k => k < length ss2) p2 ->
  two_asymm_n azero aadd ascale mode (sel (mkSh false [] []) p1 ss1) (sel (mkSh false [] []) p2 ss2)
    (fun k l => bf (nth k p1 0) (nth l p2 0))
  = sel2 azero (iperm r1 p1) (iperm r2 p2) (two_asymm_n azero aadd ascale mode ss1 ss2 bf).
Proof.
  intros HS Hne Hp1 Hp2. unfold two_asymm_n. cbv zeta. unfold sel at 1 2. rewrite !map_length.
  change (two_asymm_blocks (length ss1) (length ss2) _)
    with (two_asymm_blocks (length ss1) (length ss2) (B14 mode ss1 ss2 bf)).
  rewrite <- (blocks_perm azero (length ss1) (length ss2) r1 r2 (B14 mode ss1 ss2 bf) p1 p2) by assumption.
  apply two_asymm_blocks_ext. intros i j Hi Hj. unfold B14, sel. cbv zeta.
  now rewrite (nth_map_lt (fun k => nth k ss1 (mkSh false [] [])) p1 _ 0),
              (nth_map_lt (fun k => nth k ss2 (mkSh false [] [])) p2 _ 0).
Qed.
End Models.

(* WHY THIS DOES NOT SETTLE PROPERTY C11.  The theorems below say that every entry below
   the block diagonal is a COPY of the entry above it: the returned matrix is symmetric
   (Hermitian) across different shells for ANY block function, also for one whose two
   orientations disagree (block (j,i) <> transpose (block (i,j))), because the block (j,i)
   is never evaluated.  Symmetry of the returned array therefore carries no information
   about the block routine; the property's clause "also when the two orientations are
   computed independently" is decided by the correspondence check (harness/c11.py, part
   "orient"), which calls construct_array_contraction in both orientations, and by
   Props/C11.v, C11_both_orientations_agree_moment_tables, at the level of the recursion tables.  Note also that
   the diagonal blocks are NOT symmetrised: the code writes transpose (block (i,i)) (the
   tril loop includes the diagonal), so the output is symmetric there only if the block
   routine's (s,s) block is. *)
Section SymOut.
Context {A : Type} (azero : A).
Definition ent (m : list (list A)) (x y : nat) : A := nth y (nth x m []) azero.

Lemma nth_transpose (m : list (list A)) a b : b < length (hd [] m) -> a < length m ->
  ent (transpose azero m) b a = ent m a b.
Proof.
  intros Hb Ha. unfold ent, transpose. rewrite nth_mk by exact Hb.
  now rewrite (nth_map_lt _ m a []).
Qed.
Variables (n : nat) (r : nat -> nat) (bf : nat -> nat -> list (list A)).
Hypothesis Hr : forall i, i < n -> 0 < r i.
(* only the blocks the code evaluates (i <= j) are constrained *)
Hypothesis HS : forall i j, i < n -> j < n -> i <= j ->
  length (bf i j) = r i /\ Forall (fun row => length row = r j) (bf i j).

(* entries of a block matrix filled by mirroring (BlockMatP.mirror_entry), the shapes being known
   for the evaluated blocks only: the others are replaced by transposes, which mirror ignores *)
Lemma mirror_entry_le up g (phi : A -> A) i j a b :
  (forall i j, up i j = true -> i <= j) -> (forall i j, up i j = false -> j <= i) ->
  (forall M R C, 0 < R -> length M = R -> Forall (fun row => length row = C) M ->
     (length (g M) = C /\ Forall (fun row => length row = R) (g M)) /\
     forall a b, a < R -> b < C -> nth a (nth b (g M) []) azero = phi (nth b (nth a M []) azero)) ->
  i < n -> j < n -> a < r i -> b < r j ->
  ent (BlockMatP.mirror up g n bf) (off r i + a) (off r j + b)
  = if up i j then ent (bf i j) a b else phi (ent (bf j i) b a).
Proof.
  intros Ht Hf Hg Hi Hj Ha Hb.
  set (bf' := fun i j => if i <=? j then bf i j else transpose azero (bf j i)).
  assert (Eb : forall i j, i <= j -> bf' i j = bf i j).
  { intros i' j' Hle. unfold bf'. now rewrite (proj2 (Nat.leb_le i' j') Hle). }
  rewrite (BlockMatP.mirror_ext up g n bf bf' Ht Hf) by (intros; now rewrite Eb).
  unfold ent. rewrite !off_offs.
  rewrite (BlockMatP.mirror_entry azero azero phi up g Hg n bf' r Hr); try assumption.
  - destruct (up i j) eqn:E; [rewrite (Eb i j (Ht i j E))|rewrite (Eb j i (Hf i j E))]; reflexivity.
  - intros i' j' Hi' Hj'. unfold bf'. destruct (Nat.leb_spec i' j'); [apply HS; lia|].
    destruct (HS j' i' Hj' Hi' ltac:(lia)) as [HL HF]. now apply (BlockMatP.transpose_shape azero _ (r j') (r i')); auto.
Qed.

Lemma ltb_le i j : (i <? j) = true -> i <= j.
Proof. intros H. apply Nat.ltb_lt in H. lia. Qed.
Lemma leb_false_le i j : (i <=? j) = false -> j <= i.
Proof. intros H. apply Nat.leb_gt in H. lia. Qed.

(* Assembly14.two_symm_blocks_t (base_two_symm.py as written: tril includes the diagonal) *)
Theorem symm_t_entry i j a b : i < n -> j < n -> a < r i -> b < r j ->
  ent (two_symm_blocks_t azero n bf) (off r i + a) (off r j + b)
  = if Nat.ltb i j then ent (bf i j) a b else ent (bf j i) b a.
Proof.
  exact (mirror_entry_le Nat.ltb (transpose azero) (fun x => x) i j a b ltb_le
           (fun i j => proj1 (Nat.ltb_ge i j)) (BlockMatP.transpose_spec azero)).
Qed.

Theorem symmetric_output_offdiag i j a b : i < n -> j < n -> i <> j -> a < r i -> b < r j ->
  ent (two_symm_blocks_t azero n bf) (off r i + a) (off r j + b)
  = ent (two_symm_blocks_t azero n bf) (off r j + b) (off r i + a).
Proof.
  intros Hi Hj Hne Ha Hb. rewrite !symm_t_entry by assumption.
  destruct (Nat.ltb_spec i j), (Nat.ltb_spec j i); try lia; reflexivity.
Qed.
Theorem symmetric_output_diag i a b : i < n -> a < r i -> b < r i ->
  ent (two_symm_blocks_t azero n bf) (off r i + a) (off r i + b) = ent (bf i i) b a.
Proof. intros Hi Ha Hb. rewrite symm_t_entry by assumption. now rewrite Nat.ltb_irrefl. Qed.

(* hence symmetric as a whole when the diagonal blocks are *)
Theorem symmetric_output :
  (forall i a b, i < n -> a < r i -> b < r i -> ent (bf i i) a b = ent (bf i i) b a) ->
  forall x y, x < off r n -> y < off r n ->
  ent (two_symm_blocks_t azero n bf) x y = ent (two_symm_blocks_t azero n bf) y x.
Proof.
  intros Hd x y Hx Hy.
  destruct (off_decompose r n x Hx) as (i & a & Hi & Ha & ->).
  destruct (off_decompose r n y Hy) as (j & b & Hj & Hb & ->).
  destruct (Nat.eq_dec i j) as [->|Hne]; [|now apply symmetric_output_offdiag].
  rewrite !symmetric_output_diag by assumption. now apply Hd.
Qed.

(* Assembly.two_symm_blocks (used by Overlap.two_symm_integral: diagonal block kept as evaluated) *)
Theorem symm_entry i j a b : i < n -> j < n -> a < r i -> b < r j ->
  ent (two_symm_blocks azero n bf) (off r i + a) (off r j + b)
  = if Nat.leb i j then ent (bf i j) a b else ent (bf j i) b a.
Proof.
  exact (mirror_entry_le Nat.leb (transpose azero) (fun x => x) i j a b (fun i j => proj1 (Nat.leb_le i j))
           leb_false_le (BlockMatP.transpose_spec azero)).
Qed.
Theorem symmetric_output_leb_offdiag i j a b : i < n -> j < n -> i <> j -> a < r i -> b < r j ->
  ent (two_symm_blocks azero n bf) (off r i + a) (off r j + b)
  = ent (two_symm_blocks azero n bf) (off r j + b) (off r i + a).
Proof.
  intros Hi Hj Hne Ha Hb. rewrite !symm_entry by assumption.
  destruct (Nat.leb_spec i j), (Nat.leb_spec j i); try lia; reflexivity.
Qed.

(* OneBody.two_symm_blocks_h (momentum type: the model carries the real matrix R of the value
   -i R; aconj = negation): entries below the block diagonal are the CONJUGATES of the mirrored
   ones, so R is antisymmetric across different shells, whatever bf; inside one shell the
   entry is aconj of the transposed evaluated block *)
Variable aconj : A -> A.
Theorem symm_h_entry i j a b : i < n -> j < n -> a < r i -> b < r j ->
  ent (two_symm_blocks_h azero aconj n bf) (off r i + a) (off r j + b)
  = if Nat.ltb i j then ent (bf i j) a b else aconj (ent (bf j i) b a).
Proof.
  refine (mirror_entry_le Nat.ltb (fun M => map (map aconj) (transpose azero M)) aconj i j a b ltb_le
            (fun i j => proj1 (Nat.ltb_ge i j)) _).
  intros M R C HR HL HF. destruct (BlockMatP.map_transpose_spec azero aconj M R C HR HL HF) as [[SL SF] He].
  split; [now split|]. intros a' b' Ha' Hb'. rewrite <- He by assumption. apply nth_indep.
  rewrite (BlockMatP.Forall_nth_in _ _ [] b' SF) by lia. exact Ha'.
Qed.
End SymOut.

Section FourConcat.
Context {A : Type} (azero : A).
Notation R4 := (list (list (list (list A)))).
Notation get4' := (get4 azero).

Definition shp1 (w : nat) (v : list A) : Prop := length v = w.
Definition shp2 (w1 w2 : nat) (m : list (list A)) : Prop := length m = w1 /\ Forall (shp1 w2) m.
Definition shp3 (w1 w2 w3 : nat) (m : list (list (list A))) : Prop := length m = w1 /\ Forall (shp2 w2 w3) m.
Definition shp4 (w1 w2 w3 w4 : nat) (m : R4) : Prop := length m = w1 /\ Forall (shp3 w2 w3 w4) m.

Definition shape4 (n : nat) (r : nat -> nat) (cell : nat -> nat -> nat -> nat -> R4) : Prop :=
  forall i j k l, i < n -> j < n -> k < n -> l < n -> shp4 (r i) (r j) (r k) (r l) (cell i j k l).

Variables (n : nat) (r : nat -> nat) (cell : nat -> nat -> nat -> nat -> R4).
Hypothesis HS : shape4 n r cell.

Theorem four_concat_entry i j k l a b c e :
  i < n -> j < n -> k < n -> l < n -> a < r i -> b < r j -> c < r k -> e < r l ->
  get4' (four_concat n cell) (off r i + a) (off r j + b) (off r k + c) (off r l + e)
  = get4' (cell i j k l) a b c e.
Proof.
  intros Hi Hj Hk Hl Ha Hb Hc He. unfold get4, four_concat, cat1.
  assert (Hn : 0 < n) by lia.
  (* shapes of the cells and of their rows a, (a, b), (a, b, c) *)
  assert (C1 : forall i' j' k', i' < n -> j' < n -> k' < n -> forall l', l' < n -> length (cell i' j' k' l') = r i').
  { intros. now destruct (HS i' j' k' l') as [H' _]. }
  assert (C2 : forall j' k' l', j' < n -> k' < n -> l' < n -> shp3 (r j') (r k') (r l') (nth a (cell i j' k' l') [])).
  { intros. destruct (HS i j' k' l') as [HH1 HH2]; auto. apply (proj1 (Forall_nth _ _) HH2). lia. }
  assert (C3 : forall k' l', k' < n -> l' < n -> shp2 (r k') (r l') (nth b (nth a (cell i j k' l') []) [])).
  { intros. destruct (C2 j k' l') as [HH1 HH2]; auto. apply (proj1 (Forall_nth _ _) HH2). lia. }
  assert (C4 : forall l', l' < n -> shp1 (r l') (nth c (nth b (nth a (cell i j k l') []) []) [])).
  { intros. destruct (C3 k l') as [HH1 HH2]; auto. apply (proj1 (Forall_nth _ _) HH2). lia. }
  (* axis 0: block i, row a of the concatenation along axis 1 *)
  assert (L3 : forall i' j', i' < n -> j' < n -> forall k', k' < n ->
    length (cat3 (mk n (fun l' => cell i' j' k' l'))) = r i').
  { intros. apply length_zipw_mk; auto. }
  assert (L2 : forall i', i' < n -> forall j', j' < n ->
    length (cat2 (mk n (fun k' => cat3 (mk n (fun l' => cell i' j' k' l'))))) = r i').
  { intros. apply length_zipw_mk; auto. }
  rewrite (nth_concat_mk n _ r [] i a) by (try assumption; intros; apply length_zipw_mk; auto).
  rewrite (zipw_app_row (r i) n _ a Hn (L2 i Hi) Ha).
  (* axis 1: row a of the (i, j') slab, then block j, row b of the concatenation along axis 2 *)
  assert (E2 : forall j', j' < n ->
    nth a (cat2 (mk n (fun k' => cat3 (mk n (fun l' => cell i j' k' l'))))) []
    = zipw (@app (list A)) (mk n (fun k' => zipw (map2 (@app A)) (mk n (fun l' => nth a (cell i j' k' l') []))))).
  { intros j' Hj'. unfold cat2. rewrite (zipw_map2_row _ (r i) n _ a Hn (L3 i j' Hi Hj') Ha). f_equal. apply mk_ext. intros k' Hk'.
    exact (zipw_map2_row _ (r i) n _ a Hn (C1 i j' k' Hi Hj' Hk') Ha). }
  assert (LZ2 : forall j', j' < n -> forall k', k' < n ->
    length (zipw (map2 (@app A)) (mk n (fun l' => nth a (cell i j' k' l') []))) = r j').
  { intros. apply length_zipw_mk; [exact Hn|]. intros l' Hl'. now destruct (C2 j' k' l'). }
  rewrite (nth_concat_mk n _ r [] j b) by (try assumption; intros j' Hj'; rewrite E2 by exact Hj'; apply length_zipw_mk; auto).
  rewrite (E2 j Hj), (zipw_app_row (r j) n _ b Hn (LZ2 j Hj) Hb).
  (* axis 2 *)
  assert (E3 : forall k', k' < n ->
    nth b (zipw (map2 (@app A)) (mk n (fun l' => nth a (cell i j k' l') []))) []
    = zipw (@app A) (mk n (fun l' => nth b (nth a (cell i j k' l') []) []))).
  { intros k' Hk'. apply (zipw_map2_row _ (r j)); [exact Hn| |exact Hb]. intros l' Hl'. now destruct (C2 j k' l'). }
  assert (LZ3 : forall k', k' < n -> forall l', l' < n -> length (nth b (nth a (cell i j k' l') []) []) = r k').
  { intros k' Hk' l' Hl'. now destruct (C3 k' l'). }
  rewrite (nth_concat_mk n _ r [] k c) by (try assumption; intros k' Hk'; rewrite E3 by exact Hk'; apply length_zipw_mk; auto).
  rewrite (E3 k Hk), (zipw_app_row (r k) n _ c Hn (LZ3 k Hk) Hc).
  (* axis 3 *)
  apply (nth_concat_mk n (fun l' => nth c (nth b (nth a (cell i j k l') []) []) []) r azero l e); auto.
Qed.
End FourConcat.

Lemma nth_iperm r p k a : k < length p -> a < r (nth k p 0) ->
  nth (off (fun k' => r (nth k' p 0)) k + a) (iperm r p) 0 = off r (nth k p 0) + a.
Proof.
  intros Hk Ha. unfold iperm. rewrite flat_map_concat_map.
  rewrite <- (mk_nth_map (fun k0 => seq (off r k0) (r k0)) p).
  rewrite (nth_concat_mk (length p) _ (fun k' => r (nth k' p 0)) 0 k a); auto.
  - now rewrite seq_nth.
  - intros; now rewrite seq_length.
Qed.
Lemma off_iperm_length r p : off (fun k' => r (nth k' p 0)) (length p) = length (iperm r p).
Proof.
  unfold iperm. rewrite flat_map_concat_map, <- (mk_nth_map (fun k0 => seq (off r k0) (r k0)) p).
  symmetry. apply length_concat_mk. intros; now rewrite seq_length.
Qed.

Section FourStore.
Context {A : Type} (azero : A).
Notation R4 := (list (list (list (list A)))).
Notation swapax' := (swapax azero).

(* EIGHT-FOLD BLOCK SYMMETRY, in the form the code relies on: each of the seven permuted
   copies written by one (i,j,k,l) iteration (base_four_symm.py:215-226) is the block of the
   permuted shell quartet *)
Definition sym8 (n : nat) (Bf : nat -> nat -> nat -> nat -> R4) : Prop :=
  forall i j k l, i < n -> j < n -> k < n -> l < n ->
    Bf i j l k = swapax' 2 3 (Bf i j k l) /\
    Bf j i k l = swapax' 0 1 (Bf i j k l) /\
    Bf j i l k = swapax' 0 1 (swapax' 2 3 (Bf i j k l)) /\
    Bf k l i j = swapax' 0 2 (swapax' 1 3 (Bf i j k l)) /\
    Bf l k i j = swapax' 0 1 (swapax' 0 2 (swapax' 1 3 (Bf i j k l))) /\
    Bf k l j i = swapax' 2 3 (swapax' 0 2 (swapax' 1 3 (Bf i j k l))) /\
    Bf l k j i = swapax' 0 3 (swapax' 1 2 (Bf i j k l)).

Variables (n : nat) (Bf : nat -> nat -> nat -> nat -> R4).
Hypothesis H8 : sym8 n Bf.

(* whatever the order of the writes ("last write wins"), every cell of the store is the
   block of its own shell quartet *)
Theorem lookup_all_writes i j k l : i < n -> j < n -> k < n -> l < n ->
  lookup (all_writes azero n Bf) (i, j, k, l) = Bf i j k l.
Proof.
  intros Hi Hj Hk Hl.
  destruct (EriStructP.lookup_all_writes azero n Bf i j k l Hi Hj Hk Hl) as (a & b & c & d & Hab & Hcd & Hin).
  destruct (H8 a b c d ltac:(lia) ltac:(lia) ltac:(lia) ltac:(lia)) as (E1 & E2 & E3 & E4 & E5 & E6 & E7).
  apply EriStructP.writes8_images in Hin.
  destruct Hin as [[Ex Ev]|[[Ex Ev]|[[Ex Ev]|[[Ex Ev]|[[Ex Ev]|[[Ex Ev]|[[Ex Ev]|[Ex Ev]]]]]]]];
    injection Ex as -> -> -> ->; rewrite Ev; congruence.
Qed.
End FourStore.

Section FourPerm.
Context {A : Type} (azero : A).
Notation R4 := (list (list (list (list A)))).
Notation get4' := (get4 azero).

Lemma four_concat_ext n (cell cell' : nat -> nat -> nat -> nat -> R4) :
  (forall i j k l, i < n -> j < n -> k < n -> l < n -> cell i j k l = cell' i j k l) ->
  four_concat n cell = four_concat n cell'.
Proof.
  intros H. unfold four_concat. f_equal. apply mk_ext; intros i Hi. f_equal.
  apply mk_ext; intros j Hj. f_equal. apply mk_ext; intros k Hk. f_equal.
  apply mk_ext; intros l Hl. now apply H.
Qed.

Theorem four_concat_perm n r (cell cell' : nat -> nat -> nat -> nat -> R4) p :
  shape4 n r cell -> Forall (fun k => k < n) p ->
  (forall a b c d, a < length p -> b < length p -> c < length p -> d < length p ->
     cell' a b c d = cell (nth a p 0) (nth b p 0) (nth c p 0) (nth d p 0)) ->
  forall x1 x2 x3 x4, x1 < length (iperm r p) -> x2 < length (iperm r p) ->
    x3 < length (iperm r p) -> x4 < length (iperm r p) ->
  get4' (four_concat (length p) cell') x1 x2 x3 x4
  = get4' (four_concat n cell) (nth x1 (iperm r p) 0) (nth x2 (iperm r p) 0)
                               (nth x3 (iperm r p) 0) (nth x4 (iperm r p) 0).
Proof.
  intros HS Hp Hc x1 x2 x3 x4 H1 H2 H3 H4.
  set (r' := fun k' => r (nth k' p 0)).
  rewrite <- (off_iperm_length r p) in H1, H2, H3, H4.
  destruct (off_decompose r' _ x1 H1) as (k1 & a1 & Hk1 & Ha1 & ->).
  destruct (off_decompose r' _ x2 H2) as (k2 & a2 & Hk2 & Ha2 & ->).
  destruct (off_decompose r' _ x3 H3) as (k3 & a3 & Hk3 & Ha3 & ->).
  destruct (off_decompose r' _ x4 H4) as (k4 & a4 & Hk4 & Ha4 & ->).
  unfold r' in *. rewrite !nth_iperm by assumption.
  rewrite (four_concat_ext (length p) cell'
             (fun a b c d => cell (nth a p 0) (nth b p 0) (nth c p 0) (nth d p 0))) by exact Hc.
  rewrite (four_concat_entry azero (length p) (fun k' => r (nth k' p 0))) by
    (try assumption; intros i j k l Hi Hj Hk Hl; apply HS; eapply sel_lt; eauto).
  symmetry. apply (four_concat_entry azero n r cell HS); try assumption; eapply sel_lt; eauto.
Qed.

Lemma sym8_inherit n (Bf : nat -> nat -> nat -> nat -> R4) p : Forall (fun k => k < n) p ->
  sym8 azero n Bf -> sym8 azero (length p) (fun a b c d => Bf (nth a p 0) (nth b p 0) (nth c p 0) (nth d p 0)).
Proof. intros Hp H i j k l Hi Hj Hk Hl. apply H; eapply sel_lt; eauto. Qed.
End FourPerm.

Section FourSymm.
Context {F : Type} (K : Fops F).
Context {A : Type} (azero : A) (aadd : A -> A -> A) (ascale : F -> A -> A).
Notation R4 := (list (list (list (list A)))).

Definition B4f (mode : nat) (ss : list (@sh F)) (bf : nat -> nat -> nat -> nat -> list (list (list (list R4))))
           (i j k l : nat) : R4 :=
  let d := mkSh false [] [] in
  let ty s := match mode with 0 => false | 1 => true | _ => sh_sph s end in
  let s1 := nth i ss d in let s2 := nth j ss d in let s3 := nth k ss d in let s4 := nth l ss d in
  block4 azero aadd ascale (ty s1) (ty s2) (ty s3) (ty s4) s1 s2 s3 s4 (bf i j k l).

(* given the eight-fold symmetry of the processed blocks, the store-and-concatenate assembly
   of base_four_symm.py is the plain concatenation of all n^4 blocks *)
Theorem four_symm_is_concat mode ss bf : sym8 azero (length ss) (B4f mode ss bf) ->
  four_symm azero aadd ascale mode ss bf = four_concat (length ss) (B4f mode ss bf).
Proof.
  intros H8. unfold four_symm. cbv zeta. apply four_concat_ext. intros i j k l Hi Hj Hk Hl.
  exact (lookup_all_writes azero (length ss) (B4f mode ss bf) H8 i j k l Hi Hj Hk Hl).
Qed.

Theorem four_symm_perm mode ss bf r p :
  shape4 (length ss) r (B4f mode ss bf) -> sym8 azero (length ss) (B4f mode ss bf) ->
  Forall (fun k => k < length ss) p ->
  forall x1 x2 x3 x4, x1 < length (iperm r p) -> x2 < length (iperm r p) ->
    x3 < length (iperm r p) -> x4 < length (iperm r p) ->
  get4 azero (four_symm azero aadd ascale mode (sel (mkSh false [] []) p ss)
                (fun a b c d => bf (nth a p 0) (nth b p 0) (nth c p 0) (nth d p 0))) x1 x2 x3 x4
  = get4 azero (four_symm azero aadd ascale mode ss bf)
      (nth x1 (iperm r p) 0) (nth x2 (iperm r p) 0) (nth x3 (iperm r p) 0) (nth x4 (iperm r p) 0).
Proof.
  intros HS H8 Hp x1 x2 x3 x4 H1 H2 H3 H4.
  assert (EB : forall a b c d, a < length p -> b < length p -> c < length p -> d < length p ->
     B4f mode (sel (mkSh false [] []) p ss) (fun a b c d => bf (nth a p 0) (nth b p 0) (nth c p 0) (nth d p 0)) a b c d
     = B4f mode ss bf (nth a p 0) (nth b p 0) (nth c p 0) (nth d p 0)).
  { intros a b c d Ha Hb Hc Hd. unfold B4f, sel. cbv zeta.
    now rewrite !(nth_map_lt (fun k => nth k ss (mkSh false [] [])) p _ 0) by assumption. }
  rewrite (four_symm_is_concat mode ss bf H8).
  rewrite four_symm_is_concat.
  - unfold sel at 1. rewrite map_length. now apply (four_concat_perm azero (length ss) r).
  - unfold sel at 1. rewrite map_length. intros i j k l Hi Hj Hk Hl.
    rewrite !EB by assumption.
    exact (sym8_inherit azero (length ss) (B4f mode ss bf) p Hp H8 i j k l Hi Hj Hk Hl).
Qed.
End FourSymm.

Section Eri.
Context {F : Type} (K : Fops F).
Notation R4 := (list (list (list (list F)))).

Definition ess (basis : list (shell F)) : list (@sh F) :=
  map (fun p => mkSh (s_sph (p_shell p)) (p_T p) (p_norm p)) (map (prep K) basis).
Definition ebf (basis : list (shell F)) (i j k l : nat) : list (list (list (list R4))) :=
  let ps := map (prep K) basis in let d := dummy_p K in
  eri_block K (p_shell (nth i ps d)) (p_shell (nth j ps d)) (p_shell (nth k ps d)) (p_shell (nth l ps d)).
Definition Beri (basis : list (shell F)) : nat -> nat -> nat -> nat -> R4 :=
  B4f (f0 K) (fadd K) (fmul K) 2 (ess basis) (ebf basis).

Lemma eri_integral_chem basis :
  eri_integral K basis None false = four_symm (f0 K) (fadd K) (fmul K) 2 (ess basis) (ebf basis).
Proof. reflexivity. Qed.

Lemma Beri_sel basis ds p a b c d : Forall (fun k => k < length basis) p ->
  a < length p -> b < length p -> c < length p -> d < length p ->
  Beri (sel ds p basis) a b c d = Beri basis (nth a p 0) (nth b p 0) (nth c p 0) (nth d p 0).
Proof.
  intros Hp Ha Hb Hc Hd.
  assert (E1 : forall x, x < length p ->
    nth x (ess (sel ds p basis)) (mkSh false [] []) = nth (nth x p 0) (ess basis) (mkSh false [] [])).
  { intros x Hx. unfold ess, sel. rewrite !map_map.
    rewrite (nth_map_lt _ p x 0) by exact Hx.
    now rewrite (nth_map_lt _ basis (nth x p 0) ds) by (eapply sel_lt; eauto). }
  assert (E2 : forall x, x < length p ->
    nth x (map (prep K) (sel ds p basis)) (dummy_p K) = nth (nth x p 0) (map (prep K) basis) (dummy_p K)).
  { intros x Hx. unfold sel. rewrite !map_map.
    rewrite (nth_map_lt _ p x 0) by exact Hx.
    now rewrite (nth_map_lt _ basis (nth x p 0) ds) by (eapply sel_lt; eauto). }
  unfold Beri, B4f, ebf. cbv zeta. now rewrite !E1, !E2 by assumption.
Qed.

Theorem eri_integral_perm basis ds r p :
  shape4 (length basis) r (Beri basis) -> sym8 (f0 K) (length basis) (Beri basis) ->
  Forall (fun k => k < length basis) p ->
  forall x1 x2 x3 x4, x1 < length (iperm r p) -> x2 < length (iperm r p) ->
    x3 < length (iperm r p) -> x4 < length (iperm r p) ->
  get4 (f0 K) (eri_integral K (sel ds p basis) None false) x1 x2 x3 x4
  = get4 (f0 K) (eri_integral K basis None false)
      (nth x1 (iperm r p) 0) (nth x2 (iperm r p) 0) (nth x3 (iperm r p) 0) (nth x4 (iperm r p) 0).
Proof.
  intros HS H8 Hp x1 x2 x3 x4 H1 H2 H3 H4. rewrite !eri_integral_chem.
  assert (Ln : length (ess basis) = length basis) by (unfold ess; now rewrite !map_length).
  assert (Lp : length (ess (sel ds p basis)) = length p) by (unfold ess, sel; now rewrite !map_length).
  rewrite (four_symm_is_concat (f0 K) (fadd K) (fmul K) 2 (ess basis) (ebf basis)) by (rewrite Ln; exact H8).
  rewrite four_symm_is_concat.
  - rewrite Lp, Ln. apply (four_concat_perm (f0 K) (length basis) r); auto.
    intros a b c d Ha Hb Hc Hd. now apply Beri_sel.
  - rewrite Lp. intros i j k l Hi Hj Hk Hl. fold (Beri (sel ds p basis)).
    rewrite !(Beri_sel basis ds p) by assumption.
    exact (sym8_inherit (f0 K) (length basis) (Beri basis) p Hp H8 i j k l Hi Hj Hk Hl).
Qed.
End Eri.
