(* Proofs/AssembledExamplesP.v — the hypotheses of the assembled-matrix theorems (Proofs/AssembledOverlapP.v,
   AssembledHermP.v) are satisfiable: a concrete three-shell Cartesian basis over the executable field Qc (any
   oracle closures): generalized d shell (K = 2, M = 2, 6 components), off-centre p shell, contracted s shell
   (K = 2) — 16 basis functions; every hypothesis checked by computation, and the entry theorems
   instantiated at positions of the upper triangle, the lower triangle and a diagonal block. *)
From Coq Require Import List Arith Lia ZArith QArith Qcanon.
From GB Require Import Base.Field Base.Tables Model.Shell Model.Overlap Model.OneBody Proofs.CoreSumP Proofs.CoreBlockP
  Proofs.CoreExamplesP Proofs.AssembledP Proofs.AssembledOverlapP Proofs.AssembledHermP Proofs.AssembledSphP
  Proofs.AssembledSphOverlapP Proofs.AssembledSphHermP Proofs.AssembledLincombP.
Import ListNotations.
Local Open Scope nat_scope.

Section Ex.
Variables (opi : Qc) (osqrt oexp oln : Qc -> Qc) (oboys : nat -> Qc -> Qc).
Notation KQ' := (KQ opi osqrt oexp oln oboys).

Definition ex_sc : shell Qc :=
  mkShell Qc 0 (q 0 1) (q 0 1) (q 1 1) [q 5 4; q 1 4] [[q 1 1]; [q 1 2]] false [] [].
Definition ex_basis : list (shell Qc) := [ex_sa; ex_sb; ex_sc].

Lemma ex_cart : cart_basis ex_basis.
Proof. intros s [<-|[<-|[<-|[]]]]; split; try reflexivity; vm_compute; lia. Qed.

Lemma ex_wf : basis_wf ex_basis.
Proof. intros s [<-|[<-|[<-|[]]]]; apply wf_shell_default; reflexivity. Qed.

Lemma ex_exps : basis_exps KQ' ex_basis ex_basis.
Proof.
  intros sa sb Ha Hb alpha beta Hal Hbe.
  assert (Hin : forall s x, In s ex_basis -> In x (s_exps s) ->
            In x [q 1 2; q 2 1; q 3 4; q 5 4; q 1 4]).
  { intros s x [<-|[<-|[<-|[]]]] Hx; cbn [ex_sa ex_sb ex_sc s_exps In] in Hx |- *; tauto. }
  pose proof (Hin sa alpha Ha Hal) as H1. pose proof (Hin sb beta Hb Hbe) as H2.
  cbn [In] in H1, H2.
  destruct H1 as [<-|[<-|[<-|[<-|[<-|[]]]]]]; destruct H2 as [<-|[<-|[<-|[<-|[<-|[]]]]]];
    apply qc_neq; vm_compute; reflexivity.
Qed.

Lemma ex_index :
  btotal KQ' ex_basis = 16 /\ length ex_basis = 3
  /\ nseg (sh_at KQ' ex_basis 0) = 2 /\ ncomp (sh_at KQ' ex_basis 0) = 6
  /\ nseg (sh_at KQ' ex_basis 1) = 1 /\ ncomp (sh_at KQ' ex_basis 1) = 3
  /\ gidx KQ' ex_basis 0 1 4 = 10 /\ gidx KQ' ex_basis 1 0 2 = 14 /\ gidx KQ' ex_basis 2 0 0 = 15.
Proof. vm_compute. repeat split. Qed.

(* all hypotheses of the assembled theorems at once *)
Theorem assembled_hypotheses_satisfiable :
  is_field KQ' /\ (forall x : Qc, fapx KQ' x = x) /\ fadd KQ' (f1 KQ') (f1 KQ') <> f0 KQ'
  /\ cart_basis ex_basis /\ basis_wf ex_basis /\ basis_exps KQ' ex_basis ex_basis
  /\ btotal KQ' ex_basis = 16 /\ gidx KQ' ex_basis 0 1 4 = 10 /\ gidx KQ' ex_basis 1 0 2 = 14.
Proof.
  destruct ex_index as (E1 & _ & _ & _ & _ & _ & E2 & E3 & _).
  exact (conj (KQ_field _ _ _ _ _) (conj (KQ_apx _ _ _ _ _) (conj (KQ_two _ _ _ _ _)
          (conj ex_cart (conj ex_wf (conj ex_exps (conj E1 (conj E2 E3)))))))).
Qed.

(* the entry theorem instantiated in the LOWER triangle: row = p shell (position 14 = shell 1, segment 0,
   component 2 = z), column = d shell (position 10 = shell 0, segment 1, component 4 = yz) *)
Example overlap_entry_lower_ex :
  nth 10 (nth 14 (overlap_integral KQ' ex_basis None) []) (f0 KQ')
  = fmul KQ' (fmul KQ' (ncont KQ' ex_sb 0 2) (ncont KQ' ex_sa 1 4))
      (contracted KQ' ex_sb ex_sa (0, 0, 1) (0, 1, 1) 0 1 (ovl_prim KQ' ex_sb ex_sa (0, 0, 1) (0, 1, 1))).
Proof.
  exact (overlap_integral_entry KQ' (KQ_field _ _ _ _ _) (KQ_apx _ _ _ _ _) (KQ_two _ _ _ _ _)
           ex_basis ex_cart ex_wf ex_exps 1 0 0 2 1 4
           ltac:(cbn; lia) ltac:(cbn; lia) ltac:(vm_compute; lia) ltac:(vm_compute; lia)
           ltac:(vm_compute; lia) ltac:(vm_compute; lia)).
Qed.

(* Hermiticity instantiated on a DIAGONAL block (both positions in the d shell) and across shells *)
Example momentum_herm_ex :
  nth 3 (nth 10 (momentum_integral_re KQ' ex_basis None) []) []
  = vneg KQ' (nth 10 (nth 3 (momentum_integral_re KQ' ex_basis None) []) [])
  /\ nth 14 (nth 10 (momentum_integral_re KQ' ex_basis None) []) []
  = vneg KQ' (nth 10 (nth 14 (momentum_integral_re KQ' ex_basis None) []) []).
Proof.
  destruct ex_index as (E1 & _).
  split; apply (momentum_integral_herm KQ' (KQ_field _ _ _ _ _) (KQ_apx _ _ _ _ _) (KQ_two _ _ _ _ _)
                  ex_basis ex_cart ex_wf ex_exps); rewrite E1; lia.
Qed.

(* ---- a MIXED basis: the d shell spherical (5 functions per segment), the p shell Cartesian, the s shell
        spherical: 2*5 + 3 + 1 = 14 basis functions ---- *)
Definition ex_sa_sph : shell Qc :=
  mkShell Qc 2 (q 0 1) (q 0 1) (q 0 1) [q 1 2; q 2 1] [[q 1 1; q 1 2]; [q 1 3; q 1 1]] true [] [].
Definition ex_sc_sph : shell Qc :=
  mkShell Qc 0 (q 0 1) (q 0 1) (q 1 1) [q 5 4; q 1 4] [[q 1 1]; [q 1 2]] true [] [].
Definition ex_mixed : list (shell Qc) := [ex_sa_sph; ex_sb; ex_sc_sph].

Lemma ex_mixed_to_cart : map to_cart ex_mixed = ex_basis.
Proof. reflexivity. Qed.

Lemma ex_mixed_seg : seg_basis ex_mixed.
Proof. intros s [<-|[<-|[<-|[]]]]; vm_compute; lia. Qed.
Lemma ex_mixed_wf : basis_wf ex_mixed.
Proof. intros s [<-|[<-|[<-|[]]]]; apply wf_shell_default; reflexivity. Qed.
Lemma ex_mixed_exps : basis_exps KQ' ex_mixed ex_mixed.
Proof.
  intros sa sb Ha Hb. apply (ex_exps (to_cart sa) (to_cart sb)); rewrite <- ex_mixed_to_cart; now apply in_map.
Qed.

Theorem mixed_hypotheses_satisfiable :
  seg_basis ex_mixed /\ basis_wf ex_mixed /\ basis_exps KQ' ex_mixed ex_mixed
  /\ ototal KQ' ex_mixed = 14 /\ osize (sh_at KQ' ex_mixed 0) = 5 /\ ncomp (sh_at KQ' ex_mixed 0) = 6
  /\ oidx KQ' ex_mixed 0 1 3 = 8 /\ oidx KQ' ex_mixed 1 0 2 = 12.
Proof.
  refine (conj ex_mixed_seg (conj ex_mixed_wf (conj ex_mixed_exps _))). vm_compute. repeat split.
Qed.

(* the transformation theorem at a lower-triangle position of the mixed basis: row = p_z (Cartesian shell 1),
   column = segment 1, 4th spherical function of the d shell *)
Example overlap_mixed_lower_ex :
  nth 8 (nth 12 (overlap_integral KQ' ex_mixed None) []) (f0 KQ')
  = dsum KQ' ex_sb ex_sa_sph 2 3 (fun c c' =>
      nth (gidx KQ' ex_basis 0 1 c') (nth (gidx KQ' ex_basis 1 0 c) (overlap_integral KQ' ex_basis None) []) (f0 KQ')).
Proof.
  exact (overlap_mixed_is_cart_transformed KQ' (KQ_field _ _ _ _ _) (KQ_apx _ _ _ _ _) (KQ_two _ _ _ _ _)
           ex_mixed ex_mixed_seg ex_mixed_wf ex_mixed_exps 1 0 0 2 1 3
           ltac:(cbn; lia) ltac:(cbn; lia) ltac:(vm_compute; lia) ltac:(vm_compute; lia)
           ltac:(vm_compute; lia) ltac:(vm_compute; lia)).
Qed.

(* Hermiticity on the mixed basis: inside the diagonal block of the spherical d shell (positions 2, 8) and
   across the spherical d / Cartesian p shells (positions 8, 12) *)
Example momentum_herm_mixed_ex :
  nth 2 (nth 8 (momentum_integral_re KQ' ex_mixed None) []) []
  = vneg KQ' (nth 8 (nth 2 (momentum_integral_re KQ' ex_mixed None) []) [])
  /\ nth 12 (nth 8 (angmom_integral_re KQ' ex_mixed None) []) []
  = vneg KQ' (nth 8 (nth 12 (angmom_integral_re KQ' ex_mixed None) []) []).
Proof.
  destruct mixed_hypotheses_satisfiable as (_ & _ & _ & E1 & _).
  split.
  - apply (momentum_integral_herm_mixed KQ' (KQ_field _ _ _ _ _) (KQ_apx _ _ _ _ _) (KQ_two _ _ _ _ _)
             ex_mixed ex_mixed_seg ex_mixed_wf ex_mixed_exps); rewrite E1; lia.
  - apply (angmom_integral_herm_mixed KQ' (KQ_field _ _ _ _ _) (KQ_apx _ _ _ _ _) (KQ_two _ _ _ _ _)
             ex_mixed ex_mixed_seg ex_mixed_wf ex_mixed_exps); rewrite E1; lia.
Qed.

(* a rectangular transformation (2 x 14) of the mixed basis: Hermiticity of the transformed momentum matrix *)
Definition ex_T : list (list Qc) := mk 2 (fun a => mk 14 (fun l => q (Z.of_nat (a + 2 * l)) 3)).

Lemma ex_T_shape : mat_shape 2 (ototal KQ' ex_mixed) ex_T.
Proof.
  destruct mixed_hypotheses_satisfiable as (_ & _ & _ & E1 & _). rewrite E1.
  split; [reflexivity|]. repeat constructor.
Qed.

Example momentum_herm_T_ex :
  nth 0 (nth 1 (momentum_integral_re KQ' ex_mixed (Some ex_T)) []) []
  = vneg KQ' (nth 1 (nth 0 (momentum_integral_re KQ' ex_mixed (Some ex_T)) []) []).
Proof.
  apply (momentum_integral_herm_T KQ' (KQ_field _ _ _ _ _) (KQ_apx _ _ _ _ _) (KQ_two _ _ _ _ _)
           ex_mixed ex_mixed_seg ex_mixed_wf ex_mixed_exps ltac:(cbn; lia) ex_T 2 ex_T_shape); lia.
Qed.
End Ex.
