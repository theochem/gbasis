(* Proofs/AssemblyFullP.v — property C09, the two-index symmetric class (base_two_symm.py), on the assembly model
   the integrals use and for ANY element module (scalars, vectors of moments, ...: no algebraic law is used).
   For any list of shells with any assignment of coordinate types and any block function that does not look at
   the coordinate type, EVERY entry of the assembled array — evaluated blocks and mirrored copies, diagonal
   blocks included — is T_{s_i} on the first index and T_{s_j} on the second index of the assembled array
   [cartE] of the same shells taken Cartesian (to_cart):
       mix[oidx i m q][oidx j m' q']
         = (i <= j)  sum_{c'} T_j[q'][c'] . (sum_c T_i[q][c] . cart[gidx i m c][gidx j m' c'])
           (i >  j)  sum_c T_i[q][c] . (sum_{c'} T_j[q'][c'] . cart[gidx i m c][gidx j m' c']).
   Without commutativity the two finite sums cannot be exchanged: their order is the order in which the code
   contracts the evaluated block.  (Over a field both are the one double sum of
   AssembledSphOverlapP.two_symm_mix_is_cart_transformed_scalar.)  The conjugating assembly (momentum, angular
   momentum) needs a conjugation that is additive and commutes with scaling.  This is the law that
   AssemblyP.two_symm_mix_is_cart_transformed_partial takes as a hypothesis on Model/Assembly14. *)
From Coq Require Import List Arith Lia Bool Field.
From GB Require Import Base.Field Base.Tables Model.Shell Model.MomentInt Model.Spherical Model.Assembly Model.Overlap
  Model.DiffOp Model.OneBody Proofs.CoreSumP Proofs.CoreDiffP Proofs.AssembledP Proofs.AssembledOverlapP
  Proofs.AssembledSphP Proofs.AssembledSphOverlapP Proofs.AssembledHermP.
Import ListNotations.

Section Full.
Context {F : Type} (K : Fops F).
Context {A : Type} (azero : A) (aadd : A -> A -> A) (ascale : F -> A -> A).
Variable blockf : shell F -> shell F -> list (list (list (list A))).
(* the block function does not look at the coordinate type (true of every integral kernel: the blocks are
   computed in Cartesian components) *)
Hypothesis Hcart : forall a b, blockf (to_cart a) (to_cart b) = blockf a b.

Variable bs : list (shell F).
Hypothesis C : seg_basis bs.
Hypothesis HB : blocks_shaped blockf bs bs.

Notation s_ k := (sh_at K bs k).
Notation bsc := (map to_cart bs).
Notation tsumA s := (tsum K azero aadd ascale (s_sph s) (shell_transform K s) (ncomp s)).

Definition cartE (i j m c m' c' : nat) : A :=
  nth (gidx K bsc j m' c') (nth (gidx K bsc i m c) (two_symm_integral K azero aadd ascale blockf bsc None) []) azero.

Lemma cartE_spec i j m c m' c' : i < length bs -> j < length bs ->
  m < nseg (s_ i) -> c < ncomp (s_ i) -> m' < nseg (s_ j) -> c' < ncomp (s_ j) ->
  cartE i j m c m' c'
  = if Nat.leb i j
    then ascale (fmul K (ncont K (s_ i) m c) (ncont K (s_ j) m' c')) (get4 azero m c m' c' (blockf (s_ i) (s_ j)))
    else ascale (fmul K (ncont K (s_ j) m' c') (ncont K (s_ i) m c)) (get4 azero m' c' m c (blockf (s_ j) (s_ i))).
Proof.
  intros Hi Hj Hm Hc Hm' Hc'. unfold cartE.
  rewrite (two_symm_cart_entry K azero aadd ascale blockf bsc (cart_basis_to_cart bs C)
             (blocks_shaped_to_cart blockf bs Hcart HB) i j m c m' c'); rewrite ?map_length, ?sh_at_to_cart; try assumption.
  rewrite !Hcart. reflexivity.
Qed.

Theorem two_symm_mix_is_cart_transformed i j m q m' q' :
  i < length bs -> j < length bs ->
  m < nseg (s_ i) -> q < osize (s_ i) -> m' < nseg (s_ j) -> q' < osize (s_ j) ->
  nth (oidx K bs j m' q') (nth (oidx K bs i m q) (two_symm_integral K azero aadd ascale blockf bs None) []) azero
  = if Nat.leb i j
    then tsumA (s_ j) q' (fun c' => tsumA (s_ i) q (fun c => cartE i j m c m' c'))
    else tsumA (s_ i) q (fun c => tsumA (s_ j) q' (fun c' => cartE i j m c m' c')).
Proof.
  intros Hi Hj Hm Hq Hm' Hq'.
  rewrite (two_symm_mixed_entry K azero aadd ascale blockf bs C HB) by assumption.
  destruct (Nat.leb i j) eqn:Elt; unfold Emix.
  - apply tsum2_ext; [exact Hq|exact Hq'|]. intros c c' Hc Hc'. rewrite cartE_spec by assumption. now rewrite Elt.
  - apply tsum2_ext; [exact Hq'|exact Hq|]. intros c' c Hc' Hc. rewrite cartE_spec by assumption. now rewrite Elt.
Qed.

Section Conj.
Variable aconj : A -> A.
Hypothesis conj_zero : aconj azero = azero.
Hypothesis conj_add : forall x y, aconj (aadd x y) = aadd (aconj x) (aconj y).
Hypothesis conj_scale : forall t x, aconj (ascale t x) = ascale t (aconj x).

Lemma conj_asum (l : list A) : aconj (asum azero aadd l) = asum azero aadd (map aconj l).
Proof.
  unfold asum. induction l as [|x l IH]; cbn [fold_right map]; [exact conj_zero|]. now rewrite conj_add, IH.
Qed.

Lemma conj_tsum sph T L q (f : nat -> A) :
  aconj (tsum K azero aadd ascale sph T L q f) = tsum K azero aadd ascale sph T L q (fun c => aconj (f c)).
Proof.
  unfold tsum. destruct sph; [|reflexivity]. rewrite conj_asum, Tables.map_mk. f_equal. apply mk_ext.
  intros c _. apply conj_scale.
Qed.

Definition cartEh (i j m c m' c' : nat) : A :=
  nth (gidx K bsc j m' c') (nth (gidx K bsc i m c)
      (two_symm_integral_h K azero aadd ascale aconj blockf bsc None) []) (aconj azero).

Lemma cartEh_spec i j m c m' c' : i < length bs -> j < length bs ->
  m < nseg (s_ i) -> c < ncomp (s_ i) -> m' < nseg (s_ j) -> c' < ncomp (s_ j) ->
  cartEh i j m c m' c'
  = if Nat.ltb i j
    then ascale (fmul K (ncont K (s_ i) m c) (ncont K (s_ j) m' c')) (get4 azero m c m' c' (blockf (s_ i) (s_ j)))
    else aconj (ascale (fmul K (ncont K (s_ j) m' c') (ncont K (s_ i) m c))
                       (get4 azero m' c' m c (blockf (s_ j) (s_ i)))).
Proof.
  intros Hi Hj Hm Hc Hm' Hc'. unfold cartEh.
  rewrite (two_symm_h_cart_entry K azero aadd ascale blockf bsc (cart_basis_to_cart bs C)
             (blocks_shaped_to_cart blockf bs Hcart HB) aconj i j m c m' c'); rewrite ?map_length, ?sh_at_to_cart; try assumption.
  rewrite !Hcart. reflexivity.
Qed.

Theorem two_symm_h_mix_is_cart_transformed i j m q m' q' :
  i < length bs -> j < length bs ->
  m < nseg (s_ i) -> q < osize (s_ i) -> m' < nseg (s_ j) -> q' < osize (s_ j) ->
  nth (oidx K bs j m' q') (nth (oidx K bs i m q)
      (two_symm_integral_h K azero aadd ascale aconj blockf bs None) []) (aconj azero)
  = if Nat.ltb i j
    then tsumA (s_ j) q' (fun c' => tsumA (s_ i) q (fun c => cartEh i j m c m' c'))
    else tsumA (s_ i) q (fun c => tsumA (s_ j) q' (fun c' => cartEh i j m c m' c')).
Proof.
  intros Hi Hj Hm Hq Hm' Hq'.
  rewrite (two_symm_h_mixed_entry K azero aadd ascale blockf bs C HB aconj) by assumption.
  destruct (Nat.ltb i j) eqn:Elt; unfold Emix.
  - apply tsum2_ext; [exact Hq|exact Hq'|]. intros c c' Hc Hc'. rewrite cartEh_spec by assumption. now rewrite Elt.
  - rewrite conj_tsum. apply tsum_ext; [|exact (osize_cart _ _ Hq)]. intros c Hc.
    rewrite conj_tsum. apply tsum_ext; [|exact (osize_cart _ _ Hq')]. intros c' Hc'.
    rewrite cartEh_spec by assumption. now rewrite Elt.
Qed.
End Conj.
End Full.

(* the hypotheses are satisfiable: the integral kernels do not look at the coordinate type, their blocks
   have the declared shape *)
Lemma overlap_block_to_cart {F} (K : Fops F) (a b : shell F) :
  overlap_block K (to_cart a) (to_cart b) = overlap_block K a b.
Proof. reflexivity. Qed.

Lemma kinetic_block_to_cart {F} (K : Fops F) (a b : shell F) :
  kinetic_block K (to_cart a) (to_cart b) = kinetic_block K a b.
Proof. reflexivity. Qed.

Lemma moment_block_to_cart {F} (K : Fops F) Cx Cy Cz orders (a b : shell F) :
  moment_block K Cx Cy Cz orders (to_cart a) (to_cart b) = moment_block K Cx Cy Cz orders a b.
Proof. reflexivity. Qed.

Lemma momentum_block_to_cart {F} (K : Fops F) (a b : shell F) :
  momentum_block_re K (to_cart a) (to_cart b) = momentum_block_re K a b.
Proof. reflexivity. Qed.

Example full_hypotheses_satisfiable {F} (K : Fops F) (bs : list (shell F)) :
  (forall a b, overlap_block K (to_cart a) (to_cart b) = overlap_block K a b)
  /\ blocks_shaped (overlap_block K) bs bs
  /\ (forall a b, kinetic_block K (to_cart a) (to_cart b) = kinetic_block K a b)
  /\ blocks_shaped (kinetic_block K) bs bs.
Proof.
  split; [intros; reflexivity|]. split; [apply overlap_blocks_shaped|].
  split; [intros; reflexivity|]. intros sa sb _ _. apply kinetic_block_shape.
Qed.

(* the conjugation of the momentum / angular-momentum assemblies (negation of the real 3-vectors) meets the
   three laws over any field *)
Section ConjEx.
Context {F : Type} (K : Fops F) (Kf : is_field K).
Add Field KFconj : Kf.

Lemma map_opp_zip (l1 l2 : list F) :
  map (fopp K) (map (fun '(a, b) => fadd K a b) (combine l1 l2))
  = map (fun '(a, b) => fadd K a b) (combine (map (fopp K) l1) (map (fopp K) l2)).
Proof.
  revert l2. induction l1 as [|a l1 IH]; intros [|b l2]; cbn [combine map]; try reflexivity.
  f_equal; [ring|apply IH].
Qed.

Example conj_laws_satisfiable :
  vneg K (@vzero F) = @vzero F
  /\ (forall x y : list F, vneg K (vadd K x y) = vadd K (vneg K x) (vneg K y))
  /\ (forall t (x : list F), vneg K (vscale K t x) = vscale K t (vneg K x)).
Proof.
  split; [reflexivity|]. split.
  - intros [|a x] [|b y]; try reflexivity. unfold vneg, vadd. cbn [map]. apply (map_opp_zip (a :: x) (b :: y)).
  - intros t x. unfold vneg, vscale. rewrite !map_map. apply map_ext. intro a. ring.
Qed.
End ConjEx.

(* instances on the production models: momentum / angular momentum (conjugating assembly, vector entries),
   any coordinate types, both triangles *)
Section Instances.
Context {F : Type} (K : Fops F) (Kf : is_field K).
Variable bs : list (shell F).
Hypothesis C : seg_basis bs.
Notation s_ k := (sh_at K bs k).
Notation bsc := (map to_cart bs).
Notation tsumV s := (tsum K (@vzero F) (vadd K) (vscale K) (s_sph s) (shell_transform K s) (ncomp s)).

Theorem momentum_mixed_is_cart_transformed_vec i j m q m' q' :
  i < length bs -> j < length bs ->
  m < nseg (s_ i) -> q < osize (s_ i) -> m' < nseg (s_ j) -> q' < osize (s_ j) ->
  let cart := fun c c' => nth (gidx K bsc j m' c') (nth (gidx K bsc i m c) (momentum_integral_re K bsc None) [])
                              (vneg K (@vzero F)) in
  nth (oidx K bs j m' q') (nth (oidx K bs i m q) (momentum_integral_re K bs None) []) (vneg K (@vzero F))
  = if Nat.ltb i j
    then tsumV (s_ j) q' (fun c' => tsumV (s_ i) q (fun c => cart c c'))
    else tsumV (s_ i) q (fun c => tsumV (s_ j) q' (fun c' => cart c c')).
Proof.
  intros Hi Hj Hm Hq Hm' Hq' cart. destruct (conj_laws_satisfiable K Kf) as [Z [Ad Sc]].
  exact (two_symm_h_mix_is_cart_transformed K vzero (vadd K) (vscale K) (momentum_block_re K)
           (fun a b => eq_refl) bs C (fun sa sb _ _ => momentum_block_shape K sa sb) (vneg K) Z Ad Sc
           i j m q m' q' Hi Hj Hm Hq Hm' Hq').
Qed.

Theorem angmom_mixed_is_cart_transformed_vec i j m q m' q' :
  i < length bs -> j < length bs ->
  m < nseg (s_ i) -> q < osize (s_ i) -> m' < nseg (s_ j) -> q' < osize (s_ j) ->
  let cart := fun c c' => nth (gidx K bsc j m' c') (nth (gidx K bsc i m c) (angmom_integral_re K bsc None) [])
                              (vneg K (@vzero F)) in
  nth (oidx K bs j m' q') (nth (oidx K bs i m q) (angmom_integral_re K bs None) []) (vneg K (@vzero F))
  = if Nat.ltb i j
    then tsumV (s_ j) q' (fun c' => tsumV (s_ i) q (fun c => cart c c'))
    else tsumV (s_ i) q (fun c => tsumV (s_ j) q' (fun c' => cart c c')).
Proof.
  intros Hi Hj Hm Hq Hm' Hq' cart. destruct (conj_laws_satisfiable K Kf) as [Z [Ad Sc]].
  exact (two_symm_h_mix_is_cart_transformed K vzero (vadd K) (vscale K) (angmom_block_re K)
           (fun a b => eq_refl) bs C (fun sa sb _ _ => angmom_block_shape K sa sb) (vneg K) Z Ad Sc
           i j m q m' q' Hi Hj Hm Hq Hm' Hq').
Qed.
End Instances.
