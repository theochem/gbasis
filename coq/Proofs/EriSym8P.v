(* Proofs/EriSym8P.v — the eight-fold symmetry [sym8] that the four-index assembly theorems (Proofs/PermP.v,
   Proofs/Block4FullP.v) take as a hypothesis holds for the blocks [PermP.Beri] of OneBody.eri_integral:

     the processed block (four norms, spherical transformations, merged axes) of a permuted shell quartet is the
     correspondingly transposed processed block of (s_i s_j | s_k s_l), as nested lists, for each of the seven
     permuted copies that base_four_symm.py writes,

   for every basis of shells with at least one segment, components of degree <= l, non-zero exponent sums, any
   assignment of coordinate types.  Every entry of a processed block is one quadruple sum over the raw block
   (Block4FullP.block4_quadruple_sum), the order of the four summations is irrelevant over a field, and the raw
   blocks evaluated independently for the permuted quartets are the transposed raw block
   (EriOrientP.both_orientations_agree_eri_pk: the asymmetric recursion against the symmetric specification). *)
From Coq Require Import List Arith Lia Bool Field.
From GB Require Import Base.Field Base.FNum Base.Tables Base.Blocks Model.Shell Model.Spherical Model.Assembly
  Model.Assembly14 Model.Overlap Model.TwoElec Model.OneBody
  Proofs.CoreSumP Proofs.BlockMatP Proofs.AssembledP Proofs.AssembledSphP Proofs.AssembledSphOverlapP
  Proofs.PermP Proofs.EriStructP Proofs.TwoElecP Proofs.EriOrientP Proofs.Block4FullP.
Import ListNotations.

Section Rect.
Context {A : Type} (azero : A).
Notation R4 := (list (list (list (list A)))).
Notation g4 := (Assembly14.get4 azero).

Lemma rect4_ext d0 d1 d2 d3 (X Y : R4) :
  rect4 d0 d1 d2 d3 X -> rect4 d0 d1 d2 d3 Y ->
  (forall x0 x1 x2 x3, x0 < d0 -> x1 < d1 -> x2 < d2 -> x3 < d3 -> g4 X x0 x1 x2 x3 = g4 Y x0 x1 x2 x3) ->
  X = Y.
Proof.
  intros [X0 XF] [Y0 YF] H. apply (nth_ext _ _ [] []); [congruence|]. intros x0 H0. rewrite X0 in H0.
  destruct (Forall_nth_in _ X [] x0 XF ltac:(lia)) as [X1 XF1].
  destruct (Forall_nth_in _ Y [] x0 YF ltac:(lia)) as [Y1 YF1].
  apply (nth_ext _ _ [] []); [congruence|]. intros x1 H1. rewrite X1 in H1.
  destruct (Forall_nth_in _ _ [] x1 XF1 ltac:(lia)) as [X2 XF2].
  destruct (Forall_nth_in _ _ [] x1 YF1 ltac:(lia)) as [Y2 YF2].
  apply (nth_ext _ _ [] []); [congruence|]. intros x2 H2. rewrite X2 in H2.
  pose proof (Forall_nth_in _ _ [] x2 XF2 ltac:(lia)) as X3.
  pose proof (Forall_nth_in _ _ [] x2 YF2 ltac:(lia)) as Y3. cbv beta in X3, Y3.
  apply (nth_ext _ _ azero azero); [congruence|]. intros x3 H3. rewrite X3 in H3.
  exact (H x0 x1 x2 x3 H0 H1 H2 H3).
Qed.

Lemma rect4_mk d0 d1 d2 d3 (f : nat -> nat -> nat -> nat -> A) :
  rect4 d0 d1 d2 d3 (mk d0 (fun x0 => mk d1 (fun x1 => mk d2 (fun x2 => mk d3 (fun x3 => f x0 x1 x2 x3))))).
Proof.
  split; [apply mk_length|]. apply Forall_mk; intros x0 _.
  split; [apply mk_length|]. apply Forall_mk; intros x1 _.
  split; [apply mk_length|]. apply Forall_mk; intros x2 _. apply mk_length.
Qed.

Lemma swapax_spec a b (blk : R4) d0 d1 d2 d3 :
  rect4 d0 d1 d2 d3 blk -> 0 < d0 -> 0 < d1 -> 0 < d2 ->
  let ds := swapl a b [d0; d1; d2; d3] 0 in
  rect4 (nth 0 ds 0) (nth 1 ds 0) (nth 2 ds 0) (nth 3 ds 0) (swapax azero a b blk) /\
  forall x0 x1 x2 x3, x0 < nth 0 ds 0 -> x1 < nth 1 ds 0 -> x2 < nth 2 ds 0 -> x3 < nth 3 ds 0 ->
    g4 (swapax azero a b blk) x0 x1 x2 x3
    = (let ix := swapl a b [x0; x1; x2; x3] 0 in g4 blk (nth 0 ix 0) (nth 1 ix 0) (nth 2 ix 0) (nth 3 ix 0)).
Proof.
  intros HR P0 P1 P2 ds. pose proof (rect4_dims _ _ _ _ _ HR P0 P1 P2) as Hd. split.
  - unfold swapax. rewrite Hd. fold ds. apply rect4_mk.
  - intros x0 x1 x2 x3 H0 H1 H2 H3. apply get4_swapax; rewrite Hd; assumption.
Qed.
Lemma swapax_eqI a b (X Y : R4) d0 d1 d2 d3 :
  rect4 d0 d1 d2 d3 X -> 0 < d0 -> 0 < d1 -> 0 < d2 ->
  let ds := swapl a b [d0; d1; d2; d3] 0 in
  rect4 (nth 0 ds 0) (nth 1 ds 0) (nth 2 ds 0) (nth 3 ds 0) Y ->
  (forall x0 x1 x2 x3, x0 < nth 0 ds 0 -> x1 < nth 1 ds 0 -> x2 < nth 2 ds 0 -> x3 < nth 3 ds 0 ->
     g4 Y x0 x1 x2 x3
     = (let ix := swapl a b [x0; x1; x2; x3] 0 in g4 X (nth 0 ix 0) (nth 1 ix 0) (nth 2 ix 0) (nth 3 ix 0))) ->
  Y = swapax azero a b X.
Proof.
  intros HX P0 P1 P2 ds HY H. destruct (swapax_spec a b X _ _ _ _ HX P0 P1 P2) as [S E].
  apply (rect4_ext _ _ _ _ _ _ HY S). intros x0 x1 x2 x3 H0 H1 H2 H3. rewrite E by assumption. now apply H.
Qed.
End Rect.

Section Quartet.
Context {F : Type} (K : Fops F) (Kf : is_field K).
Add Field KFsym8 : Kf.
Local Open Scope F_scope.
Notation "0" := (f0 K) : F_scope.
Notation "1" := (f1 K) : F_scope.
Infix "+" := (fadd K) : F_scope.
Infix "*" := (fmul K) : F_scope.
Hypothesis Hapx : forall x : F, fapx K x = x.
Hypothesis char0 : forall n, ofnat K (S n) <> 0.

Notation g4 := (Assembly14.get4 (f0 K)).
Local Open Scope nat_scope.

Definition shK (s : shell F) : @sh F := mkSh (s_sph s) (shell_transform K s) (norm_cont K s).
Definition Bq (a b c d : shell F) : list (list (list (list F))) :=
  block4 (f0 K) (fadd K) (fmul K) (s_sph a) (s_sph b) (s_sph c) (s_sph d) (shK a) (shK b) (shK c) (shK d)
         (eri_block K a b c d).
Definition Ucf (s : shell F) (q c : nat) : F := ucoef K (s_sph s) (shell_transform K s) q c.

(* the quadruple sum an entry of the processed block stands for *)
Definition Eq (a b c d : shell F) (m1 q1 m2 q2 m3 q3 m4 q4 : nat) : F :=
  qsum4 K (ncomp a) (ncomp b) (ncomp c) (ncomp d) (fun c1 c2 c3 c4 =>
    (Ucf a q1 c1 * Ucf b q2 c2 * Ucf c q3 c3 * Ucf d q4 c4
     * (ncont K d m4 c4 * (ncont K c m3 c3 * (ncont K b m2 c2 * (ncont K a m1 c1
          * TwoElec.get8 K (eri_block K a b c d) m1 c1 m2 c2 m3 c3 m4 c4)))))%F).

Lemma Bq_shape a b c d : rect4 (odim a) (odim b) (odim c) (odim d) (Bq a b c d).
Proof.
  apply (lshape4_shp4 (odim a) (odim b) (odim c) (odim d)). unfold Bq, odim. rewrite <- (osz_shell K a), <- (osz_shell K b), <- (osz_shell K c), <- (osz_shell K d).
  exact (block4_shape K (f0 K) (fadd K) (fmul K) _ _ _ _ (shK a) (shK b) (shK c) (shK d) _ _ _ _ _ _ _ _ _
           (norm_cont_nsh K a) (norm_cont_nsh K b) (norm_cont_nsh K c) (norm_cont_nsh K d) (eri_block_sh8 K a b c d)
           (fun _ => shell_transform_rows K a) (fun _ => shell_transform_rows K b)
           (fun _ => shell_transform_rows K c) (fun _ => shell_transform_rows K d)).
Qed.

Lemma Bq_entry a b c d m1 q1 m2 q2 m3 q3 m4 q4 :
  m1 < nseg a -> q1 < osize a -> m2 < nseg b -> q2 < osize b ->
  m3 < nseg c -> q3 < osize c -> m4 < nseg d -> q4 < osize d ->
  g4 (Bq a b c d) (m1 * osize a + q1) (m2 * osize b + q2) (m3 * osize c + q3) (m4 * osize d + q4)
  = Eq a b c d m1 q1 m2 q2 m3 q3 m4 q4.
Proof.
  intros H1 H2 H3 H4 H5 H6 H7 H8. unfold Bq, Eq.
  rewrite <- (osz_shell K a), <- (osz_shell K b), <- (osz_shell K c), <- (osz_shell K d) in *.
  etransitivity; [exact (block4_quadruple_sum K Kf _ _ _ _ (shK a) (shK b) (shK c) (shK d) _ _ _ _ _ _ _ _ _
           (norm_cont_nsh K a) (norm_cont_nsh K b) (norm_cont_nsh K c) (norm_cont_nsh K d) (eri_block_sh8 K a b c d)
           (fun _ => shell_transform_rows K a) (fun _ => shell_transform_rows K b)
           (fun _ => shell_transform_rows K c) (fun _ => shell_transform_rows K d)
           m1 q1 m2 q2 m3 q3 m4 q4 H1 H2 H3 H4 H5 H6 H7 H8)|].
  apply qsum4_ext. intros c1 c2 c3 c4 Hc1 Hc2 Hc3 Hc4.
  rewrite (block4_cart_entry K (f0 K) (fadd K) (fmul K) (shK a) (shK b) (shK c) (shK d) _ _ _ _ _ _ _ _ _
           (norm_cont_nsh K a) (norm_cont_nsh K b) (norm_cont_nsh K c) (norm_cont_nsh K d) (eri_block_sh8 K a b c d)
           m1 c1 m2 c2 m3 c3 m4 c4 H1 Hc1 H3 Hc2 H5 Hc3 H7 Hc4).
  reflexivity.
Qed.

Definition comps_deg (s : shell F) : Prop := forall i, i < ncomp s -> compsum (nth i (comps_of s) (0, 0, 0)) <= s_l s.

Lemma raw_sym o a b c d m1 i1 m2 i2 m3 i3 m4 i4 :
  EriOrientP.exps_ok K a b c d -> comps_deg a -> comps_deg b -> comps_deg c -> comps_deg d ->
  m1 < nseg a -> i1 < ncomp a -> m2 < nseg b -> i2 < ncomp b ->
  m3 < nseg c -> i3 < ncomp c -> m4 < nseg d -> i4 < ncomp d ->
  TwoElec.get8 K (eri_block K (opick1 o a b c d) (opick2 o a b c d) (opick3 o a b c d) (opick4 o a b c d))
         (opick1 o m1 m2 m3 m4) (opick1 o i1 i2 i3 i4) (opick2 o m1 m2 m3 m4) (opick2 o i1 i2 i3 i4)
         (opick3 o m1 m2 m3 m4) (opick3 o i1 i2 i3 i4) (opick4 o m1 m2 m3 m4) (opick4 o i1 i2 i3 i4)
  = TwoElec.get8 K (eri_block K a b c d) m1 i1 m2 i2 m3 i3 m4 i4.
Proof.
  intros He Da Db Dc Dd H1 H2 H3 H4 H5 H6 H7 H8.
  apply (both_orientations_agree_eri_pk K Kf char0 o a b c d m1 i1 m2 i2 m3 i3 m4 i4 Hapx He).
  unfold idx_ok, ncomp in *. repeat split; auto.
Qed.

Section Gen.
Variables a b c d : shell F.
Hypothesis He : EriOrientP.exps_ok K a b c d.
Hypothesis Da : comps_deg a.
Hypothesis Db : comps_deg b.
Hypothesis Dc : comps_deg c.
Hypothesis Dd : comps_deg d.

Lemma Eq_orient o m1 q1 m2 q2 m3 q3 m4 q4 : m1 < nseg a -> m2 < nseg b -> m3 < nseg c -> m4 < nseg d ->
  Eq (opick1 o a b c d) (opick2 o a b c d) (opick3 o a b c d) (opick4 o a b c d)
     (opick1 o m1 m2 m3 m4) (opick1 o q1 q2 q3 q4) (opick2 o m1 m2 m3 m4) (opick2 o q1 q2 q3 q4)
     (opick3 o m1 m2 m3 m4) (opick3 o q1 q2 q3 q4) (opick4 o m1 m2 m3 m4) (opick4 o q1 q2 q3 q4)
  = Eq a b c d m1 q1 m2 q2 m3 q3 m4 q4.
Proof.
  intros H1 H3 H5 H7. pose proof (qsum4_orient K Kf o) as Q. pose proof (raw_sym o a b c d m1) as R.
  destruct o; cbn [opick1 opick2 opick3 opick4] in Q, R |- *; [reflexivity|..]; unfold Eq.
  all: etransitivity; [apply Q|]; apply qsum4_ext; intros c1 c2 c3 c4 Hc1 Hc2 Hc3 Hc4.
  all: rewrite (R c1 m2 c2 m3 c3 m4 c4 He Da Db Dc Dd H1 Hc1 H3 Hc2 H5 Hc3 H7 Hc4); ring.
Qed.
End Gen.
End Quartet.

Lemma div_odim {F} (s : shell F) x : x < odim s -> x / osize s < nseg s.
Proof. intros H. exact (proj1 (dm_idx x _ _ H)). Qed.

Section Sym8.
Context {F : Type} (K : Fops F) (Kf : is_field K).
Hypothesis Hapx : forall x : F, fapx K x = x.
Hypothesis char0 : forall n, ofnat K (S n) <> f0 K.
Variable bs : list (shell F).

(* every shell has a segment and components of degree <= l; all exponent sums are non-zero *)
Definition eri_basis_ok : Prop :=
  seg_basis bs /\ (forall s, In s bs -> comps_deg s) /\
  (forall a b c d, In a bs -> In b bs -> In c bs -> In d bs -> EriOrientP.exps_ok K a b c d).
Hypothesis OK : eri_basis_ok.

Notation g4 := (Assembly14.get4 (f0 K)).
Notation Bq' := (Bq K).
Notation Eq' := (Eq K).

Lemma odim_pos s : In s bs -> 0 < odim s.
Proof. intros Hs. unfold odim. pose proof (proj1 OK s Hs). pose proof (osize_pos s). nia. Qed.

Lemma Bq_get a b c d x0 x1 x2 x3 :
  x0 < odim a -> x1 < odim b -> x2 < odim c -> x3 < odim d ->
  g4 (Bq' a b c d) x0 x1 x2 x3
  = Eq' a b c d (x0 / osize a) (x0 mod osize a) (x1 / osize b) (x1 mod osize b)
                (x2 / osize c) (x2 mod osize c) (x3 / osize d) (x3 mod osize d).
Proof.
  intros H0 H1 H2 H3.
  destruct (dm_idx x0 _ _ H0) as (A1 & A2 & A3). destruct (dm_idx x1 _ _ H1) as (B1 & B2 & B3).
  destruct (dm_idx x2 _ _ H2) as (C1 & C2 & C3). destruct (dm_idx x3 _ _ H3) as (D1 & D2 & D3).
  rewrite A3 at 1. rewrite B3 at 1. rewrite C3 at 1. rewrite D3 at 1.
  now apply (Bq_entry K Kf).
Qed.

Section Q.
Variables a b c d : shell F.
Hypothesis Ia : In a bs.
Hypothesis Ib : In b bs.
Hypothesis Ic : In c bs.
Hypothesis Id : In d bs.
Let OKd := proj1 (proj2 OK).
Let OKe := proj2 (proj2 OK).

Lemma G_orient o x0 x1 x2 x3 : x0 < odim a -> x1 < odim b -> x2 < odim c -> x3 < odim d ->
  g4 (Bq' (opick1 o a b c d) (opick2 o a b c d) (opick3 o a b c d) (opick4 o a b c d))
     (opick1 o x0 x1 x2 x3) (opick2 o x0 x1 x2 x3) (opick3 o x0 x1 x2 x3) (opick4 o x0 x1 x2 x3)
  = g4 (Bq' a b c d) x0 x1 x2 x3.
Proof.
  intros H0 H1 H2 H3.
  pose proof (Eq_orient K Kf Hapx char0 a b c d (OKe a b c d Ia Ib Ic Id)
                (OKd a Ia) (OKd b Ib) (OKd c Ic) (OKd d Id) o) as E.
  destruct o; cbn [opick1 opick2 opick3 opick4] in E |- *.
  all: rewrite !Bq_get by assumption; apply E; now apply div_odim.
Qed.

Lemma G_ab x0 x1 x2 x3 : x0 < odim a -> x1 < odim b -> x2 < odim c -> x3 < odim d ->
  g4 (Bq' b a c d) x1 x0 x2 x3 = g4 (Bq' a b c d) x0 x1 x2 x3.
Proof. exact (G_orient O_bacd x0 x1 x2 x3). Qed.
End Q.

Section L.
Variables a b c d : shell F.
Hypothesis Ia : In a bs.
Hypothesis Ib : In b bs.
Hypothesis Ic : In c bs.
Hypothesis Id : In d bs.
Notation sw := (swapax (f0 K)).

Lemma L_ab : Bq' b a c d = sw 0 1 (Bq' a b c d).
Proof.
  apply (swapax_eqI (f0 K) 0 1 _ _ _ _ _ _ (Bq_shape K a b c d) (odim_pos a Ia) (odim_pos b Ib) (odim_pos c Ic)
           (Bq_shape K b a c d)).
  intros x0 x1 x2 x3 H0 H1 H2 H3. now apply G_ab.
Qed.

Lemma L_cd : Bq' a b d c = sw 2 3 (Bq' a b c d).
Proof.
  apply (swapax_eqI (f0 K) 2 3 _ _ _ _ _ _ (Bq_shape K a b c d) (odim_pos a Ia) (odim_pos b Ib) (odim_pos c Ic)
           (Bq_shape K a b d c)).
  intros x0 x1 x2 x3 H0 H1 H2 H3. now apply (G_orient a b c d Ia Ib Ic Id O_abdc).
Qed.

Lemma L_el : Bq' c d a b = sw 0 2 (sw 1 3 (Bq' a b c d)).
Proof.
  destruct (swapax_spec (f0 K) 1 3 (Bq' a b c d) _ _ _ _ (Bq_shape K a b c d)
              (odim_pos a Ia) (odim_pos b Ib) (odim_pos c Ic)) as [S1 E1].
  apply (swapax_eqI (f0 K) 0 2 _ _ _ _ _ _ S1 (odim_pos a Ia) (odim_pos d Id) (odim_pos c Ic) (Bq_shape K c d a b)).
  intros x0 x1 x2 x3 H0 H1 H2 H3. cbv zeta. rewrite E1 by assumption. now apply (G_orient a b c d Ia Ib Ic Id O_cdab).
Qed.
End L.

Lemma L_rev a b c d : In a bs -> In b bs -> In c bs -> In d bs ->
  Bq' d c b a = swapax (f0 K) 0 3 (swapax (f0 K) 1 2 (Bq' a b c d)).
Proof.
  intros Ia Ib Ic Id.
  destruct (swapax_spec (f0 K) 1 2 (Bq' a b c d) _ _ _ _ (Bq_shape K a b c d)
              (odim_pos a Ia) (odim_pos b Ib) (odim_pos c Ic)) as [S1 E1].
  apply (swapax_eqI (f0 K) 0 3 _ _ _ _ _ _ S1 (odim_pos a Ia) (odim_pos c Ic) (odim_pos b Ib) (Bq_shape K d c b a)).
  intros x0 x1 x2 x3 H0 H1 H2 H3. cbv zeta. rewrite E1 by assumption.
  now apply (G_orient a b c d Ia Ib Ic Id O_dcba).
Qed.

Notation s_ k := (sh_at K bs k).

Lemma Beri_Bq i j k l : i < length bs -> j < length bs -> k < length bs -> l < length bs ->
  Beri K bs i j k l = Bq' (s_ i) (s_ j) (s_ k) (s_ l).
Proof.
  intros Hi Hj Hk Hl. unfold Beri, B4f, Bq, shK. cbv zeta.
  rewrite !(ess_nth K bs) by assumption. rewrite (ebf_eq K bs) by assumption. reflexivity.
Qed.

Theorem eri_sym8 : sym8 (f0 K) (length bs) (Beri K bs).
Proof.
  intros i j k l Hi Hj Hk Hl.
  assert (Ii : In (s_ i) bs) by (now apply nth_In). assert (Ij : In (s_ j) bs) by (now apply nth_In).
  assert (Ik : In (s_ k) bs) by (now apply nth_In). assert (Il : In (s_ l) bs) by (now apply nth_In).
  rewrite !Beri_Bq by assumption.
  repeat split.
  - now apply L_cd.
  - now apply L_ab.
  - rewrite <- (L_cd (s_ i) (s_ j) (s_ k) (s_ l)) by assumption. now apply L_ab.
  - now apply L_el.
  - rewrite <- (L_el (s_ i) (s_ j) (s_ k) (s_ l)) by assumption. now apply L_ab.
  - rewrite <- (L_el (s_ i) (s_ j) (s_ k) (s_ l)) by assumption. now apply L_cd.
  - now apply L_rev.
Qed.
End Sym8.

Section Full.
Context {F : Type} (K : Fops F) (Kf : is_field K).
Hypothesis Hapx : forall x : F, fapx K x = x.
Hypothesis char0 : forall n, ofnat K (S n) <> f0 K.
Variable bs : list (shell F).
Hypothesis OK : eri_basis_ok K bs.
Notation s_ k := (sh_at K bs k).
Notation n := (length bs).

Lemma eri_basis_ok_to_cart : eri_basis_ok K (map to_cart bs).
Proof.
  destruct OK as (C & D & E). split; [|split].
  - intros s Hs. apply in_map_iff in Hs. destruct Hs as [s0 [<- H0]]. exact (C s0 H0).
  - intros s Hs. apply in_map_iff in Hs. destruct Hs as [s0 [<- H0]]. exact (D s0 H0).
  - intros a b c d Ha Hb Hc Hd.
    apply in_map_iff in Ha. destruct Ha as [a0 [<- Ha0]]. apply in_map_iff in Hb. destruct Hb as [b0 [<- Hb0]].
    apply in_map_iff in Hc. destruct Hc as [c0 [<- Hc0]]. apply in_map_iff in Hd. destruct Hd as [d0 [<- Hd0]].
    exact (E a0 b0 c0 d0 Ha0 Hb0 Hc0 Hd0).
Qed.

Lemma Beri_shape4 : shape4 n (fun k => odim (s_ k)) (Beri K bs).
Proof.
  intros i j k l Hi Hj Hk Hl. rewrite (Beri_Bq K bs) by assumption. exact (Bq_shape K _ _ _ _).
Qed.

(* the store-and-concatenate assembly of base_four_symm.py is the plain concatenation of all n^4 blocks *)
Theorem eri_integral_is_concat : eri_integral K bs None false = four_concat n (Beri K bs).
Proof.
  rewrite eri_integral_chem.
  rewrite (four_symm_is_concat (f0 K) (fadd K) (fmul K) 2 (ess K bs) (ebf K bs)); rewrite ess_length; [reflexivity|].
  exact (eri_sym8 K Kf Hapx char0 bs OK).
Qed.

(* EVERY entry of the assembled ERI array: the quadruple sum over the raw block of its own shell quartet *)
Theorem eri_integral_entry i j k l m1 q1 m2 q2 m3 q3 m4 q4 :
  i < n -> j < n -> k < n -> l < n ->
  m1 < nseg (s_ i) -> q1 < osize (s_ i) -> m2 < nseg (s_ j) -> q2 < osize (s_ j) ->
  m3 < nseg (s_ k) -> q3 < osize (s_ k) -> m4 < nseg (s_ l) -> q4 < osize (s_ l) ->
  Assembly14.get4 (f0 K) (eri_integral K bs None false)
    (oidx K bs i m1 q1) (oidx K bs j m2 q2) (oidx K bs k m3 q3) (oidx K bs l m4 q4)
  = Eq K (s_ i) (s_ j) (s_ k) (s_ l) m1 q1 m2 q2 m3 q3 m4 q4.
Proof.
  intros Hi Hj Hk Hl H1 H2 H3 H4 H5 H6 H7 H8. rewrite eri_integral_is_concat.
  unfold oidx, ooff. rewrite <- !off_offs.
  rewrite (four_concat_entry (f0 K) n (fun t => odim (s_ t)) _ Beri_shape4 i j k l)
    by (try assumption; unfold odim; now apply idx_lt).
  rewrite (Beri_Bq K bs) by assumption. now apply (Bq_entry K Kf).
Qed.

(* C09: mixed basis = T (x) T (x) T (x) T applied to the all-Cartesian array *)
Theorem eri_mixed_is_cart_transformed_full i j k l m1 q1 m2 q2 m3 q3 m4 q4 :
  i < n -> j < n -> k < n -> l < n ->
  m1 < nseg (s_ i) -> q1 < osize (s_ i) -> m2 < nseg (s_ j) -> q2 < osize (s_ j) ->
  m3 < nseg (s_ k) -> q3 < osize (s_ k) -> m4 < nseg (s_ l) -> q4 < osize (s_ l) ->
  Assembly14.get4 (f0 K) (eri_integral K bs None false)
    (oidx K bs i m1 q1) (oidx K bs j m2 q2) (oidx K bs k m3 q3) (oidx K bs l m4 q4)
  = tsum K (f0 K) (fadd K) (fmul K) (s_sph (s_ i)) (shell_transform K (s_ i)) (ncomp (s_ i)) q1 (fun c1 =>
    tsum K (f0 K) (fadd K) (fmul K) (s_sph (s_ j)) (shell_transform K (s_ j)) (ncomp (s_ j)) q2 (fun c2 =>
    tsum K (f0 K) (fadd K) (fmul K) (s_sph (s_ k)) (shell_transform K (s_ k)) (ncomp (s_ k)) q3 (fun c3 =>
    tsum K (f0 K) (fadd K) (fmul K) (s_sph (s_ l)) (shell_transform K (s_ l)) (ncomp (s_ l)) q4 (fun c4 =>
      Assembly14.get4 (f0 K) (eri_integral K (map to_cart bs) None false)
        (gidx K bs i m1 c1) (gidx K bs j m2 c2) (gidx K bs k m3 c3) (gidx K bs l m4 c4))))).
Proof.
  apply (eri_mixed_is_cart_transformed K bs).
  - exact (eri_sym8 K Kf Hapx char0 bs OK).
  - rewrite <- (map_length to_cart bs). exact (eri_sym8 K Kf Hapx char0 (map to_cart bs) eri_basis_ok_to_cart).
Qed.
End Full.

(* the hypotheses are satisfiable: a mixed basis over Qc (spherical d shell, Cartesian p shell, s shell; two
   primitives each, Proofs/TwoElecP.ex_shell) *)
From Coq Require Import QArith Qcanon.

Definition ex_sph (s : shell Qc) : shell Qc :=
  mkShell Qc (s_l s) (s_x s) (s_y s) (s_z s) (s_exps s) (s_coeffs s) true (s_comps s) (s_labels s).
Definition ex_eri_basis : list (shell Qc) := [ex_sph ex_s2; ex_s1; ex_s3].

Definition ex_exps : list Qc := [qc_of 3 2; qc_of 1 4; qc_of 1 1; qc_of 1 2; qc_of 2 1].
Lemma ex_exps_in s x : In s ex_eri_basis -> In x (s_exps s) -> In x ex_exps.
Proof.
  intros [<-|[<-|[<-|[]]]] Hx; cbn [s_exps ex_sph ex_s1 ex_s2 ex_s3 ex_shell In ex_exps] in Hx |- *; tauto.
Qed.

Lemma ex_nz2 : forall x y, In x ex_exps -> In y ex_exps -> fadd KQ4 x y <> f0 KQ4.
Proof.
  assert (B : forallb (fun x => forallb (fun y => negb (Qeq_bool (fadd KQ4 x y) (f0 KQ4))) ex_exps) ex_exps = true)
    by (vm_compute; reflexivity).
  intros x y Hx Hy. rewrite forallb_forall in B. specialize (B x Hx). rewrite forallb_forall in B.
  specialize (B y Hy). apply qc_neq. now destruct (Qeq_bool (fadd KQ4 x y) (f0 KQ4)).
Qed.
Lemma ex_nz4 : forall x y z w, In x ex_exps -> In y ex_exps -> In z ex_exps -> In w ex_exps ->
  fadd KQ4 (fadd KQ4 x y) (fadd KQ4 z w) <> f0 KQ4.
Proof.
  assert (B : forallb (fun x => forallb (fun y => forallb (fun z => forallb (fun w =>
                negb (Qeq_bool (fadd KQ4 (fadd KQ4 x y) (fadd KQ4 z w)) (f0 KQ4))) ex_exps) ex_exps) ex_exps) ex_exps = true)
    by (vm_compute; reflexivity).
  intros x y z w Hx Hy Hz Hw. rewrite forallb_forall in B. specialize (B x Hx). rewrite forallb_forall in B.
  specialize (B y Hy). rewrite forallb_forall in B. specialize (B z Hz). rewrite forallb_forall in B.
  specialize (B w Hw). apply qc_neq.
  now destruct (Qeq_bool (fadd KQ4 (fadd KQ4 x y) (fadd KQ4 z w)) (f0 KQ4)).
Qed.

Lemma ex_eri_basis_ok : eri_basis_ok KQ4 ex_eri_basis.
Proof.
  split; [|split].
  - intros s [<-|[<-|[<-|[]]]]; vm_compute; lia.
  - intros s [<-|[<-|[<-|[]]]] i Hi; vm_compute in Hi;
      do 7 (destruct i as [|i]; [vm_compute; lia|]); lia.
  - intros a b c d Ha Hb Hc Hd. repeat split.
    + intros x y Hx Hy. apply ex_nz2; [exact (ex_exps_in a x Ha Hx)|exact (ex_exps_in b y Hb Hy)].
    + intros x y Hx Hy. apply ex_nz2; [exact (ex_exps_in c x Hc Hx)|exact (ex_exps_in d y Hd Hy)].
    + intros x y z w Hx Hy Hz Hw.
      apply ex_nz4; [exact (ex_exps_in a x Ha Hx)|exact (ex_exps_in b y Hb Hy)|exact (ex_exps_in c z Hc Hz)|exact (ex_exps_in d w Hd Hw)].
Qed.

Example ex_eri_full :
  is_field KQ4 /\ (forall x, fapx KQ4 x = x) /\ (forall n, ofnat KQ4 (S n) <> f0 KQ4) /\
  eri_basis_ok KQ4 ex_eri_basis /\ ototal KQ4 ex_eri_basis = 9%nat /\
  sym8 (f0 KQ4) 3%nat (Beri KQ4 ex_eri_basis).
Proof.
  split; [exact KQ4_field|]. split; [reflexivity|]. split; [exact orient_char0_ex|].
  split; [exact ex_eri_basis_ok|]. split; [vm_compute; reflexivity|].
  exact (eri_sym8 KQ4 KQ4_field (fun x => eq_refl) orient_char0_ex ex_eri_basis ex_eri_basis_ok).
Qed.
