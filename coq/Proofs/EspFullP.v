(* Proofs/EspFullP.v — the SHAPE of the model's point-charge integral array, for every basis of shells with at
   least one contraction and component / label lists of the size their angular momentum demands (in
   particular the default orders), any assignment of coordinate types, any number of shells / points:

     point_charge_integral_shape_none   point_charge_integral K pts basis None  is  [n][n][N],
                                        n = Esp.nfun_basis basis (the number of contractions the code's size check
                                        computes), N = number of points;  as a Prop and as [squareb .. = true]
     point_charge_integral_shape_T      with transform = Some t, t of S rows and n columns (S, n > 0): [S][S][N]
     esp_transform_is_backtransformed_full
                                        Proofs/EspP.esp_transform_is_backtransformed WITHOUT its [squareb] hypothesis.

   Everything is structural (no field law): the blocks are built by [mk], the processed blocks are described
   entry by entry by Proofs/AssembledSphP.two_symm_mixed_entry (tsum of scaled block entries), the final
   transformation by Proofs/AssembledLincombP.lincomb2_entry; a sum [asum vzero vadd] of at least one vector
   of length N has length N although the zero of the module is the EMPTY vector. *)
From Coq Require Import List Arith Lia Bool.
From GB Require Import Base.Field Base.Tables Model.Shell Model.Assembly Model.OneElec Model.OneBody Model.Esp
  Proofs.CoreSumP Proofs.CoreDiffP Proofs.BlockMatP Proofs.AssembledP Proofs.AssembledSphP
  Proofs.AssembledLincombP Proofs.SphExactP Proofs.EspP.
Import ListNotations.

Section VecLen.
Context {F : Type} (K : Fops F).

Lemma vadd_length (x y : list F) N : length x = N -> (y = [] \/ length y = N) -> length (vadd K x y) = N.
Proof.
  intros Hx Hy. unfold vadd. destruct x as [|a x]; [cbn in Hx; subst N; destruct Hy as [->|Hy]; [reflexivity|exact Hy]|].
  destruct y as [|b y]; [exact Hx|]. destruct Hy as [Hy|Hy]; [discriminate|].
  rewrite map_length, combine_length, Hx, Hy. apply Nat.min_id.
Qed.

Lemma vscale_length t (x : list F) : length (vscale K t x) = length x.
Proof. unfold vscale. apply map_length. Qed.

Lemma vsum_length (l : list (list F)) N :
  Forall (fun v => length v = N) l -> l <> [] -> length (asum vzero (vadd K) l) = N.
Proof.
  intros H. induction H as [|v l Hv Hl IH]; intros Hne; [congruence|]. cbn [asum fold_right].
  apply vadd_length; [exact Hv|]. destruct l as [|v' l']; [left; reflexivity|right].
  apply IH. discriminate.
Qed.

Lemma vsum_mk_length L (f : nat -> list F) N :
  0 < L -> (forall c, c < L -> length (f c) = N) -> length (asum vzero (vadd K) (mk L f)) = N.
Proof.
  intros HL Hf. apply vsum_length; [|now apply mk_nonempty].
  apply (Forall_of_nth _ _ []). rewrite mk_length. intros c Hc. rewrite nth_mk by exact Hc. now apply Hf.
Qed.

Lemma tsum_vec_length sph T L q (f : nat -> list F) N :
  0 < L -> (sph = false -> q < L) -> (forall c, c < L -> length (f c) = N) ->
  length (tsum K vzero (vadd K) (vscale K) sph T L q f) = N.
Proof.
  intros HL Hq Hf. unfold tsum. destruct sph; [|apply Hf; now apply Hq].
  apply vsum_mk_length; [exact HL|]. intros c Hc. rewrite vscale_length. now apply Hf.
Qed.
End VecLen.

Section Shape.
Context {F : Type} (K : Fops F).

(* what the size check of electrostatic_potential (and NumPy's shapes) presuppose of a shell *)
Definition esp_wf_shell (s : shell F) : Prop :=
  0 < nseg s /\ osize s = if s_sph s then num_sph (s_l s) else num_cart (s_l s).
Definition esp_wf_basis (bs : list (shell F)) : Prop := forall s, In s bs -> esp_wf_shell s.

Lemma esp_wf_default (s : shell F) : s_comps s = [] -> s_labels s = [] -> 0 < nseg s -> esp_wf_shell s.
Proof.
  intros Hc Hl Hn. split; [exact Hn|]. unfold osize, nlab, ncomp, labels_of, comps_of. rewrite Hc, Hl.
  destruct (s_sph s).
  - rewrite default_labels_length. unfold num_sph. lia.
  - rewrite default_comps_length. reflexivity.
Qed.

Lemma nfun_shell_odim (s : shell F) : esp_wf_shell s -> nfun_shell s = odim s.
Proof. intros [_ E]. unfold nfun_shell, odim. rewrite E. apply Nat.mul_comm. Qed.

Lemma offs_fold_app (bs : list (shell F)) :
  offs (fun t => odim (nth t bs (dshell K))) (length bs) = fold_right Nat.add 0 (map odim bs).
Proof.
  induction bs as [|s bs IH] using rev_ind; [reflexivity|].
  rewrite app_length. cbn [length]. rewrite Nat.add_1_r. cbn [offs].
  rewrite app_nth2 by lia. rewrite Nat.sub_diag. cbn [nth].
  rewrite (offs_ext _ (fun t => odim (nth t bs (dshell K)))) by (intros k Hk; now rewrite app_nth1).
  rewrite IH, map_app, fold_right_app. cbn [map fold_right].
  generalize (map odim bs). intros l. induction l as [|a l IHl]; cbn [fold_right]; lia.
Qed.

Lemma nfun_is_ototal (bs : list (shell F)) : esp_wf_basis bs -> nfun_basis bs = ototal K bs.
Proof.
  intros W. unfold ototal, ooff, sh_at. rewrite offs_fold_app. unfold nfun_basis. f_equal.
  apply map_ext_in. intros s Hs. apply nfun_shell_odim. now apply W.
Qed.

Lemma esp_wf_seg (bs : list (shell F)) : esp_wf_basis bs -> seg_basis bs.
Proof. intros W s Hs. exact (proj1 (W s Hs)). Qed.

Variable points : list (F * F * F * F).
Notation PCB := (point_charge_block K points).
Notation N := (length points).

Lemma pc_block_shape (sa sb : shell F) : shape4 (nseg sa) (ncomp sa) (nseg sb) (ncomp sb) (PCB sa sb).
Proof.
  unfold point_charge_block, ncomp. cbv zeta. split; [apply mk_length|]. intros ma Hma.
  rewrite nth_mk by exact Hma. split; [apply mk_length|]. intros ia Hia.
  rewrite nth_mk by exact Hia. split; [apply mk_length|]. intros mb Hmb.
  rewrite nth_mk by exact Hmb. apply mk_length.
Qed.

Lemma pc_blocks_shaped b1 b2 : blocks_shaped PCB b1 b2.
Proof. intros sa sb _ _. apply pc_block_shape. Qed.

Lemma pc_block_entry_length (sa sb : shell F) ma ia mb ib :
  ma < nseg sa -> ia < ncomp sa -> mb < nseg sb -> ib < ncomp sb ->
  length (get4 (@vzero F) ma ia mb ib (PCB sa sb)) = N.
Proof.
  intros Hma Hia Hmb Hib. unfold get4, point_charge_block, ncomp in *. cbv zeta.
  rewrite nth_mk by exact Hma. rewrite nth_mk by exact Hia. rewrite nth_mk by exact Hmb.
  rewrite nth_mk by exact Hib. now rewrite !map_length.
Qed.

Lemma Emix_pc_length (a b : shell F) m1 q1 m2 q2 :
  m1 < nseg a -> q1 < osize a -> m2 < nseg b -> q2 < osize b ->
  length (Emix K vzero (vadd K) (vscale K) PCB a b m1 q1 m2 q2) = N.
Proof.
  intros H1 H2 H3 H4. unfold Emix.
  apply tsum_vec_length; [apply ncomp_pos | intros E; unfold osize in H4; now rewrite E in H4 |].
  intros c2 Hc2.
  apply tsum_vec_length; [apply ncomp_pos | intros E; unfold osize in H2; now rewrite E in H2 |].
  intros c1 Hc1. rewrite vscale_length. now apply pc_block_entry_length.
Qed.

Definition arr_shape (n np : nat) (V : list (list (list F))) : Prop :=
  length V = n /\ (forall I, I < n -> length (nth I V []) = n) /\
  forall I J, I < n -> J < n -> length (nth J (nth I V []) []) = np.

Lemma arr_shape_squareb n np V : arr_shape n np V -> squareb n np V = true.
Proof.
  intros (HL & HR & HE). unfold squareb. rewrite andb_true_iff, Nat.eqb_eq. split; [exact HL|].
  apply forallb_forall. intros row Hrow. destruct (In_nth V row [] Hrow) as (I & HI & <-).
  rewrite HL in HI. rewrite andb_true_iff, Nat.eqb_eq. split; [now apply HR|].
  apply forallb_forall. intros v Hv. destruct (In_nth _ v [] Hv) as (J & HJ & <-).
  rewrite HR in HJ by exact HI. apply Nat.eqb_eq. now apply HE.
Qed.

Lemma squareb_arr_shape n np V : squareb n np V = true -> arr_shape n np V.
Proof.
  unfold squareb. rewrite andb_true_iff, Nat.eqb_eq, forallb_forall. intros [HL H].
  assert (Hrow : forall I, I < n -> length (nth I V []) = n /\
             forall J, J < n -> length (nth J (nth I V []) []) = np).
  { intros I HI. specialize (H (nth I V []) ltac:(apply nth_In; lia)).
    rewrite andb_true_iff, Nat.eqb_eq, forallb_forall in H. destruct H as [Hr Hv].
    split; [exact Hr|]. intros J HJ. apply Nat.eqb_eq. apply Hv. apply nth_In. lia. }
  split; [exact HL|]. split.
  - intros I HI. exact (proj1 (Hrow I HI)).
  - intros I J HI HJ. exact (proj2 (Hrow I HI) J HJ).
Qed.

Theorem point_charge_integral_shape_none (bs : list (shell F)) :
  esp_wf_basis bs -> arr_shape (nfun_basis bs) N (point_charge_integral K points bs None).
Proof.
  intros W. destruct bs as [|s0 bs0] eqn:Ebs.
  { unfold arr_shape. cbn. split; [reflexivity|]. split; intros; lia. }
  rewrite <- Ebs in *. assert (Hn : 0 < length bs) by (rewrite Ebs; cbn; lia). clear Ebs s0 bs0.
  rewrite (nfun_is_ototal bs W). unfold point_charge_integral.
  destruct (two_symm_mixed_shape K vzero (vadd K) (vscale K) PCB bs (esp_wf_seg bs W) (pc_blocks_shaped bs bs) Hn)
    as [SL SR].
  split; [exact SL|]. split; [exact SR|]. intros I J HI HJ.
  destruct (oidx_surj K bs I HI) as (i & m & q & Hi & Hm & Hq & ->).
  destruct (oidx_surj K bs J HJ) as (j & m' & q' & Hj & Hm' & Hq' & ->).
  change (@nil F) with (@vzero F).
  rewrite (two_symm_mixed_entry K vzero (vadd K) (vscale K) PCB bs (esp_wf_seg bs W) (pc_blocks_shaped bs bs)
             i j m q m' q' Hi Hj Hm Hq Hm' Hq').
  destruct (Nat.leb i j); now apply Emix_pc_length.
Qed.

Theorem point_charge_integral_squareb (bs : list (shell F)) :
  esp_wf_basis bs -> squareb (nfun_basis bs) N (point_charge_integral K points bs None) = true.
Proof. intros W. apply arr_shape_squareb. now apply point_charge_integral_shape_none. Qed.

(* with a transform: S rows, one column per contraction *)
Theorem point_charge_integral_shape_T (bs : list (shell F)) (t : list (list F)) S :
  esp_wf_basis bs -> bs <> [] -> mat_shape S (nfun_basis bs) t ->
  arr_shape S N (point_charge_integral K points bs (Some t)).
Proof.
  intros W Hne Ht. set (n := nfun_basis bs) in *.
  pose proof (point_charge_integral_shape_none bs W) as (ML & MR & ME). fold n in ML, MR, ME.
  set (M := point_charge_integral K points bs None) in *.
  assert (Hn : 0 < n).
  { unfold n. rewrite (nfun_is_ototal bs W). apply (ototal_pos K bs (esp_wf_seg bs W)).
    destruct bs; [congruence|cbn; lia]. }
  pose proof (rows_Forall M n ML MR) as HM.
  change (point_charge_integral K points bs (Some t)) with (lincomb2 vzero (vadd K) (vscale K) t t M).
  destruct (lincomb2_shape K vzero (vadd K) (vscale K) t t M n n S S HM Hn Hn Ht Ht) as [LL LR].
  split; [exact LL|]. split.
  - intros I HI. apply (Forall_nth_in _ _ [] I LR). now rewrite LL.
  - intros a b Ha Hb. change (@nil F) with (@vzero F).
    rewrite (AssembledLincombP.lincomb2_entry K vzero (vadd K) (vscale K) t t M n n S S a b HM Hn Hn Ht Ht Ha Hb).
    apply vsum_mk_length; [exact Hn|]. intros l Hl. rewrite vscale_length.
    apply vsum_mk_length; [exact Hn|]. intros k Hk. rewrite vscale_length. now apply ME.
Qed.
End Shape.

(* the transform theorem of electrostatic_potential without the shape hypothesis *)
Section EspFull.
Context {F : Type} (K : Fops F) (Kf : is_field K).

Theorem esp_transform_is_backtransformed_full basis P points ncoords ncharges T thr v :
  esp_wf_basis basis ->
  esp K basis P points ncoords ncharges (Some T) thr = Some v ->
  v = esp_values K (point_charge_integral K (unit_neg_points K points) basis None)
        (backtransform K T P (nfun_basis basis)) points (combine ncoords ncharges) thr
  /\ ((forall x y, feqb K x y = true <-> x = y) ->
      esp K basis (backtransform K T P (nfun_basis basis)) points ncoords ncharges None thr = Some v).
Proof.
  intros W E. apply (esp_transform_is_backtransformed K Kf); [|exact E].
  replace (length points) with (length (unit_neg_points K points))
    by (unfold unit_neg_points; apply map_length).
  now apply point_charge_integral_squareb.
Qed.
End EspFull.

(* a call with a rectangular transform (2 rows, 4 contractions: an s shell and a Cartesian p shell) that the
   model accepts, over Qc with stand-in oracles: the hypotheses of [esp_transform_is_backtransformed_full]
   hold together *)
From Coq Require Import QArith Qcanon.
Definition exK : Fops Qc := QcK true (Q2Qc 3) (fun x => x) (fun x => x) (fun x => x) (fun _ x => x).
Definition ex_basis : list (shell Qc) :=
  [mkShell Qc 0 (Q2Qc 0) (Q2Qc 0) (Q2Qc 0) [Q2Qc 1] [[Q2Qc 1]] false [] [];
   mkShell Qc 1 (Q2Qc 1) (Q2Qc 0) (Q2Qc 0) [Q2Qc 2] [[Q2Qc 1]] false [] []].
Definition ex_T : list (list Qc) :=
  [[Q2Qc 1; Q2Qc 0; Q2Qc 2; Q2Qc 0]; [Q2Qc 0; Q2Qc 1; Q2Qc 0; Q2Qc (-1)]].
Definition ex_P : list (list Qc) := [[Q2Qc 1; Q2Qc 2]; [Q2Qc 2; Q2Qc 3]].
Definition ex_points : list (Qc * Qc * Qc) := [(Q2Qc 0, Q2Qc 1, Q2Qc 0); (Q2Qc 2, Q2Qc 0, Q2Qc 1)].

