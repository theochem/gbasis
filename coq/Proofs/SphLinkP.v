(* Proofs/SphLinkP.v — the two models of the Cartesian->spherical transformation denote the same numbers.

   Model/SphExact.v (property C10: harmonic, homogeneous, orthonormal, phase, order, conventions) returns every
   entry as a pair (r, q) of canonical rationals meaning r * sqrt q.  Model/Spherical.v ([sph_transform K], the
   transformation used by every integral / evaluation model; generic field with the square-root oracle
   [fsqrt K]) mirrors gbasis/spherical.py operation by operation.

   For l <= 10 the rational core of Model/Spherical at Qc equals the (rational, radicand) data of Model/SphExact:
   hcoef = dictionary coefficient of [real_solid_harmonic] (enumerated in Proofs/DiagSphCheckP.v, where the
   coefficients are computed anyway), hrad = [harmonic_radicand], dfp = [cart_df], (2l-1)!! = [zdf_odd], all
   radicand factors positive (enumerated here).  In a field K of characteristic 0 the canonical embedding
   ofQc : Qc -> F (numerator / denominator through [ofZ]) is a field homomorphism, and the generic functions of
   Model/Spherical and Proofs/DiagSphP.v commute with it:  f K = ofQc (f QK).  Hence entry (i, j) of
   [sph_transform K l carts labels] = ofQc r * fsqrt K (ofQc q) for the entry (r, q) of [left_form l carts labels]:
   every l <= 10, EVERY Cartesian order and label order / sign list made of components of degree l and admissible
   labels (both models are entry-wise, so no permutation lemma is needed).  Model/Spherical multiplies THREE
   square roots per entry
       sqrt(hrad) * sqrt(prod (2a-1)!!) / sqrt((2l-1)!!)
   where the exact model has the single radicand hrad * prod (2a-1)!! / (2l-1)!!; therefore the oracle must
   satisfy, on images of POSITIVE rationals,
       sqrt (a * b) = sqrt a * sqrt b      and      sqrt (a / b) = sqrt a / sqrt b
   ([sqrt_mul_pos], [sqrt_div_pos]).  Nothing else is assumed of [fsqrt].  The real numbers satisfy every
   hypothesis (RK of Proofs/ScreeningP.v). *)
From Coq Require Import List Arith Lia Bool ZArith QArith Qcanon Field Qreals Reals Lra.
From GB Require Import Base.Field Base.FNum Base.Tables Base.Sums Model.Shell Model.Spherical Model.SphExact
  Proofs.SphExactP Proofs.DiagSphP Proofs.DiagSphCheckP Proofs.CoreNormP Proofs.ScreeningP.
Import ListNotations.
Local Open Scope nat_scope.
Local Open Scope list_scope.

Definition link_l_ok (l : nat) : bool :=
  qc_eqb (fdf_odd QK l) (zq (zdf_odd l)) && qpos (zq (zdf_odd l))
  && forallb (fun c => qc_eqb (dfp QK c) (zq (cart_df c)) && qpos (zq (cart_df c))) (default_comps l)
  && forallb (fun sm => qc_eqb (hrad QK l (snd sm)) (harmonic_radicand l (snd sm))
                        && qpos (harmonic_radicand l (snd sm))) (all_sm l).

Lemma link_check_all : forallb link_l_ok (seq 0 11) = true.
Proof. vm_compute. reflexivity. Qed.

Lemma qpos_lt q : qpos q = true -> (0 < q)%Qc.
Proof.
  unfold qpos. intro H. apply negb_true_iff in H. unfold Qclt. change (this 0%Qc) with 0%Q.
  apply Qnot_le_lt. intro Hle. apply Qle_bool_iff in Hle. congruence.
Qed.

Lemma link_l_le10 l : l <= 10 -> link_l_ok l = true.
Proof. intro Hl. pose proof link_check_all as H. rewrite forallb_forall in H. apply H. apply in_seq. lia. Qed.

Lemma link_tables l sine m c : l <= 10 -> valid_sm l sine m -> In c (default_comps l) ->
  hcoef QK l m sine c = coef (real_solid_harmonic l m sine) c
  /\ hrad QK l m = harmonic_radicand l m /\ (0 < harmonic_radicand l m)%Qc
  /\ dfp QK c = zq (cart_df c) /\ (0 < zq (cart_df c))%Qc
  /\ fdf_odd QK l = zq (zdf_odd l) /\ (0 < zq (zdf_odd l))%Qc.
Proof.
  intros Hl Hv Hc. split; [now apply hcoef_coef_le10|].
  pose proof (link_l_le10 l Hl) as H. unfold link_l_ok in H.
  apply andb_prop in H as [H Hrows]. apply andb_prop in H as [H Hcs]. apply andb_prop in H as [Hdf Hdfp].
  rewrite forallb_forall in Hcs, Hrows.
  specialize (Hcs c Hc). apply andb_prop in Hcs as [Hc1 Hc2].
  specialize (Hrows (sine, m) (in_all_sm l sine m Hv)). cbn [snd] in Hrows. apply andb_prop in Hrows as [Hr1 Hr2].
  repeat split; try (now apply qc_eqb_true); now apply qpos_lt.
Qed.

(* admissible label of angular momentum l: c_0..c_l, s_1..s_l, any sign (SphExactP.wf_label over valid_sm) *)
Definition adm_label (l : nat) (lb : label) : Prop := valid_sm l (snd (fst lb)) (snd lb).

Lemma default_labels_adm l lb : In lb (default_labels l) -> adm_label l lb.
Proof. intro H. exact (proj1 (default_labels_wf l lb H)). Qed.

Lemma Qc_pos_nz (q : Qc) : (0 < q)%Qc -> q <> 0%Qc.
Proof. intros H E. rewrite E in H. exact (Qclt_not_eq _ _ H eq_refl). Qed.

Lemma Qc_mul_pos (a b : Qc) : (0 < a)%Qc -> (0 < b)%Qc -> (0 < a * b)%Qc.
Proof.
  unfold Qclt. change (this 0%Qc) with 0%Q. intros Ha Hb. unfold Qcmult, Q2Qc. cbn [this].
  rewrite Qred_correct. now apply Qmult_lt_0_compat.
Qed.

Section Link.
Context {F : Type} (K : Fops F) (Kf : is_field K).
Add Field KFlk : Kf.
Local Open Scope F_scope.
Notation "0" := (f0 K) : F_scope.
Notation "1" := (f1 K) : F_scope.
Infix "+" := (fadd K) : F_scope.
Infix "*" := (fmul K) : F_scope.
Infix "-" := (fsub K) : F_scope.
Infix "/" := (fdiv K) : F_scope.
Notation "- x" := (fopp K x) : F_scope.

Hypothesis char0 : forall n, ofnat K (S n) <> 0.

(* proof-only: never evaluated, so the unary detour is harmless *)
Definition ofZ (z : Z) : F :=
  match z with
  | Z0 => 0
  | Zpos p => ofnat K (Pos.to_nat p)
  | Zneg p => - ofnat K (Pos.to_nat p)
  end.

Lemma ofZ_of_nat n : ofZ (Z.of_nat n) = ofnat K n.
Proof. destruct n; [reflexivity|]. cbn [Z.of_nat ofZ]. now rewrite SuccNat2Pos.id_succ. Qed.

Lemma ofZ_opp z : ofZ (- z) = - ofZ z.
Proof. destruct z; cbn [Z.opp ofZ]; ring. Qed.

Lemma ofZ_diff a b : ofZ (Z.of_nat a - Z.of_nat b) = ofnat K a - ofnat K b.
Proof.
  destruct (Nat.le_ge_cases b a) as [H|H].
  - replace (Z.of_nat a - Z.of_nat b)%Z with (Z.of_nat (a - b)) by lia.
    rewrite ofZ_of_nat.
    assert (E : ofnat K a = ofnat K (a - b) + ofnat K b)
      by (rewrite <- (ofnat_add K Kf); f_equal; lia).
    rewrite E. ring.
  - replace (Z.of_nat a - Z.of_nat b)%Z with (- Z.of_nat (b - a))%Z by lia.
    rewrite ofZ_opp, ofZ_of_nat.
    assert (E : ofnat K b = ofnat K (b - a) + ofnat K a)
      by (rewrite <- (ofnat_add K Kf); f_equal; lia).
    rewrite E. ring.
Qed.

Lemma Z_diff_ex z : exists a b, z = (Z.of_nat a - Z.of_nat b)%Z.
Proof. exists (Z.to_nat z), (Z.to_nat (- z)). lia. Qed.

Lemma ofZ_add x y : ofZ (x + y) = ofZ x + ofZ y.
Proof.
  destruct (Z_diff_ex x) as (a & b & ->). destruct (Z_diff_ex y) as (c & d & ->).
  replace (Z.of_nat a - Z.of_nat b + (Z.of_nat c - Z.of_nat d))%Z
    with (Z.of_nat (a + c) - Z.of_nat (b + d))%Z by lia.
  rewrite !ofZ_diff, !(ofnat_add K Kf). ring.
Qed.

Lemma ofZ_mul x y : ofZ (x * y) = ofZ x * ofZ y.
Proof.
  destruct (Z_diff_ex x) as (a & b & ->). destruct (Z_diff_ex y) as (c & d & ->).
  replace ((Z.of_nat a - Z.of_nat b) * (Z.of_nat c - Z.of_nat d))%Z
    with (Z.of_nat (a * c + b * d) - Z.of_nat (a * d + b * c))%Z
    by (rewrite !Nat2Z.inj_add, !Nat2Z.inj_mul; ring).
  rewrite !ofZ_diff, !(ofnat_add K Kf), !(ofnat_mul K Kf). ring.
Qed.

Lemma fopp_zero x : - x = 0 -> x = 0.
Proof. intro E. transitivity (- - x); [ring|]. rewrite E. ring. Qed.

Lemma ofZ_pos_nz p : ofZ (Zpos p) <> 0.
Proof. cbn [ofZ]. destruct (Pos2Nat.is_succ p) as [n ->]. apply char0. Qed.

Lemma ofZ_nz z : z <> 0%Z -> ofZ z <> 0.
Proof.
  destruct z as [|p|p]; intro H; [now elim H|apply ofZ_pos_nz|].
  intro E. apply (ofZ_pos_nz p). cbn [ofZ] in *. now apply fopp_zero.
Qed.

(* the value of a (not necessarily reduced) fraction, and of a canonical rational *)
Definition ofQ (q : Q) : F := ofZ (Qnum q) / ofZ (Zpos (Qden q)).
Definition ofQc (q : Qc) : F := ofQ (this q).

Lemma ofQ_compat p q : (p == q)%Q -> ofQ p = ofQ q.
Proof.
  unfold Qeq, ofQ. intro H. apply (f_equal ofZ) in H. rewrite !ofZ_mul in H.
  pose proof (ofZ_pos_nz (Qden p)) as Hp. pose proof (ofZ_pos_nz (Qden q)) as Hq.
  set (np := ofZ (Qnum p)) in *. set (nq := ofZ (Qnum q)) in *.
  set (dp := ofZ (Zpos (Qden p))) in *. set (dq := ofZ (Zpos (Qden q))) in *.
  transitivity ((np * dq) / (dp * dq)); [field; split; assumption|].
  rewrite H. field. split; assumption.
Qed.

Lemma ofQc_Q2Qc q : ofQc (Q2Qc q) = ofQ q.
Proof. unfold ofQc, Q2Qc. cbn [this]. apply ofQ_compat, Qred_correct. Qed.

Lemma ofQ_plus x y : ofQ (x + y)%Q = ofQ x + ofQ y.
Proof.
  unfold ofQ, Qplus. cbn [Qnum Qden]. rewrite Pos2Z.inj_mul, ofZ_add, !ofZ_mul.
  pose proof (ofZ_pos_nz (Qden x)). pose proof (ofZ_pos_nz (Qden y)). field. split; assumption.
Qed.
Lemma ofQ_mult x y : ofQ (x * y)%Q = ofQ x * ofQ y.
Proof.
  unfold ofQ, Qmult. cbn [Qnum Qden]. rewrite Pos2Z.inj_mul, !ofZ_mul.
  pose proof (ofZ_pos_nz (Qden x)). pose proof (ofZ_pos_nz (Qden y)). field. split; assumption.
Qed.
Lemma ofQ_opp x : ofQ (- x)%Q = - ofQ x.
Proof.
  unfold ofQ, Qopp. cbn [Qnum Qden]. rewrite ofZ_opp.
  pose proof (ofZ_pos_nz (Qden x)). field. assumption.
Qed.
Lemma ofQ_inv x : Qnum x <> 0%Z -> ofQ (/ x)%Q = 1 / ofQ x.
Proof.
  destruct x as [[|p|p] d]; cbn [Qnum]; intro H; [now elim H| |]; unfold ofQ, Qinv; cbn [Qnum Qden].
  - pose proof (ofZ_pos_nz p). pose proof (ofZ_pos_nz d). field. split; assumption.
  - change (ofZ (Zneg d)) with (- ofZ (Zpos d)). change (ofZ (Zneg p)) with (- ofZ (Zpos p)).
    pose proof (ofZ_pos_nz p). pose proof (ofZ_pos_nz d). field.
    repeat split; try assumption. intro E. apply fopp_zero in E. contradiction.
Qed.

Lemma ofQ_int z : ofQ (z # 1) = ofZ z.
Proof.
  unfold ofQ. cbn [Qnum Qden ofZ]. change (Pos.to_nat 1) with 1%nat. cbn [ofnat].
  field. intro E. apply (char0 0%nat). cbn [ofnat]. transitivity (f1 K); [ring|exact E].
Qed.
Lemma ofQc_0 : ofQc 0%Qc = 0.
Proof. exact (ofQ_int 0). Qed.
Lemma ofQc_1 : ofQc 1%Qc = 1.
Proof.
  unfold ofQc. change (this 1%Qc) with (1 # 1)%Q. rewrite ofQ_int. cbn [ofZ].
  change (Pos.to_nat 1) with 1%nat. cbn [ofnat]. ring.
Qed.
Lemma ofQc_plus a b : ofQc (a + b)%Qc = ofQc a + ofQc b.
Proof. unfold Qcplus. rewrite ofQc_Q2Qc. apply ofQ_plus. Qed.
Lemma ofQc_mult a b : ofQc (a * b)%Qc = ofQc a * ofQc b.
Proof. unfold Qcmult. rewrite ofQc_Q2Qc. apply ofQ_mult. Qed.
Lemma ofQc_opp a : ofQc (- a)%Qc = - ofQc a.
Proof. unfold Qcopp. rewrite ofQc_Q2Qc. apply ofQ_opp. Qed.
Lemma ofQc_minus a b : ofQc (a - b)%Qc = ofQc a - ofQc b.
Proof. unfold Qcminus. rewrite ofQc_plus, ofQc_opp. ring. Qed.

Lemma Qc_num_nz (b : Qc) : b <> 0%Qc -> Qnum (this b) <> 0%Z.
Proof.
  intros Hb E. apply Hb. apply Qc_is_canon. unfold Qeq. rewrite E. reflexivity.
Qed.

Lemma ofQc_nz_inv (b : Qc) : ofQc b <> 0 -> b <> 0%Qc.
Proof. intros H E. apply H. rewrite E. apply ofQc_0. Qed.

Lemma ofQc_nz (b : Qc) : b <> 0%Qc -> ofQc b <> 0.
Proof.
  intro Hb. unfold ofQc, ofQ. pose proof (ofZ_nz _ (Qc_num_nz b Hb)) as Hn.
  pose proof (ofZ_pos_nz (Qden (this b))) as Hd. intro E. apply Hn.
  transitivity (ofZ (Qnum (this b)) / ofZ (Zpos (Qden (this b))) * ofZ (Zpos (Qden (this b)))); [field; exact Hd|].
  rewrite E. ring.
Qed.

Lemma ofQc_inv b : b <> 0%Qc -> ofQc (/ b)%Qc = 1 / ofQc b.
Proof. intro Hb. unfold Qcinv. rewrite ofQc_Q2Qc. apply ofQ_inv. now apply Qc_num_nz. Qed.

Lemma ofQc_div a b : b <> 0%Qc -> ofQc (a / b)%Qc = ofQc a / ofQc b.
Proof.
  intro Hb. unfold Qcdiv. rewrite ofQc_mult, (ofQc_inv b Hb).
  pose proof (ofQc_nz b Hb). field. assumption.
Qed.

(* the same on the operations of the executable instance QK (qc_add, ...: equal to the standard ones by
   Base/Field.v), in the form [rewrite] finds in terms over QK *)
Notation phi := ofQc.

Lemma phi_0 : phi (f0 QK) = 0.
Proof. exact ofQc_0. Qed.
Lemma phi_1 : phi (f1 QK) = 1.
Proof. exact ofQc_1. Qed.
Lemma phi_add a b : phi (fadd QK a b) = phi a + phi b.
Proof. cbn [fadd QK QcK]. rewrite qc_add_eq. apply ofQc_plus. Qed.
Lemma phi_mul a b : phi (fmul QK a b) = phi a * phi b.
Proof. cbn [fmul QK QcK]. rewrite qc_mul_eq. apply ofQc_mult. Qed.
Lemma phi_opp a : phi (fopp QK a) = - phi a.
Proof. cbn [fopp QK QcK]. rewrite qc_opp_eq. apply ofQc_opp. Qed.
Lemma phi_div a b : phi b <> 0 -> phi (fdiv QK a b) = phi a / phi b.
Proof. intro Hb. cbn [fdiv QK QcK]. rewrite qc_div_eq. apply ofQc_div. now apply ofQc_nz_inv. Qed.

Lemma phi_ofnat n : phi (ofnat QK n) = ofnat K n.
Proof. induction n as [|n IH]; cbn [ofnat]; [exact phi_0|]. now rewrite phi_add, phi_1, IH. Qed.
Lemma phi_fpow x n : phi (fpow QK x n) = fpow K (phi x) n.
Proof. induction n as [|n IH]; cbn [fpow]; [exact phi_1|]. now rewrite phi_mul, IH. Qed.
Lemma phi_ffact n : phi (ffact QK n) = ffact K n.
Proof. induction n as [|n IH]; cbn [ffact]; [exact phi_1|]. now rewrite phi_mul, phi_ofnat, IH. Qed.
Lemma phi_fdf_odd n : phi (fdf_odd QK n) = fdf_odd K n.
Proof. induction n as [|n IH]; cbn [fdf_odd]; [exact phi_1|]. now rewrite phi_mul, phi_ofnat, IH. Qed.

Lemma one_nz : 1 <> 0.
Proof. intro E. apply (char0 0%nat). cbn [ofnat]. transitivity 1; [ring|exact E]. Qed.
Lemma two_nz : 1 + 1 <> 0.
Proof. intro E. apply (char0 1%nat). cbn [ofnat]. transitivity (1 + 1); [ring|exact E]. Qed.
Lemma four_nz : 1 + 1 + 1 + 1 <> 0.
Proof. intro E. apply (char0 3%nat). cbn [ofnat]. transitivity (1 + 1 + 1 + 1); [ring|exact E]. Qed.
Lemma phi_fbinom n k : phi (fbinom QK n k) = fbinom K n k.
Proof.
  unfold fbinom. destruct (Nat.leb k n); [|exact phi_0].
  assert (Hd : phi (fmul QK (ffact QK k) (ffact QK (n - k))) <> 0).
  { rewrite phi_mul, !phi_ffact. apply (fmul_nz K Kf); apply (ffact_nz K Kf char0). }
  rewrite (phi_div _ _ Hd), phi_mul, !phi_ffact. reflexivity.
Qed.
Lemma phi_fneg1pow n : phi (fneg1pow QK n) = fneg1pow K n.
Proof. unfold fneg1pow. destruct (Nat.even n); [exact phi_1|]. now rewrite phi_opp, phi_1. Qed.

Lemma phi_fsum_map {A} (f : A -> Qc) (g : A -> F) l :
  (forall x, In x l -> phi (f x) = g x) -> phi (fsum QK (map f l)) = fsum K (map g l).
Proof.
  induction l as [|a l IH]; intro H; cbn [map fsum fold_right]; [exact phi_0|].
  fold (fsum QK (map f l)). fold (fsum K (map g l)).
  rewrite phi_add, (H a (or_introl eq_refl)), IH by (intros x Hx; apply H; now right). reflexivity.
Qed.

Lemma phi_expansion_coeff l m sine i j z :
  phi (Spherical.expansion_coeff QK l m sine i j z) = Spherical.expansion_coeff K l m sine i j z.
Proof.
  unfold Spherical.expansion_coeff. cbv zeta. rewrite !phi_mul, !phi_fbinom, phi_fneg1pow, phi_fpow.
  assert (Hd : phi (fadd QK (fadd QK (fadd QK (f1 QK) (f1 QK)) (f1 QK)) (f1 QK)) <> 0).
  { rewrite !phi_add, phi_1. exact four_nz. }
  rewrite (phi_div _ _ Hd), !phi_add, phi_1. reflexivity.
Qed.

Lemma phi_hnr l m : phi (hnr QK l m) = hnr K l m.
Proof.
  unfold hnr.
  assert (Hd : phi (fmul QK (fpow QK (fadd QK (f1 QK) (f1 QK)) m) (ffact QK l)) <> 0).
  { rewrite phi_mul, phi_fpow, phi_ffact, phi_add, phi_1. apply (fmul_nz K Kf); [apply (fpow_nz K Kf), two_nz|apply (ffact_nz K Kf char0)]. }
  rewrite (phi_div _ _ Hd), phi_mul, phi_fpow, phi_ffact, phi_add, !phi_1. reflexivity.
Qed.

Lemma phi_hrad l m : phi (hrad QK l m) = hrad K l m.
Proof.
  unfold hrad.
  assert (Hd : phi (if Nat.eqb m 0 then fadd QK (f1 QK) (f1 QK) else f1 QK) <> 0).
  { destruct (Nat.eqb m 0); rewrite ?phi_add, ?phi_1; [exact two_nz|exact one_nz]. }
  rewrite (phi_div _ _ Hd), !phi_mul, !phi_ffact, phi_add, phi_1.
  destruct (Nat.eqb m 0); rewrite ?phi_add, ?phi_1; reflexivity.
Qed.

Lemma phi_hterm l m sine c t : phi (hterm QK l m sine c t) = hterm K l m sine c t.
Proof.
  unfold hterm. cbv zeta. destruct (Nat.leb _ _); [|exact phi_0].
  destruct (Spherical.comp_eqb _ _); [|exact phi_0]. now rewrite phi_mul, phi_expansion_coeff, phi_hnr.
Qed.

Lemma phi_hcoef l m sine c : phi (hcoef QK l m sine c) = hcoef K l m sine c.
Proof. unfold hcoef. apply phi_fsum_map. intros t _. apply phi_hterm. Qed.

Lemma phi_dfp c : phi (dfp QK c) = dfp K c.
Proof. unfold dfp. now rewrite !phi_mul, !phi_fdf_odd. Qed.

Lemma phi_Gk a b : phi (Gk QK a b) = Gk K a b.
Proof.
  assert (Hg : forall n, phi (gk QK n) = gk K n).
  { intro n. unfold gk. destruct (Nat.even n); [apply phi_fdf_odd|exact phi_0]. }
  unfold Gk. now rewrite !phi_mul, !Hg.
Qed.

Lemma phi_HGH l m sine comps : phi (HGH QK l m sine comps) = HGH K l m sine comps.
Proof.
  unfold HGH. apply phi_fsum_map. intros c _. apply phi_fsum_map. intros c' _.
  now rewrite !phi_mul, !phi_hcoef, phi_Gk.
Qed.

Lemma fdf_odd_nz n : fdf_odd K n <> 0.
Proof.
  induction n as [|n IH]; cbn [fdf_odd]; [exact one_nz|]. apply (fmul_nz K Kf); [|exact IH].
  replace (2 * n + 1)%nat with (S (2 * n)) by lia. apply char0.
Qed.

Lemma phi_Eorth l m sine : phi (Eorth QK l m sine) = Eorth K l m sine.
Proof.
  unfold Eorth.
  assert (Hd : phi (fdf_odd QK l) <> 0) by (rewrite phi_fdf_odd; apply fdf_odd_nz).
  now rewrite phi_mul, phi_HGH, (phi_div _ _ Hd), phi_fdf_odd, phi_hrad.
Qed.

Theorem Eorth_le10 l sine m : (l <= 10)%nat -> valid_sm l sine m -> Eorth K l m sine = 1.
Proof. intros Hl Hv. rewrite <- phi_Eorth, (Eorth_Q_le10 l sine m Hl Hv). exact phi_1. Qed.

(* what is needed of the square-root oracle: multiplicative on (images of) positive rationals *)
Definition sqrt_mul_pos : Prop :=
  forall a b : Qc, (0 < a)%Qc -> (0 < b)%Qc -> fsqrt K (phi a * phi b) = fsqrt K (phi a) * fsqrt K (phi b).
Definition sqrt_div_pos : Prop :=
  forall a b : Qc, (0 < a)%Qc -> (0 < b)%Qc -> fsqrt K (phi a / phi b) = fsqrt K (phi a) / fsqrt K (phi b).

Hypothesis Hmul : sqrt_mul_pos.
Hypothesis Hdiv : sqrt_div_pos.

(* the number a pair (r, q) of the exact model denotes in K *)
Definition sden (s : surd) : F := phi (fst s) * fsqrt K (phi (snd s)).

Lemma phi_sign (neg : bool) : phi (if neg then (- (1))%Qc else 1%Qc) = sgnF K neg.
Proof.
  unfold sgnF. destruct neg; [|apply ofQc_1].
  rewrite ofQc_opp, ofQc_1. reflexivity.
Qed.

Theorem entry_link l neg sine m c : l <= 10 -> valid_sm l sine m -> In c (default_comps l) ->
  sgnF K neg * harmonic_coeff K l m sine c * comp_scale K l c = sden (entry_of l (neg, sine, m) c).
Proof.
  intros Hl Hv Hc.
  destruct (link_tables l sine m c Hl Hv Hc) as (Eh & Er & Pr & Ed & Pd & El & Pl).
  rewrite (harmonic_coeff_split K Kf), comp_scale_eq.
  rewrite <- phi_hcoef, <- phi_hrad, <- phi_dfp, <- phi_fdf_odd.
  rewrite Eh, Er, Ed, El.
  unfold sden, entry_of, entry_with, sdiv_sqrt, smul, s_sqrt. cbn [fst snd].
  fold (coef (real_solid_harmonic l m sine) c).
  rewrite ofQc_div by (now apply Qc_pos_nz).
  rewrite (Hdiv _ _ (Qc_mul_pos _ _ Pr Pd) Pl).
  rewrite !ofQc_mult, (Hmul _ _ Pr Pd), phi_sign, ofQc_1.
  rewrite !(Fdiv_def Kf). ring.
Qed.

Lemma sph_transform_nth l carts labels i j : i < length labels -> j < length carts ->
  nth j (nth i (sph_transform K l carts labels) []) 0
  = (let lb := nth i labels dl in let c := nth j carts dc in
     sgnF K (fst (fst lb)) * harmonic_coeff K l (snd lb) (snd (fst lb)) c * comp_scale K l c).
Proof.
  intros Hi Hj. unfold sph_transform.
  rewrite (nth_map_lt _ labels i dl []) by exact Hi.
  destruct (nth i labels dl) as [[neg sine] m]. cbn [fst snd].
  rewrite (nth_map_lt _ carts j dc 0) by exact Hj. reflexivity.
Qed.

Theorem sph_transform_entry_link l carts labels i j :
  l <= 10 ->
  (forall c, In c carts -> In c (default_comps l)) ->
  (forall lb, In lb labels -> adm_label l lb) ->
  i < length labels -> j < length carts ->
  nth j (nth i (sph_transform K l carts labels) []) 0
  = sden (nth j (nth i (left_form l carts labels) []) szero).
Proof.
  intros Hl Hcs Hls Hi Hj.
  rewrite sph_transform_nth, left_form_nth by assumption. cbv zeta.
  pose proof (Hls _ (nth_In labels dl Hi)) as Hv. pose proof (Hcs _ (nth_In carts dc Hj)) as Hc.
  destruct (nth i labels dl) as [[neg sine] m]. cbn [fst snd]. unfold adm_label in Hv. cbn [fst snd] in Hv.
  now apply entry_link.
Qed.

Lemma sph_transform_shape l carts labels :
  length (sph_transform K l carts labels) = length labels
  /\ forall i, i < length labels -> length (nth i (sph_transform K l carts labels) []) = length carts.
Proof.
  unfold sph_transform. split; [apply map_length|]. intros i Hi.
  rewrite (nth_map_lt _ labels i dl []) by exact Hi. destruct (nth i labels dl) as [[neg sine] m].
  apply map_length.
Qed.

Lemma left_form_row_length l carts labels i : i < length labels ->
  length (nth i (left_form l carts labels) []) = length carts.
Proof.
  intro Hi. unfold left_form, transpose. change (map ?f (seq 0 ?n)) with (mk n f).
  rewrite nth_mk by exact Hi. now rewrite map_length, right_form_length.
Qed.

Theorem sph_transform_is_exact l carts labels :
  l <= 10 ->
  (forall c, In c carts -> In c (default_comps l)) ->
  (forall lb, In lb labels -> adm_label l lb) ->
  sph_transform K l carts labels = map (map sden) (left_form l carts labels).
Proof.
  intros Hl Hcs Hls. destruct (sph_transform_shape l carts labels) as [L1 L2].
  apply (nth_ext _ _ [] []).
  - now rewrite L1, map_length, left_form_length.
  - intros i Hi. rewrite L1 in Hi.
    rewrite (nth_map_lt _ (left_form l carts labels) i [] []) by (now rewrite left_form_length).
    apply (nth_ext _ _ 0 0).
    + now rewrite (L2 i Hi), map_length, left_form_row_length.
    + intros j Hj. rewrite (L2 i Hi) in Hj.
      rewrite (nth_map_lt _ _ j szero 0) by (now rewrite left_form_row_length).
      now apply sph_transform_entry_link.
Qed.

Theorem shell_transform_is_exact (s : shell F) :
  (forall x, fapx K x = x) -> s_l s <= 10 ->
  (forall c, In c (comps_of s) -> In c (default_comps (s_l s))) ->
  (forall lb, In lb (labels_of s) -> adm_label (s_l s) lb) ->
  shell_transform K s = map (map sden) (left_form (s_l s) (comps_of s) (labels_of s)).
Proof.
  intros Hapx Hl Hcs Hls. unfold shell_transform.
  rewrite (sph_transform_is_exact _ _ _ Hl Hcs Hls).
  rewrite map_map. apply map_ext. intro row. rewrite map_map. apply map_ext. intro x. apply Hapx.
Qed.

End Link.

Section RealInstance.
Local Open Scope R_scope.

Lemma char0_R : forall n, ofnat RK (S n) <> f0 RK.
Proof. intro n. rewrite ofnat_R. change (f0 RK) with 0. apply not_0_INR. lia. Qed.

Lemma ofZ_R z : ofZ RK z = IZR z.
Proof.
  destruct z as [|p|p]; cbn [ofZ]; [reflexivity| |]; rewrite ofnat_R, INR_IZR_INZ, positive_nat_Z; [reflexivity|].
  change (fopp RK) with Ropp. rewrite <- opp_IZR. reflexivity.
Qed.

Lemma ofQc_R q : ofQc RK q = Q2R (this q).
Proof. unfold ofQc, ofQ, Q2R. rewrite !ofZ_R. reflexivity. Qed.

Lemma ofQc_pos_R q : (0 < q)%Qc -> 0 < ofQc RK q.
Proof.
  rewrite ofQc_R. unfold Qclt. intro H. apply Qlt_Rlt in H.
  assert (E : Q2R (this 0%Qc) = 0) by (unfold Q2R; cbn; lra). now rewrite E in H.
Qed.

Lemma sqrt_mul_pos_R : sqrt_mul_pos RK.
Proof.
  intros a b Ha Hb. change (sqrt (ofQc RK a * ofQc RK b) = sqrt (ofQc RK a) * sqrt (ofQc RK b)).
  apply sqrt_mult; apply Rlt_le; now apply ofQc_pos_R.
Qed.

Lemma sqrt_div_pos_R : sqrt_div_pos RK.
Proof.
  intros a b Ha Hb. change (sqrt (ofQc RK a / ofQc RK b) = sqrt (ofQc RK a) / sqrt (ofQc RK b)).
  apply sqrt_div_alt. now apply ofQc_pos_R.
Qed.

Definition sdenR (s : surd) : R := Q2R (this (fst s)) * sqrt (Q2R (this (snd s))).

Lemma sden_R s : sden RK s = sdenR s.
Proof. unfold sden, sdenR. now rewrite !ofQc_R. Qed.

Lemma sden_R_map M : map (map (sden RK)) M = map (map sdenR) M.
Proof. apply map_ext. intro row. apply map_ext, sden_R. Qed.

Theorem sph_transform_entry_link_R l carts labels i j :
  (l <= 10)%nat ->
  (forall c, In c carts -> In c (default_comps l)) ->
  (forall lb, In lb labels -> adm_label l lb) ->
  (i < length labels)%nat -> (j < length carts)%nat ->
  nth j (nth i (sph_transform RK l carts labels) []) 0
  = sdenR (nth j (nth i (left_form l carts labels) []) szero).
Proof.
  rewrite <- sden_R. exact (sph_transform_entry_link RK RK_field char0_R sqrt_mul_pos_R sqrt_div_pos_R l carts labels i j).
Qed.

(* the hypotheses of the generic theorems are satisfiable *)
Example link_hypotheses_R :
  is_field RK /\ (forall n, ofnat RK (S n) <> f0 RK) /\ sqrt_mul_pos RK /\ sqrt_div_pos RK
  /\ (forall x, fapx RK x = x).
Proof. exact (conj RK_field (conj char0_R (conj sqrt_mul_pos_R (conj sqrt_div_pos_R fapx_id_R)))). Qed.

(* a concrete entry: d shell, default conventions, function c0 (row 2), component zz (column 5):
   the exact model says (1/2, 4), i.e. 1/2 * sqrt 4 = 1 *)
Example link_d_c0_zz_R :
  nth 5 (nth 2 (sph_transform RK 2 (default_comps 2) (default_labels 2)) []) 0 = 1.
Proof.
  rewrite sph_transform_entry_link_R.
  - assert (E : nth 5 (nth 2 (left_form 2 (default_comps 2) (default_labels 2)) []) szero
               = (Q2Qc (1 # 2), Q2Qc 4)).
    { apply injective_projections; apply Qc_is_canon; vm_compute; reflexivity. }
    rewrite E. unfold sdenR. cbn [fst snd].
    assert (E1 : Q2R (this (Q2Qc (1 # 2))) = / 2) by (unfold Q2R; cbn; lra).
    assert (E2 : Q2R (this (Q2Qc 4)) = 2 * 2) by (unfold Q2R; cbn; lra).
    rewrite E1, E2, sqrt_square by lra. lra.
  - lia.
  - auto.
  - intros lb H. now apply default_labels_adm.
  - cbn. lia.
  - cbn. lia.
Qed.
End RealInstance.
