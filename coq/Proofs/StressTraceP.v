(* Proofs/StressTraceP.v — the formulas found in the CURRENT source of
   stress_tensor.py (+ density.py), regenerated into Gen/StressTrace.v on every
   run, equal the documented formulas of Model/Stress.v: for each parameter
   case (alpha symbolic, 0, 1/2, 1; beta symbolic, 0) and each of the 9+3+9+9
   components, [equivb] by computation.  Editing a coefficient, an index or a
   special-case branch in /repo makes this file fail. *)
From Coq Require Import QArith Qcanon List Bool.
From GB Require Import Base.Field Gauss.Jets Model.Stress Proofs.StressP Gen.StressTrace.
Import ListNotations.
Local Close Scope Qc_scope.
Local Close Scope Q_scope.
Local Open Scope nat_scope.

Lemma trace_matches_spec : check_table trace_table = true.
Proof. vm_compute. reflexivity. Qed.

Section T.
Context {R : Type} (K : Fops R) (Kr : is_ring K).
Variable inj : Qc -> R.
Hypothesis Hinj : is_qhom K inj.
Variables (alpha beta : R) (G : order -> order -> R).
Hypothesis Gsym : forall a b, G a b = G b a.
Variables (n : nat) (ab : par * par) (tc : trace_case).
Hypothesis Hab : nth_error cases n = Some ab.
Hypothesis Htc : nth_error trace_table n = Some tc.
Hypothesis Ha : forall v, fst ab = Some v -> alpha = inj v.
Hypothesis Hb : forall v, snd ab = Some v -> beta = inj v.
Notation ev := (eval K inj alpha beta G).

Theorem code_computes_spec :
  (forall m c s, nth_error (t_stress tc) m = Some c -> nth_error (tab2 stress_doc) m = Some s -> ev c = ev s)
  /\ (forall m c s, nth_error (t_force tc) m = Some c -> nth_error (tab1 force_doc) m = Some s -> ev c = ev s)
  /\ (forall m c s, nth_error (t_hess tc) m = Some c -> nth_error (tab2 hess_doc) m = Some s -> ev c = ev s)
  /\ (forall m c s, nth_error (t_hess_symm tc) m = Some c -> nth_error (tab2 hess_symm) m = Some s -> ev c = ev s)
  /\ length trace_table = length cases /\ length (t_stress tc) = 9 /\ length (t_force tc) = 3
  /\ length (t_hess tc) = 9 /\ length (t_hess_symm tc) = 9.
Proof.
  exact (traced_table_correct K Kr inj Hinj alpha beta G Gsym trace_table trace_matches_spec n ab tc Hab Htc Ha Hb).
Qed.
End T.
