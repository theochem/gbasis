(* Proofs/DensityP.v — the jets of Gauss/DensityJets.v (property C06), over any field and for any assignment g
   of values to the symbols G(o1,o2): the Leibniz double-binomial sum of evaluate_deriv_density is the iterated
   product rule, and its l_x <= L_x/2 loop with factor 2/1 equals the full sum when G(a,b) = G(b,a) (symmetric
   density matrix), for every order triple; the gradient, Laplacian and Hessian formulas; soundness of the normal
   form that decides equality of jets.  Over R: non-negativity for a positive semi-definite matrix.  Over Q: the
   clip rule. *)
From Coq Require Import List Arith Bool Lia Field.
From GB Require Import Base.Field Base.Sums Gauss.DensityJets.
Import ListNotations.

Lemma binom_0_r n : binom n 0 = 1.
Proof. destruct n; reflexivity. Qed.

Lemma binom_gt n : forall k, n < k -> binom n k = 0.
Proof.
  induction n as [|n IH]; intros [|k] H; try lia; cbn [binom]; [reflexivity|].
  rewrite !IH by lia. reflexivity.
Qed.

Lemma binom_diag n : binom n n = 1.
Proof.
  induction n as [|n IH]; [reflexivity|]. cbn [binom]. rewrite IH, binom_gt by lia. reflexivity.
Qed.

Lemma binom_sym n : forall k, k <= n -> binom n (n - k) = binom n k.
Proof.
  induction n as [|n IH]; intros k Hk.
  - replace k with 0 by lia. reflexivity.
  - destruct k as [|k].
    + rewrite Nat.sub_0_r, binom_diag, binom_0_r. reflexivity.
    + change (S n - S k) with (n - k).
      destruct (Nat.eq_dec k n) as [->|Hne].
      * rewrite Nat.sub_diag. cbn [binom]. rewrite binom_diag, binom_gt by lia. reflexivity.
      * replace (n - k) with (S (n - S k)) by lia. cbn [binom].
        rewrite (IH (S k)) by lia. replace (S (n - S k)) with (n - k) by lia.
        rewrite (IH k) by lia. lia.
Qed.

Lemma div2_SS n : S (S n) / 2 = S (n / 2).
Proof. replace (S (S n)) with (n + 1 * 2) by lia. rewrite Nat.div_add by lia. lia. Qed.

Lemma oplus_comm a b : oplus a b = oplus b a.
Proof. destruct a as [[x y] z], b as [[x' y'] z']. cbn [oplus]. f_equal; [f_equal|]; lia. Qed.

Lemma bumpn_0 n x y z : bumpn 0 n (x, y, z) = (n + x, y, z).
Proof. induction n as [|n IH]; cbn [bumpn]; [reflexivity|]. rewrite IH. reflexivity. Qed.
Lemma bumpn_1 n x y z : bumpn 1 n (x, y, z) = (x, n + y, z).
Proof. induction n as [|n IH]; cbn [bumpn]; [reflexivity|]. rewrite IH. reflexivity. Qed.
Lemma bumpn_2 n x y z : bumpn 2 n (x, y, z) = (x, y, n + z).
Proof. induction n as [|n IH]; cbn [bumpn]; [reflexivity|]. rewrite IH. reflexivity. Qed.

Lemma ord_cmp_eq a b : ord_cmp a b = Eq -> a = b.
Proof.
  destruct a as [[x y] z], b as [[x' y'] z']. cbn [ord_cmp].
  destruct (Nat.compare x x') eqn:E1; try discriminate.
  destruct (Nat.compare y y') eqn:E2; try discriminate.
  intros E3. apply Nat.compare_eq in E1, E2, E3. subst. reflexivity.
Qed.

Lemma key_cmp_eq s t : key_cmp s t = Eq -> s = t.
Proof.
  destruct s as [a b], t as [a' b']. unfold key_cmp. cbn [fst snd].
  destruct (ord_cmp a a') eqn:E1; try discriminate.
  intros E2. apply ord_cmp_eq in E1, E2. subst. reflexivity.
Qed.

Section P.
Context {F : Type} (K : Fops F) (Kf : is_field K).
Add Field KF : Kf.
Local Open Scope F_scope.
Notation "0" := (f0 K) : F_scope.
Notation "1" := (f1 K) : F_scope.
Infix "+" := (fadd K) : F_scope.
Infix "*" := (fmul K) : F_scope.
Infix "-" := (fsub K) : F_scope.
Infix "/" := (fdiv K) : F_scope.
Notation "# n" := (ofnat K n) (at level 5) : F_scope.
Notation jetF := (jet F).
Notation evalK := (eval K).

Fixpoint sumF (n : nat) (f : nat -> F) : F :=
  match n with O => 0 | S n' => sumF n' f + f n' end.

Lemma sumF_S n f : sumF (S n) f = sumF n f + f n.
Proof. reflexivity. Qed.

Lemma sumF_ext n f h : (forall i, (i < n)%nat -> f i = h i) -> sumF n f = sumF n h.
Proof.
  induction n as [|n IH]; intros H; [reflexivity|]. rewrite !sumF_S.
  rewrite IH by (intros; apply H; lia). rewrite H by lia. reflexivity.
Qed.

Lemma sumF_first n f : sumF (S n) f = f O + sumF n (fun i => f (S i)).
Proof.
  induction n as [|n IH].
  - cbn [sumF]. ring.
  - rewrite sumF_S, IH, (sumF_S n). ring.
Qed.

Lemma sumF_add n f h : sumF n (fun i => f i + h i) = sumF n f + sumF n h.
Proof. induction n as [|n IH]; cbn [sumF]; [ring|]. rewrite IH. ring. Qed.

Lemma sumF_scal n c f : sumF n (fun i => c * f i) = c * sumF n f.
Proof. induction n as [|n IH]; cbn [sumF]; [ring|]. rewrite IH. ring. Qed.

Lemma sumF_refl n : forall f, sumF (S n) (fun i => f (n - i)%nat) = sumF (S n) f.
Proof.
  induction n as [|n IH]; intros f.
  - reflexivity.
  - rewrite sumF_first. rewrite Nat.sub_0_r.
    change (sumF (S n) (fun i => f (S n - S i)%nat)) with (sumF (S n) (fun i => f (n - i)%nat)).
    rewrite (IH f). rewrite (sumF_S (S n) f). ring.
Qed.

(* a sum over 0..n with t (n - i) = t i folds onto 0..n/2; the two parities are carried together so that the
   step n -> n + 2 can peel the first and the last term *)
Lemma half_sum_aux n :
  (forall t, (forall i, (i <= n)%nat -> t (n - i)%nat = t i) ->
     sumF (S n) t = sumF (S (n / 2)) (fun i => #(sfactor n i) * t i)) /\
  (forall t, (forall i, (i <= S n)%nat -> t (S n - i)%nat = t i) ->
     sumF (S (S n)) t = sumF (S (S n / 2)) (fun i => #(sfactor (S n) i) * t i)).
Proof.
  induction n as [|n [IH0 IH1]].
  - split; intros t Ht.
    + cbn. ring.
    + pose proof (Ht O ltac:(lia)) as H0. cbn in H0. cbn. rewrite H0. ring.
  - split; [exact IH1|]. intros t Ht.
    rewrite div2_SS.
    rewrite (sumF_S (S (S n)) t), (sumF_first (S n) t).
    assert (Hl : t (S (S n)) = t O).
    { rewrite <- (Ht O) by lia. rewrite Nat.sub_0_r. reflexivity. }
    rewrite Hl.
    rewrite (IH0 (fun i => t (S i))).
    2:{ intros i Hi. rewrite <- (Ht (S i)) by lia. f_equal. lia. }
    rewrite (sumF_first (S (n / 2))).
    assert (Hf : sfactor (S (S n)) O = 2%nat).
    { unfold sfactor. rewrite div2_SS. cbn [Nat.eqb]. rewrite andb_false_r. reflexivity. }
    rewrite Hf.
    assert (Hs : sumF (S (n / 2)) (fun i => #(sfactor (S (S n)) (S i)) * t (S i))
               = sumF (S (n / 2)) (fun i => #(sfactor n i) * t (S i))).
    { apply sumF_ext. intros i _. unfold sfactor. rewrite div2_SS. reflexivity. }
    rewrite Hs. cbn [ofnat]. ring.
Qed.

Lemma half_sum n t : (forall i, (i <= n)%nat -> t (n - i)%nat = t i) ->
  sumF (S n) t = sumF (S (n / 2)) (fun i => #(sfactor n i) * t i).
Proof. apply (proj1 (half_sum_aux n)). Qed.

Definition bsum (n : nat) (f : nat -> nat -> F) : F :=
  sumF (S n) (fun l => cB K n l * f l (n - l)%nat).

Lemma bsum_ext n f h : (forall i j, f i j = h i j) -> bsum n f = bsum n h.
Proof. intros H. unfold bsum. apply sumF_ext. intros i _. rewrite H. reflexivity. Qed.

Lemma cB_S n k : cB K (S n) (S k) = cB K n k + cB K n (S k).
Proof. unfold cB. cbn [binom]. apply (ofnat_add K Kf). Qed.

Lemma bsum_pascal n f : bsum (S n) f = bsum n (fun i j => f (S i) j + f i (S j)).
Proof.
  unfold bsum.
  (* left: split off l = 0, then Pascal's rule on the terms l = S i; the last term of the second sum vanishes *)
  rewrite sumF_first, Nat.sub_0_r.
  rewrite (sumF_ext (S n) _ (fun i => cB K n i * f (S i) (n - i)%nat + cB K n (S i) * f (S i) (n - i)%nat))
    by (intros i _; rewrite cB_S; cbn [Nat.sub]; ring).
  rewrite sumF_add, (sumF_S n (fun i => cB K n (S i) * f (S i) (n - i)%nat)).
  (* right: distribute, split off l = 0 of the second sum and shift its index *)
  rewrite (sumF_ext (S n) (fun l => cB K n l * (f (S l) (n - l)%nat + f l (S (n - l))))
             (fun l => cB K n l * f (S l) (n - l)%nat + cB K n l * f l (S (n - l)))) by (intros; ring).
  rewrite sumF_add, (sumF_first n (fun l => cB K n l * f l (S (n - l)))), Nat.sub_0_r.
  rewrite (sumF_ext n (fun i => cB K n (S i) * f (S i) (S (n - S i))) (fun i => cB K n (S i) * f (S i) (n - i)%nat))
    by (intros i Hi; replace (S (n - S i)) with (n - i)%nat by lia; reflexivity).
  unfold cB. rewrite !binom_0_r, (binom_gt n (S n)) by lia. cbn [ofnat]. ring.
Qed.

Lemma bsum_flip_ext n f h : (forall i j, f j i = h i j) -> bsum n f = bsum n h.
Proof.
  intros H. unfold bsum.
  rewrite <- (sumF_refl n (fun l => cB K n l * f l (n - l)%nat)).
  apply sumF_ext. intros i Hi. cbv beta.
  unfold cB. rewrite binom_sym by lia.
  replace (n - (n - i))%nat with i by lia. rewrite H. reflexivity.
Qed.

Lemma eval_app g (a b : jetF) : evalK g (a ++ b) = evalK g a + evalK g b.
Proof. induction a as [|t a IH]; cbn [app eval]; [ring|]. rewrite IH. ring. Qed.

Lemma eval_scale g c (j : jetF) : evalK g (scale K c j) = c * evalK g j.
Proof. induction j as [|t j IH]; cbn [scale map eval fst snd]; [ring|].
  unfold scale in IH. rewrite IH. ring. Qed.

Lemma eval_flat_seq g (h : nat -> jetF) n :
  evalK g (flat_map h (seq 0 n)) = sumF n (fun i => evalK g (h i)).
Proof.
  induction n as [|n IH]; [reflexivity|].
  rewrite seq_S, flat_map_app, eval_app, IH. cbn [flat_map Nat.add]. rewrite app_nil_r.
  reflexivity.
Qed.

Lemma eval_flat_scale g (c : nat -> F) (h : nat -> jetF) n :
  evalK g (flat_map (fun i => scale K (c i) (h i)) (seq 0 n)) = sumF n (fun i => c i * evalK g (h i)).
Proof. rewrite eval_flat_seq. apply sumF_ext. intros i _. apply eval_scale. Qed.

Lemma eval_map_seq g (c : nat -> F) (s : nat -> ord * ord) n :
  evalK g (map (fun i => (c i, s i)) (seq 0 n)) = sumF n (fun i => c i * g (fst (s i)) (snd (s i))).
Proof.
  induction n as [|n IH]; [reflexivity|].
  rewrite seq_S, map_app, eval_app, IH. cbn [map Nat.add eval fst snd sumF]. ring.
Qed.

Lemma eval_leib_inner g lx ly lz ix :
  evalK g (leib_inner K lx ly lz ix)
  = bsum ly (fun iy jy => bsum lz (fun iz jz => g (ix, iy, iz) ((lx - ix)%nat, jy, jz))).
Proof.
  unfold leib_inner, bsum. rewrite eval_flat_scale. apply sumF_ext. intros iy _. f_equal.
  rewrite (eval_map_seq g (fun iz => cB K lz iz)
             (fun iz => ((ix, iy, iz), ((lx - ix)%nat, (ly - iy)%nat, (lz - iz)%nat)))).
  reflexivity.
Qed.

Lemma eval_leibniz g lx ly lz :
  evalK g (leibniz K (lx, ly, lz))
  = bsum lx (fun ix jx => bsum ly (fun iy jy => bsum lz (fun iz jz => g (ix, iy, iz) (jx, jy, jz)))).
Proof.
  unfold leibniz. rewrite eval_flat_scale. unfold bsum at 1. apply sumF_ext. intros ix _.
  rewrite eval_leib_inner. reflexivity.
Qed.

(* D on jets is Dg on assignments (eval_D) *)
Definition Dg (k : nat) (g : ord -> ord -> F) : ord -> ord -> F :=
  fun a b => g (bump k a) b + g a (bump k b).
Fixpoint Dgn (k n : nat) (g : ord -> ord -> F) : ord -> ord -> F :=
  match n with O => g | S n' => Dgn k n' (Dg k g) end.

Lemma eval_D g k (j : jetF) : evalK g (D k j) = evalK (Dg k g) j.
Proof.
  unfold D. induction j as [|t j IH]; [reflexivity|].
  cbn [flat_map app eval fst snd]. rewrite IH. unfold Dg. ring.
Qed.

Lemma eval_Dn k n : forall g (j : jetF), evalK g (Dn k n j) = evalK (Dgn k n g) j.
Proof.
  induction n as [|n IH]; intros g j; cbn [Dn Dgn]; [reflexivity|].
  rewrite eval_D, IH. reflexivity.
Qed.

Lemma Dgn_bsum k n : forall G a b,
  Dgn k n G a b = bsum n (fun i j => G (bumpn k i a) (bumpn k j b)).
Proof.
  induction n as [|n IH]; intros G a b.
  - cbn [Dgn]. unfold bsum, cB. cbn [sumF binom ofnat bumpn Nat.sub]. ring.
  - cbn [Dgn]. rewrite IH, bsum_pascal. apply bsum_ext. intros i j. reflexivity.
Qed.

Theorem leibniz_drho g L : evalK g (leibniz K L) = evalK g (drho K L).
Proof.
  destruct L as [[lx ly] lz]. rewrite eval_leibniz. unfold drho, Dord. rewrite !eval_Dn.
  unfold G00. cbn [eval fst snd]. rewrite Dgn_bsum.
  transitivity (bsum lx (fun i j => Dgn 1 ly (Dgn 2 lz g) (bumpn 0 i ord0) (bumpn 0 j ord0))); [|ring].
  apply bsum_ext. intros ix jx. rewrite Dgn_bsum. apply bsum_ext. intros iy jy.
  rewrite Dgn_bsum. apply bsum_ext. intros iz jz.
  unfold ord0. rewrite !bumpn_0, !bumpn_1, !bumpn_2, !Nat.add_0_r. reflexivity.
Qed.

Theorem shortcut_leibniz g (Hs : forall a b, g a b = g b a) L :
  evalK g (shortcut K L) = evalK g (leibniz K L).
Proof.
  destruct L as [[lx ly] lz]. unfold shortcut, leibniz. rewrite !eval_flat_scale.
  set (T := fun ix => cB K lx ix * evalK g (leib_inner K lx ly lz ix)).
  rewrite (half_sum lx T).
  { apply sumF_ext. intros i _. unfold T. ring. }
  intros i Hi. unfold T. unfold cB at 1. rewrite binom_sym by lia. fold (cB K lx i). f_equal.
  rewrite !eval_leib_inner. replace (lx - (lx - i))%nat with i by lia.
  apply bsum_flip_ext. intros iy jy. cbv beta.
  apply bsum_flip_ext. intros iz jz. cbv beta. apply Hs.
Qed.

Theorem shortcut_correct g (Hs : forall a b, g a b = g b a) L :
  evalK g (shortcut K L) = evalK g (drho K L).
Proof. rewrite shortcut_leibniz by exact Hs. apply leibniz_drho. Qed.

Lemma eval_canon g (Hs : forall a b, g a b = g b a) (j : jetF) : evalK g (canon j) = evalK g j.
Proof.
  unfold canon. induction j as [|t j IH]; [reflexivity|].
  cbn [map eval fst snd]. rewrite IH. unfold canon_key.
  destruct (ord_leb (fst (snd t)) (snd (snd t))); cbn [fst snd]; [reflexivity|].
  rewrite (Hs (snd (snd t))). reflexivity.
Qed.

Ltac by_canon g Hs :=
  match goal with
  | |- eval _ _ ?a = eval _ _ ?b =>
      rewrite <- (eval_canon g Hs a), <- (eval_canon g Hs b); cbn; unfold two; ring
  end.

Theorem grad_correct g (Hs : forall a b, g a b = g b a) k : (k < 3)%nat ->
  evalK g (grad_model K k) = evalK g (drho K (eax k)).
Proof. intros Hk. destruct k as [|[|[|k]]]; try lia; by_canon g Hs. Qed.

Theorem lap_correct g (Hs : forall a b, g a b = g b a) :
  evalK g (lap_model K) = evalK g (lap_def K).
Proof. by_canon g Hs. Qed.

Theorem hess_correct g (Hs : forall a b, g a b = g b a) p q : (p < 3)%nat -> (q < 3)%nat ->
  evalK g (hess_model K p q) = evalK g (drho K (oplus (eax p) (eax q))).
Proof.
  intros Hp Hq. destruct p as [|[|[|p]]]; try lia; destruct q as [|[|[|q]]]; try lia; by_canon g Hs.
Qed.

Theorem hess_sym g p q : evalK g (hess_model K p q) = evalK g (hess_model K q p).
Proof. unfold hess_model. rewrite (oplus_comm (eax p)), (Nat.min_comm p), (Nat.max_comm p). reflexivity. Qed.

Theorem hess_trace_lap g (Hs : forall a b, g a b = g b a) :
  evalK g (hess_model K 0 0 ++ hess_model K 1 1 ++ hess_model K 2 2) = evalK g (lap_model K).
Proof. by_canon g Hs. Qed.

Theorem gked_correct g (Hs : forall a b, g a b = g b a) alpha :
  evalK g (gked_model K alpha) = evalK g (gked_def K alpha).
Proof. unfold gked_model, gked_def. rewrite !eval_app, !eval_scale, lap_correct by exact Hs. reflexivity. Qed.

Section Decide.
Hypothesis Heqb : forall x y, feqb K x y = true -> x = y.

Lemma eval_insert g c s (j : jetF) : evalK g (insert K c s j) = c * g (fst s) (snd s) + evalK g j.
Proof.
  induction j as [|t j IH]; cbn [insert eval fst snd]; [reflexivity|].
  destruct (key_cmp s (snd t)) eqn:E.
  - apply key_cmp_eq in E. subst s. cbn [eval fst snd]. ring.
  - reflexivity.
  - cbn [eval]. rewrite IH. ring.
Qed.

Lemma eval_sortj g (j : jetF) : evalK g (sortj K j) = evalK g j.
Proof.
  unfold sortj. induction j as [|t j IH]; [reflexivity|].
  cbn [fold_right]. rewrite eval_insert, IH. reflexivity.
Qed.

Lemma eval_dropz g (j : jetF) : evalK g (dropz K j) = evalK g j.
Proof.
  unfold dropz. induction j as [|t j IH]; [reflexivity|].
  cbn [filter]. destruct (feqb K (fst t) 0) eqn:E; cbn [negb eval].
  - apply Heqb in E. rewrite IH, E. ring.
  - rewrite IH. reflexivity.
Qed.

Lemma eval_normalize g (j : jetF) : evalK g (normalize K j) = evalK g j.
Proof. unfold normalize. rewrite eval_dropz, eval_sortj. reflexivity. Qed.

Lemma jet_eqb_sound g : forall a b : jetF, jet_eqb K a b = true -> evalK g a = evalK g b.
Proof.
  induction a as [|t a IH]; intros [|u b]; cbn [jet_eqb]; try discriminate; [reflexivity|].
  intros H. apply andb_prop in H as [H1 H3]. apply andb_prop in H1 as [H1 H2].
  destruct (key_cmp (snd t) (snd u)) eqn:E; try discriminate.
  apply key_cmp_eq in E. apply Heqb in H1. cbn [eval]. rewrite H1, E, (IH _ H3). reflexivity.
Qed.

Theorem jet_equiv_sound (a b : jetF) : jet_equiv_b K a b = true -> forall g, evalK g a = evalK g b.
Proof.
  intros H g. unfold jet_equiv_b in H. apply (jet_eqb_sound g) in H.
  rewrite !eval_normalize in H. exact H.
Qed.

Theorem jet_equiv_sym_sound (a b : jetF) : jet_equiv_sym_b K a b = true ->
  forall g, (forall x y, g x y = g y x) -> evalK g a = evalK g b.
Proof.
  intros H g Hs. unfold jet_equiv_sym_b in H. apply jet_equiv_sound with (g := g) in H.
  rewrite !eval_canon in H by exact Hs. exact H.
Qed.
End Decide.
End P.

From Coq Require Import Reals Lra.
Section PSD.
Local Open Scope R_scope.
Variable n : nat.                    (* number of basis functions *)
Variable P : nat -> nat -> R.        (* density matrix *)
Variable phi : ord -> nat -> R.      (* derivative o of basis function a at the point *)

Fixpoint rsum (m : nat) (f : nat -> R) : R :=
  match m with O => 0 | S k => rsum k f + f k end.
Definition quad (v : nat -> R) : R := rsum n (fun a => rsum n (fun b => P a b * v a * v b)).
(* the number the symbol G(o1,o2) stands for *)
Definition Gval (o1 o2 : ord) : R := rsum n (fun a => rsum n (fun b => P a b * phi o1 a * phi o2 b)).

Lemma rsum_ext m f h : (forall i, (i < m)%nat -> f i = h i) -> rsum m f = rsum m h.
Proof.
  induction m as [|m IH]; intros H; [reflexivity|]. cbn [rsum].
  rewrite IH by (intros; apply H; lia). rewrite H by lia. reflexivity.
Qed.
Lemma rsum_add m f h : rsum m (fun i => f i + h i) = rsum m f + rsum m h.
Proof. induction m as [|m IH]; cbn [rsum]; [lra|]. rewrite IH. lra. Qed.
Lemma rsum_0 m : rsum m (fun _ => 0) = 0.
Proof. induction m as [|m IH]; cbn [rsum]; lra. Qed.
Lemma rsum_swap m k (f : nat -> nat -> R) :
  rsum m (fun a => rsum k (fun b => f a b)) = rsum k (fun b => rsum m (fun a => f a b)).
Proof.
  induction m as [|m IH]; cbn [rsum].
  - rewrite rsum_0. reflexivity.
  - rewrite IH, <- rsum_add. reflexivity.
Qed.

(* for a symmetric matrix the intended assignment is symmetric: the hypothesis of the jet theorems holds *)
Lemma Gval_sym : (forall a b, P a b = P b a) -> forall o1 o2, Gval o1 o2 = Gval o2 o1.
Proof.
  intros HP o1 o2. unfold Gval. rewrite rsum_swap.
  apply rsum_ext. intros a _. apply rsum_ext. intros b _. rewrite (HP b a). ring.
Qed.

Hypothesis PSD : forall v, 0 <= quad v.

Theorem density_nonneg : 0 <= Gval ord0 ord0.
Proof. exact (PSD (phi ord0)). Qed.

Theorem ked_nonneg :
  0 <= / 2 * (Gval (eax 0) (eax 0) + Gval (eax 1) (eax 1) + Gval (eax 2) (eax 2)).
Proof.
  pose proof (PSD (phi (eax 0))) as H0. pose proof (PSD (phi (eax 1))) as H1.
  pose proof (PSD (phi (eax 2))) as H2. unfold quad in *. unfold Gval. lra.
Qed.
End PSD.

(* a PSD matrix exists (identity on one function), so the hypothesis is satisfiable *)
Example psd_satisfiable : forall v : nat -> R, (0 <= quad 1 (fun _ _ => 1) v)%R.
Proof. intros v. unfold quad. cbn [rsum]. pose proof (Rle_0_sqr (v O)) as H. unfold Rsqr in H. lra. Qed.

From Coq Require Import QArith Qabs Lqa.
Section Clip.
Local Open Scope Q_scope.

(* density.py:107-110 and 687-690 on one value: error when x < 0 and |x| > thr, else max(x, 0) *)
Definition clip (thr x : Q) : option Q :=
  if Qlt_le_dec x 0
  then (if Qlt_le_dec thr (Qabs x) then None else Some 0)
  else Some x.

Theorem clip_spec thr x : 0 <= thr ->
  (x < - thr -> clip thr x = None) /\
  (- thr <= x /\ x < 0 -> clip thr x = Some 0) /\
  (0 <= x -> clip thr x = Some x) /\
  (clip thr x = None -> x < - thr).
Proof.
  intros Ht. unfold clip. repeat split.
  - intros H. destruct (Qlt_le_dec x 0) as [Hn|Hn]; [|lra].
    destruct (Qlt_le_dec thr (Qabs x)) as [Hb|Hb]; [reflexivity|].
    rewrite Qabs_neg in Hb by lra. lra.
  - intros [H1 H2]. destruct (Qlt_le_dec x 0) as [Hn|Hn]; [|lra].
    destruct (Qlt_le_dec thr (Qabs x)) as [Hb|Hb]; [|reflexivity].
    rewrite Qabs_neg in Hb by lra. lra.
  - intros H. destruct (Qlt_le_dec x 0) as [Hn|Hn]; [lra|reflexivity].
  - destruct (Qlt_le_dec x 0) as [Hn|Hn]; [|discriminate].
    destruct (Qlt_le_dec thr (Qabs x)) as [Hb|Hb]; [|discriminate].
    intros _. rewrite Qabs_neg in Hb by lra. lra.
Qed.

(* the array form: the code tests only the minimum, then clips every element *)
Fixpoint qmin (x : Q) (l : list Q) : Q :=
  match l with [] => x | y :: r => qmin (if Qlt_le_dec y x then y else x) r end.
Definition clip_arr (thr : Q) (x : Q) (r : list Q) : option (list Q) :=
  let m := qmin x r in
  if Qlt_le_dec m 0
  then (if Qlt_le_dec thr (Qabs m) then None
        else Some (map (fun y => if Qlt_le_dec y 0 then 0 else y) (x :: r)))
  else Some (map (fun y => if Qlt_le_dec y 0 then 0 else y) (x :: r)).

Lemma qmin_le r : forall x, qmin x r <= x /\ (forall y, In y r -> qmin x r <= y).
Proof.
  induction r as [|z r IH]; intros x; cbn [qmin].
  - split; [lra|]. intros y [].
  - destruct (Qlt_le_dec z x) as [H|H]; destruct (IH z) as [A B]; destruct (IH x) as [A' B'].
    + split; [lra|]. intros y [->|Hy]; [exact A|apply B; exact Hy].
    + split; [exact A'|]. intros y [<-|Hy]; [lra|apply B'; exact Hy].
Qed.

Lemma qmin_in r : forall x, qmin x r = x \/ In (qmin x r) r.
Proof.
  induction r as [|z r IH]; intros x; cbn [qmin]; [left; reflexivity|].
  destruct (Qlt_le_dec z x) as [H|H].
  - destruct (IH z) as [E|E]; [right; left; symmetry; exact E|right; right; exact E].
  - destruct (IH x) as [E|E]; [left; exact E|right; right; exact E].
Qed.

Theorem clip_arr_spec thr x r : 0 <= thr ->
  (clip_arr thr x r = None <-> exists y, In y (x :: r) /\ y < - thr).
Proof.
  intros Ht. unfold clip_arr. destruct (qmin_le r x) as [A B]. split.
  - intros H. destruct (Qlt_le_dec (qmin x r) 0) as [Hn|Hn]; [|discriminate].
    destruct (Qlt_le_dec thr (Qabs (qmin x r))) as [Hb|Hb]; [|discriminate].
    rewrite Qabs_neg in Hb by lra. exists (qmin x r). split; [|lra].
    destruct (qmin_in r x) as [E|E]; [left; symmetry; exact E|right; exact E].
  - intros [y [Hy Hlt]].
    assert (Hm : qmin x r <= y) by (destruct Hy as [<-|Hy]; [exact A|apply B; exact Hy]).
    destruct (Qlt_le_dec (qmin x r) 0) as [Hn|Hn]; [|lra].
    destruct (Qlt_le_dec thr (Qabs (qmin x r))) as [Hb|Hb]; [reflexivity|].
    rewrite Qabs_neg in Hb by lra. lra.
Qed.
End Clip.
