(* Proofs/DensityRealP.v — the formal jets of C06 / C15 are REAL derivatives.

   Gauss/DensityJets.v, Gauss/Jets.v, Proofs/DensityP.v, Proofs/StressP.v reason about formal symbols
   G(o1,o2) = sum_ab P_ab phi^{o1}_a phi^{o2}_b where phi^o_a is an ARBITRARY family of numbers and the total
   derivative is DEFINED by the product rule.  Here the family is instantiated with honest derivatives over R
   (Coquelicot):   phi^o_a (x,y,z) := pd3 o (f a) x y z   (iterated partial derivatives, Gauss/Bridge3D.v)
   of functions f a : R^3 -> R all of whose mixed partials are differentiable ([smooth3]); the functions
   [bfun basis a] that the evaluation MODEL returns are such functions, and pd3 o (bfun basis a) is what the
   derivative MODEL returns (Proofs/SameFunRealP.closed_deriv_model).

   Families H o1 o2 : R^3 -> R whose partial derivatives are given by the product rule are called [closed]; for
   them pd3 L (H 0 0) = DensityJets.eval (drho L) for every order triple.  The family GR of a density matrix,
   G(o1,o2)(r) = sum_ab P_ab pd3 o1 f_a(r) pd3 o2 f_b(r) = d^o1_r d^o2_r' gamma(r,r') at r' = r, is closed; C06 and
   C15 over R, positivity for P = C C^T and the instance f_a := bfun basis a follow; an s + p basis with a rank-2 P
   shows that the hypotheses hold somewhere.
   Nothing is partial: items 1-4 of the task are proved at full strength (all orders, all well-formed bases).
   Assumptions: the classical real numbers of the standard library (as in every Coquelicot development). *)
From Coq Require Import Reals Lra Lia List Arith QArith Qcanon Qreals.
From Coquelicot Require Import Coquelicot.
From GB Require Import Base.Field Base.FNum Base.Tables Base.Sums Model.Eval Model.Shell
  Gauss.Bridge3D Proofs.ScreeningP Proofs.SameFunP Proofs.SameFunRealP Proofs.CoreBlockP.
From GB Require Gauss.DensityJets Gauss.Jets Model.Stress Proofs.DensityP Proofs.StressP.
Import ListNotations.
Local Close Scope Qc_scope.
Local Close Scope Q_scope.
Open Scope R_scope.

Module DJ := Gauss.DensityJets.
Module DP := Proofs.DensityP.
Module SJ := Gauss.Jets.
Module ST := Model.Stress.
Module SP := Proofs.StressP.

Notation ord := DJ.ord.
Notation ord0 := DJ.ord0.
Notation bump := DJ.bump.
Notation eax := DJ.eax.
Notation rsum := DP.rsum.

Definition axn (k : SJ.axis) : nat := match k with SJ.AX => 0 | SJ.AY => 1 | SJ.AZ => 2 end%nat.
Lemma osucc_bump k (o : ord) : SJ.osucc k o = bump (axn k) o.
Proof. destruct k, o as [[a b] c]; reflexivity. Qed.

Definition is_pderiv (k : SJ.axis) (F : R -> R -> R -> R) (x y z d : R) : Prop :=
  match k with
  | SJ.AX => is_derive (fun t => F t y z) x d
  | SJ.AY => is_derive (fun t => F x t z) y d
  | SJ.AZ => is_derive (fun t => F x y t) z d
  end.
Lemma is_pderiv_eq k F x y z d d' : is_pderiv k F x y z d -> d = d' -> is_pderiv k F x y z d'.
Proof. intros D <-. exact D. Qed.
Lemma is_pderiv_const k c x y z : is_pderiv k (fun _ _ _ => c) x y z 0.
Proof. destruct k; apply (is_derive_const c). Qed.
Lemma is_pderiv_plus k F G x y z dF dG :
  is_pderiv k F x y z dF -> is_pderiv k G x y z dG ->
  is_pderiv k (fun x y z => F x y z + G x y z) x y z (dF + dG).
Proof. intros HF HG. destruct k; exact (is_derive_plus _ _ _ _ _ HF HG). Qed.
Lemma is_pderiv_scal k c F x y z d :
  is_pderiv k F x y z d -> is_pderiv k (fun x y z => c * F x y z) x y z (c * d).
Proof. intros HF. destruct k; exact (is_derive_scal _ _ c _ HF). Qed.

Lemma is_pderiv_rsum k m (h : nat -> R -> R -> R -> R) (d : nat -> R) x y z :
  (forall i, (i < m)%nat -> is_pderiv k (h i) x y z (d i)) ->
  is_pderiv k (fun x y z => rsum m (fun i => h i x y z)) x y z (rsum m d).
Proof.
  induction m as [|m IH]; intro Hd; cbn [DP.rsum].
  - apply is_pderiv_const.
  - apply (is_pderiv_plus k (fun x y z => rsum m (fun i => h i x y z)) (h m)).
    + apply IH. intros i Hi. apply Hd. lia.
    + apply Hd. lia.
Qed.

Lemma is_derive_eq (f : R -> R) (x l l' : R) : is_derive f x l -> l = l' -> is_derive f x l'.
Proof. intros D <-. exact D. Qed.
Lemma is_derive_bilin (c : R) (u v : R -> R) (x du dv : R) :
  is_derive u x du -> is_derive v x dv ->
  is_derive (fun t => c * u t * v t) x (c * du * v x + c * u x * dv).
Proof.
  intros Hu Hv.
  apply (is_derive_ext (fun t => scal c (mult (u t) (v t)))).
  { intro t. unfold scal, mult; cbn. unfold mult; cbn. ring. }
  refine (is_derive_eq _ _ _ _
            (is_derive_scal (fun t => mult (u t) (v t)) x c _ (is_derive_mult u v x du dv Hu Hv Rmult_comm)) _).
  unfold scal, mult, plus; cbn. unfold mult; cbn. ring.
Qed.
Lemma is_pderiv_bilin k c U V x y z dU dV :
  is_pderiv k U x y z dU -> is_pderiv k V x y z dV ->
  is_pderiv k (fun x y z => c * U x y z * V x y z) x y z (c * dU * V x y z + c * U x y z * dV).
Proof. intros HU HV. destruct k; exact (is_derive_bilin c _ _ _ _ _ HU HV). Qed.

Definition pdo (o : ord) (F : R -> R -> R -> R) : R -> R -> R -> R :=
  pd3 (fst (fst o)) (snd (fst o)) (snd o) F.

Definition smooth3 (F : R -> R -> R -> R) : Prop :=
  forall ox oy oz x y z,
    is_derive (fun t => pd3 ox oy oz F t y z) x (pd3 (S ox) oy oz F x y z)
    /\ is_derive (fun t => pd3 ox oy oz F x t z) y (pd3 ox (S oy) oz F x y z)
    /\ is_derive (fun t => pd3 ox oy oz F x y t) z (pd3 ox oy (S oz) F x y z).

Lemma is_pderiv_xyz (F : R -> R -> R -> R) (d : SJ.axis -> R) x y z :
  (forall k, is_pderiv k F x y z (d k)) <->
  is_derive (fun t => F t y z) x (d SJ.AX) /\ is_derive (fun t => F x t z) y (d SJ.AY)
  /\ is_derive (fun t => F x y t) z (d SJ.AZ).
Proof.
  split.
  - intro H. exact (conj (H SJ.AX) (conj (H SJ.AY) (H SJ.AZ))).
  - intros [X [Y Z]] k. destruct k; assumption.
Qed.

Lemma smooth3_pderiv F :
  smooth3 F <-> forall k o x y z, is_pderiv k (pdo o F) x y z (pdo (bump (axn k) o) F x y z).
Proof.
  split.
  - intros S k [[ox oy] oz] x y z. revert k. apply is_pderiv_xyz. apply (S ox oy oz x y z).
  - intros H ox oy oz x y z.
    apply (is_pderiv_xyz (pd3 ox oy oz F) (fun k => pdo (bump (axn k) (ox, oy, oz)) F x y z)).
    intro k. apply (H k (ox, oy, oz)).
Qed.
Lemma smooth3_ext F H : (forall x y z, F x y z = H x y z) -> smooth3 F -> smooth3 H.
Proof.
  intro E. apply (tower3_ext (fun ox oy oz => pd3 ox oy oz F)). intros. now apply pd3_ext.
Qed.

Theorem smooth3_dfun (d : fdescR) : smooth3 (dfun d).
Proof.
  apply (smooth3_ext (fun x y z => fsumR (map (fun t => t_w t * gfun (t_g t) x y z) d))).
  - intros x y z. symmetry. apply dfun_terms.
  - apply (smooth_pd3_fsum d t_w (fun t => gfun (t_g t))). intros t _. apply smooth_pd3_cprim.
Qed.

(* the functions the evaluation MODEL returns *)
Theorem smooth3_bfun (basis : list (shell R)) (I : nat) :
  List.Forall shell_wf basis -> (I < nfun basis)%nat -> smooth3 (bfun basis I).
Proof.
  intros W HI. apply (smooth3_ext (dfun (nth I (descr_basis RK basis) []))); [|apply smooth3_dfun].
  intros x y z. symmetry. now apply bfun_is_dfun.
Qed.

Definition fam := ord -> ord -> R -> R -> R -> R.
(* the values of the symbols at one point: an assignment in the sense of DensityJets.eval *)
Definition at_pt (H : fam) (x y z : R) : ord -> ord -> R := fun a b => H a b x y z.
Definition DF (k : nat) (H : fam) : fam :=
  fun a b x y z => H (bump k a) b x y z + H a (bump k b) x y z.
Fixpoint DFn (k n : nat) (H : fam) : fam :=
  match n with O => H | S n' => DFn k n' (DF k H) end.
(* the derivative of every member along every axis IS what the product rule says *)
Definition closed (H : fam) : Prop :=
  forall k a b x y z, is_pderiv k (H a b) x y z (DF (axn k) H a b x y z).

Lemma DF_is_Dg k H x y z : at_pt (DF k H) x y z = DP.Dg RK k (at_pt H x y z).
Proof. reflexivity. Qed.
Lemma DFn_is_Dgn k n : forall H x y z, at_pt (DFn k n H) x y z = DP.Dgn RK k n (at_pt H x y z).
Proof. induction n as [|n IH]; intros H x y z; cbn [DFn DP.Dgn]; [reflexivity|]. now rewrite IH. Qed.

Lemma bump_comm k k' (o : ord) : bump k (bump k' o) = bump k' (bump k o).
Proof.
  destruct o as [[a b] c].
  destruct k as [|[|k]]; destruct k' as [|[|k']]; reflexivity.
Qed.

Lemma closed_DF k H : closed H -> closed (DF k H).
Proof.
  intros C k' a b x y z.
  refine (is_pderiv_eq _ _ _ _ _ _ _
            (is_pderiv_plus k' _ _ x y z _ _ (C k' (bump k a) b x y z) (C k' a (bump k b) x y z)) _).
  unfold DF. rewrite (bump_comm k (axn k') a), (bump_comm k (axn k') b). ring.
Qed.
Lemma closed_DFn k n : forall H, closed H -> closed (DFn k n H).
Proof. induction n as [|n IH]; intros H C; cbn [DFn]; [exact C|]. apply IH. now apply closed_DF. Qed.

Definition line (k : SJ.axis) (F : R -> R -> R -> R) (x y z t : R) : R :=
  match k with SJ.AX => F t y z | SJ.AY => F x t z | SJ.AZ => F x y t end.

Lemma closed_line k H : closed H -> forall a b x y z t,
  is_derive (line k (H a b) x y z) t (line k (DF (axn k) H a b) x y z t).
Proof. intros C a b x y z t. destruct k; [apply (C SJ.AX)|apply (C SJ.AY)|apply (C SJ.AZ)]. Qed.

Lemma Derive_n_line k n : forall H, closed H -> forall a b x y z t,
  Derive_n (line k (H a b) x y z) n t = line k (DFn (axn k) n H a b) x y z t.
Proof.
  induction n as [|n IH]; intros H C a b x y z t; [reflexivity|].
  rewrite Derive_n_S_inner. cbn [DFn]. rewrite <- (IH (DF (axn k) H) (closed_DF _ H C)).
  apply Derive_n_ext. intro s. apply is_derive_unique. now apply closed_line.
Qed.

Theorem pd3_closed (H : fam) : closed H -> forall lx ly lz a b x y z,
  pd3 lx ly lz (H a b) x y z = DFn 0 lx (DFn 1 ly (DFn 2 lz H)) a b x y z.
Proof.
  intros C lx ly lz a b x y z. unfold pd3.
  etransitivity; [|exact (Derive_n_line SJ.AX lx _ (closed_DFn 1 ly _ (closed_DFn 2 lz H C)) a b x y z x)].
  apply Derive_n_ext. intro x'.
  etransitivity; [|exact (Derive_n_line SJ.AY ly _ (closed_DFn 2 lz H C) a b x' y z y)].
  apply Derive_n_ext. intro y'. exact (Derive_n_line SJ.AZ lz H C a b x' y' z z).
Qed.

Theorem pd3_is_drho (H : fam) : closed H -> forall lx ly lz x y z,
  pd3 lx ly lz (H ord0 ord0) x y z = DJ.eval RK (at_pt H x y z) (DJ.drho RK (lx, ly, lz)).
Proof.
  intros C lx ly lz x y z. rewrite pd3_closed by exact C.
  unfold DJ.drho, DJ.Dord. rewrite !(DP.eval_Dn RK RK_field).
  unfold DJ.G00. cbn [DJ.eval fst snd].
  change (DFn 0 lx (DFn 1 ly (DFn 2 lz H)) ord0 ord0 x y z)
    with (at_pt (DFn 0 lx (DFn 1 ly (DFn 2 lz H))) x y z ord0 ord0).
  rewrite !DFn_is_Dgn. cbn [fmul fadd f1 f0 RK]. ring.
Qed.

Section RealDensity.
Variable n : nat.                          (* number of basis functions *)
Variable P : nat -> nat -> R.              (* density matrix *)
Variable f : nat -> R -> R -> R -> R.      (* the basis functions, as functions on R^3 *)

(* phi^o_a at the point (x,y,z): the honest mixed partial derivative *)
Definition phiR (x y z : R) : ord -> nat -> R :=
  fun o a => pd3 (fst (fst o)) (snd (fst o)) (snd o) (f a) x y z.
Definition GR : fam := fun o1 o2 x y z => DP.Gval n P (phiR x y z) o1 o2.
(* the electron density, as a function of the point *)
Definition rhoR (x y z : R) : R := rsum n (fun a => rsum n (fun b => P a b * f a x y z * f b x y z)).
(* the one-electron reduced density matrix gamma(r, r') *)
Definition gammaR (x y z x' y' z' : R) : R :=
  rsum n (fun a => rsum n (fun b => P a b * f a x y z * f b x' y' z')).

Lemma GR_00 x y z : GR ord0 ord0 x y z = rhoR x y z.
Proof. reflexivity. Qed.
Lemma GR_unfold o1 o2 x y z :
  GR o1 o2 x y z = rsum n (fun a => rsum n (fun b =>
     P a b * pd3 (fst (fst o1)) (snd (fst o1)) (snd o1) (f a) x y z
           * pd3 (fst (fst o2)) (snd (fst o2)) (snd o2) (f b) x y z)).
Proof. reflexivity. Qed.

Lemma GR_sym : (forall a b, P a b = P b a) -> forall o1 o2 x y z, GR o1 o2 x y z = GR o2 o1 x y z.
Proof. intros HP o1 o2 x y z. apply DP.Gval_sym. exact HP. Qed.

Hypothesis Hf : forall a, (a < n)%nat -> smooth3 (f a).

(* the product rule that DEFINES the total derivative of the jets is the derivative *)
Theorem GR_closed : closed GR.
Proof.
  intros k o1 o2 x y z.
  eapply is_pderiv_eq.
  - apply (is_pderiv_rsum k n (fun i x y z => rsum n (fun j => P i j * pdo o1 (f i) x y z * pdo o2 (f j) x y z))).
    intros i Hi. apply (is_pderiv_rsum k n (fun j x y z => P i j * pdo o1 (f i) x y z * pdo o2 (f j) x y z)).
    intros j Hj. apply is_pderiv_bilin; now apply smooth3_pderiv, Hf.
  - unfold DF, GR, DP.Gval. rewrite <- DP.rsum_add. apply DP.rsum_ext. intros i _. apply DP.rsum_add.
Qed.
End RealDensity.

Lemma rsum_scal_l m c (h : nat -> R) : rsum m (fun i => c * h i) = c * rsum m h.
Proof. induction m as [|m IH]; cbn [DP.rsum]; [ring|]. rewrite IH. ring. Qed.
Lemma rsum_scal_r m c (h : nat -> R) : rsum m (fun i => h i * c) = rsum m h * c.
Proof. induction m as [|m IH]; cbn [DP.rsum]; [ring|]. rewrite IH. ring. Qed.

Lemma rsum_fsum m (f : nat -> R) : rsum m f = fsumR (Tables.mk m f).
Proof. induction m as [|m IH]; [reflexivity|]. cbn [DP.rsum]. now rewrite IH, (fsum_mk_S RK RK_field). Qed.

Lemma pd3_rsum m (c : nat -> R) (h : nat -> R -> R -> R -> R) :
  (forall i, (i < m)%nat -> smooth3 (h i)) ->
  forall ox oy oz x y z,
  pd3 ox oy oz (fun x y z => rsum m (fun i => c i * h i x y z)) x y z
  = rsum m (fun i => c i * pd3 ox oy oz (h i) x y z).
Proof.
  intros Hh ox oy oz x y z. rewrite rsum_fsum.
  rewrite (pd3_ext ox oy oz _ (fun x y z => fsumR (map (fun i => c i * h i x y z) (seq 0 m))) x y z
             (fun x y z => rsum_fsum m _)).
  apply (pd3_fsum (seq 0 m) c h). intros i Hi. apply Hh. apply in_seq in Hi. lia.
Qed.

Section Gamma.
Variable n : nat.
Variable P : nat -> nat -> R.
Variable f : nat -> R -> R -> R -> R.
Hypothesis Hf : forall a, (a < n)%nat -> smooth3 (f a).

(* G(o1,o2)(r) = d^o1_r d^o2_r' gamma(r, r') at r' = r: what evaluate_deriv_reduced_density_matrix stands for *)
Theorem GR_is_deriv_gamma ox oy oz ox' oy' oz' x y z :
  GR n P f (ox, oy, oz) (ox', oy', oz') x y z
  = pd3 ox oy oz (fun x1 y1 z1 =>
      pd3 ox' oy' oz' (fun x2 y2 z2 => gammaR n P f x1 y1 z1 x2 y2 z2) x y z) x y z.
Proof.
  rewrite GR_unfold. cbn [fst snd].
  rewrite (pd3_ext ox oy oz _
     (fun x1 y1 z1 => rsum n (fun a =>
        rsum n (fun b => P a b * pd3 ox' oy' oz' (f b) x y z) * f a x1 y1 z1))).
  - rewrite (pd3_rsum n (fun a => rsum n (fun b => P a b * pd3 ox' oy' oz' (f b) x y z)) f Hf).
    apply DP.rsum_ext. intros a _. rewrite <- rsum_scal_r. apply DP.rsum_ext. intros b _. ring.
  - intros x1 y1 z1.
    rewrite (pd3_ext ox' oy' oz' _
       (fun x2 y2 z2 => rsum n (fun b => rsum n (fun a => P a b * f a x1 y1 z1) * f b x2 y2 z2))).
    + rewrite (pd3_rsum n (fun b => rsum n (fun a => P a b * f a x1 y1 z1)) f Hf).
      rewrite (DP.rsum_ext n _ (fun b => rsum n (fun a => P a b * pd3 ox' oy' oz' (f b) x y z * f a x1 y1 z1))).
      * rewrite DP.rsum_swap. apply DP.rsum_ext. intros a _.
        exact (rsum_scal_r n (f a x1 y1 z1) (fun b => P a b * pd3 ox' oy' oz' (f b) x y z)).
      * intros b _. rewrite <- rsum_scal_r. apply DP.rsum_ext. intros a _. ring.
    + intros x2 y2 z2. unfold gammaR. rewrite DP.rsum_swap. apply DP.rsum_ext. intros b _.
      rewrite <- rsum_scal_r. reflexivity.
Qed.
End Gamma.

(* first partial derivative along axis k (any k >= 2 is z, as in [bump]) *)
Definition pdk (k : nat) (F : R -> R -> R -> R) (x y z : R) : R :=
  match k with
  | 0%nat => Derive (fun t => F t y z) x
  | 1%nat => Derive (fun t => F x t z) y
  | _ => Derive (fun t => F x y t) z
  end.

Lemma pdk_ext k F F' x y z : (forall x y z, F x y z = F' x y z) -> pdk k F x y z = pdk k F' x y z.
Proof. intro E. destruct k as [|[|k]]; cbn [pdk]; apply Derive_ext; intro t; apply E. Qed.

Lemma pdk_closed (H : fam) : closed H -> forall k a b x y z, pdk k (H a b) x y z = DF k H a b x y z.
Proof.
  intros C k a b x y z.
  destruct k as [|[|k]]; cbn [pdk]; apply is_derive_unique; [apply (C SJ.AX)|apply (C SJ.AY)|apply (C SJ.AZ)].
Qed.

Lemma pdk_pd3 F x y z :
  pdk 0 F x y z = pd3 1 0 0 F x y z /\ pdk 1 F x y z = pd3 0 1 0 F x y z /\ pdk 2 F x y z = pd3 0 0 1 F x y z.
Proof. repeat split. Qed.

Lemma DJeval_ext (g g' : ord -> ord -> R) (j : DJ.jet R) :
  (forall a b, g a b = g' a b) -> DJ.eval RK g j = DJ.eval RK g' j.
Proof. intro E. induction j as [|t j IH]; cbn [DJ.eval]; [reflexivity|]. now rewrite IH, E. Qed.

Lemma eval_drho2 (g : ord -> ord -> R) p q : (p < 3)%nat -> (q < 3)%nat ->
  DJ.eval RK g (DJ.drho RK (DJ.oplus (eax p) (eax q))) = DP.Dg RK p (DP.Dg RK q g) ord0 ord0.
Proof.
  intros Hp Hq.
  destruct p as [|[|[|p]]]; try lia; destruct q as [|[|[|q]]]; try lia;
    unfold DP.Dg; cbn; ring.
Qed.
Lemma eval_drho1 (g : ord -> ord -> R) k : (k < 3)%nat ->
  DJ.eval RK g (DJ.drho RK (eax k)) = DP.Dg RK k g ord0 ord0.
Proof. intros Hk. destruct k as [|[|[|k]]]; try lia; unfold DP.Dg; cbn; ring. Qed.

Section C06Real.
Variable n : nat.
Variable P : nat -> nat -> R.
Variable f : nat -> R -> R -> R -> R.
Hypothesis Hf : forall a, (a < n)%nat -> smooth3 (f a).
Notation G := (GR n P f).
Notation rho := (rhoR n P f).
Let Gc : closed G := GR_closed n P f Hf.

(* evaluate_density: the model IS rho(r) = sum_ab P_ab f_a(r) f_b(r) *)
Theorem density_real x y z : DJ.eval RK (at_pt G x y z) (DJ.density_model RK) = rho x y z.
Proof. unfold DJ.density_model, DJ.G00. cbn [DJ.eval fst snd]. unfold at_pt. rewrite GR_00.
  cbn [fmul fadd f1 f0 RK]. ring. Qed.

Theorem pd3_rho_is_drho lx ly lz x y z :
  pd3 lx ly lz rho x y z = DJ.eval RK (at_pt G x y z) (DJ.drho RK (lx, ly, lz)).
Proof. exact (pd3_is_drho G Gc lx ly lz x y z). Qed.

(* the Leibniz sum of the docstring (any P) *)
Theorem leibniz_real lx ly lz x y z :
  DJ.eval RK (at_pt G x y z) (DJ.leibniz RK (lx, ly, lz)) = pd3 lx ly lz rho x y z.
Proof. rewrite pd3_rho_is_drho. apply (DP.leibniz_drho RK RK_field). Qed.

Hypothesis Psym : forall a b, P a b = P b a.
Let Gs x y z : forall a b, at_pt G x y z a b = at_pt G x y z b a :=
  fun a b => GR_sym n P f Psym a b x y z.

(* evaluate_deriv_density as written (l_x <= L_x/2 loop, factor 2/1): EVERY order triple *)
Theorem deriv_density_real lx ly lz x y z :
  DJ.eval RK (at_pt G x y z) (DJ.shortcut RK (lx, ly, lz)) = pd3 lx ly lz rho x y z.
Proof. rewrite pd3_rho_is_drho. apply (DP.shortcut_correct RK RK_field _ (Gs x y z)). Qed.

(* evaluate_density_gradient: component k is the derivative of rho along axis k *)
Theorem grad_real x y z :
  is_derive (fun t => rho t y z) x (DJ.eval RK (at_pt G x y z) (DJ.grad_model RK 0))
  /\ is_derive (fun t => rho x t z) y (DJ.eval RK (at_pt G x y z) (DJ.grad_model RK 1))
  /\ is_derive (fun t => rho x y t) z (DJ.eval RK (at_pt G x y z) (DJ.grad_model RK 2)).
Proof.
  rewrite !(DP.grad_correct RK RK_field _ (Gs x y z)) by lia.
  rewrite !eval_drho1 by lia.
  apply (is_pderiv_xyz rho (fun k => DF (axn k) G ord0 ord0 x y z)). intro k. apply Gc.
Qed.
Corollary grad_real_pdk k x y z : (k < 3)%nat ->
  DJ.eval RK (at_pt G x y z) (DJ.grad_model RK k) = pdk k rho x y z.
Proof.
  intro Hk. destruct (grad_real x y z) as [X [Y Z]].
  destruct k as [|[|[|k]]]; try lia; cbn [pdk]; symmetry; apply is_derive_unique; assumption.
Qed.

(* evaluate_density_laplacian *)
Theorem lap_real x y z : DJ.eval RK (at_pt G x y z) (DJ.lap_model RK) = lap3 rho x y z.
Proof.
  rewrite (DP.lap_correct RK RK_field _ (Gs x y z)). unfold DJ.lap_def.
  rewrite !(DP.eval_app RK RK_field). unfold lap3. rewrite !pd3_rho_is_drho.
  cbn [fadd RK bump eax ord0 DJ.bump DJ.eax DJ.ord0]. ring.
Qed.

(* evaluate_density_hessian: entry (p, q) is d/dr_p d/dr_q rho *)
Theorem hess_real p q x y z : (p < 3)%nat -> (q < 3)%nat ->
  DJ.eval RK (at_pt G x y z) (DJ.hess_model RK p q) = pdk p (pdk q rho) x y z.
Proof.
  intros Hp Hq. rewrite (DP.hess_correct RK RK_field _ (Gs x y z)) by assumption.
  rewrite eval_drho2 by assumption.
  rewrite (pdk_ext p (pdk q rho) (DF q G ord0 ord0)) by (intros x' y' z'; exact (pdk_closed G Gc q ord0 ord0 x' y' z')).
  rewrite (pdk_closed (DF q G) (closed_DF q G Gc)). reflexivity.
Qed.

(* symmetry of the second partial derivatives of rho (Schwarz), from hess_sym *)
Theorem schwarz_rho p q x y z : (p < 3)%nat -> (q < 3)%nat ->
  pdk p (pdk q rho) x y z = pdk q (pdk p rho) x y z.
Proof. intros Hp Hq. rewrite <- !hess_real by assumption. apply DP.hess_sym. Qed.

Theorem hess_trace_real x y z :
  pdk 0 (pdk 0 rho) x y z + pdk 1 (pdk 1 rho) x y z + pdk 2 (pdk 2 rho) x y z = lap3 rho x y z.
Proof.
  rewrite <- lap_real, <- (DP.hess_trace_lap RK RK_field _ (Gs x y z)), !(DP.eval_app RK RK_field).
  rewrite !hess_real by lia. cbn [fadd RK]. ring.
Qed.

(* positive-definite kinetic energy density t_+ = 1/2 sum_ab P_ab grad f_a . grad f_b *)
Definition tplusR (x y z : R) : R :=
  / 2 * (rsum n (fun a => rsum n (fun b => P a b * pdk 0 (f a) x y z * pdk 0 (f b) x y z))
         + rsum n (fun a => rsum n (fun b => P a b * pdk 1 (f a) x y z * pdk 1 (f b) x y z))
         + rsum n (fun a => rsum n (fun b => P a b * pdk 2 (f a) x y z * pdk 2 (f b) x y z))).

Lemma GR_eax k x y z : (k < 3)%nat ->
  G (eax k) (eax k) x y z = rsum n (fun a => rsum n (fun b => P a b * pdk k (f a) x y z * pdk k (f b) x y z)).
Proof. intro Hk. destruct k as [|[|[|k]]]; try lia; reflexivity. Qed.

Theorem ked_real x y z : DJ.eval RK (at_pt G x y z) (DJ.ked_model RK) = tplusR x y z.
Proof.
  unfold DJ.ked_model. cbn [DJ.eval fst snd]. unfold at_pt, tplusR. rewrite !GR_eax by lia.
  unfold DJ.half, DJ.two. cbn [fmul fadd fdiv f1 f0 RK]. field.
Qed.

Theorem gked_real alpha x y z :
  DJ.eval RK (at_pt G x y z) (DJ.gked_model RK alpha) = tplusR x y z + alpha * lap3 rho x y z.
Proof.
  unfold DJ.gked_model. rewrite (DP.eval_app RK RK_field), (DP.eval_scale RK RK_field), ked_real, lap_real.
  reflexivity.
Qed.
End C06Real.

Definition injR (q : Qc) : R := Q2R (this q).
Lemma injR_qhom : SJ.is_qhom RK injR.
Proof.
  unfold SJ.is_qhom, injR. split; [|split].
  - cbn. unfold Q2R. cbn. field.
  - intros a b. cbn [fadd RK]. rewrite <- Q2R_plus. apply Qeq_eqR. exact (Qred_correct (this a + this b)).
  - intros a b. cbn [fmul RK]. rewrite <- Q2R_mult. apply Qeq_eqR. exact (Qred_correct (this a * this b)).
Qed.
Lemma injR_half : injR ST.qhalf = / 2.
Proof. unfold injR, ST.qhalf, Q2R. cbn. field. Qed.
Definition RKr : is_ring RK := F_R RK_field.

Lemma is_pderiv_pdk k F x y z d : is_pderiv k F x y z d -> pdk (axn k) F x y z = d.
Proof. destruct k; cbn [is_pderiv axn pdk]; apply is_derive_unique. Qed.

Section C15Real.
Variable H : fam.
Hypothesis Hc : closed H.
Variables alpha beta : R.

Definition evR (l : SJ.comb) (x y z : R) : R := SJ.eval RK injR alpha beta (at_pt H x y z) l.
Definition evqR (l : SJ.qcomb) (x y z : R) : R := SJ.evalq RK injR (at_pt H x y z) l.

Theorem evR_dk (l : SJ.comb) k x y z : is_pderiv k (evR l) x y z (evR (SJ.dk k l) x y z).
Proof.
  induction l as [|[c [a b]] r IH].
  - apply is_pderiv_const.
  - assert (E : evR (SJ.dk k ((c, (a, b)) :: r)) x y z
                = SJ.cev RK injR alpha beta c * DF (axn k) H a b x y z + evR (SJ.dk k r) x y z).
    { unfold evR. cbn [SJ.dk flat_map SJ.dkey map app SJ.eval fst snd]. unfold SJ.kev. cbn [fst snd].
      rewrite !osucc_bump. unfold at_pt, DF.
      cbn [fmul fadd RK]. fold (SJ.dk k r). ring. }
    refine (is_pderiv_eq _ _ _ _ _ _ _ _ (eq_sym E)).
    apply (is_pderiv_plus k (fun x y z => SJ.cev RK injR alpha beta c * H a b x y z) (evR r)); [|exact IH].
    apply is_pderiv_scal, Hc.
Qed.

Hypothesis Hs : forall a b x y z, H a b x y z = H b a x y z.
Let Gs x y z : forall a b : SJ.order, at_pt H x y z a b = at_pt H x y z b a := fun a b => Hs a b x y z.

Definition sigmaR (i j : SJ.axis) : R -> R -> R -> R := evR (ST.stress_doc i j).
Definition forceR (j : SJ.axis) : R -> R -> R -> R := evR (ST.force_doc j).
Definition ehessR (j k : SJ.axis) : R -> R -> R -> R := evR (ST.hess_doc j k).
Definition ehess_symR (j k : SJ.axis) : R -> R -> R -> R := evR (ST.hess_symm j k).

Theorem stress_sym_real i j x y z : sigmaR i j x y z = sigmaR j i x y z.
Proof. apply (SP.stress_sym RK RKr injR injR_qhom alpha beta _ (Gs x y z)). Qed.

(* F_j = - sum_i d/dr_i sigma_ij, the derivatives being real derivatives of the component functions *)
Theorem force_is_minus_div_stress_real j x y z :
  ex_derive (fun t => sigmaR SJ.AX j t y z) x
  /\ ex_derive (fun t => sigmaR SJ.AY j x t z) y
  /\ ex_derive (fun t => sigmaR SJ.AZ j x y t) z
  /\ forceR j x y z
     = - (Derive (fun t => sigmaR SJ.AX j t y z) x + Derive (fun t => sigmaR SJ.AY j x t z) y
          + Derive (fun t => sigmaR SJ.AZ j x y t) z).
Proof.
  pose proof (evR_dk (ST.stress_doc SJ.AX j) SJ.AX x y z) as DX.
  pose proof (evR_dk (ST.stress_doc SJ.AY j) SJ.AY x y z) as DY.
  pose proof (evR_dk (ST.stress_doc SJ.AZ j) SJ.AZ x y z) as DZ.
  cbn [is_pderiv] in DX, DY, DZ.
  split; [eexists; exact DX|]. split; [eexists; exact DY|]. split; [eexists; exact DZ|].
  transitivity (- (evR (SJ.dk SJ.AX (ST.stress_doc SJ.AX j)) x y z + evR (SJ.dk SJ.AY (ST.stress_doc SJ.AY j)) x y z
                   + evR (SJ.dk SJ.AZ (ST.stress_doc SJ.AZ j)) x y z)).
  - unfold forceR, evR. rewrite (SP.force_eq_def RK RKr injR injR_qhom alpha beta _ (Gs x y z)).
    unfold ST.force_def. rewrite (SJ.eval_lopp RK RKr injR injR_qhom), (SJ.eval_lsum RK RKr).
    cbn [SJ.axes fold_right fadd fopp f0 RK]. ring.
  - f_equal. f_equal; [f_equal|]; symmetry; apply is_derive_unique; assumption.
Qed.

(* H_jk = d/dr_k F_j *)
Theorem hessian_is_jacobian_of_force_real j k x y z :
  is_pderiv k (forceR j) x y z (ehessR j k x y z).
Proof.
  unfold ehessR, evR. rewrite (SP.hess_eq_def RK RKr injR injR_qhom alpha beta _ (Gs x y z)).
  unfold ST.hess_def. apply (evR_dk (ST.force_doc j) k x y z).
Qed.

(* symmetric=True: half the sum of the Jacobian of the force and its transpose *)
Theorem hessian_symmetrised_real j k x y z :
  ehess_symR j k x y z = / 2 * (pdk (axn k) (forceR j) x y z + pdk (axn j) (forceR k) x y z)
  /\ ehess_symR j k x y z = ehess_symR k j x y z.
Proof.
  split.
  - unfold ehess_symR, evR. rewrite (SP.hessian_symmetrised RK RKr injR injR_qhom), injR_half.
    rewrite (is_pderiv_pdk _ _ _ _ _ _ (hessian_is_jacobian_of_force_real j k x y z)).
    rewrite (is_pderiv_pdk _ _ _ _ _ _ (hessian_is_jacobian_of_force_real k j x y z)). reflexivity.
  - apply (SP.hess_symm_sym RK RKr injR injR_qhom alpha beta _ (Gs x y z)).
Qed.
End C15Real.

(* the stress tensor in terms of the real density: sigma_ij(r) = -alpha G(e_i,e_j)(r) + (1-alpha) G(e_i+e_j,0)(r)
   - delta_ij beta/2 Laplacian(rho)(r), the Laplacian being that of the real function rho *)
Arguments injR : simpl never.
Section C15Density.
Variable n : nat.
Variable P : nat -> nat -> R.
Variable f : nat -> R -> R -> R -> R.
Hypothesis Hf : forall a, (a < n)%nat -> smooth3 (f a).
Hypothesis Psym : forall a b, P a b = P b a.
Variables alpha beta : R.
Notation G := (GR n P f).
Notation rho := (rhoR n P f).

Lemma evq_lap_rho x y z : evqR G ST.lap_rho x y z = lap3 rho x y z.
Proof.
  unfold lap3. rewrite !(pd3_rho_is_drho n P f Hf).
  unfold evqR, ST.lap_rho, SJ.lsum, SJ.axes, ST.rho, ST.sym.
  cbn [flat_map SJ.dkq SJ.dkey map app SJ.evalq fst snd SJ.osucc SJ.o0]. unfold SJ.kev. cbn [fst snd].
  rewrite (SJ.inj_1 RK injR injR_qhom).
  unfold DJ.drho, DJ.Dord, DJ.G00. cbn [DJ.Dn DJ.D flat_map app DJ.eval fst snd DJ.bump DJ.ord0].
  cbn [fmul fadd f1 f0 RK]. unfold SJ.o0, DJ.ord0. ring.
Qed.

Theorem stress_formula_real i j x y z :
  sigmaR G alpha beta i j x y z
  = - alpha * G (SJ.e_ i) (SJ.e_ j) x y z + (1 - alpha) * G (SJ.oadd (SJ.e_ i) (SJ.e_ j)) SJ.o0 x y z
    - (if ST.aeqb i j then / 2 * beta * lap3 rho x y z else 0).
Proof.
  unfold sigmaR, evR.
  rewrite (SP.stress_formula RK RKr injR injR_qhom alpha beta (at_pt G x y z)).
  fold (evqR G ST.lap_rho x y z). rewrite evq_lap_rho, injR_half. reflexivity.
Qed.
End C15Density.

Definition gram (r : nat) (C : nat -> nat -> R) : nat -> nat -> R :=
  fun a b => rsum r (fun m => C a m * C b m).

Lemma gram_sym r C a b : gram r C a b = gram r C b a.
Proof. unfold gram. apply DP.rsum_ext. intros m _. ring. Qed.

Lemma gram_psd n r C v : 0 <= DP.quad n (gram r C) v.
Proof.
  induction r as [|r IH].
  - unfold DP.quad, gram. cbn [DP.rsum].
    rewrite (DP.rsum_ext n _ (fun _ => 0)); [rewrite DP.rsum_0; lra|].
    intros a _. rewrite (DP.rsum_ext n _ (fun _ => 0)); [apply DP.rsum_0|]. intros b _. ring.
  - set (S := rsum n (fun a => C a r * v a)).
    assert (E : DP.quad n (gram (Datatypes.S r) C) v = DP.quad n (gram r C) v + S * S).
    { unfold DP.quad, gram. cbn [DP.rsum].
      unfold S at 1. rewrite <- rsum_scal_r, <- DP.rsum_add. apply DP.rsum_ext. intros a _.
      unfold S. rewrite <- rsum_scal_l, <- DP.rsum_add. apply DP.rsum_ext. intros b _. ring. }
    rewrite E. pose proof (Rle_0_sqr S) as H2. unfold Rsqr in H2. lra.
Qed.

Section Positivity.
Variable n r : nat.
Variable C : nat -> nat -> R.
Variable f : nat -> R -> R -> R -> R.

Theorem rho_nonneg_real x y z : 0 <= rhoR n (gram r C) f x y z.
Proof. exact (DP.density_nonneg n (gram r C) (phiR f x y z) (gram_psd n r C)). Qed.
Theorem ked_nonneg_real x y z : 0 <= tplusR n (gram r C) f x y z.
Proof. exact (DP.ked_nonneg n (gram r C) (phiR f x y z) (gram_psd n r C)). Qed.
End Positivity.

(* symbols, density, kinetic energy density of a basis: f_a := bfun basis a, the number evaluate_basis_model
   returns for function a at the point; phi^o_a := pd3 o (bfun basis a), the number evaluate_deriv_basis_model
   returns (bdfun, jet_instance below) *)
Definition Gb (basis : list (shell R)) (P : nat -> nat -> R) : fam := GR (nfun basis) P (bfun basis).
Definition rhob (basis : list (shell R)) (P : nat -> nat -> R) : R -> R -> R -> R :=
  rhoR (nfun basis) P (bfun basis).
Definition tplusb (basis : list (shell R)) (P : nat -> nat -> R) : R -> R -> R -> R :=
  tplusR (nfun basis) P (bfun basis).
Definition gammab (basis : list (shell R)) (P : nat -> nat -> R) : R -> R -> R -> R -> R -> R -> R :=
  gammaR (nfun basis) P (bfun basis).

Section Instance.
Variable basis : list (shell R).
Hypothesis W : List.Forall shell_wf basis.
Variable P : nat -> nat -> R.

Lemma Hfb : forall a, (a < nfun basis)%nat -> smooth3 (bfun basis a).
Proof. intros a Ha. now apply smooth3_bfun. Qed.

(* the jets instantiated with real derivatives.  (a) the numbers phi^o_a are what the derivative MODEL
   returns; (b) G(o1,o2)(r) is the double sum over the density matrix of these numbers; (c) the product rule
   that DEFINES the total derivative of a symbol is its real partial derivative along each axis *)
Theorem jet_instance :
  (forall ox oy oz a x y z, (a < nfun basis)%nat ->
     phiR (bfun basis) x y z (ox, oy, oz) a = bdfun basis (ox, oy, oz) a x y z)
  /\ (forall ox oy oz ox' oy' oz' x y z,
        Gb basis P (ox, oy, oz) (ox', oy', oz') x y z
        = rsum (nfun basis) (fun a => rsum (nfun basis) (fun b =>
            P a b * bdfun basis (ox, oy, oz) a x y z * bdfun basis (ox', oy', oz') b x y z)))
  /\ (forall o1 o2 x y z,
        is_derive (fun t => Gb basis P o1 o2 t y z) x
                  (Gb basis P (bump 0 o1) o2 x y z + Gb basis P o1 (bump 0 o2) x y z)
        /\ is_derive (fun t => Gb basis P o1 o2 x t z) y
                  (Gb basis P (bump 1 o1) o2 x y z + Gb basis P o1 (bump 1 o2) x y z)
        /\ is_derive (fun t => Gb basis P o1 o2 x y t) z
                  (Gb basis P (bump 2 o1) o2 x y z + Gb basis P o1 (bump 2 o2) x y z)).
Proof.
  split; [|split].
  - intros ox oy oz a x y z Ha. unfold phiR. cbn [fst snd]. symmetry. now apply closed_deriv_model.
  - intros ox oy oz ox' oy' oz' x y z. unfold Gb. rewrite GR_unfold. cbn [fst snd].
    apply DP.rsum_ext. intros a Ha. apply DP.rsum_ext. intros b Hb.
    now rewrite !closed_deriv_model.
  - intros o1 o2 x y z. apply (is_pderiv_xyz (Gb basis P o1 o2) (fun k => DF (axn k) (Gb basis P) o1 o2 x y z)).
    intro k. apply (GR_closed (nfun basis) P (bfun basis) Hfb).
Qed.

Lemma Gb_closed : closed (Gb basis P).
Proof. exact (GR_closed (nfun basis) P (bfun basis) Hfb). Qed.
End Instance.

Definition ex_shell_s : shell R := mkShell R 0 0 0 0 [1] [[1]] false [] [].
Definition ex_basis_sp : list (shell R) := [ex_shell_s; ex_shell_p].
(* a rank-2 density matrix C C^T on the four functions *)
Definition ex_C (a m : nat) : R := match m with O => 1 | _ => INR a end.
Definition ex_P : nat -> nat -> R := gram 2 ex_C.

Example ex_sp_hypotheses :
  List.Forall shell_wf ex_basis_sp /\ nfun ex_basis_sp = 4%nat
  /\ (forall a b, ex_P a b = ex_P b a) /\ (forall v, 0 <= DP.quad 4 ex_P v).
Proof.
  split; [|split; [|split]].
  - constructor; [apply default_shell_wf; [reflexivity|cbn; lia|reflexivity]|].
    constructor; [apply default_shell_wf; [reflexivity|cbn; lia|reflexivity]|constructor].
  - unfold nfun, ex_basis_sp, descr_basis. cbn [map concat]. rewrite !app_length, !descr_length, !nrows_eq.
    reflexivity.
  - intros a b. apply gram_sym.
  - intro v. apply gram_psd.
Qed.

(* the theorems apply to it: e.g. the second derivative d^2/dxdz of the model's formula is that of the real density *)
Example ex_sp_deriv_density x y z :
  DJ.eval RK (at_pt (Gb ex_basis_sp ex_P) x y z) (DJ.shortcut RK (1, 0, 1)%nat)
  = pd3 1 0 1 (rhob ex_basis_sp ex_P) x y z
  /\ 0 <= rhob ex_basis_sp ex_P x y z.
Proof.
  destruct ex_sp_hypotheses as [W [N [Ps _]]]. split.
  - apply (deriv_density_real (nfun ex_basis_sp) ex_P (bfun ex_basis_sp) (Hfb ex_basis_sp W) Ps).
  - apply rho_nonneg_real.
Qed.

