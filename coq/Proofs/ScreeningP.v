(* Proofs/ScreeningP.v — lemmas about the screening model (Model/Screening.v).

   Part 1 (any field): what screening does to blocks and to the assembled matrix.
   Part 2 (the reals, [RK]): the decision is the documented one, is monotone in the tolerance,
   depends on the exponents through their minima only, and is conservative for s shells. *)
From Coq Require Import List Arith Lia Bool Field.
From GB Require Import Base.Field Base.FNum Base.Tables Model.Shell Model.MomentInt
  Model.Spherical Model.Assembly Model.Overlap Model.Screening Proofs.OverlapP Proofs.BlockP Proofs.CoreSumP.
Import ListNotations.

Section Generic.
Context {F : Type} (K : Fops F).
Local Open Scope F_scope.
Notation "0" := (f0 K) : F_scope.
Infix "+" := (fadd K) : F_scope.
Infix "*" := (fmul K) : F_scope.

Definition map2 {A B} (h : A -> B) : list (list A) -> list (list B) := map (map h).
Definition map4 {A B} (h : A -> B) : list (list (list (list A))) -> list (list (list (list B))) :=
  map (map (map (map h))).
Definition zf : F -> F := fun _ => 0.

Lemma no_tol_no_screen_dec sa sb : is_screened K None sa sb = false.
Proof. reflexivity. Qed.
Lemma no_tol_no_screen_block sa sb : overlap_block_screened K None sa sb = overlap_block K sa sb.
Proof. reflexivity. Qed.
Lemma no_tol_no_screen_integral basis T :
  overlap_integral_screened K basis T None = overlap_integral K basis T.
Proof. reflexivity. Qed.

Lemma kept_block tol sa sb :
  is_screened K tol sa sb = false -> overlap_block_screened K tol sa sb = overlap_block K sa sb.
Proof. intros H. unfold overlap_block_screened. now rewrite H. Qed.

Lemma removed_block tol sa sb :
  is_screened K tol sa sb = true -> overlap_block_screened K tol sa sb = zero_block K sa sb.
Proof. intros H. unfold overlap_block_screened. now rewrite H. Qed.

(* also out of range: each level's default [] has the next level's default as its entries *)
Lemma zero_block_entry sa sb m1 c1 m2 c2 : nth4 K m1 c1 m2 c2 (zero_block K sa sb) = 0.
Proof.
  unfold nth4, zero_block.
  rewrite nth_mk_or. destruct (m1 <? nseg sa); [|now rewrite !nth_nil].
  rewrite nth_mk_or. destruct (c1 <? length (comps_of sa)); [|now rewrite !nth_nil].
  rewrite nth_mk_or. destruct (m2 <? nseg sb); [|now rewrite nth_nil].
  rewrite nth_mk_or. now destruct (c2 <? length (comps_of sb)).
Qed.

Lemma zero_block_shape sa sb :
  length (zero_block K sa sb) = nseg sa /\
  (forall m1, m1 < nseg sa -> length (nth m1 (zero_block K sa sb) []) = length (comps_of sa) /\
   forall c1, c1 < length (comps_of sa) ->
     length (nth c1 (nth m1 (zero_block K sa sb) []) []) = nseg sb /\
     forall m2, m2 < nseg sb ->
       length (nth m2 (nth c1 (nth m1 (zero_block K sa sb) []) []) []) = length (comps_of sb)).
Proof.
  unfold zero_block. split; [apply mk_length|]. intros m1 H1. rewrite nth_mk by exact H1.
  split; [apply mk_length|]. intros c1 H2. rewrite nth_mk by exact H2.
  split; [apply mk_length|]. intros m2 H3. rewrite nth_mk by exact H3. apply mk_length.
Qed.

Lemma zero_block_is_zeroed sa sb : zero_block K sa sb = map4 zf (overlap_block K sa sb).
Proof.
  unfold overlap_block, mm_block. cbn [map hd]. unfold block_of, map4, zero_block.
  cbv zeta. rewrite !combine_length, !length_norms, !Nat.min_id.
  rewrite map_mk. apply mk_ext; intros m1 _.
  rewrite map_mk. apply mk_ext; intros c1 _.
  rewrite map_mk. apply mk_ext; intros m2 _.
  rewrite map_mk. apply mk_ext; intros c2 _. reflexivity.
Qed.

Lemma overlap_block_as_mk sa sb :
  overlap_block K sa sb
  = mk (nseg sa) (fun m => mk (length (comps_of sa)) (fun c => mk (nseg sb) (fun m' =>
      mk (length (comps_of sb)) (fun c' => nth4 K m c m' c' (overlap_block K sa sb))))).
Proof. apply block_of_as_mk. Qed.

End Generic.

Section Assembled.
Context {F : Type} (K : Fops F) (Kf : is_field K).
Add Field KFs : Kf.
Local Open Scope F_scope.
Notation "0" := (f0 K) : F_scope.
Infix "+" := (fadd K) : F_scope.
Infix "*" := (fmul K) : F_scope.

Section Lift.
(* a linear map on entries commutes with every step of base_two_symm's block processing *)
Variable h : F -> F.
Hypothesis Hadd : forall x y, h (x + y) = h x + h y.
Hypothesis Hsc : forall t x, h (t * x) = t * h x.
Hypothesis H0 : h 0 = 0.

Notation normaliseF := (normalise K (fmul K)).
Notation tleft := (transform_left 0 (fadd K) (fmul K)).
Notation tright := (transform_right 0 (fadd K) (fmul K)).

Lemma normalise_nat n1 n2 blk : normaliseF n1 n2 (map4 h blk) = map4 h (normaliseF n1 n2 blk).
Proof.
  unfold normalise, map4.
  rewrite combine_map_r, !map_map. apply map_ext; intros [nrow1 b1]; cbn [fst snd].
  rewrite combine_map_r, !map_map. apply map_ext; intros [x1 b2]; cbn [fst snd].
  rewrite combine_map_r, !map_map. apply map_ext; intros [nrow2 b3]; cbn [fst snd].
  rewrite combine_map_r, !map_map. apply map_ext; intros [x2 e]; cbn [fst snd].
  now rewrite Hsc.
Qed.

Lemma slab_zero_nat x : slab_zero 0 (map2 h x) = map2 h (slab_zero 0 x).
Proof.
  unfold slab_zero, map2. rewrite !map_map. apply map_ext; intros r.
  rewrite !map_map. apply map_ext; intros _. now rewrite H0.
Qed.
Lemma slab_scale_nat t x : slab_scale (fmul K) t (map2 h x) = map2 h (slab_scale (fmul K) t x).
Proof.
  unfold slab_scale, map2. rewrite !map_map. apply map_ext; intros r.
  rewrite !map_map. apply map_ext; intros e. now rewrite Hsc.
Qed.
Lemma slab_add_nat x y :
  slab_add (fadd K) (map2 h x) (map2 h y) = map2 h (slab_add (fadd K) x y).
Proof.
  unfold slab_add, map2. rewrite combine_map_both, !map_map. apply map_ext; intros [r1 r2]; cbn [fst snd].
  rewrite combine_map_both, !map_map. apply map_ext; intros [e1 e2]; cbn [fst snd]. now rewrite Hadd.
Qed.

Lemma fold_slab_nat z (L : list (F * list (list F))) :
  fold_right (slab_add (fadd K)) (map2 h z)
    (map (fun '(t, sl) => slab_scale (fmul K) t sl) (map (fun p => (fst p, map2 h (snd p))) L))
  = map2 h (fold_right (slab_add (fadd K)) z (map (fun '(t, sl) => slab_scale (fmul K) t sl) L)).
Proof.
  induction L as [|[t sl] L IH]; cbn [map fold_right fst snd]; [reflexivity|].
  now rewrite IH, slab_scale_nat, slab_add_nat.
Qed.

Lemma transform_left_nat T blk : tleft T (map4 h blk) = map4 h (tleft T blk).
Proof.
  unfold transform_left, map4. rewrite !map_map. apply map_ext; intros b1.
  rewrite !map_map. apply map_ext; intros trow.
  change (map (map (map h))) with (map (map2 h)). rewrite combine_map_r.
  replace (hd [] (map (map2 h) b1)) with (map2 h (hd [] b1)) by (now destruct b1).
  rewrite slab_zero_nat. apply fold_slab_nat.
Qed.

Lemma asum_nat (L : list (F * F)) :
  asum 0 (fadd K) (map (fun '(t, x) => t * x) (map (fun p => (fst p, h (snd p))) L))
  = h (asum 0 (fadd K) (map (fun '(t, x) => t * x) L)).
Proof.
  unfold asum. induction L as [|[t x] L IH]; cbn [map fold_right fst snd]; [now rewrite H0|].
  now rewrite IH, Hadd, Hsc.
Qed.

Lemma apply_rows_nat T v :
  apply_rows 0 (fadd K) (fmul K) T (map h v) = map h (apply_rows 0 (fadd K) (fmul K) T v).
Proof.
  unfold apply_rows. rewrite map_map. apply map_ext; intros trow.
  rewrite combine_map_r. apply asum_nat.
Qed.

Lemma transform_right_nat T blk : tright T (map4 h blk) = map4 h (tright T blk).
Proof.
  unfold transform_right, map4. rewrite !map_map. apply map_ext; intros b1.
  rewrite !map_map. apply map_ext; intros b2. rewrite !map_map. apply map_ext; intros row.
  apply apply_rows_nat.
Qed.

Lemma flatten_block_nat (blk : list (list (list (list F)))) :
  flatten_block (map4 h blk) = map2 h (flatten_block blk).
Proof.
  unfold flatten_block, map4, map2. induction blk as [|b1 blk IH]; cbn [map flat_map]; [reflexivity|].
  rewrite map_app, IH. f_equal. rewrite !map_map. apply map_ext; intros b2.
  now rewrite concat_map.
Qed.

Lemma shell_block_nat sph1 sph2 T1 T2 n1 n2 blk :
  shell_block K 0 (fadd K) (fmul K) sph1 sph2 T1 T2 n1 n2 (map4 h blk)
  = map2 h (shell_block K 0 (fadd K) (fmul K) sph1 sph2 T1 T2 n1 n2 blk).
Proof.
  unfold shell_block. rewrite normalise_nat.
  destruct sph1, sph2; rewrite ?transform_left_nat, ?transform_right_nat; apply flatten_block_nat.
Qed.
End Lift.

Notation pblockF := (pblock K 0 (fadd K) (fmul K)).

Lemma kept_pblock tol p1 p2 :
  is_screened K tol (p_shell p1) (p_shell p2) = false ->
  pblockF (overlap_block_screened K tol) p1 p2 = pblockF (overlap_block K) p1 p2.
Proof. intros H. unfold pblock. now rewrite kept_block. Qed.

Lemma removed_pblock tol p1 p2 :
  is_screened K tol (p_shell p1) (p_shell p2) = true ->
  pblockF (overlap_block_screened K tol) p1 p2 = map2 (zf K) (pblockF (overlap_block K) p1 p2).
Proof.
  intros H. unfold pblock. rewrite removed_block by exact H. rewrite zero_block_is_zeroed.
  apply shell_block_nat; intros; unfold zf; ring.
Qed.

(* the unscreened processed block of shells i, j of a basis, and the model's decision for them *)
Definition ublock (basis : list (shell F)) (i j : nat) : list (list F) :=
  let ps := map (prep K) basis in
  pblockF (overlap_block K) (nth i ps (dummy_p K)) (nth j ps (dummy_p K)).
Definition pair_screened (tol : option F) (basis : list (shell F)) (i j : nat) : bool :=
  let ps := map (prep K) basis in
  is_screened K tol (p_shell (nth i ps (dummy_p K))) (p_shell (nth j ps (dummy_p K))).

Lemma overlap_integral_blocks basis :
  overlap_integral K basis None = two_symm_blocks 0 (length basis) (ublock basis).
Proof. unfold overlap_integral. rewrite two_symm_integral_unfold. cbv zeta. now rewrite map_length. Qed.

(* The assembled screened matrix is assembled, by the same triangle assembly, from the unscreened
   processed blocks of the kept pairs and from all-zero matrices of the same shape for the removed pairs. *)
Theorem screened_assembly basis T tol :
  overlap_integral_screened K basis T tol =
  let m := two_symm_blocks 0 (length basis) (fun i j =>
             if pair_screened tol basis i j then map2 (zf K) (ublock basis i j) else ublock basis i j) in
  match T with None => m | Some t => lincomb2 0 (fadd K) (fmul K) t t m end.
Proof.
  unfold overlap_integral_screened. rewrite two_symm_integral_unfold. cbv zeta. rewrite map_length.
  rewrite (two_symm_blocks_ext_le 0 (length basis) _ (fun i j =>
             if pair_screened tol basis i j then map2 (zf K) (ublock basis i j) else ublock basis i j));
    [reflexivity|].
  intros i j _ _ _. unfold pair_screened, ublock. cbv zeta.
  destruct (is_screened K tol _ _) eqn:E; [now apply removed_pblock|now apply kept_pblock].
Qed.

Lemma zeroed_entries (m : list (list F)) r c : nth c (nth r (map2 (zf K) m) []) 0 = 0.
Proof.
  unfold map2. change (@nil F) with (map (zf K) (@nil F)). rewrite (map_nth (map (zf K))).
  exact (map_nth (zf K) _ 0 c).
Qed.

End Assembled.

From Coq Require Import Reals Lra Psatz RealField.
Local Open Scope R_scope.

Definition Rleb (x y : R) : bool := if Rle_dec x y then true else false.
Definition Reqb (x y : R) : bool := if Req_EM_T x y then true else false.

(* the model's number interface at the real numbers, with the real sqrt / exp / ln / PI *)
Definition RK : Fops R :=
  mkFops R 0 1 Rplus Rmult Rminus Ropp Rdiv Rinv Rleb Reqb PI sqrt exp ln (fun _ _ => 0) (fun x => x).

Lemma RK_field : is_field RK.
Proof. exact Rfield. Qed.

Lemma Rleb_true x y : Rleb x y = true <-> x <= y.
Proof. unfold Rleb. destruct (Rle_dec x y); split; intros; auto; discriminate. Qed.
Lemma Rleb_false x y : Rleb x y = false <-> y < x.
Proof. unfold Rleb. destruct (Rle_dec x y); split; intros; auto; try discriminate; lra. Qed.

Definition is_min (m : R) (l : list R) : Prop := In m l /\ forall x, In x l -> m <= x.

Lemma is_min_unique m m' l : is_min m l -> is_min m' l -> m = m'.
Proof. intros [H1 H2] [H3 H4]. apply Rle_antisym; auto. Qed.

Lemma fmin2_spec x y : (fmin2 RK x y = x \/ fmin2 RK x y = y) /\ fmin2 RK x y <= x /\ fmin2 RK x y <= y.
Proof.
  unfold fmin2. cbn [fleb RK].
  destruct (Rleb x y) eqn:E; [apply Rleb_true in E|apply Rleb_false in E]; repeat split; auto; lra.
Qed.

Lemma fold_min_is_min r : forall x, is_min (fold_left (fmin2 RK) r x) (x :: r).
Proof.
  induction r as [|y r IH]; intros x; cbn [fold_left].
  - split; [now left|]. intros z [<-|[]]. lra.
  - destruct (IH (fmin2 RK x y)) as [Hin Hle], (fmin2_spec x y) as [Hc [Hx Hy]]. split.
    + destruct Hin as [E|Hin]; [|now do 2 right].
      rewrite <- E. destruct Hc as [-> | ->]; [now left|right; now left].
    + pose proof (Hle _ (or_introl eq_refl)) as Hm.
      intros z [<-|[<-|Hz]]; [lra|lra|]. apply Hle. now right.
Qed.

Lemma fmin_list_is_min l : l <> [] -> is_min (fmin_list RK l) l.
Proof. destruct l as [|x r]; [congruence|]. intros _. apply fold_min_is_min. Qed.

Definition pos_exps (s : shell R) : Prop := s_exps s <> [] /\ forall x, In x (s_exps s) -> 0 < x.

Lemma min_exp_is_min s : pos_exps s -> is_min (min_exp RK s) (s_exps s).
Proof. intros [H _]. now apply fmin_list_is_min. Qed.

Lemma min_exp_eq s m : is_min m (s_exps s) -> min_exp RK s = m.
Proof.
  intros H. apply (is_min_unique _ _ (s_exps s)); [|exact H].
  apply fmin_list_is_min. destruct H as [Hin _]. intros E. now rewrite E in Hin.
Qed.

Lemma min_exp_pos s : pos_exps s -> 0 < min_exp RK s.
Proof. intros H. destruct (min_exp_is_min s H) as [A _]. destruct H as [_ Hp]. now apply Hp. Qed.

Lemma dist2_R sa sb :
  dist2 RK sa sb = (s_x sb - s_x sa) * (s_x sb - s_x sa) + (s_y sb - s_y sa) * (s_y sb - s_y sa)
                   + (s_z sb - s_z sa) * (s_z sb - s_z sa).
Proof. reflexivity. Qed.

Lemma cutoff2_R tol sa sb :
  cutoff2 RK tol sa sb
  = - (min_exp RK sa + min_exp RK sb) / (min_exp RK sa * min_exp RK sb) * ln tol.
Proof. reflexivity. Qed.

Lemma dist2_nonneg sa sb : 0 <= dist2 RK sa sb.
Proof.
  rewrite dist2_R. generalize (s_x sb - s_x sa) (s_y sb - s_y sa) (s_z sb - s_z sa). intros a b c. nra.
Qed.

Lemma is_screened_R tol sa sb :
  is_screened RK (Some tol) sa sb = true
  <-> 0 < tol /\ 0 <= cutoff2 RK tol sa sb /\ cutoff2 RK tol sa sb < dist2 RK sa sb.
Proof.
  unfold is_screened. cbn [fleb RK f0].
  destruct (Rleb tol 0) eqn:E1.
  { apply Rleb_true in E1. split; [discriminate|]. intros [H _]. lra. }
  apply Rleb_false in E1.
  destruct (Rleb 0 (cutoff2 RK tol sa sb)) eqn:E2.
  - apply Rleb_true in E2. destruct (Rleb (dist2 RK sa sb) (cutoff2 RK tol sa sb)) eqn:E3; cbn [negb].
    + apply Rleb_true in E3. split; [discriminate|]. intros [_ [_ H]]. lra.
    + apply Rleb_false in E3. split; auto.
  - apply Rleb_false in E2. split; [discriminate|]. intros [_ [H _]]. lra.
Qed.

Lemma coef_pos a b : 0 < a -> 0 < b -> 0 < (a + b) / (a * b).
Proof. intros Ha Hb. apply Rdiv_lt_0_compat; nra. Qed.

Lemma neg_coef a b x : - (a + b) / (a * b) * x = (a + b) / (a * b) * - x.
Proof. unfold Rdiv. ring. Qed.

Lemma ln_le' x y : 0 < x -> x <= y -> ln x <= ln y.
Proof. intros Hx [H| ->]; [left; now apply ln_increasing|right; reflexivity]. Qed.

Lemma ln_nonpos t : 0 < t -> t <= 1 -> ln t <= 0.
Proof. intros H0 H1. rewrite <- ln_1. now apply ln_le'. Qed.

Lemma cutoff2_nonneg tol sa sb :
  pos_exps sa -> pos_exps sb -> 0 < tol <= 1 -> 0 <= cutoff2 RK tol sa sb.
Proof.
  intros Ha Hb [H0 H1]. rewrite cutoff2_R, neg_coef.
  pose proof (coef_pos _ _ (min_exp_pos sa Ha) (min_exp_pos sb Hb)).
  pose proof (ln_nonpos tol H0 H1). nra.
Qed.

(* the squared comparison of the model is the documented comparison
   |R_b - R_a| > sqrt(-(a+b)/(ab) ln tol)   (overlap.py:217-218) for every tolerance in (0, 1] *)
Theorem screened_iff_documented tol sa sb :
  pos_exps sa -> pos_exps sb -> 0 < tol <= 1 ->
  (is_screened RK (Some tol) sa sb = true
   <-> sqrt (dist2 RK sa sb)
       > sqrt (- (min_exp RK sa + min_exp RK sb) / (min_exp RK sa * min_exp RK sb) * ln tol)).
Proof.
  intros Ha Hb Ht. rewrite <- cutoff2_R. pose proof (cutoff2_nonneg tol sa sb Ha Hb Ht) as Hc.
  rewrite is_screened_R. split.
  - intros [_ [_ H]]. apply sqrt_lt_1_alt. lra.
  - intros H. repeat split; [lra|exact Hc|]. apply sqrt_lt_0_alt. exact H.
Qed.

(* tolerances above 1: the radicand is negative, the code's comparison with nan is False *)
Lemma tol_above_one_not_screened tol sa sb :
  pos_exps sa -> pos_exps sb -> 1 < tol -> is_screened RK (Some tol) sa sb = false.
Proof.
  intros Ha Hb Ht. destruct (is_screened RK (Some tol) sa sb) eqn:E; [|reflexivity].
  apply is_screened_R in E. destruct E as [_ [E _]]. rewrite cutoff2_R, neg_coef in E.
  pose proof (coef_pos _ _ (min_exp_pos sa Ha) (min_exp_pos sb Hb)).
  assert (0 < ln tol) by (rewrite <- ln_1; apply ln_increasing; lra). nra.
Qed.

Theorem screen_monotone tol1 tol2 sa sb :
  pos_exps sa -> pos_exps sb -> 0 < tol1 -> tol1 <= tol2 -> tol2 <= 1 ->
  is_screened RK (Some tol1) sa sb = true -> is_screened RK (Some tol2) sa sb = true.
Proof.
  intros Ha Hb H0 H12 H1 H. apply is_screened_R in H. apply is_screened_R.
  destruct H as [_ [Hc Hd]].
  assert (Ht2 : 0 < tol2 <= 1) by lra.
  repeat split; [lra|now apply cutoff2_nonneg|].
  rewrite cutoff2_R, neg_coef in *.
  pose proof (coef_pos _ _ (min_exp_pos sa Ha) (min_exp_pos sb Hb)).
  pose proof (ln_le' tol1 tol2 H0 H12). nra.
Qed.

(* the decision depends on the exponents only through the two minima *)
Theorem cutoff_uses_min_exponents tol sa sb sa' sb' ma mb :
  is_min ma (s_exps sa) -> is_min ma (s_exps sa') ->
  is_min mb (s_exps sb) -> is_min mb (s_exps sb') ->
  s_x sa = s_x sa' -> s_y sa = s_y sa' -> s_z sa = s_z sa' ->
  s_x sb = s_x sb' -> s_y sb = s_y sb' -> s_z sb = s_z sb' ->
  is_screened RK tol sa sb = is_screened RK tol sa' sb'.
Proof.
  intros A A' B B' X1 X2 X3 Y1 Y2 Y3.
  destruct tol as [t|]; [|reflexivity].
  unfold is_screened, cutoff2, dist2.
  now rewrite (min_exp_eq _ _ A), (min_exp_eq _ _ A'), (min_exp_eq _ _ B), (min_exp_eq _ _ B'), X1, X2, X3, Y1, Y2, Y3.
Qed.

(* ... and the minimum is the smallest exponent: with the explicit formula *)
Theorem screened_explicit tol sa sb ma mb :
  is_min ma (s_exps sa) -> is_min mb (s_exps sb) ->
  (is_screened RK (Some tol) sa sb = true
   <-> 0 < tol /\ 0 <= - (ma + mb) / (ma * mb) * ln tol
       /\ - (ma + mb) / (ma * mb) * ln tol < dist2 RK sa sb).
Proof.
  intros A B. now rewrite is_screened_R, cutoff2_R, (min_exp_eq _ _ A), (min_exp_eq _ _ B).
Qed.

Lemma is_min_replace m x y l1 l2 :
  In m (l1 ++ l2) -> is_min m (l1 ++ x :: l2) -> m <= y -> is_min m (l1 ++ y :: l2).
Proof.
  intros Hin [_ Hle] Hy. split.
  - apply in_app_iff in Hin. apply in_app_iff. destruct Hin; [now left|right; now right].
  - intros z Hz. apply in_app_iff in Hz. destruct Hz as [Hz|[<-|Hz]]; [|exact Hy|].
    + apply Hle. apply in_app_iff. now left.
    + apply Hle. apply in_app_iff. right. now right.
Qed.

(* reduced exponent of a primitive pair, and the overlap of two NORMALISED s primitives with
   exponents a, b at squared distance d2:  (2 sqrt(ab)/(a+b))^(3/2) exp(-mu d2)  *)
Definition mu (a b : R) : R := a * b / (a + b).
Definition pref (a b : R) : R := let y := 2 * sqrt (a * b) / (a + b) in y * sqrt y.
Definition sprim (a b d2 : R) : R := pref a b * exp (- (mu a b * d2)).

(* contraction: lists of (coefficient, exponent); na, nb are the contraction norms *)
Definition rsum (l : list R) : R := fold_right Rplus 0 l.
Definition dsum (la lb : list (R * R)) (s : R -> R -> R) : R :=
  rsum (map (fun ca => rsum (map (fun cb => fst ca * fst cb * s (snd ca) (snd cb)) lb)) la).
Definition S_contr (na nb : R) (la lb : list (R * R)) (d2 : R) : R :=
  na * nb * dsum la lb (fun a b => sprim a b d2).
Definition abs_sum (l : list (R * R)) : R := rsum (map (fun c => Rabs (fst c)) l).

Lemma mu_mono a b a' b' : 0 < a -> 0 < b -> a <= a' -> b <= b' -> mu a b <= mu a' b'.
Proof.
  intros Ha Hb Haa Hbb. unfold mu.
  apply Rmult_le_reg_r with ((a + b) * (a' + b')); [nra|].
  replace (a * b / (a + b) * ((a + b) * (a' + b'))) with (a * b * (a' + b')) by (field; lra).
  replace (a' * b' / (a' + b') * ((a + b) * (a' + b'))) with (a' * b' * (a + b)) by (field; lra).
  assert (0 <= a * a' * (b' - b)) by (apply Rmult_le_pos; nra).
  assert (0 <= b * b' * (a' - a)) by (apply Rmult_le_pos; nra).
  nra.
Qed.

Lemma mu_pos a b : 0 < a -> 0 < b -> 0 < mu a b.
Proof. intros. unfold mu. apply Rdiv_lt_0_compat; nra. Qed.

Lemma mu_inv a b : 0 < a -> 0 < b -> (a + b) / (a * b) = / mu a b.
Proof. intros. unfold mu. field. repeat split; lra. Qed.

Lemma amgm a b : 0 < a -> 0 < b -> 2 * sqrt (a * b) <= a + b.
Proof.
  intros Ha Hb. rewrite sqrt_mult by lra.
  pose proof (sqrt_sqrt a ltac:(lra)). pose proof (sqrt_sqrt b ltac:(lra)).
  pose proof (sqrt_pos a). pose proof (sqrt_pos b).
  pose proof (Rle_0_sqr (sqrt a - sqrt b)) as Hsq. unfold Rsqr in Hsq. nra.
Qed.

Lemma pref_bounds a b : 0 < a -> 0 < b -> 0 <= pref a b <= 1.
Proof.
  intros Ha Hb. unfold pref. cbv zeta.
  set (y := 2 * sqrt (a * b) / (a + b)).
  assert (Hy0 : 0 <= y).
  { unfold y. apply Rmult_le_pos; [pose proof (sqrt_pos (a * b)); lra|].
    left. apply Rinv_0_lt_compat. lra. }
  assert (Hy1 : y <= 1).
  { unfold y. apply Rmult_le_reg_r with (a + b); [lra|].
    replace (2 * sqrt (a * b) / (a + b) * (a + b)) with (2 * sqrt (a * b)) by (field; lra).
    pose proof (amgm a b Ha Hb). lra. }
  pose proof (sqrt_pos y).
  assert (sqrt y <= 1) by (rewrite <- sqrt_1; apply sqrt_le_1_alt; exact Hy1).
  split; nra.
Qed.

Lemma exp_le' x y : x <= y -> exp x <= exp y.
Proof. intros [H| ->]; [left; now apply exp_increasing|right; reflexivity]. Qed.

(* every primitive pair of two screened s shells overlaps by at most E = exp(-mu_min d2) < tol *)
Lemma sprim_bound a b ma mb d2 :
  0 < ma -> 0 < mb -> ma <= a -> mb <= b -> 0 <= d2 ->
  0 <= sprim a b d2 <= exp (- (mu ma mb * d2)).
Proof.
  intros Hma Hmb Ha Hb Hd. unfold sprim.
  pose proof (pref_bounds a b ltac:(lra) ltac:(lra)) as [P0 P1].
  pose proof (exp_pos (- (mu a b * d2))) as E0.
  assert (E1 : exp (- (mu a b * d2)) <= exp (- (mu ma mb * d2))).
  { apply exp_le'. pose proof (mu_mono ma mb a b Hma Hmb Ha Hb). nra. }
  split; [nra|]. pose proof (exp_pos (- (mu ma mb * d2))). nra.
Qed.

Lemma cutoff_exp_lt tol ma mb d2 :
  0 < ma -> 0 < mb -> 0 < tol ->
  - (ma + mb) / (ma * mb) * ln tol < d2 -> exp (- (mu ma mb * d2)) < tol.
Proof.
  intros Hma Hmb Ht H. rewrite neg_coef, mu_inv in H by assumption.
  pose proof (mu_pos ma mb Hma Hmb) as Hm.
  rewrite <- (exp_ln tol Ht). apply exp_increasing.
  assert (mu ma mb * (/ mu ma mb * - ln tol) < mu ma mb * d2) by (apply Rmult_lt_compat_l; assumption).
  rewrite <- Rmult_assoc, Rinv_r, Rmult_1_l in H0 by lra. lra.
Qed.

(* |sum_ij c_i c_j s_ij| <= E * sum|c_i| * sum|c_j| when |s_ij| <= E *)
Lemma inner_bound (c E : R) (lb : list (R * R)) (s : R -> R) :
  0 <= E -> (forall cb, In cb lb -> Rabs (s (snd cb)) <= E) ->
  Rabs (rsum (map (fun cb => c * fst cb * s (snd cb)) lb)) <= Rabs c * E * abs_sum lb.
Proof.
  intros HE. unfold abs_sum. induction lb as [|[cb b] lb IH]; intros H; cbn [map rsum fold_right fst snd].
  - rewrite Rabs_R0. lra.
  - eapply Rle_trans; [apply Rabs_triang|].
    assert (H1 : Rabs (c * cb * s b) <= Rabs c * E * Rabs cb).
    { rewrite !Rabs_mult. pose proof (H (cb, b) (or_introl eq_refl)) as Hs. cbn [snd] in Hs.
      pose proof (Rabs_pos c). pose proof (Rabs_pos cb). pose proof (Rabs_pos (s b)).
      assert (0 <= Rabs c * Rabs cb) by nra. nra. }
    assert (H2 := IH (fun x Hx => H x (or_intror Hx))).
    unfold rsum in *. lra.
Qed.

Lemma dsum_bound (E : R) (la lb : list (R * R)) (s : R -> R -> R) :
  0 <= E -> (forall ca cb, In ca la -> In cb lb -> Rabs (s (snd ca) (snd cb)) <= E) ->
  Rabs (dsum la lb s) <= E * abs_sum la * abs_sum lb.
Proof.
  intros HE. unfold dsum. induction la as [|[ca a] la IH]; intros H; cbn [map rsum fold_right fst snd].
  - rewrite Rabs_R0. unfold abs_sum. cbn. lra.
  - eapply Rle_trans; [apply Rabs_triang|].
    pose proof (inner_bound ca E lb (s a) HE (fun cb Hcb => H (ca, a) cb (or_introl eq_refl) Hcb)) as H1.
    assert (H2 := IH (fun x y Hx Hy => H x y (or_intror Hx) Hy)).
    unfold abs_sum in *. cbn [map rsum fold_right fst snd]. unfold rsum in *. nra.
Qed.

Lemma abs_sum_nonneg l : 0 <= abs_sum l.
Proof.
  unfold abs_sum. induction l as [|c l IH]; cbn [map rsum fold_right]; [lra|].
  pose proof (Rabs_pos (fst c)). unfold rsum in *. lra.
Qed.

Lemma S_contr_bound (E na nb : R) (la lb : list (R * R)) (d2 : R) :
  0 <= E -> 0 <= na -> 0 <= nb ->
  (forall ca cb, In ca la -> In cb lb -> Rabs (sprim (snd ca) (snd cb) d2) <= E) ->
  Rabs (S_contr na nb la lb d2) <= E * ((na * abs_sum la) * (nb * abs_sum lb)).
Proof.
  intros HE Hna Hnb H. pose proof (dsum_bound E la lb (fun a b => sprim a b d2) HE H) as HS.
  unfold S_contr. rewrite !Rabs_mult, (Rabs_pos_eq na), (Rabs_pos_eq nb) by assumption.
  replace (E * (na * abs_sum la * (nb * abs_sum lb))) with (na * nb * (E * abs_sum la * abs_sum lb)) by ring.
  apply Rmult_le_compat_l; [nra|exact HS].
Qed.

Lemma is_min_snd_pos (l : list (R * R)) m : (forall c, In c l -> 0 < snd c) -> is_min m (map snd l) -> 0 < m.
Proof. intros P [Hin _]. apply in_map_iff in Hin. destruct Hin as [x [<- Hx]]. now apply P. Qed.

(* Two s shells given by (coefficient, exponent) lists with contraction norms na, nb, whose pair is
   removed at tolerance tol (d2 beyond the squared cutoff of their SMALLEST exponents): the removed
   element is below tol times the sums of the normalised absolute contraction coefficients. *)
Theorem removed_s_bound (la lb : list (R * R)) (na nb tol d2 ma mb : R) :
  (forall ca, In ca la -> 0 < snd ca) -> (forall cb, In cb lb -> 0 < snd cb) ->
  is_min ma (map snd la) -> is_min mb (map snd lb) ->
  0 < tol <= 1 -> 0 <= na -> 0 <= nb ->
  - (ma + mb) / (ma * mb) * ln tol < d2 ->
  Rabs (S_contr na nb la lb d2) <= tol * (na * abs_sum la) * (nb * abs_sum lb)
  /\ (0 < na * abs_sum la -> 0 < nb * abs_sum lb ->
      Rabs (S_contr na nb la lb d2) < tol * (na * abs_sum la) * (nb * abs_sum lb)).
Proof.
  intros Pa Pb Ma Mb [Ht0 Ht1] Hna Hnb Hd.
  pose proof (is_min_snd_pos la ma Pa Ma) as Hma. pose proof (is_min_snd_pos lb mb Pb Mb) as Hmb.
  assert (Hd0 : 0 <= d2).
  { rewrite neg_coef in Hd. pose proof (coef_pos ma mb Hma Hmb). pose proof (ln_nonpos tol Ht0 Ht1). nra. }
  set (E := exp (- (mu ma mb * d2))).
  assert (HE : E < tol) by (apply cutoff_exp_lt; assumption).
  assert (HX : Rabs (S_contr na nb la lb d2) <= E * ((na * abs_sum la) * (nb * abs_sum lb))).
  { apply S_contr_bound; [left; apply exp_pos|assumption..|]. intros ca cb Hca Hcb.
    destruct (sprim_bound (snd ca) (snd cb) ma mb d2 Hma Hmb) as [S0 S1];
      [apply Ma; now apply in_map|apply Mb; now apply in_map|exact Hd0|].
    now rewrite Rabs_pos_eq. }
  pose proof (abs_sum_nonneg la). pose proof (abs_sum_nonneg lb).
  assert (0 <= na * abs_sum la) by nra. assert (0 <= nb * abs_sum lb) by nra.
  split.
  - assert (0 <= (na * abs_sum la) * (nb * abs_sum lb)) by nra. nra.
  - intros Xa Xb. assert (0 < (na * abs_sum la) * (nb * abs_sum lb)) by nra. nra.
Qed.

(* the same bound tied to the model's decision function: a pair of shells removed by [is_screened], with
   any (coefficient, exponent) lists over the exponents of the two shells *)
Lemma removed_s_bound_screened (sa sb : shell R) (la lb : list (R * R)) (na nb tol : R) :
  pos_exps sa -> pos_exps sb -> map snd la = s_exps sa -> map snd lb = s_exps sb ->
  0 < tol <= 1 -> 0 <= na -> 0 <= nb ->
  is_screened RK (Some tol) sa sb = true ->
  Rabs (S_contr na nb la lb (dist2 RK sa sb)) <= tol * (na * abs_sum la) * (nb * abs_sum lb)
  /\ (0 < na * abs_sum la -> 0 < nb * abs_sum lb ->
      Rabs (S_contr na nb la lb (dist2 RK sa sb)) < tol * (na * abs_sum la) * (nb * abs_sum lb)).
Proof.
  intros Pa Pb Ea Eb Ht Hna Hnb H.
  apply is_screened_R in H. destruct H as [_ [_ H]]. rewrite cutoff2_R in H.
  apply removed_s_bound with (ma := min_exp RK sa) (mb := min_exp RK sb); try assumption.
  - intros x Hx. apply (proj2 Pa). rewrite <- Ea. now apply in_map.
  - intros x Hx. apply (proj2 Pb). rewrite <- Eb. now apply in_map.
  - rewrite Ea. now apply min_exp_is_min.
  - rewrite Eb. now apply min_exp_is_min.
Qed.

Lemma sqrt_y_uvw a b : 0 < a -> 0 < b ->
  sqrt (2 * sqrt (a * b) / (a + b))
  = sqrt (sqrt (2 * a / PI)) * sqrt (sqrt (2 * b / PI)) * sqrt (PI / (a + b)).
Proof.
  intros Ha Hb. pose proof PI_RGT_0 as Hpi.
  assert (Hsab : 0 <= sqrt (a * b)) by apply sqrt_pos.
  apply sqrt_lem_1.
  - apply Rmult_le_pos; [lra|]. left. apply Rinv_0_lt_compat. lra.
  - repeat apply Rmult_le_pos; apply sqrt_pos.
  - set (u := sqrt (sqrt (2 * a / PI))). set (v := sqrt (sqrt (2 * b / PI))). set (w := sqrt (PI / (a + b))).
    assert (Hu : u * u = sqrt (2 * a / PI)) by (apply sqrt_sqrt, sqrt_pos).
    assert (Hv : v * v = sqrt (2 * b / PI)) by (apply sqrt_sqrt, sqrt_pos).
    assert (Hw : w * w = PI / (a + b)).
    { apply sqrt_sqrt. left. apply Rdiv_lt_0_compat; lra. }
    replace (u * v * w * (u * v * w)) with ((u * u) * (v * v) * (w * w)) by ring.
    rewrite Hu, Hv, Hw. rewrite <- sqrt_mult_alt by (left; apply Rdiv_lt_0_compat; lra).
    replace (2 * a / PI * (2 * b / PI)) with ((2 / PI) * (2 / PI) * (a * b)) by (field; lra).
    rewrite sqrt_mult_alt by (assert (0 < 2 / PI) by (apply Rdiv_lt_0_compat; lra); nra).
    rewrite sqrt_square by (left; apply Rdiv_lt_0_compat; lra).
    field. split; lra.
Qed.

Lemma pref_uvw a b : 0 < a -> 0 < b ->
  pref a b = let s := sqrt (sqrt ((1 + 1) * a / PI)) * sqrt (sqrt ((1 + 1) * b / PI)) * sqrt (PI / (a + b)) in
             s * s * s.
Proof.
  intros Ha Hb. cbv zeta.
  replace ((1 + 1) * a / PI) with (2 * a / PI) by (f_equal; ring).
  replace ((1 + 1) * b / PI) with (2 * b / PI) by (f_equal; ring).
  rewrite <- (sqrt_y_uvw a b Ha Hb). unfold pref. cbv zeta. rewrite sqrt_sqrt; [reflexivity|].
  apply Rmult_le_pos; [pose proof (sqrt_pos (a * b)); lra|]. left. apply Rinv_0_lt_compat. lra.
Qed.

Theorem sprim_is_model_primitive (a b ax ay az bx by_ bz : R) :
  0 < a -> 0 < b ->
  norm_prim RK 0 (0, 0, 0)%nat a * norm_prim RK 0 (0, 0, 0)%nat b
  * (base RK ax bx a b * base RK ay by_ a b * base RK az bz a b)
  = sprim a b ((bx - ax) * (bx - ax) + (by_ - ay) * (by_ - ay) + (bz - az) * (bz - az)).
Proof.
  intros Ha Hb. unfold norm_prim, pow34, base, hmean, psum, sprim, mu.
  cbn [fmul fdiv fadd fsub fopp f1 f0 fsqrt fexp fpi fapx RK fpow fdf_odd]. cbv zeta.
  rewrite (pref_uvw a b Ha Hb). cbv zeta.
  rewrite sqrt_1. replace (1 * 1 * 1) with 1 by ring. rewrite sqrt_1.
  set (m := a * b / (a + b)).
  replace (exp (- (m * ((bx - ax) * (bx - ax) + (by_ - ay) * (by_ - ay) + (bz - az) * (bz - az)))))
    with (exp (- (m * ((ax - bx) * (ax - bx)))) * exp (- (m * ((ay - by_) * (ay - by_))))
          * exp (- (m * ((az - bz) * (az - bz))))).
  2:{ rewrite <- !exp_plus. f_equal. ring. }
  field.
Qed.

Definition ss_shell (x y z : R) (es : list R) (cs : list (list R)) (sph : bool) (lb : list label) : shell R :=
  mkShell R 0 x y z es cs sph [] lb.

Lemma rsum_scal_r {A} (f : A -> R) l k : rsum (map f l) * k = rsum (map (fun x => f x * k) l).
Proof. symmetry. apply (fsum_map_scale_r RK RK_field). Qed.
Lemma rsum_swap {A B} (f : A -> B -> R) la lb :
  rsum (map (fun a => rsum (map (fun b => f a b) lb)) la)
  = rsum (map (fun b => rsum (map (fun a => f a b) la)) lb).
Proof. apply (fsum_swap RK RK_field). Qed.
Lemma rsum_ext_in {A} (f g : A -> R) l : (forall x, In x l -> f x = g x) -> rsum (map f l) = rsum (map g l).
Proof. apply (fsum_map_ext_in RK). Qed.

(* column m of a coefficient matrix paired with the exponents: the (coefficient, exponent) list of segment m *)
Definition col (m : nat) (es : list R) (cs : list (list R)) : list (R * R) :=
  map (fun ac : R * list R => (nth m (snd ac) 0, fst ac)) (combine es cs).

Lemma col_exps m es cs : length cs = length es -> map snd (col m es cs) = es.
Proof. intros H. unfold col. rewrite map_map. cbn [snd]. apply map_fst_combine. now symmetry. Qed.

(* the raw s-s block entry of the model is the double sum over primitive pairs of c_i c_j sprim(a_i, b_j, d2) *)
Theorem ss_entry_dsum xa ya za ea ca sa_ la_ xb yb zb eb cb sb_ lb_ m1 m2 :
  let sa := ss_shell xa ya za ea ca sa_ la_ in let sb := ss_shell xb yb zb eb cb sb_ lb_ in
  (m1 < nseg sa)%nat -> (m2 < nseg sb)%nat ->
  (forall x, In x ea -> 0 < x) -> (forall x, In x eb -> 0 < x) ->
  nth4 RK m1 0 m2 0 (overlap_block RK sa sb)
  = dsum (col m1 ea ca) (col m2 eb cb) (fun a b => sprim a b (dist2 RK sa sb)).
Proof.
  intros sa sb H1 H2 Pa Pb. unfold overlap_block, mm_block. cbv zeta. cbn [map hd].
  rewrite (block_of_entry_lists RK sa sb _
             (fun alpha beta => base RK xa xb alpha beta * base RK ya yb alpha beta * base RK za zb alpha beta)
             m1 0 m2 0 H1 Nat.lt_0_1 H2 Nat.lt_0_1).
  - change (comps_of sa) with [(0, 0, 0)%nat]. change (comps_of sb) with [(0, 0, 0)%nat].
    cbn [nth fmul f0 RK s_exps s_coeffs s_l sa sb ss_shell]. unfold dsum, col. rewrite rsum_swap, map_map.
    apply rsum_ext_in; intros [beta crowb] Hb; cbn [fst snd].
    rewrite map_map, !rsum_scal_r. apply rsum_ext_in; intros [alpha crowa] Ha; cbn [fst snd].
    assert (0 < alpha) by (apply Pa; eapply in_combine_l; exact Ha).
    assert (0 < beta) by (apply Pb; eapply in_combine_l; exact Hb).
    rewrite dist2_R. cbn [s_x s_y s_z sa sb ss_shell].
    rewrite <- (sprim_is_model_primitive alpha beta xa ya za xb yb zb) by assumption. ring.
  - unfold tabs. rewrite map_map. apply map_ext; intros beta. rewrite map_map. apply map_ext; intros alpha.
    (* at l = 0 every table is the one entry [base], and [prim3] multiplies the three of them *)
    reflexivity.
Qed.

(* Conservative bound on the model's own block: two s shells whose pair is removed at tolerance tol.
   na, nb stand for the contraction norms (any non-negative numbers; the assembly multiplies the raw
   entry by norm_cont_a[m1][0] * norm_cont_b[m2][0], Model/Assembly.v [normalise]). *)
Theorem removed_s_bound_block xa ya za ea ca sa_ la_ xb yb zb eb cb sb_ lb_ m1 m2 na nb tol :
  let sa := ss_shell xa ya za ea ca sa_ la_ in let sb := ss_shell xb yb zb eb cb sb_ lb_ in
  pos_exps sa -> pos_exps sb -> length ca = length ea -> length cb = length eb ->
  (m1 < nseg sa)%nat -> (m2 < nseg sb)%nat ->
  0 < tol <= 1 -> 0 <= na -> 0 <= nb ->
  is_screened RK (Some tol) sa sb = true ->
  let Sa := abs_sum (col m1 ea ca) in let Sb := abs_sum (col m2 eb cb) in
  let e := na * nb * nth4 RK m1 0 m2 0 (overlap_block RK sa sb) in
  Rabs e <= tol * (na * Sa) * (nb * Sb)
  /\ (0 < na * Sa -> 0 < nb * Sb -> Rabs e < tol * (na * Sa) * (nb * Sb)).
Proof.
  intros sa sb Pa Pb La Lb H1 H2 Ht Hna Hnb H. cbv zeta.
  unfold sa, sb. rewrite ss_entry_dsum; try assumption; try (apply (proj2 Pa)); try (apply (proj2 Pb)).
  fold sa sb. fold (S_contr na nb (col m1 ea ca) (col m2 eb cb) (dist2 RK sa sb)).
  apply removed_s_bound_screened; try assumption; now apply col_exps.
Qed.

Definition ncont (s : shell R) (m : nat) : R := nth 0 (nth m (norm_cont RK s) []) 0.

Lemma ncont_nonneg s m : 0 <= ncont s m.
Proof.
  unfold ncont, norm_cont. rewrite nth_mk_or. destruct (Nat.ltb m (nseg s)); [|cbn; lra].
  rewrite nth_mk_or. destruct (Nat.ltb 0 (length (comps_of s))); [|lra].
  cbn [fdiv f1 fsqrt fapx RK]. set (x := nth4 RK m 0 m 0 (overlap_block RK s s)).
  destruct (Req_dec (sqrt x) 0) as [E|E].
  - rewrite E. unfold Rdiv. rewrite Rinv_0. lra.
  - pose proof (sqrt_pos x). left. apply Rdiv_lt_0_compat; lra.
Qed.

(* entry (m1, c1, m2, c2) of the normalised block = norm_a[m1][c1] * norm_b[m2][c2] * raw entry
   (base_two_symm.py:160-165 as modelled by [normalise]) *)
Lemma normalised_block_as_mk (sa sb : shell R) :
  normalise RK Rmult (norm_cont RK sa) (norm_cont RK sb) (overlap_block RK sa sb)
  = mk (nseg sa) (fun m => mk (length (comps_of sa)) (fun c => mk (nseg sb) (fun m' =>
      mk (length (comps_of sb)) (fun c' =>
        nth c (nth m (norm_cont RK sa) []) 0 * nth c' (nth m' (norm_cont RK sb) []) 0
        * nth4 RK m c m' c' (overlap_block RK sa sb))))).
Proof.
  rewrite (overlap_block_as_mk RK sa sb) at 1. unfold norm_cont at 1 2. rewrite (normalise_mk RK).
  apply mk_ext; intros m Hm. apply mk_ext; intros c Hc.
  apply mk_ext; intros m' Hm'. apply mk_ext; intros c' Hc'.
  unfold norm_cont. now rewrite (nth_mk _ _ _ m), (nth_mk _ _ _ c), (nth_mk _ _ _ m'), (nth_mk _ _ _ c') by assumption.
Qed.

Lemma normalised_entry (sa sb : shell R) m1 c1 m2 c2 :
  (m1 < nseg sa)%nat -> (c1 < length (comps_of sa))%nat -> (m2 < nseg sb)%nat -> (c2 < length (comps_of sb))%nat ->
  nth4 RK m1 c1 m2 c2 (normalise RK Rmult (norm_cont RK sa) (norm_cont RK sb) (overlap_block RK sa sb))
  = nth c1 (nth m1 (norm_cont RK sa) []) 0 * nth c2 (nth m2 (norm_cont RK sb) []) 0
    * nth4 RK m1 c1 m2 c2 (overlap_block RK sa sb).
Proof.
  intros H1 Hc1 H2 Hc2. rewrite normalised_block_as_mk. unfold nth4 at 1.
  now rewrite (nth_mk _ _ _ m1), (nth_mk _ _ _ c1), (nth_mk _ _ _ m2), (nth_mk _ _ _ c2) by assumption.
Qed.

(* The property's last clause on the model: every entry of the normalised s-s block of a removed pair is
   smaller in magnitude than tol times the sums of the normalised absolute contraction coefficients. *)
Theorem removed_s_bound_normalised xa ya za ea ca sa_ la_ xb yb zb eb cb sb_ lb_ m1 m2 tol :
  let sa := ss_shell xa ya za ea ca sa_ la_ in let sb := ss_shell xb yb zb eb cb sb_ lb_ in
  pos_exps sa -> pos_exps sb -> length ca = length ea -> length cb = length eb ->
  (m1 < nseg sa)%nat -> (m2 < nseg sb)%nat ->
  0 < tol <= 1 ->
  is_screened RK (Some tol) sa sb = true ->
  let Sa := ncont sa m1 * abs_sum (col m1 ea ca) in let Sb := ncont sb m2 * abs_sum (col m2 eb cb) in
  let e := nth4 RK m1 0 m2 0 (normalise RK Rmult (norm_cont RK sa) (norm_cont RK sb) (overlap_block RK sa sb)) in
  Rabs e <= tol * Sa * Sb /\ (0 < Sa -> 0 < Sb -> Rabs e < tol * Sa * Sb).
Proof.
  intros sa sb Pa Pb La Lb H1 H2 Ht H. cbv zeta.
  rewrite normalised_entry by (assumption || exact Nat.lt_0_1).
  apply (removed_s_bound_block xa ya za ea ca sa_ la_ xb yb zb eb cb sb_ lb_ m1 m2
           (ncont sa m1) (ncont sb m2) tol); try assumption; apply ncont_nonneg.
Qed.

(* The bound on the entry of the processed block that the assembly places in the matrix is shown for
   Cartesian s shells (for spherical s shells the 1x1 transform is applied on top; not lifted here). *)
Lemma flatten_block_ss M1 M2 (G : nat -> nat -> nat -> nat -> R) :
  flatten_block (mk M1 (fun m => mk 1 (fun c => mk M2 (fun m' => mk 1 (fun c' => G m c m' c')))))
  = mk M1 (fun m => mk M2 (fun m' => G m 0%nat m' 0%nat)).
Proof.
  unfold flatten_block. unfold mk at 1. rewrite flat_map_concat_map, map_map.
  change (fun m : nat => map (fun b2 => concat b2) (mk 1 (fun c => mk M2 (fun m' => mk 1 (fun c' => G m c m' c')))))
    with (fun m : nat => [concat (mk M2 (fun m' => [G m 0%nat m' 0%nat]))]).
  rewrite <- flat_map_concat_map, flat_map_single. apply map_ext; intros m. apply concat_mk_single.
Qed.

Lemma ss_pblock_entry xa ya za ea ca la_ xb yb zb eb cb lb_ m1 m2 :
  let sa := ss_shell xa ya za ea ca false la_ in let sb := ss_shell xb yb zb eb cb false lb_ in
  (m1 < nseg sa)%nat -> (m2 < nseg sb)%nat ->
  nth m2 (nth m1 (pblock RK 0 Rplus Rmult (overlap_block RK) (prep RK sa) (prep RK sb)) []) 0
  = nth4 RK m1 0 m2 0 (normalise RK Rmult (norm_cont RK sa) (norm_cont RK sb) (overlap_block RK sa sb)).
Proof.
  intros sa sb H1 H2. unfold pblock, prep. cbn [p_shell p_norm p_T].
  change (s_sph sa) with false. change (s_sph sb) with false. unfold shell_block.
  rewrite normalised_block_as_mk.
  change (length (comps_of sa)) with 1%nat. change (length (comps_of sb)) with 1%nat.
  rewrite flatten_block_ss. unfold nth4.
  now rewrite !nth_mk by (assumption || exact Nat.lt_0_1).
Qed.

Theorem removed_s_bound_pblock xa ya za ea ca la_ xb yb zb eb cb lb_ m1 m2 tol :
  let sa := ss_shell xa ya za ea ca false la_ in let sb := ss_shell xb yb zb eb cb false lb_ in
  pos_exps sa -> pos_exps sb -> length ca = length ea -> length cb = length eb ->
  (m1 < nseg sa)%nat -> (m2 < nseg sb)%nat ->
  0 < tol <= 1 ->
  is_screened RK (Some tol) sa sb = true ->
  let Sa := ncont sa m1 * abs_sum (col m1 ea ca) in let Sb := ncont sb m2 * abs_sum (col m2 eb cb) in
  let e := nth m2 (nth m1 (pblock RK 0 Rplus Rmult (overlap_block RK) (prep RK sa) (prep RK sb)) []) 0 in
  Rabs e <= tol * Sa * Sb /\ (0 < Sa -> 0 < Sb -> Rabs e < tol * Sa * Sb).
Proof.
  intros sa sb Pa Pb La Lb H1 H2 Ht H. cbv zeta.
  unfold sa, sb. rewrite ss_pblock_entry by assumption.
  apply (removed_s_bound_normalised xa ya za ea ca false la_ xb yb zb eb cb false lb_ m1 m2 tol); assumption.
Qed.

Definition ex_shell (x : R) : shell R := mkShell R 0 x 0 0 [1] [[1]] false [] [].

Lemma ex_pos x : pos_exps (ex_shell x).
Proof. split; [discriminate|]. intros y [<-|[]]. lra. Qed.

Lemma ln2_bounds : 0 < ln 2 < 1.
Proof.
  split; [rewrite <- ln_1; apply ln_increasing; lra|].
  rewrite <- (ln_exp 1). apply ln_increasing; [lra|]. pose proof (exp_ineq1 1 ltac:(lra)). lra.
Qed.

Lemma ex_screened : is_screened RK (Some (/ 2)) (ex_shell 0) (ex_shell 3) = true.
Proof.
  apply is_screened_R. rewrite cutoff2_R, dist2_R.
  change (min_exp RK (ex_shell 0)) with 1. change (min_exp RK (ex_shell 3)) with 1.
  cbn [s_x s_y s_z ex_shell]. rewrite ln_Rinv by lra. pose proof ln2_bounds.
  replace (- (1 + 1) / (1 * 1) * - ln 2) with (2 * ln 2) by field. repeat split; lra.
Qed.

Example screen_monotone_ex :
  is_screened RK (Some (3 / 4)) (ex_shell 0) (ex_shell 3) = true.
Proof.
  apply (screen_monotone (/ 2) (3 / 4)); try apply ex_pos; try lra. exact ex_screened.
Qed.

Example screened_iff_documented_ex :
  sqrt (dist2 RK (ex_shell 0) (ex_shell 3))
  > sqrt (- (min_exp RK (ex_shell 0) + min_exp RK (ex_shell 3))
          / (min_exp RK (ex_shell 0) * min_exp RK (ex_shell 3)) * ln (/ 2)).
Proof. apply screened_iff_documented; try apply ex_pos; [lra|exact ex_screened]. Qed.

(* min, not max: a second, larger exponent (or any replacement of it) does not change the decision *)
Example cutoff_uses_min_exponents_ex (big big' : R) : 1 <= big -> 1 <= big' ->
  is_screened RK (Some (/ 2)) (mkShell R 0 0 0 0 [1; big] [[1]; [1]] false [] []) (ex_shell 3)
  = is_screened RK (Some (/ 2)) (mkShell R 0 0 0 0 [1; big'] [[1]; [1]] false [] []) (ex_shell 3).
Proof.
  intros H H'. apply (cutoff_uses_min_exponents _ _ _ _ _ 1 1); try reflexivity.
  - split; [now left|]. intros x [<-|[<-|[]]]; lra.
  - split; [now left|]. intros x [<-|[<-|[]]]; lra.
  - split; [now left|]. intros x [<-|[]]; lra.
  - split; [now left|]. intros x [<-|[]]; lra.
Qed.

Example removed_s_bound_ex :
  Rabs (S_contr 1 1 [(1, 1)] [(1, 1)] 9) < / 2 * (1 * abs_sum [(1, 1)]) * (1 * abs_sum [(1, 1)]).
Proof.
  assert (A : abs_sum [(1, 1)] = 1) by (unfold abs_sum; cbn; rewrite Rabs_R1; ring).
  pose proof ln2_bounds.
  apply (removed_s_bound [(1, 1)] [(1, 1)] 1 1 (/ 2) 9 1 1); try lra.
  - intros ca [<-|[]]. cbn. lra.
  - intros ca [<-|[]]. cbn. lra.
  - split; [now left|]. intros x [<-|[]]; cbn; lra.
  - split; [now left|]. intros x [<-|[]]; cbn; lra.
  - rewrite ln_Rinv by lra. replace (- (1 + 1) / (1 * 1) * - ln 2) with (2 * ln 2) by field. lra.
Qed.

Example removed_s_bound_pblock_ex :
  let sa := ss_shell 0 0 0 [1] [[1]] false [] in let sb := ss_shell 3 0 0 [1] [[1]] false [] in
  Rabs (nth 0 (nth 0 (pblock RK 0 Rplus Rmult (overlap_block RK) (prep RK sa) (prep RK sb)) []) 0)
  <= / 2 * (ncont sa 0 * abs_sum (col 0 [1] [[1]])) * (ncont sb 0 * abs_sum (col 0 [1] [[1]])).
Proof.
  cbv zeta.
  apply (removed_s_bound_pblock 0 0 0 [1] [[1]] [] 3 0 0 [1] [[1]] [] 0 0 (/ 2));
    try apply ex_pos; try reflexivity; try (cbn; lia); try lra.
  exact ex_screened.
Qed.
