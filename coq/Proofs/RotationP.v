(* Proofs/RotationP.v — general rotations (property C12) at the level of the algebraic specification.

   Vocabulary of Proofs/RigidP.v (Section FullStatement): [mat3] (rows), [orthogonal] (R R^T = R^T R = 1, proper or
   improper), [rot_shell R s] (centre moved to R * centre), [mapply_t R u] = R^T u, [monomial u c] = u^c.

   [rot_expand R a] is the polynomial (R^T u)^a multiplied out in monomials of u ([rot_expand_eval]), a list of
   (monomial a', coefficient) entries; Jsum J (rot_expand R a) = sum over the entries of coefficient * J a' is the
   contraction of J with row a of the representation matrix D(R) of R on the monomials of degree |a|.  The laws read
        sum_{a'} sum_{b'} D(R)[a,a'] D(R)[b,b'] prim(R A, R B; a', b') = prim(A, B; a, b)
   for [ovl_prim], [mom_prim] (CoreBlockP: the primitive values the block theorems contract; for the moment the origin
   moves to R C and the order index rotates with D(R) as well) and [kin_prim] (CoreDiffP): every orthogonal R, all
   exponent triples, all centres, alpha + beta <> 0.  Of the transcendental functions only exp (x + y) = exp x * exp y
   is used (for the prefactor, which then depends on |A - B|^2 only).

   All follow from Gauss/Poly3.E3_subst_orth (the isotropic Gaussian moment functional is invariant under every
   orthogonal substitution): the product over the axes of the 1-D factors [T1] is the 3-D functional of the product
   polynomial (y + PA)^a (y + PB)^b [(y + PC)^k] ([mom_prim_is_E3]); kin_prim is the operator
   -1/2 e^{beta u^2} Lap(. e^{-beta u^2}) acting on the index b of the overlap ([kin_prim_is_kinT]), and Laplacian,
   u.grad and |u|^2 commute with every orthogonal substitution (Poly3.kinop_subst).

   Not proved for general rotations (decided by the correspondence check harness/c12.py): spherical shells; the
   density model of Gauss/DensityJets.v (evaluate_density) itself (RotationAsmP has the bilinear form). *)
From Coq Require Import List Arith Lia Field.
From GB Require Import Base.Field Base.FNum Base.Tables Gauss.Moment1D Gauss.Poly3 Model.Shell Model.MomentInt
  Proofs.DiffOpP Proofs.CoreBlockP Proofs.CoreDiffP Proofs.RigidP.
Import ListNotations.

Section Rot.
Context {F : Type} (K : Fops F) (Kf : is_field K).
Add Field KFrot : Kf.
Local Open Scope F_scope.
Notation "0" := (f0 K) : F_scope.
Notation "1" := (f1 K) : F_scope.
Infix "+" := (fadd K) : F_scope.
Infix "*" := (fmul K) : F_scope.
Infix "-" := (fsub K) : F_scope.
Infix "/" := (fdiv K) : F_scope.
Notation "- x" := (fopp K x) : F_scope.
Notation "# n" := (ofnat K n) (at level 5) : F_scope.

Definition ax2nat (i : axis) : nat := match i with AX => 0 | AY => 1 | AZ => 2 end.
Definition matf (R : @mat3 F) : axis -> axis -> F := fun i j => vget (mrow R (ax2nat i)) (ax2nat j).
Definition vecf (u : @vec3 F) : axis -> F := fun i => vget u (ax2nat i).

Lemma orthogonal_matf R : orthogonal K R -> orth_rows K (matf R) /\ orth_rows K (transpose (matf R)).
Proof.
  intros H. split; intros i k.
  all: assert (Hi : ax2nat i < 3) by (destruct i; cbn; lia).
  all: assert (Hk : ax2nat k < 3) by (destruct k; cbn; lia).
  all: destruct (H _ _ Hi Hk) as [Hr Hc]; destruct i, k; assumption.
Qed.
Lemma orthogonal_rows R : orthogonal K R -> orth_rows K (matf R).
Proof. intros H. apply orthogonal_matf, H. Qed.
Lemma orthogonal_cols R : orthogonal K R -> orth_rows K (transpose (matf R)).
Proof. intros H. apply orthogonal_matf, H. Qed.

(* |R d|^2 = |d|^2 *)
Lemma norm_rot (R : axis -> axis -> F) (d : axis -> F) : orth_rows K (transpose R) ->
  sum3 K (fun i => dot K (R i) d * dot K (R i) d) = sum3 K (fun j => d j * d j).
Proof.
  intros HO.
  transitivity (sum3 K (fun k => d k * sum3 K (fun l => R l k * dot K (R l) d))); [unfold dot, sum3; ring|].
  unfold sum3 at 1. now rewrite !(orth_contract K Kf R d _ HO).
Qed.

(* the displacement vectors P - A, P - B, P - C of a primitive pair *)
Definition PAf (sa sb : shell F) (alpha beta : F) : axis -> F := fun i =>
  match i with AX => PA K (s_x sa) (s_x sb) alpha beta | AY => PA K (s_y sa) (s_y sb) alpha beta
             | AZ => PA K (s_z sa) (s_z sb) alpha beta end.
Definition PBf (sa sb : shell F) (alpha beta : F) : axis -> F := fun i =>
  match i with AX => PB K (s_x sa) (s_x sb) alpha beta | AY => PB K (s_y sa) (s_y sb) alpha beta
             | AZ => PB K (s_z sa) (s_z sb) alpha beta end.
Definition PCf (C : @vec3 F) (sa sb : shell F) (alpha beta : F) : axis -> F := fun i =>
  match i with AX => PC K (s_x sa) (s_x sb) (vget C 0) alpha beta
             | AY => PC K (s_y sa) (s_y sb) (vget C 1) alpha beta
             | AZ => PC K (s_z sa) (s_z sb) (vget C 2) alpha beta end.

(* a linear map commutes with "weighted centre minus a point" *)
Lemma dot_wc (r x y c : axis -> F) a b : a + b <> 0 ->
  (a * dot K r x + b * dot K r y) / (a + b) - dot K r c = dot K r (fun j => (a * x j + b * y j) / (a + b) - c j).
Proof. intros H. unfold dot, sum3. field. exact H. Qed.

Lemma PCf_rot R C sa sb alpha beta : psum K alpha beta <> 0 ->
  forall i, PCf (mapply K R C) (rot_shell K R sa) (rot_shell K R sb) alpha beta i
            = dot K (matf R i) (PCf C sa sb alpha beta).
Proof.
  intros Hp i.
  pose proof (dot_wc (matf R i) (vecf (s_x sa, s_y sa, s_z sa)) (vecf (s_x sb, s_y sb, s_z sb)) (vecf C) alpha beta Hp)
    as H.
  destruct i; exact H.
Qed.
(* PA, PB are PC with the point at A, B *)
Lemma PAf_rot R sa sb alpha beta : psum K alpha beta <> 0 ->
  forall i, PAf (rot_shell K R sa) (rot_shell K R sb) alpha beta i = dot K (matf R i) (PAf sa sb alpha beta).
Proof. exact (PCf_rot R (s_x sa, s_y sa, s_z sa) sa sb alpha beta). Qed.
Lemma PBf_rot R sa sb alpha beta : psum K alpha beta <> 0 ->
  forall i, PBf (rot_shell K R sa) (rot_shell K R sb) alpha beta i = dot K (matf R i) (PBf sa sb alpha beta).
Proof. exact (PCf_rot R (s_x sb, s_y sb, s_z sb) sa sb alpha beta). Qed.

Hypothesis Hexp : forall x y, fexp K (x + y) = fexp K x * fexp K y.

(* the s-s prefactor depends on |A - B|^2 only *)
Lemma KAB_rot R sa sb alpha beta : orthogonal K R ->
  KAB K (rot_shell K R sa) (rot_shell K R sb) alpha beta = KAB K sa sb alpha beta.
Proof.
  intros HO. unfold KAB, base.
  set (s := fsqrt K (fpi K / psum K alpha beta)). set (h := hmean K alpha beta).
  (* both sides are s^3 exp (- h |d|^2), with d = A - B on the right and R A - R B = R d on the left *)
  assert (HK : forall a b c, s * fexp K (- (h * a)) * (s * fexp K (- (h * b))) * (s * fexp K (- (h * c)))
                             = s * s * s * fexp K (- (h * (a + b + c)))).
  { intros a b c. replace (- (h * (a + b + c))) with (- (h * a) + - (h * b) + - (h * c)) by ring.
    rewrite !Hexp. ring. }
  rewrite !HK. do 4 f_equal.
  set (d := fun i => vecf (s_x sa, s_y sa, s_z sa) i - vecf (s_x sb, s_y sb, s_z sb) i).
  etransitivity; [|exact (norm_rot (matf R) d (orthogonal_cols R HO))].
  unfold d, dot, sum3, matf, vecf. cbn [rot_shell s_x s_y s_z mapply mrow vget ax2nat fst snd].
  unfold dot3. cbn [fst snd]. ring.
Qed.

Definition pair_poly (sa sb : shell F) (ca cb : comp) (alpha beta : F) : poly3 (F:=F) :=
  smono K (PAf sa sb alpha beta) ca (smono K (PBf sa sb alpha beta) cb (one3 K)).
Definition triple_poly (C : @vec3 F) (o : comp) (sa sb : shell F) (ca cb : comp) (alpha beta : F)
  : poly3 (F:=F) :=
  smono K (PCf C sa sb alpha beta) o (pair_poly sa sb ca cb alpha beta).

Theorem mom_prim_is_E3 (C : @vec3 F) o sa sb ca cb alpha beta :
  mom_prim K (vget C 0) (vget C 1) (vget C 2) o sa sb ca cb alpha beta
  = KAB K sa sb alpha beta * E3 K (1 / twop K alpha beta) (triple_poly C o sa sb ca cb alpha beta).
Proof.
  unfold mom_prim. f_equal. symmetry. unfold triple_poly, pair_poly.
  rewrite (factors_E3 K _ _ _ _ _
             (factors_smono K Kf _ _ _ _ _ _ _
                (factors_smono K Kf _ _ _ _ _ _ _
                   (factors_smono K Kf _ _ _ _ _ _ _ (factors_one3 K Kf _))))).
  reflexivity.
Qed.

(* (R^T u)^a multiplied out in monomials of u *)
Definition rot_expand (R : @mat3 F) (a : comp) : poly3 (F:=F) := subst_mon K (transpose (matf R)) a.

Lemma rot_expand_eval R a u :
  Jsum K (monomial K u) (rot_expand R a) = monomial K (mapply_t K R u) a.
Proof.
  pose proof (peval_subst_mon K Kf (vecf u) (transpose (matf R)) a) as H.
  unfold peval in H. unfold rot_expand.
  rewrite (Jsum_ext K (monomial K u) (monoval K (vecf u))) by (intro m; reflexivity).
  rewrite H. unfold monoval, monomial, mapply_t, dot, sum3, transpose, matf, vecf, dot3, mcol.
  cbn [ax2nat vget fst snd]. reflexivity.
Qed.

Theorem moment_prim_rotation_covariant R (C : @vec3 F) o sa sb ca cb alpha beta :
  orthogonal K R -> psum K alpha beta <> 0 ->
  let C' := mapply K R C in
  Jsum K (fun o' => Jsum K (fun a' => Jsum K (fun b' =>
       mom_prim K (vget C' 0) (vget C' 1) (vget C' 2) o' (rot_shell K R sa) (rot_shell K R sb) a' b' alpha beta)
     (rot_expand R cb)) (rot_expand R ca)) (rot_expand R o)
  = mom_prim K (vget C 0) (vget C 1) (vget C 2) o sa sb ca cb alpha beta.
Proof.
  intros HO Hp C'. rewrite mom_prim_is_E3.
  rewrite (Jsum_ext K _ (fun o' => KAB K sa sb alpha beta *
            Jsum K (fun a' => Jsum K (fun b' => E3 K (1 / twop K alpha beta)
                       (triple_poly C' o' (rot_shell K R sa) (rot_shell K R sb) a' b' alpha beta))
                      (rot_expand R cb)) (rot_expand R ca))).
  2:{ intro o'. rewrite <- (Jsum_Jscale K Kf). apply Jsum_ext. intro a'.
      rewrite <- (Jsum_Jscale K Kf). apply Jsum_ext. intro b'.
      now rewrite mom_prim_is_E3, KAB_rot. }
  rewrite (Jsum_Jscale K Kf). f_equal. unfold triple_poly, pair_poly, rot_expand.
  apply (rotated_product3_E3 K Kf _ (matf R) (PCf C sa sb alpha beta) (PAf sa sb alpha beta)
           (PBf sa sb alpha beta)).
  - now apply orthogonal_cols.
  - now apply PCf_rot.
  - now apply PAf_rot.
  - now apply PBf_rot.
Qed.

Theorem overlap_prim_rotation_covariant R sa sb ca cb alpha beta :
  orthogonal K R -> psum K alpha beta <> 0 ->
  Jsum K (fun a' => Jsum K (fun b' =>
       ovl_prim K (rot_shell K R sa) (rot_shell K R sb) a' b' alpha beta)
     (rot_expand R cb)) (rot_expand R ca)
  = ovl_prim K sa sb ca cb alpha beta.
Proof.
  intros HO Hp.
  etransitivity; [|exact (moment_prim_rotation_covariant R (0, 0, 0) (0, 0, 0)%nat sa sb ca cb alpha beta HO Hp)].
  (* (R^T u)^(0,0,0) = 1, and the moment of order 0 does not see its origin *)
  cbv zeta. change (rot_expand R (0, 0, 0)%nat) with (one3 K). unfold one3, mono3. cbn [Jsum fst snd].
  ring_simplify. reflexivity.
Qed.

Lemma T3_c_irrelevant v a b c i j : T3 K v a b c 0 i j = T3 K v a b 0 0 i j.
Proof. reflexivity. Qed.

Lemma ovl_prim_S1 sa sb ca cb alpha beta :
  ovl_prim K sa sb ca cb alpha beta
  = S1 K (s_x sa) (s_x sb) alpha beta (cx ca) (cx cb) * S1 K (s_y sa) (s_y sb) alpha beta (cy ca) (cy cb)
    * S1 K (s_z sa) (s_z sb) alpha beta (cz ca) (cz cb).
Proof.
  unfold ovl_prim, mom_prim, KAB, S1, Sfun, T1. cbn [cx cy cz fst snd].
  rewrite !(T3_c_irrelevant _ _ _ (PC K _ _ _ _ _)). ring.
Qed.

(* the first and second derivative of the right function, as operators on the index j of a 1-D table *)
Lemma Bop1_explicit beta (T : tfun (F:=F)) i j :
  iterop (Bop K beta) 1 T i j = #j * T i (Nat.pred j) - (1 + 1) * beta * T i (S j).
Proof. cbn [iterop]. unfold Bop. now rewrite Nat.sub_1_r. Qed.
Lemma Bop2_explicit beta (T : tfun (F:=F)) i j :
  iterop (Bop K beta) 2 T i j
  = #(Nat.pred j) * #j * T i (Nat.pred (Nat.pred j)) - (1 + 1 + 1 + 1) * beta * #j * T i (S (Nat.pred j))
    - (1 + 1) * beta * T i j + (1 + 1 + 1 + 1) * beta * beta * T i (S (S j)).
Proof.
  cbn [iterop]. unfold Bop.
  destruct j as [|[|j]]; cbn [Nat.sub Nat.pred]; rewrite ?Nat.sub_0_r; cbn [ofnat]; ring.
Qed.

(* [kin_prim] of Proofs/CoreDiffP.v is the kinetic operator -1/2 e^{beta u^2} Lap (. e^{-beta u^2}) of
   Gauss/Poly3.v acting on the index of the right function of the overlap *)
Theorem kin_prim_is_kinT sa sb ca cb alpha beta :
  kin_prim K sa sb ca cb alpha beta
  = kinT K (1 / (1 + 1)) beta (fun b => ovl_prim K sa sb ca b alpha beta) cb.
Proof.
  unfold kinT. rewrite (Jsum_ext K _ _ (fun b => ovl_prim_S1 sa sb ca b alpha beta)).
  unfold kin_prim, D1. rewrite !Bop2_explicit.
  unfold kinop, lap, euler, rsq, mono3, S1, cx, cy, cz.
  cbn [fst snd dv mulv map app pscale3 Jsum bump mlower expo]. ring.
Qed.

Theorem kinetic_prim_rotation_covariant R sa sb ca cb alpha beta :
  orthogonal K R -> psum K alpha beta <> 0 ->
  Jsum K (fun a' => Jsum K (fun b' =>
       kin_prim K (rot_shell K R sa) (rot_shell K R sb) a' b' alpha beta)
     (rot_expand R cb)) (rot_expand R ca)
  = kin_prim K sa sb ca cb alpha beta.
Proof.
  intros HO Hp. rewrite kin_prim_is_kinT.
  rewrite (Jsum_ext K _ (fun a' => Jsum K (fun b' =>
             kinT K (1 / (1 + 1)) beta
               (fun b => ovl_prim K (rot_shell K R sa) (rot_shell K R sb) a' b alpha beta) b')
             (rot_expand R cb))).
  2:{ intro a'. apply Jsum_ext. intro b'. apply kin_prim_is_kinT. }
  unfold rot_expand.
  apply (kinT_covariant K Kf (transpose (matf R)) (1 / (1 + 1)) beta
           (fun a b => ovl_prim K sa sb a b alpha beta)
           (fun a b => ovl_prim K (rot_shell K R sa) (rot_shell K R sb) a b alpha beta)).
  - now apply orthogonal_cols.
  - exact (orthogonal_rows R HO).
  - intros a b. now apply overlap_prim_rotation_covariant.
Qed.

End Rot.

(* Examples over Qc: the hypotheses are satisfiable (a proper rational rotation - the 3-4-5 rotation about z -
   and an improper one, (1/3)[[1,2,2],[2,1,-2],[2,-2,1]], det = -1); the instantiated theorems, read through Qeq_bool,
   are the executable checks [ovl_cov_check], [kin_cov_check], [mom_cov_check] on p and d components. *)
From Coq Require Import ZArith QArith Qcanon.

Lemma forallb_all {A} (f : A -> bool) (l : list A) : (forall x, f x = true) -> forallb f l = true.
Proof. intro H. apply forallb_forall. intros x _. apply H. Qed.
Lemma forallb_seq (f : nat -> bool) n : (forall i, (i < n)%nat -> f i = true) -> forallb f (seq 0 n) = true.
Proof. intro H. apply forallb_forall. intros i Hi. apply in_seq in Hi. apply H. lia. Qed.
Lemma Qeq_bool_of_eq (a b : Qc) : a = b -> Qeq_bool a b = true.
Proof. intros ->. apply Qeq_bool_refl. Qed.

Section Examples.
Let KQ : Fops Qc := QcK true (Q2Qc 3) (fun x => x) (fun _ => Q2Qc 1) (fun x => x) (fun _ x => x).
Let KQf : is_field KQ := QcK_field _ _ _ _ _ _.
Let q (n : Z) (d : positive) : Qc := qc_of n d.

Definition R345 : @mat3 Qc :=
  ((q 3 5, q (-4) 5, q 0 1), (q 4 5, q 3 5, q 0 1), (q 0 1, q 0 1, q 1 1)).
Definition Rimp : @mat3 Qc :=
  ((q 1 3, q 2 3, q 2 3), (q 2 3, q 1 3, q (-2) 3), (q 2 3, q (-2) 3, q 1 3)).
Definition exA : shell Qc := mkShell Qc 2 (q 1 2) (q (-1) 1) (q 2 1) [q 3 2] [[q 1 1]] false [] [].
Definition exB : shell Qc := mkShell Qc 2 (q 0 1) (q 1 3) (q (-1) 1) [q 2 3] [[q 1 1]] false [] [].
Definition exC : @vec3 Qc := (q 1 4, q (-2) 1, q 1 3).

(* a constant exp is a homomorphism *)
Lemma KQ_exp_hom {ex opi osqrt oln oboys} :
  let K := QcK ex opi osqrt (fun _ => Q2Qc 1) oln oboys in
  forall x y, fexp K (fadd K x y) = fmul K (fexp K x) (fexp K y).
Proof. intros K x y. apply Qc_is_canon. vm_compute. reflexivity. Qed.

(* field operations only: the same for every choice of the transcendental closures *)
Lemma orthogonal_R345_Rimp ex opi osqrt oexp oln oboys R :
  In R [R345; Rimp] -> orthogonal (QcK ex opi osqrt oexp oln oboys) R.
Proof.
  intros [<-|[<-|[]]] i j Hi Hj; destruct i as [|[|[|i]]]; try lia; destruct j as [|[|[|j]]]; try lia;
    split; apply Qc_is_canon; vm_compute; reflexivity.
Qed.
Lemma orthogonal_R345 {ex opi osqrt oexp oln oboys} : orthogonal (QcK ex opi osqrt oexp oln oboys) R345.
Proof. apply orthogonal_R345_Rimp. now left. Qed.
Lemma orthogonal_Rimp {ex opi osqrt oexp oln oboys} : orthogonal (QcK ex opi osqrt oexp oln oboys) Rimp.
Proof. apply orthogonal_R345_Rimp. now right; left. Qed.
Lemma ex_psum {ex opi osqrt oexp oln oboys} :
  let K := QcK ex opi osqrt oexp oln oboys in psum K (q 3 2) (q 2 3) <> f0 K.
Proof. intros K. apply qc_neq. vm_compute. reflexivity. Qed.

Example overlap_rotation_345_pd :
  forall ca cb,
  Jsum KQ (fun a' => Jsum KQ (fun b' =>
       ovl_prim KQ (rot_shell KQ R345 exA) (rot_shell KQ R345 exB) a' b' (q 3 2) (q 2 3))
     (rot_expand KQ R345 cb)) (rot_expand KQ R345 ca)
  = ovl_prim KQ exA exB ca cb (q 3 2) (q 2 3).
Proof.
  intros. apply (overlap_prim_rotation_covariant KQ KQf KQ_exp_hom R345 exA exB ca cb _ _ orthogonal_R345 ex_psum).
Qed.
Example overlap_rotation_improper :
  forall ca cb,
  Jsum KQ (fun a' => Jsum KQ (fun b' =>
       ovl_prim KQ (rot_shell KQ Rimp exA) (rot_shell KQ Rimp exB) a' b' (q 3 2) (q 2 3))
     (rot_expand KQ Rimp cb)) (rot_expand KQ Rimp ca)
  = ovl_prim KQ exA exB ca cb (q 3 2) (q 2 3).
Proof.
  intros. apply (overlap_prim_rotation_covariant KQ KQf KQ_exp_hom Rimp exA exB ca cb _ _ orthogonal_Rimp ex_psum).
Qed.

(* the statements as boolean checks: every (ca, cb) with ca, cb among the 3 p and the 6 d components *)
Definition pd_comps : list comp := default_comps 1 ++ default_comps 2.
Definition ovl_cov_check (R : @mat3 Qc) (ca cb : comp) : bool :=
  Qeq_bool
    (Jsum KQ (fun a' => Jsum KQ (fun b' =>
         ovl_prim KQ (rot_shell KQ R exA) (rot_shell KQ R exB) a' b' (q 3 2) (q 2 3))
       (rot_expand KQ R cb)) (rot_expand KQ R ca))
    (ovl_prim KQ exA exB ca cb (q 3 2) (q 2 3)).
Definition mom_cov_check (R : @mat3 Qc) (o ca cb : comp) : bool :=
  let C' := mapply KQ R exC in
  Qeq_bool
    (Jsum KQ (fun o' => Jsum KQ (fun a' => Jsum KQ (fun b' =>
         mom_prim KQ (vget C' 0) (vget C' 1) (vget C' 2) o' (rot_shell KQ R exA) (rot_shell KQ R exB) a' b'
                  (q 3 2) (q 2 3))
       (rot_expand KQ R cb)) (rot_expand KQ R ca)) (rot_expand KQ R o))
    (mom_prim KQ (vget exC 0) (vget exC 1) (vget exC 2) o exA exB ca cb (q 3 2) (q 2 3)).

Example overlap_rotation_345_computed :
  forallb (fun ca => forallb (fun cb => ovl_cov_check R345 ca cb) pd_comps) pd_comps = true.
Proof.
  apply forallb_all. intro ca. apply forallb_all. intro cb.
  apply Qeq_bool_of_eq, overlap_rotation_345_pd.
Qed.
Example overlap_rotation_improper_computed :
  forallb (fun ca => forallb (fun cb => ovl_cov_check Rimp ca cb)
     [(0, 1, 0)%nat; (1, 0, 1)%nat; (0, 0, 2)%nat]) pd_comps = true.
Proof.
  apply forallb_all. intro ca. apply forallb_all. intro cb.
  apply Qeq_bool_of_eq, overlap_rotation_improper.
Qed.
(* the covariance is not vacuous: without the representation matrices the d-d overlap DOES change *)
Example overlap_rotation_not_invariant :
  Qeq_bool (ovl_prim KQ (rot_shell KQ R345 exA) (rot_shell KQ R345 exB) (2, 0, 0)%nat (1, 1, 0)%nat (q 3 2) (q 2 3))
           (ovl_prim KQ exA exB (2, 0, 0)%nat (1, 1, 0)%nat (q 3 2) (q 2 3)) = false.
Proof. vm_compute. reflexivity. Qed.
Definition kin_cov_check (R : @mat3 Qc) (ca cb : comp) : bool :=
  Qeq_bool
    (Jsum KQ (fun a' => Jsum KQ (fun b' =>
         kin_prim KQ (rot_shell KQ R exA) (rot_shell KQ R exB) a' b' (q 3 2) (q 2 3))
       (rot_expand KQ R cb)) (rot_expand KQ R ca))
    (kin_prim KQ exA exB ca cb (q 3 2) (q 2 3)).
Example kinetic_rotation_computed :
  forallb (fun R => forallb (fun ca => forallb (fun cb => kin_cov_check R ca cb)
     [(0, 1, 0)%nat; (1, 0, 1)%nat; (0, 0, 2)%nat]) [(1, 0, 0)%nat; (1, 1, 0)%nat])
     [R345; Rimp] = true.
Proof.
  apply forallb_forall. intros R HR. apply forallb_all. intro ca. apply forallb_all. intro cb.
  apply Qeq_bool_of_eq.
  apply (kinetic_prim_rotation_covariant KQ KQf KQ_exp_hom R exA exB ca cb _ _ (orthogonal_R345_Rimp _ _ _ _ _ _ R HR) ex_psum).
Qed.
Example kinetic_rotation_improper :
  forall ca cb,
  Jsum KQ (fun a' => Jsum KQ (fun b' =>
       kin_prim KQ (rot_shell KQ Rimp exA) (rot_shell KQ Rimp exB) a' b' (q 3 2) (q 2 3))
     (rot_expand KQ Rimp cb)) (rot_expand KQ Rimp ca)
  = kin_prim KQ exA exB ca cb (q 3 2) (q 2 3).
Proof.
  intros. apply (kinetic_prim_rotation_covariant KQ KQf KQ_exp_hom Rimp exA exB ca cb _ _ orthogonal_Rimp ex_psum).
Qed.
Example moment_rotation_computed :
  forallb (fun R => forallb (fun t => mom_cov_check R (fst (fst t)) (snd (fst t)) (snd t))
     [((1, 0, 0), (0, 1, 0), (2, 0, 0))%nat; ((0, 0, 1), (1, 0, 1), (0, 1, 1))%nat;
      ((0, 1, 1), (0, 1, 0), (1, 0, 1))%nat; ((1, 0, 0), (0, 0, 0), (1, 1, 0))%nat]) [R345; Rimp] = true.
Proof.
  apply forallb_forall. intros R HR. apply forallb_all. intros [[o ca] cb].
  apply Qeq_bool_of_eq.
  apply (moment_prim_rotation_covariant KQ KQf KQ_exp_hom R exC o exA exB ca cb _ _ (orthogonal_R345_Rimp _ _ _ _ _ _ R HR) ex_psum).
Qed.
End Examples.
