(* Proofs/MomentIntP.v — the table built by the code's recursion holds, at every
   index, the Gaussian moment E((y+PC)^k (y+PA)^i (y+PB)^j) times the s-s
   prefactor; for all la lb km, all exponents and centres. *)
From Coq Require Import List Arith Lia Field.
From GB Require Import Base.Field Base.Tables Gauss.Moment1D Model.MomentInt.
Import ListNotations.

Section P.
Context {F : Type} (K : Fops F) (Kf : is_field K).
Add Field KF : Kf.
Local Open Scope F_scope.
Notation "0" := (f0 K) : F_scope.
Notation "1" := (f1 K) : F_scope.
Infix "+" := (fadd K) : F_scope.
Infix "*" := (fmul K) : F_scope.
Infix "-" := (fsub K) : F_scope.
Infix "/" := (fdiv K) : F_scope.
Notation "- x" := (fopp K x) : F_scope.
Notation "# n" := (ofnat K n) (at level 5) : F_scope.

Variables (Ax Bx Cx alpha beta : F) (la lb km : nat).
Hypothesis Hp : psum K alpha beta <> 0.
Hypothesis H2 : 1 + 1 <> 0.

Let tp := twop K alpha beta.
Let v := 1 / tp.
Let a := PA K Ax Bx alpha beta.
Let b := PB K Ax Bx alpha beta.
Let c := PC K Ax Bx Cx alpha beta.
Let B := base K Ax Bx alpha beta.
Let T := T3 K v a b c.

Lemma tp_nz : tp <> 0.
Proof. unfold tp, twop. intro H. apply Hp.
  assert (E : psum K alpha beta = ((1 + 1) * psum K alpha beta) / (1 + 1)) by (field; exact H2).
  rewrite E, H. field. exact H2. Qed.

Lemma T_Sa k i j : T k (S i) j = a * T k i j + v * lower K v a b c 0 k i j.
Proof. apply (OS3_a K Kf). Qed.
Lemma T_Sb k i j : T k i (S j) = b * T k i j + v * lower K v a b c 0 k i j.
Proof. apply (OS3_b K Kf). Qed.
Lemma T_Sc k i j : T (S k) i j = c * T k i j + v * lower K v a b c 0 k i j.
Proof. apply (OS3_c K Kf). Qed.

(* the lower-index terms of the recurrences: #e times the entry below, read as [dn] *)
Lemma dn_0 (g : nat -> F) : dn K 0 g = 0.
Proof. reflexivity. Qed.

Lemma dn_read (y : F) (g : nat -> F) e : (0 < e -> y = B * g (e - 1)%nat) -> #e * y = B * dn K e g.
Proof.
  destruct e as [|e]; unfold dn; intros H; [cbn [ofnat]; ring|].
  rewrite H by lia. replace (S e - 1)%nat with e by lia. ring.
Qed.

Lemma row_a_correct i : i <= la ->
  nth i (row_a K Ax Bx alpha beta la) 0 = B * T 0 i 0.
Proof.
  intros Hi. unfold row_a.
  pose (P := fun (i : nat) (x : F) => x = B * T 0 i 0).
  change (P i (nth i (iter2 (step_a K Ax Bx alpha beta) la 0 (base K Ax Bx alpha beta) 0) 0)).
  replace i with (0 + i)%nat at 1 by lia.
  apply (iter2_spec (step_a K Ax Bx alpha beta) P); [| | |exact Hi].
  - intros j x y Hx Hy. unfold P in *. unfold step_a. fold a tp.
    rewrite T_Sa. unfold lower. rewrite !dn_0.
    rewrite (dn_read y (fun i' => S3 K v a b c 0 0 i' 0) j Hy), Hx.
    unfold T, T3, v. field. exact tp_nz.
  - unfold P. unfold T, T3. rewrite (S3_000 K Kf). fold B. ring.
  - intros Hlt. lia.
Qed.

Definition Prow (j : nat) (row : list F) : Prop :=
  forall i, i <= la -> nth i row 0 = B * T 0 i j.

Lemma plane0_correct j : j <= lb -> Prow j (nth j (plane0 K Ax Bx alpha beta la lb) []).
Proof.
  intros Hj. unfold plane0.
  replace j with (0 + j)%nat at 1 by lia.
  apply (iter2_spec (step_b K Ax Bx alpha beta la) Prow); [| | |exact Hj].
  - intros j0 cur prev Hc Hpv i Hi. unfold step_b.
    rewrite nth_mk by lia. fold b tp.
    rewrite T_Sb. unfold lower. rewrite dn_0.
    rewrite (dn_read (nth (i - 1) cur 0) (fun i' => S3 K v a b c 0 0 i' j0) i) by (intros; apply Hc; lia).
    rewrite (dn_read (nth i prev 0) (fun j' => S3 K v a b c 0 0 i j') j0) by (intros H; now apply Hpv).
    rewrite (Hc i Hi). unfold T, T3, v. field. exact tp_nz.
  - intros i Hi. now apply row_a_correct.
  - intros Hlt. lia.
Qed.

Definition Pplane (k : nat) (pl : list (list F)) : Prop :=
  forall j i, j <= lb -> i <= la -> nth2 K j i pl = B * T k i j.

Theorem table_correct k j i : k <= km -> j <= lb -> i <= la ->
  nth3 K k j i (table K Ax Bx Cx alpha beta la lb km) = B * T k i j.
Proof.
  intros Hk Hj Hi. unfold nth3, table.
  revert j i Hj Hi. change (Pplane k (nth k (iter2 (step_c K Ax Bx Cx alpha beta la lb) km 0
       (plane0 K Ax Bx alpha beta la lb) []) [])).
  replace k with (0 + k)%nat at 1 by lia.
  apply (iter2_spec (step_c K Ax Bx Cx alpha beta la lb) Pplane); [| | |exact Hk].
  - intros k0 cur prev Hc Hpv j i Hj Hi. unfold step_c, nth2.
    rewrite nth_mk by lia. rewrite nth_mk by lia. fold c tp.
    fold (nth2 K j i cur) (nth2 K j (i - 1) cur) (nth2 K (j - 1) i cur) (nth2 K j i prev).
    rewrite T_Sc. unfold lower.
    rewrite (dn_read (nth2 K j (i - 1) cur) (fun i' => S3 K v a b c 0 k0 i' j) i) by (intros; apply Hc; lia).
    rewrite (dn_read (nth2 K (j - 1) i cur) (fun j' => S3 K v a b c 0 k0 i j') j) by (intros; apply Hc; lia).
    rewrite (dn_read (nth2 K j i prev) (fun k' => S3 K v a b c 0 k' i j) k0) by (intros H; now apply Hpv).
    rewrite (Hc j i Hj Hi). unfold T, T3, v. field. exact tp_nz.
  - intros j i Hj Hi. unfold nth2. apply plane0_correct; assumption.
  - intros Hlt. lia.
Qed.

End P.
