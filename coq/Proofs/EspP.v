(* Proofs/EspP.v — lemmas about Model/Esp.v (electrostatic_potential).

   Any field: the value returned at a point is the masked nuclear sum minus the density-weighted sum of the
   entries of point_charge_integral with unit negative charges and the caller's transform ([esp_formula]);
   linearity in the density matrix and in the charges; the transformed path equals the untransformed one with
   the density matrix transformed back, T^T P T, for any rectangular T ([transform_is_backtransformed_P]).
   The reals with the real sqrt: a nucleus is dropped iff its Euclidean distance is below the threshold,
   whatever its charge ([mask_iff_distance_R]); the pinned tree's rule (Z/d against 1/threshold) differs on a
   concrete instance.  Qc with an oracle square root: the same mask statement when the oracle value is the
   exact non-negative root (true for the Pythagorean geometries the correspondence harness uses for its
   on-the-boundary thresholds). *)
From Coq Require Import List Arith Lia Bool Field.
From GB Require Import Base.Field Base.FNum Base.Tables Base.Sums Model.Shell Model.MomentInt Model.Spherical
  Model.Assembly Model.Overlap Model.OneElec Model.OneBody Model.Esp Proofs.EvalP.
Import ListNotations.

Section P.
Context {F : Type} (K : Fops F) (Kf : is_field K).
Add Field KF_esp : Kf.
Local Open Scope F_scope.
Notation "0" := (f0 K) : F_scope.
Notation "1" := (f1 K) : F_scope.
Infix "+" := (fadd K) : F_scope.
Infix "*" := (fmul K) : F_scope.
Infix "-" := (fsub K) : F_scope.
Infix "/" := (fdiv K) : F_scope.
Notation "- x" := (fopp K x) : F_scope.
Notation fsum := (FNum.fsum K).
Notation sumn := (Tables.sumn 0 (fadd K)).

(* :150-152  the array multiplied with the density matrix IS the model of
   point_charge_integral(basis, points, -ones, transform=transform) *)
Lemma hartree_ints_is_point_charge_integral basis points T :
  transformed_ints K (point_charge_integral K (unit_neg_points K points) basis None) T
  = point_charge_integral K (unit_neg_points K points) basis T.
Proof. destruct T; reflexivity. Qed.

(* with the unit NEGATIVE charges of :151 every block entry is PLUS the one-electron Coulomb
   integral of the shell pair at that point (point_charge.py multiplies by -q) *)
Lemma unit_neg_block_entry points sa sb ma ia mb ib p :
  (ma < nseg sa)%nat -> (ia < length (comps_of sa))%nat ->
  (mb < nseg sb)%nat -> (ib < length (comps_of sb))%nat -> (p < length points)%nat ->
  nth p (nth ib (nth mb (nth ia (nth ma
      (point_charge_block K (unit_neg_points K points) sa sb) []) []) []) []) 0
  = let R := nth p points (0, 0, 0) in
    if Nat.ltb (s_l sa) (s_l sb)
    then (nth ia (nth ma (nth ib (nth mb
           (one_elec_point K (fst (fst R)) (snd (fst R)) (snd R) sb sa) []) []) []) 0)
    else (nth ib (nth mb (nth ia (nth ma
           (one_elec_point K (fst (fst R)) (snd (fst R)) (snd R) sa sb) []) []) []) 0).
Proof.
  intros Hma Hia Hmb Hib Hp. unfold point_charge_block.
  rewrite !nth_mk by assumption.
  unfold unit_neg_points. rewrite !map_map.
  rewrite (nth_map_lt _ points p (0, 0, 0) 0 Hp).
  destruct (Nat.ltb (s_l sa) (s_l sb)); ring.
Qed.

Definition nuc_contrib (thr : F) (R : pt3) (n : pt3) (Z : F) : F :=
  if masked K thr R n then 0 else Z / dist K R n.

Lemma nuc_term_charge_free thr R n Z :
  nuc_term K thr R (n, Z) = if masked K thr R n then 0 else Z / dist K R n.
Proof. reflexivity. Qed.

Lemma nuc_term_masked thr R n : masked K thr R n = true -> forall Z, nuc_term K thr R (n, Z) = 0.
Proof. intros H Z. unfold nuc_term. cbn [fst snd]. now rewrite H. Qed.

Lemma nuc_term_kept thr R n :
  masked K thr R n = false -> forall Z, nuc_term K thr R (n, Z) = Z / dist K R n.
Proof. intros H Z. unfold nuc_term. cbn [fst snd]. now rewrite H. Qed.

Definition nuclear_sum (thr : F) (ncoords : list pt3) (ncharges : list F) (R : pt3) : F :=
  sumn (Nat.min (length ncoords) (length ncharges))
       (fun A => nuc_contrib thr R (nth A ncoords (0, 0, 0)) (nth A ncharges 0)).

Lemma external_is_minus_nuclear_sum thr ncoords ncharges R :
  external K thr (combine ncoords ncharges) R = - nuclear_sum thr ncoords ncharges R.
Proof.
  unfold external, nuclear_sum. f_equal.
  now rewrite (fsum_combine K Kf (nuc_term K thr R) ncoords ncharges (0, 0, 0) 0).
Qed.

Definition electronic_sum (H : list (list (list F))) (P : list (list F)) (p : nat) : F :=
  sumn (length P) (fun a => sumn (length P) (fun b => nth b (nth a P []) 0 * getH K H a b p)).

Lemma hartree_is_electronic_sum H P p : hartree K H P p = electronic_sum H P p.
Proof.
  unfold hartree, electronic_sum. apply Tables.sumn_ext. intros a _. apply Tables.sumn_ext. intros b _. ring.
Qed.

Lemma esp_values_entry H P points nuclei_c nuclei_z thr p :
  (p < length points)%nat ->
  nth p (esp_values K H P points (combine nuclei_c nuclei_z) thr) 0
  = nuclear_sum thr nuclei_c nuclei_z (nth p points (0, 0, 0)) - electronic_sum H P p.
Proof.
  intros Hp. unfold esp_values. rewrite nth_mk by assumption.
  rewrite external_is_minus_nuclear_sum, hartree_is_electronic_sum. ring.
Qed.

Lemma esp_with_formula V nf P points ncoords ncharges T thr v :
  esp_with K V nf P points ncoords ncharges T thr = Some v ->
  length v = length points /\
  forall p, (p < length points)%nat ->
    nth p v 0
    = nuclear_sum thr ncoords ncharges (nth p points (0, 0, 0))
      - electronic_sum (transformed_ints K V T) P p.
Proof.
  unfold esp_with. intros E.
  destruct (_ && _) in E; [|discriminate]. injection E as <-. split.
  - unfold esp_values. apply mk_length.
  - intros p Hp. now apply esp_values_entry.
Qed.

(* whenever the call is accepted, the value at every point is the masked nuclear sum minus the
   density-weighted sum of the entries of point_charge_integral(basis, points, -1, transform) *)
Lemma esp_formula basis P points ncoords ncharges T thr v :
  esp K basis P points ncoords ncharges T thr = Some v ->
  length v = length points /\
  forall p, (p < length points)%nat ->
    nth p v 0
    = nuclear_sum thr ncoords ncharges (nth p points (0, 0, 0))
      - electronic_sum (point_charge_integral K (unit_neg_points K points) basis T) P p.
Proof.
  unfold esp. intros E. apply esp_with_formula in E.
  now rewrite hartree_ints_is_point_charge_integral in E.
Qed.

Lemma esp_accepts basis P points ncoords ncharges T thr :
  (exists v, esp K basis P points ncoords ncharges T thr = Some v) <->
  square_symmetric K P = true /\ length ncoords = length ncharges /\ fltb K thr 0 = false
  /\ size_ok (nfun_basis basis) P T = true.
Proof.
  unfold esp, esp_with. split.
  - intros [v E]. destruct (square_symmetric K P); [|discriminate].
    destruct (Nat.eqb_spec (length ncoords) (length ncharges)); [|discriminate].
    destruct (fltb K thr 0); [discriminate|].
    destruct (size_ok _ P T); [|discriminate]. auto.
  - intros (H1 & H2 & H3 & H4). rewrite H1, H2, Nat.eqb_refl, H3, H4. cbn. eauto.
Qed.

(* the size rule: with a transform the density matrix is compared with the number of ROWS of the
   transform (any number: rectangular transforms pass), never with the untransformed basis *)
Lemma size_ok_transform nf (P : list (list F)) (t : list (list F)) :
  size_ok nf P (Some t) = true <->
  length t = length P /\ Forall (fun row => length row = nf) t.
Proof.
  unfold size_ok. rewrite andb_true_iff, Nat.eqb_eq, forallb_forall, Forall_forall.
  split; intros [A B]; split; auto; intros r Hr; specialize (B r Hr); now apply Nat.eqb_eq.
Qed.

Definition mcomb (n : nat) (c1 : F) (P1 : list (list F)) (c2 : F) (P2 : list (list F)) :=
  mk n (fun a => mk n (fun b => c1 * nth b (nth a P1 []) 0 + c2 * nth b (nth a P2 []) 0)).
Definition zcomb (n : nat) (c1 : F) (Z1 : list F) (c2 : F) (Z2 : list F) :=
  mk n (fun A => c1 * nth A Z1 0 + c2 * nth A Z2 0).

Lemma electronic_sum_linear H c1 P1 c2 P2 p :
  length P1 = length P2 ->
  electronic_sum H (mcomb (length P1) c1 P1 c2 P2) p
  = c1 * electronic_sum H P1 p + c2 * electronic_sum H P2 p.
Proof.
  intros E. unfold electronic_sum. rewrite <- E. unfold mcomb at 1 2. rewrite mk_length.
  rewrite <- !(sumn_scale K Kf), <- (sumn_add K Kf). apply Tables.sumn_ext. intros a Ha.
  rewrite <- !(sumn_scale K Kf), <- (sumn_add K Kf). apply Tables.sumn_ext. intros b Hb.
  unfold mcomb. rewrite !nth_mk by assumption. ring.
Qed.

Lemma div_def x y : x / y = x * finv K y.
Proof. apply (Fdiv_def Kf). Qed.

Lemma nuc_contrib_linear thr R n c1 z1 c2 z2 :
  nuc_contrib thr R n (c1 * z1 + c2 * z2)
  = c1 * nuc_contrib thr R n z1 + c2 * nuc_contrib thr R n z2.
Proof. unfold nuc_contrib. destruct (masked K thr R n); [ring|]. rewrite !div_def. ring. Qed.

Lemma nuclear_sum_linear thr ncoords c1 Z1 c2 Z2 R :
  length Z1 = length Z2 ->
  nuclear_sum thr ncoords (zcomb (length Z1) c1 Z1 c2 Z2) R
  = c1 * nuclear_sum thr ncoords Z1 R + c2 * nuclear_sum thr ncoords Z2 R.
Proof.
  intros E. unfold nuclear_sum. rewrite <- E. unfold zcomb at 1. rewrite mk_length.
  rewrite <- !(sumn_scale K Kf), <- (sumn_add K Kf). apply Tables.sumn_ext. intros A HA.
  unfold zcomb. rewrite nth_mk by lia. apply nuc_contrib_linear.
Qed.

(* the returned values are linear in (density matrix, charges) jointly, hence in each *)
Lemma esp_values_linear H points ncoords thr c1 P1 Z1 c2 P2 Z2 p :
  length P1 = length P2 -> length Z1 = length Z2 -> (p < length points)%nat ->
  nth p (esp_values K H (mcomb (length P1) c1 P1 c2 P2) points
           (combine ncoords (zcomb (length Z1) c1 Z1 c2 Z2)) thr) 0
  = c1 * nth p (esp_values K H P1 points (combine ncoords Z1) thr) 0
    + c2 * nth p (esp_values K H P2 points (combine ncoords Z2) thr) 0.
Proof.
  intros EP EZ Hp. rewrite !esp_values_entry by assumption.
  rewrite electronic_sum_linear, nuclear_sum_linear by assumption. ring.
Qed.

Definition Pv (np : nat) (v : list F) : Prop := v = [] \/ length v = np.
Definition proj (p : nat) (v : list F) : F := nth p v 0.

Lemma Pv_vscale np t x : Pv np x -> Pv np (vscale K t x).
Proof. intros [->|H]; [now left|right]. unfold vscale. now rewrite map_length. Qed.

Lemma proj_vscale p t x : proj p (vscale K t x) = t * proj p x.
Proof. unfold proj, vscale. rewrite <- (map_nth (fmul K t)). f_equal. ring. Qed.

Lemma vadd_spec np p x y : Pv np x -> Pv np y ->
  Pv np (vadd K x y) /\ proj p (vadd K x y) = proj p x + proj p y.
Proof.
  intros Hx Hy. unfold vadd, proj.
  destruct x as [|x0 x]; [split; [exact Hy|rewrite nth_nil; ring]|].
  destruct y as [|y0 y]; [split; [exact Hx|rewrite nth_nil; ring]|].
  destruct Hx as [Hx|Hx]; [discriminate|]. destruct Hy as [Hy|Hy]; [discriminate|].
  split; [right; rewrite map_length, combine_length; lia|].
  set (X := x0 :: x) in *. set (Y := y0 :: y) in *.
  destruct (Nat.lt_ge_cases p np) as [H|H].
  - rewrite (nth_map_lt _ (combine X Y) p (0, 0) 0) by (rewrite combine_length; lia).
    now rewrite combine_nth_lt by lia.
  - rewrite !nth_overflow by (rewrite ?map_length, ?combine_length; lia). ring.
Qed.

Definition scomb (t : list F) (xs : list (list F)) : list F :=
  asum (vzero (F:=F)) (vadd K) (map (fun '(t0, x) => vscale K t0 x) (combine t xs)).

Lemma scomb_spec np p t xs : Forall (Pv np) xs ->
  Pv np (scomb t xs) /\
  proj p (scomb t xs)
  = sumn (Nat.min (length t) (length xs)) (fun k => nth k t 0 * proj p (nth k xs [])).
Proof.
  intros Hxs. revert t.
  induction Hxs as [|x xs Hx _ IH]; intros [|t0 t]; try (split; [now left|now destruct p]).
  destruct (IH t) as [A B]. destruct (vadd_spec np p _ _ (Pv_vscale np t0 x Hx) A) as [A' B'].
  split; [exact A'|]. cbn [length Nat.min]. rewrite (sumn_shift K Kf). cbn [nth].
  rewrite <- B, <- proj_vscale. exact B'.
Qed.

Notation transposev := (transpose (vzero (F:=F))).
Notation apply_rowsv := (apply_rows (vzero (F:=F)) (vadd K) (vscale K)).
Notation lincomb2v := (lincomb2 (vzero (F:=F)) (vadd K) (vscale K)).

Lemma apply_rows_entry T v i : nth i (apply_rowsv T v) vzero = scomb (nth i T []) v.
Proof. exact (map_nth (fun trow => scomb trow v) T [] i). Qed.

Lemma transpose_length {B} (d : B) m : length (transpose d m) = length (hd [] m).
Proof. unfold transpose. apply mk_length. Qed.

Lemma nth_transpose {B} (d : B) m c : (c < length (hd [] m))%nat ->
  nth c (transpose d m) [] = map (fun row => nth c row d) m.
Proof. intros H. unfold transpose. now rewrite nth_mk. Qed.

Definition vec_ok (np : nat) (V : list (list (list F))) : Prop := Forall (Forall (Pv np)) V.

Lemma vec_ok_entry np V k l : vec_ok np V -> Pv np (nth l (nth k V []) []).
Proof.
  intros H. destruct (nth_in_or_default k V []) as [Hin| ->]; [|destruct l; now left].
  unfold vec_ok in H. rewrite Forall_forall in H. specialize (H _ Hin).
  destruct (nth_in_or_default l (nth k V []) []) as [Hin2| ->]; [|now left].
  rewrite Forall_forall in H. now apply H.
Qed.

Lemma cols_ok np V : vec_ok np V -> Forall (Forall (Pv np)) (transposev V).
Proof.
  intros HV. apply Forall_mk. intros l _. apply Forall_forall. intros v Hv.
  apply in_map_iff in Hv. destruct Hv as [row [<- Hrow]]. apply (In_nth _ _ []) in Hrow.
  destruct Hrow as [k [_ <-]]. now apply vec_ok_entry.
Qed.

Lemma apply_rows_cols T cols i : (i < length T)%nat ->
  nth i (transposev (map (apply_rowsv T) cols)) [] = map (scomb (nth i T [])) cols.
Proof.
  intros Hi. destruct cols as [|c0 cr]; [now destruct i|].
  rewrite nth_transpose by (cbn [map hd]; unfold apply_rows; now rewrite map_length).
  rewrite map_map. apply map_ext. intro col. apply apply_rows_entry.
Qed.

Lemma getH_apply_rows T m i j p :
  getH K (map (apply_rowsv T) m) i j p = proj p (scomb (nth j T []) (nth i m [])).
Proof.
  unfold getH. rewrite <- apply_rows_entry. destruct (Nat.lt_ge_cases i (length m)) as [H|H].
  - now rewrite (nth_map_lt _ m i [] []).
  - rewrite (nth_overflow (map _ m)), (nth_overflow m) by (rewrite ?map_length; lia).
    rewrite apply_rows_entry. unfold scomb. destruct (nth j T []); now destruct j, p.
Qed.

(* entry (i, j) of  T1 V T2^T  at point p, as a double sum *)
Lemma lincomb2_entry np V T1 T2 i j p : vec_ok np V -> (i < length T1)%nat ->
  getH K (lincomb2v T1 T2 V) i j p
  = sumn (Nat.min (length (nth j T2 [])) (length (hd [] V))) (fun l => nth l (nth j T2 []) 0 *
      sumn (Nat.min (length (nth i T1 [])) (length V)) (fun k => nth k (nth i T1 []) 0 * getH K V k l p)).
Proof.
  intros HV Hi. apply cols_ok in HV. unfold lincomb2. rewrite getH_apply_rows, (apply_rows_cols T1 _ i Hi).
  set (cols := transposev V) in *.
  assert (HW : Forall (Pv np) (map (scomb (nth i T1 [])) cols)).
  { apply Forall_forall. intros w Hw. apply in_map_iff in Hw. destruct Hw as [col [<- Hc]].
    rewrite Forall_forall in HV. now apply (scomb_spec np p), HV. }
  rewrite (proj2 (scomb_spec np p _ _ HW)), map_length. unfold cols at 1. rewrite transpose_length.
  apply Tables.sumn_ext. intros l Hl. f_equal.
  assert (Hl' : (l < length (hd [] V))%nat) by lia.
  rewrite (nth_map_lt _ cols l [] []) by (unfold cols; now rewrite transpose_length).
  assert (Hcol : Forall (Pv np) (nth l cols [])).
  { rewrite Forall_forall in HV. apply HV, nth_In. unfold cols. now rewrite transpose_length. }
  rewrite (proj2 (scomb_spec np p _ _ Hcol)). unfold cols. rewrite nth_transpose, map_length by exact Hl'.
  apply Tables.sumn_ext. intros k Hk. f_equal. unfold proj, getH.
  now rewrite (nth_map_lt (fun row => nth l row vzero) V k [] []) by lia.
Qed.

Definition tent (T : list (list F)) (i k : nat) : F := nth k (nth i T []) 0.
Definition pent (P : list (list F)) (i j : nat) : F := nth j (nth i P []) 0.

(* (T^T P T)[a][b] = sum_ij T[i][a] P[i][j] T[j][b],  a, b < n = number of columns of T *)
Definition backtransform (T P : list (list F)) (n : nat) : list (list F) :=
  mk n (fun a => mk n (fun b =>
    sumn (length P) (fun i => sumn (length P) (fun j => tent T i a * pent P i j * tent T j b)))).

Lemma backtransform_length T P n : length (backtransform T P n) = n.
Proof. apply mk_length. Qed.

(* an array of vectors over the points axis whose rows are not longer than its first row
   (in particular any rectangular array) *)
Definition arr_ok (np : nat) (V : list (list (list F))) : Prop :=
  vec_ok np V /\ Forall (fun row => (length row <= length (hd [] V))%nat) V.

Lemma square_arr_ok n np V :
  length V = n -> Forall (fun row => length row = n /\ Forall (Pv np) row) V -> arr_ok np V.
Proof.
  intros L H. split.
  - unfold vec_ok. eapply Forall_impl; [|exact H]. now intros row [_ Hr].
  - destruct V as [|r0 V]; [constructor|]. cbn [hd].
    pose proof (Forall_inv H) as [L0 _]. eapply Forall_impl; [|exact H]. intros row [Lr _]. lia.
Qed.

Lemma getH_out_col np V k l p : arr_ok np V -> (length (hd [] V) <= l)%nat -> getH K V k l p = 0.
Proof.
  intros [_ H] Hl. unfold getH.
  destruct (nth_in_or_default k V []) as [Hin|E].
  - rewrite Forall_forall in H. specialize (H _ Hin).
    rewrite (nth_overflow (nth k V [])) by lia. now destruct p.
  - rewrite E. now destruct l, p.
Qed.

Lemma getH_out_row V k l p : (length V <= k)%nat -> getH K V k l p = 0.
Proof. intros Hk. unfold getH. rewrite (nth_overflow V) by lia. now destruct l, p. Qed.

Lemma sumn_min_ext n c f : (forall l, (c <= l)%nat -> (l < n)%nat -> f l = 0) ->
  sumn (Nat.min n c) f = sumn n f.
Proof.
  intros H. symmetry. apply (sumn_trunc K Kf); [lia|]. intros k Hk. apply H; lia.
Qed.

Lemma sum4_perm n m (t : nat -> nat -> nat -> nat -> F) :
  sumn n (fun a => sumn n (fun b => sumn m (fun i => sumn m (fun j => t a b i j))))
  = sumn m (fun i => sumn m (fun j => sumn n (fun b => sumn n (fun a => t a b i j)))).
Proof.
  rewrite (Tables.sumn_ext _ _ n _ (fun a => sumn m (fun i => sumn n (fun b => sumn m (fun j => t a b i j)))))
    by (intros; apply (sumn_swap K Kf)).
  rewrite (sumn_swap K Kf). apply Tables.sumn_ext. intros i _.
  rewrite (Tables.sumn_ext _ _ n _ (fun a => sumn m (fun j => sumn n (fun b => t a b i j))))
    by (intros; apply (sumn_swap K Kf)).
  rewrite (sumn_swap K Kf). apply Tables.sumn_ext. intros j _. apply (sumn_swap K Kf).
Qed.

Lemma transformed_entry np V T n i j p :
  arr_ok np V -> Forall (fun row => length row = n) T -> (i < length T)%nat -> (j < length T)%nat ->
  getH K (transformed_ints K V (Some T)) i j p
  = sumn n (fun l => tent T j l * sumn n (fun k => tent T i k * getH K V k l p)).
Proof.
  intros HV HT Hi Hj. unfold transformed_ints.
  rewrite (lincomb2_entry np V T T i j p (proj1 HV) Hi).
  assert (Li : length (nth i T []) = n).
  { rewrite Forall_forall in HT. apply HT. now apply nth_In. }
  assert (Lj : length (nth j T []) = n).
  { rewrite Forall_forall in HT. apply HT. now apply nth_In. }
  rewrite Li, Lj. rewrite sumn_min_ext.
  - apply Tables.sumn_ext. intros l _. unfold tent. f_equal.
    apply sumn_min_ext. intros k Hk _. rewrite getH_out_row by exact Hk. ring.
  - intros l Hl _. rewrite (sumn_zero K Kf (Nat.min n (length V))); [ring|].
    intros k _. rewrite (getH_out_col np) by assumption. ring.
Qed.

(* sum_ij P_ij (T V T^T)_ij = sum_ab (T^T P T)_ab V_ab, for any rectangular T *)
Lemma transform_is_backtransformed_P np V T P n p :
  arr_ok np V -> Forall (fun row => length row = n) T -> length T = length P ->
  electronic_sum (transformed_ints K V (Some T)) P p
  = electronic_sum V (backtransform T P n) p.
Proof.
  intros HV HT HL. unfold electronic_sum.
  rewrite backtransform_length.
  set (m := length P).
  transitivity (sumn m (fun i => sumn m (fun j => sumn n (fun b => sumn n (fun a =>
                  tent T i a * pent P i j * tent T j b * getH K V a b p))))).
  - apply Tables.sumn_ext. intros i Hi. apply Tables.sumn_ext. intros j Hj.
    rewrite (transformed_entry np V T n i j p HV HT) by (rewrite HL; assumption).
    fold (pent P i j). rewrite <- (sumn_scale K Kf). apply Tables.sumn_ext. intros b _.
    rewrite <- (sumn_scale K Kf). rewrite <- (sumn_scale K Kf). apply Tables.sumn_ext. intros a _. ring.
  - rewrite <- (sum4_perm n m (fun a b i j => tent T i a * pent P i j * tent T j b * getH K V a b p)).
    apply Tables.sumn_ext. intros a Ha. apply Tables.sumn_ext. intros b Hb.
    unfold backtransform. rewrite !nth_mk by assumption.
    fold m. rewrite <- (sumn_scale_r K Kf). apply Tables.sumn_ext. intros i _.
    rewrite <- (sumn_scale_r K Kf). reflexivity.
Qed.

Lemma esp_values_transform np V T P n points nuclei thr :
  arr_ok np V -> Forall (fun row => length row = n) T -> length T = length P ->
  esp_values K (transformed_ints K V (Some T)) P points nuclei thr
  = esp_values K (transformed_ints K V None) (backtransform T P n) points nuclei thr.
Proof.
  intros HV HT HL. unfold esp_values. apply mk_ext. intros p _.
  rewrite !hartree_is_electronic_sum.
  now rewrite (transform_is_backtransformed_P np V T P n p HV HT HL).
Qed.

(* Esp.squareb (V is an n x n array of vectors of length np) is a decidable sufficient condition for
   [arr_ok].  The runner reports this bit for the array of every generated case (Extract/RunEsp.v). *)
Lemma squareb_arr_ok n np V : squareb n np V = true -> arr_ok np V.
Proof.
  unfold squareb. rewrite andb_true_iff, Nat.eqb_eq, forallb_forall. intros [L H].
  apply (square_arr_ok n np V L). apply Forall_forall. intros row Hrow.
  specialize (H row Hrow). rewrite andb_true_iff, Nat.eqb_eq, forallb_forall in H.
  destruct H as [Lr Hv]. split; [exact Lr|]. apply Forall_forall. intros v Hin. right.
  now apply Nat.eqb_eq, Hv.
Qed.

Lemma square_symmetric_spec P :
  (forall x y, feqb K x y = true <-> x = y) ->
  square_symmetric K P = true <->
  Forall (fun row => length row = length P) P /\
  forall i j, (i < length P)%nat -> (j < length P)%nat -> pent P i j = pent P j i.
Proof.
  intros Heq. unfold square_symmetric. rewrite andb_true_iff, !forallb_forall, Forall_forall.
  split; intros [A B]; split.
  - intros r Hr. now apply Nat.eqb_eq, A.
  - intros i j Hi Hj. apply Heq.
    assert (Ii : In i (seq 0 (length P))) by (apply in_seq; lia).
    assert (Ij : In j (seq 0 (length P))) by (apply in_seq; lia).
    specialize (B i Ii). rewrite forallb_forall in B. exact (B j Ij).
  - intros r Hr. now apply Nat.eqb_eq, A.
  - intros i Hi. apply forallb_forall. intros j Hj. apply in_seq in Hi. apply in_seq in Hj.
    apply Heq. apply B; lia.
Qed.

Lemma backtransform_symmetric T P n a b :
  (forall i j, (i < length P)%nat -> (j < length P)%nat -> pent P i j = pent P j i) ->
  (a < n)%nat -> (b < n)%nat ->
  pent (backtransform T P n) a b = pent (backtransform T P n) b a.
Proof.
  intros HP Ha Hb. unfold pent at 1 2, backtransform.
  rewrite !nth_mk by assumption.
  rewrite (sumn_swap K Kf). apply Tables.sumn_ext. intros i Hi. apply Tables.sumn_ext. intros j Hj.
  rewrite (HP j i Hj Hi). ring.
Qed.

(* electrostatic_potential with a transform = electrostatic_potential of the untransformed basis
   with the density matrix transformed back; T may have any number of rows *)
Lemma esp_transform_is_backtransformed basis P points ncoords ncharges T thr v :
  squareb (nfun_basis basis) (length points)
          (point_charge_integral K (unit_neg_points K points) basis None) = true ->
  esp K basis P points ncoords ncharges (Some T) thr = Some v ->
  v = esp_values K (point_charge_integral K (unit_neg_points K points) basis None)
        (backtransform T P (nfun_basis basis)) points (combine ncoords ncharges) thr
  /\ ((forall x y, feqb K x y = true <-> x = y) ->
      esp K basis (backtransform T P (nfun_basis basis)) points ncoords ncharges None thr = Some v).
Proof.
  intros Hsq E. apply squareb_arr_ok in Hsq.
  pose proof (proj1 (esp_accepts basis P points ncoords ncharges (Some T) thr) (ex_intro _ v E))
    as (C1 & C2 & C3 & C4).
  apply size_ok_transform in C4. destruct C4 as [LT HT].
  unfold esp, esp_with in E. rewrite C1, C2, Nat.eqb_refl, C3 in E.
  destruct (size_ok (nfun_basis basis) P (Some T)); [|discriminate].
  cbn [andb negb] in E. injection E as E.
  rewrite (esp_values_transform _ _ T P (nfun_basis basis) points _ thr Hsq HT LT) in E.
  cbn [transformed_ints] in E. split; [now symmetry|].
  intros Heq. unfold esp, esp_with.
  assert (S : square_symmetric K (backtransform T P (nfun_basis basis)) = true).
  { apply (square_symmetric_spec _ Heq).
    rewrite backtransform_length. split.
    - unfold backtransform. apply Forall_forall. intros r Hr. apply in_map_iff in Hr.
      destruct Hr as [a [<- _]]. apply mk_length.
    - intros a b Ha Hb. apply backtransform_symmetric; try assumption.
      apply (proj1 (square_symmetric_spec P Heq) C1). }
  rewrite S, C2, Nat.eqb_refl, C3. cbn [andb negb size_ok].
  rewrite backtransform_length, Nat.eqb_refl. cbn [transformed_ints]. now rewrite E.
Qed.

End P.

From Coq Require Import Reals Lra Psatz RealField.
Local Open Scope R_scope.

Definition Rleb_e (x y : R) : bool := if Rle_dec x y then true else false.
Definition Reqb_e (x y : R) : bool := if Req_EM_T x y then true else false.

Definition RKe : Fops R :=
  mkFops R 0 1 Rplus Rmult Rminus Ropp Rdiv Rinv Rleb_e Reqb_e PI sqrt exp ln (fun _ _ => 0) (fun x => x).

Lemma RKe_field : is_field RKe.
Proof. exact Rfield. Qed.

Lemma RKe_eqb x y : feqb RKe x y = true <-> x = y.
Proof. cbn [feqb RKe]. unfold Reqb_e. destruct (Req_EM_T x y); split; intros; auto; discriminate. Qed.

Lemma fltb_R x y : fltb RKe x y = true <-> x < y.
Proof.
  unfold fltb. cbn [fleb RKe]. unfold Rleb_e.
  destruct (Rle_dec y x); cbn [negb]; split; intros; try discriminate; try lra; auto.
Qed.

Definition Rpt : Type := (R * R * R)%type.
Definition edist2 (p n : Rpt) : R :=
  (fst (fst p) - fst (fst n))² + (snd (fst p) - snd (fst n))² + (snd p - snd n)².

Lemma dist2_R p n : Esp.dist2 RKe p n = edist2 p n.
Proof. reflexivity. Qed.

Lemma edist2_nonneg p n : 0 <= edist2 p n.
Proof.
  unfold edist2. pose proof (Rle_0_sqr (fst (fst p) - fst (fst n))).
  pose proof (Rle_0_sqr (snd (fst p) - snd (fst n))). pose proof (Rle_0_sqr (snd p - snd n)). lra.
Qed.

Lemma dist_R p n : Esp.dist RKe p n = sqrt (edist2 p n).
Proof. reflexivity. Qed.

Lemma mask_iff_distance_R thr p n : masked RKe thr p n = true <-> sqrt (edist2 p n) < thr.
Proof. unfold masked. rewrite dist_R. apply fltb_R. Qed.

(* ... equivalently, in squared distances (no square root), for the admissible thresholds *)
Lemma mask_iff_sqdistance_R thr p n : 0 <= thr ->
  (masked RKe thr p n = true <-> edist2 p n < thr * thr).
Proof.
  intros Ht. rewrite mask_iff_distance_R.
  pose proof (edist2_nonneg p n) as Hd. pose proof (sqrt_pos (edist2 p n)) as Hs.
  pose proof (sqrt_sqrt _ Hd) as Hss. generalize dependent (sqrt (edist2 p n)). intros s Hs Hss.
  rewrite <- Hss. split; intros H; nra.
Qed.

(* the decision does not change when the charge changes sign or magnitude *)
Lemma mask_charge_independent_R thr p n Z Z' : Z <> 0 -> Z' <> 0 -> 0 < edist2 p n ->
  (nuc_term RKe thr p (n, Z) = 0 <-> nuc_term RKe thr p (n, Z') = 0).
Proof.
  intros HZ HZ' Hd.
  assert (Hs : 0 < sqrt (edist2 p n)) by now apply sqrt_lt_R0.
  assert (Q : forall z, z <> 0 -> (nuc_term RKe thr p (n, z) = 0 <-> masked RKe thr p n = true)).
  { intros z Hz. unfold nuc_term. cbn [fst snd]. destruct (masked RKe thr p n); [tauto|].
    split; [|discriminate]. intros H. exfalso. rewrite dist_R in H. cbn [fdiv RKe f0] in H.
    apply Hz. apply (Rmult_eq_reg_r (/ sqrt (edist2 p n))).
    - unfold Rdiv in H. rewrite H. ring.
    - apply Rinv_neq_0_compat. lra. }
  rewrite (Q Z HZ), (Q Z' HZ'). tauto.
Qed.

(* the pinned tree's rule (Z/d against 1/threshold) is NOT the documented one: a nucleus of
   charge 4 at distance 1 was dropped for threshold 1/2, and a negative charge at distance 1 was
   kept for threshold 2 *)
Lemma pinned_rule_differs :
  let p : Rpt := (1, 0, 0) in let n : Rpt := (0, 0, 0) in
  nuc_term_pinned RKe (1/2) p (n, 4) = 0 /\ nuc_term RKe (1/2) p (n, 4) = 4 /\
  nuc_term_pinned RKe 2 p (n, -1) = -1 /\ nuc_term RKe 2 p (n, -1) = 0.
Proof.
  cbv zeta.
  assert (D : Esp.dist RKe (1, 0, 0) (0, 0, 0) = 1).
  { rewrite dist_R. unfold edist2. cbn [fst snd]. replace ((1 - 0)² + (0 - 0)² + (0 - 0)²) with 1
      by (unfold Rsqr; ring). apply sqrt_1. }
  unfold nuc_term_pinned, nuc_term, masked. cbn [fst snd]. rewrite D. cbn [fdiv RKe f0 f1].
  repeat split.
  - rewrite (proj2 (fltb_R (1 / (1 / 2)) (4 / 1))) by lra. reflexivity.
  - destruct (fltb RKe 1 (1 / 2)) eqn:E; [apply fltb_R in E; lra|]. field.
  - destruct (fltb RKe (1 / 2) (-1 / 1)) eqn:E; [apply fltb_R in E; lra|]. field.
  - rewrite (proj2 (fltb_R 1 2)) by lra. reflexivity.
Qed.

From Coq Require Import QArith Qcanon.
Local Close Scope R_scope.

Lemma negb_Qle_bool (x y : Q) : negb (Qle_bool x y) = true <-> (y < x)%Q.
Proof.
  rewrite negb_true_iff. split; intros H.
  - apply Qnot_le_lt. intros C. apply Qle_bool_iff in C. congruence.
  - destruct (Qle_bool x y) eqn:E; [|reflexivity]. apply Qle_bool_iff in E.
    exfalso. exact (Qlt_not_le _ _ H E).
Qed.

(* when the oracle value for the squared distance is its exact non-negative root, the mask of the
   executable model is the squared-distance comparison: no rounding of the root is involved *)
Lemma mask_iff_sqdistance_Qc ex opi osqrt oexp oln oboys (thr : Qc) (p n : Qc * Qc * Qc) :
  let K := QcK ex opi osqrt oexp oln oboys in
  (0 <= thr)%Qc ->
  (0 <= osqrt (Esp.dist2 K p n))%Qc ->
  (osqrt (Esp.dist2 K p n) * osqrt (Esp.dist2 K p n) = Esp.dist2 K p n)%Qc ->
  (masked K thr p n = true <-> (Esp.dist2 K p n < thr * thr)%Qc).
Proof.
  intros K Ht Hs Hss. unfold masked, Esp.dist, fltb.
  change (fsqrt K (Esp.dist2 K p n)) with (osqrt (Esp.dist2 K p n)).
  change (fleb K) with qc_leb. unfold qc_leb.
  set (d2 := Esp.dist2 K p n) in *. set (s := osqrt d2) in *. clearbody s. clearbody d2.
  rewrite <- Hss. clear Hss d2.
  rewrite negb_Qle_bool. unfold Qclt, Qcle, Qcmult in *.
  change (this (Q2Qc (s * s))) with (Qred (s * s)).
  change (this (Q2Qc (thr * thr))) with (Qred (thr * thr)).
  rewrite !Qred_correct.
  change (this (Q2Qc 0)) with 0%Q in *.
  split; intros H; nra.
Qed.

Local Open Scope nat_scope.
Lemma charge_hyps_example :
  (4 <> 0)%R /\ (-1 <> 0)%R /\ (0 < edist2 (1, 0, 0) (0, 0, 0))%R.
Proof.
  repeat split; try lra. unfold edist2, Rsqr. cbn [fst snd]. lra.
Qed.

