(* Proofs/AssembledP.v — the ASSEMBLED whole-basis models (the functions the correspondence check runs against
   the public gbasis functions):
     Model/Overlap.two_symm_integral / two_asymm_integral   (overlap, kinetic, moments, point charges)
     Model/OneBody.two_symm_integral_h                      (momentum, angular momentum: real part R of -iR)
   This file: the index map and the two steps every shell-pair block goes through (normalise, flatten).

   INDEX MAP.  Shell k of the basis [bs] occupies [bdim s_k] = M_k * L_k consecutive positions (M_k = number of
   segmented contractions, L_k = number of Cartesian components) starting at [boff bs k] = sum_{t<k} bdim s_t;
   inside a shell the position of (segment m, component c) is m * L_k + c  (segment-major):
       gidx bs k m c = boff bs k + (m * L_k + c).
   Every position below the total size is gidx of exactly one (k, m, c); proved for any positive per-shell
   size in place of L_k ([xidx]; the output index map oidx of Proofs/AssembledSphP.v is the other instance). *)
From Coq Require Import List Arith Lia Bool.
From GB Require Import Base.Field Base.Tables Model.Shell Model.MomentInt Model.Assembly Model.Overlap
  Proofs.BlockP Proofs.CoreDiffP Proofs.BlockMatP.
Import ListNotations.

Lemma Forall_of_nth {A} (Q : A -> Prop) (l : list A) d :
  (forall i, i < length l -> Q (nth i l d)) -> Forall Q l.
Proof.
  intros H. apply Forall_forall. intros x Hx. destruct (In_nth l x d Hx) as [i [Hi <-]]. now apply H.
Qed.

Lemma idx_lt m c M L : m < M -> c < L -> m * L + c < M * L.
Proof. intros Hm Hc. nia. Qed.

Lemma map4_shape {A B} (f : A -> B) n1 n2 n3 n4 (x : list (list (list (list A)))) :
  shape4 n1 n2 n3 n4 x -> shape4 n1 n2 n3 n4 (Model.DiffOp.map4 f x).
Proof.
  intros [X1 X2]. unfold Model.DiffOp.map4. split; [now rewrite map_length|]. intros i1 H1.
  destruct (X2 i1 H1) as [Xa Xb].
  rewrite (nth_map_lt _ x i1 []) by lia. split; [now rewrite map_length|]. intros i2 H2.
  destruct (Xb i2 H2) as [Xc Xd].
  rewrite (nth_map_lt _ _ i2 []) by lia. split; [now rewrite map_length|]. intros i3 H3.
  rewrite (nth_map_lt _ _ i3 []) by lia. rewrite map_length. now apply Xd.
Qed.

Definition zipc {X Y Z} (f : X -> Y -> Z) (xs : list X) (ys : list Y) : list Z :=
  map (fun '(x, y) => f x y) (combine xs ys).

Lemma zipc_length {X Y Z} (f : X -> Y -> Z) xs ys : length ys = length xs -> length (zipc f xs ys) = length xs.
Proof. intros H. unfold zipc. rewrite map_length, combine_length. lia. Qed.

Lemma zipc_nth {X Y Z} (f : X -> Y -> Z) xs ys i dX dY dZ : i < length xs -> length ys = length xs ->
  nth i (zipc f xs ys) dZ = f (nth i xs dX) (nth i ys dY).
Proof. intros Hi H. unfold zipc. now rewrite (nth_map_combine _ xs ys i dX dY dZ). Qed.

Definition shape2 {A} (M L : nat) (n : list (list A)) : Prop :=
  length n = M /\ forall m, m < M -> length (nth m n []) = L.

Lemma map2_spec {A B} (f : A -> B) M L (x : list (list A)) dA dB : shape2 M L x ->
  shape2 M L (map (map f) x) /\
  forall m c, m < M -> c < L -> nth c (nth m (map (map f) x) []) dB = f (nth c (nth m x []) dA).
Proof.
  intros [X1 X2]. split.
  - split; [now rewrite map_length|]. intros m Hm. rewrite (nth_map_lt _ x m []) by lia.
    rewrite map_length. now apply X2.
  - intros m c Hm Hc. rewrite (nth_map_lt _ x m []) by lia. apply nth_map_lt. rewrite X2; assumption.
Qed.

(* a four-index block is an M1 x L1 matrix of M2 x L2 slabs *)
Lemma shape4_slabs {A} M1 L1 M2 L2 (b : list (list (list (list A)))) :
  shape4 M1 L1 M2 L2 b <->
  shape2 M1 L1 b /\ forall m1 c1, m1 < M1 -> c1 < L1 -> shape2 M2 L2 (nth c1 (nth m1 b []) []).
Proof.
  split.
  - intros [B1 B2]. split.
    + split; [exact B1|]. intros m1 H1. exact (proj1 (B2 m1 H1)).
    + intros m1 c1 H1 H2. exact (proj2 (B2 m1 H1) c1 H2).
  - intros [[B1 B1r] Bs]. split; [exact B1|]. intros m1 H1. split; [now apply B1r|].
    intros c1 H2. exact (Bs m1 c1 H1 H2).
Qed.

Section CartBlock.
Context {F : Type} (K : Fops F).
Context {A : Type} (azero : A) (aadd : A -> A -> A) (ascale : F -> A -> A).

Lemma normalise_zip n1 n2 (blk : list (list (list (list A)))) :
  normalise K ascale n1 n2 blk
  = zipc (fun nrow1 b1 => zipc (fun x1 b2 => zipc (fun nrow2 b3 =>
      zipc (fun x2 e => ascale (fmul K x1 x2) e) nrow2 b3) n2 b2) nrow1 b1) n1 blk.
Proof. reflexivity. Qed.

Lemma normalise_spec n1 n2 blk M1 L1 M2 L2 :
  shape2 M1 L1 n1 -> shape2 M2 L2 n2 -> shape4 M1 L1 M2 L2 blk ->
  shape4 M1 L1 M2 L2 (normalise K ascale n1 n2 blk) /\
  forall m1 c1 m2 c2, m1 < M1 -> c1 < L1 -> m2 < M2 -> c2 < L2 ->
    get4 azero m1 c1 m2 c2 (normalise K ascale n1 n2 blk)
    = ascale (fmul K (nth c1 (nth m1 n1 []) (f0 K)) (nth c2 (nth m2 n2 []) (f0 K)))
             (get4 azero m1 c1 m2 c2 blk).
Proof.
  intros [N1 N1r] [N2 N2r] [B1 B2]. rewrite normalise_zip. split.
  - split; [rewrite zipc_length; lia|]. intros m1 H1. destruct (B2 m1 H1) as [Ba Bb]. pose proof (N1r m1 H1) as Na.
    rewrite (zipc_nth _ n1 blk m1 [] [] []) by lia.
    split; [rewrite zipc_length; lia|]. intros c1 H2. destruct (Bb c1 H2) as [Bc Bd].
    rewrite (zipc_nth _ _ _ c1 (f0 K) [] []) by lia.
    split; [rewrite zipc_length; lia|]. intros m2 H3. pose proof (N2r m2 H3) as Nb. pose proof (Bd m2 H3) as Be.
    rewrite (zipc_nth _ n2 _ m2 [] [] []) by lia. rewrite zipc_length; lia.
  - intros m1 c1 m2 c2 H1 H2 H3 H4. unfold get4.
    destruct (B2 m1 H1) as [Ba Bb]. destruct (Bb c1 H2) as [Bc Bd].
    pose proof (N1r m1 H1) as Na. pose proof (N2r m2 H3) as Nb. pose proof (Bd m2 H3) as Be.
    rewrite (zipc_nth _ n1 blk m1 [] [] []) by lia. rewrite (zipc_nth _ _ _ c1 (f0 K) [] []) by lia.
    rewrite (zipc_nth _ n2 _ m2 [] [] []) by lia. now rewrite (zipc_nth _ _ _ c2 (f0 K) azero azero) by lia.
Qed.

Lemma flatten_shape (blk : list (list (list (list A)))) M1 L1 M2 L2 :
  shape4 M1 L1 M2 L2 blk ->
  length (flatten_block blk) = M1 * L1 /\
  Forall (fun row => length row = M2 * L2) (flatten_block blk).
Proof.
  intros [B1 B2]. unfold flatten_block. rewrite flat_map_concat_map. split.
  - rewrite (concat_length_const _ L1); [now rewrite map_length, B1|].
    apply (Forall_of_nth _ _ []). rewrite map_length, B1. intros m1 H1.
    rewrite (nth_map_lt _ blk m1 []) by lia. rewrite map_length. exact (proj1 (B2 m1 H1)).
  - apply Forall_concat. apply (Forall_of_nth _ _ []). rewrite map_length, B1. intros m1 H1.
    rewrite (nth_map_lt _ blk m1 []) by lia. destruct (B2 m1 H1) as [Ba Bb].
    apply (Forall_of_nth _ _ []). rewrite map_length, Ba. intros c1 H2.
    rewrite (nth_map_lt _ _ c1 []) by lia. destruct (Bb c1 H2) as [Bc Bd].
    rewrite (concat_length_const _ L2); [now rewrite Bc|].
    apply (Forall_of_nth _ _ []). rewrite Bc. exact Bd.
Qed.

Lemma flatten_entry (blk : list (list (list (list A)))) M1 L1 M2 L2 d m1 c1 m2 c2 :
  shape4 M1 L1 M2 L2 blk -> m1 < M1 -> c1 < L1 -> m2 < M2 -> c2 < L2 ->
  nth (m2 * L2 + c2) (nth (m1 * L1 + c1) (flatten_block blk) []) d = get4 d m1 c1 m2 c2 blk.
Proof.
  intros [B1 B2] H1 H2 H3 H4. unfold flatten_block, get4. rewrite flat_map_concat_map.
  destruct (B2 m1 H1) as [Ba Bb]. destruct (Bb c1 H2) as [Bc Bd].
  rewrite (nth_concat_uniform L1 _ [] m1 c1).
  - rewrite (nth_map_lt _ blk m1 []) by lia. rewrite (nth_map_lt _ _ c1 []) by lia.
    apply nth_concat_uniform; [|exact H4]. apply (Forall_of_nth _ _ []). rewrite Bc. exact Bd.
  - apply (Forall_of_nth _ _ []). rewrite map_length, B1. intros k Hk.
    rewrite (nth_map_lt _ blk k []) by lia. rewrite map_length. exact (proj1 (B2 k Hk)).
  - exact H2.
Qed.

End CartBlock.

Section Index.
Context {F : Type} (K : Fops F).

Definition dshell : shell F := p_shell (dummy_p K).
Definition sh_at (bs : list (shell F)) (k : nat) : shell F := nth k bs dshell.
Definition ncomp (s : shell F) : nat := length (comps_of s).
Definition bdim (s : shell F) : nat := nseg s * ncomp s.
Definition boff (bs : list (shell F)) (k : nat) : nat := offs (fun t => bdim (sh_at bs t)) k.
Definition btotal (bs : list (shell F)) : nat := boff bs (length bs).
Definition gidx (bs : list (shell F)) (k m c : nat) : nat := boff bs k + (m * ncomp (sh_at bs k) + c).

Lemma default_comps_nonempty l : 0 < length (default_comps l).
Proof.
  unfold default_comps. rewrite <- cons_seq. cbn [flat_map]. rewrite app_length.
  rewrite map_length, seq_length. lia.
Qed.

Lemma ncomp_pos (s : shell F) : 0 < ncomp s.
Proof.
  unfold ncomp, comps_of. destruct (s_comps s) as [|c r]; [apply default_comps_nonempty|cbn; lia].
Qed.

Lemma sh_at_map (f : shell F -> shell F) bs k : k < length bs -> sh_at (map f bs) k = f (sh_at bs k).
Proof.
  intros Hk. unfold sh_at. rewrite (nth_indep _ dshell (f dshell)) by (now rewrite map_length). apply map_nth.
Qed.

Lemma sh_in bs k : k < length bs -> In (sh_at bs k) bs.
Proof. intros H. now apply nth_In. Qed.

(* the index map of a basis whose shell s contributes nseg s * sz s positions *)
Section Sized.
Variable sz : shell F -> nat.

Definition xoff (bs : list (shell F)) (k : nat) : nat := offs (fun t => nseg (sh_at bs t) * sz (sh_at bs t)) k.
Definition xidx (bs : list (shell F)) (k m q : nat) : nat := xoff bs k + (m * sz (sh_at bs k) + q).

Lemma xidx_surj bs I : (forall s, 0 < sz s) -> I < xoff bs (length bs) ->
  exists k m q, k < length bs /\ m < nseg (sh_at bs k) /\ q < sz (sh_at bs k) /\ I = xidx bs k m q.
Proof.
  intros Hpos H. destruct (offs_decompose _ _ I H) as (k & a & Hk & Ha & E).
  pose proof (Hpos (sh_at bs k)) as Hp. cbv beta in Ha.
  exists k, (a / sz (sh_at bs k)), (a mod sz (sh_at bs k)). repeat split.
  - exact Hk.
  - apply Nat.div_lt_upper_bound; lia.
  - apply Nat.mod_upper_bound. lia.
  - unfold xidx, xoff. rewrite E. f_equal.
    rewrite (Nat.div_mod a (sz (sh_at bs k))) at 1 by lia. lia.
Qed.

Lemma xidx_inj bs k m q k' m' q' :
  m < nseg (sh_at bs k) -> q < sz (sh_at bs k) -> m' < nseg (sh_at bs k') -> q' < sz (sh_at bs k') ->
  xidx bs k m q = xidx bs k' m' q' -> k = k' /\ m = m' /\ q = q'.
Proof.
  intros Hm Hq Hm' Hq' E. unfold xidx, xoff in E.
  destruct (offs_unique _ k _ k' _ (idx_lt _ _ _ _ Hm Hq) (idx_lt _ _ _ _ Hm' Hq') E) as [-> E2].
  split; [reflexivity|]. set (L := sz (sh_at bs k')) in *.
  assert (m = m') by nia. subst m'. split; [reflexivity|lia].
Qed.

Lemma xidx_lt bs k m q : k < length bs -> m < nseg (sh_at bs k) -> q < sz (sh_at bs k) ->
  xidx bs k m q < xoff bs (length bs).
Proof.
  intros Hk Hm Hq. unfold xidx, xoff.
  pose proof (offs_mono (fun t => nseg (sh_at bs t) * sz (sh_at bs t)) k (length bs) Hk) as H. cbv beta in H.
  pose proof (idx_lt _ _ _ _ Hm Hq). lia.
Qed.

(* a map on the shells that keeps the number of segments and the size keeps the index map *)
Lemma xoff_map (f : shell F -> shell F) bs k : (forall s, nseg (f s) = nseg s /\ sz (f s) = sz s) ->
  k <= length bs -> xoff (map f bs) k = xoff bs k.
Proof.
  intros Hf Hk. apply offs_ext. intros t Ht. rewrite sh_at_map by lia.
  destruct (Hf (sh_at bs t)) as [-> ->]. reflexivity.
Qed.

Lemma xidx_map (f : shell F -> shell F) bs k m q : (forall s, nseg (f s) = nseg s /\ sz (f s) = sz s) ->
  k < length bs -> xidx (map f bs) k m q = xidx bs k m q.
Proof.
  intros Hf Hk. unfold xidx. rewrite (xoff_map f bs k Hf) by lia. rewrite sh_at_map by exact Hk.
  now rewrite (proj2 (Hf (sh_at bs k))).
Qed.
End Sized.

Lemma xoff_ext sz sz' bs k : (forall t, t < k -> sz (sh_at bs t) = sz' (sh_at bs t)) -> xoff sz bs k = xoff sz' bs k.
Proof. intros H. apply offs_ext. intros t Ht. now rewrite H. Qed.

Lemma gidx_surj bs I : I < btotal bs ->
  exists k m c, k < length bs /\ m < nseg (sh_at bs k) /\ c < ncomp (sh_at bs k) /\ I = gidx bs k m c.
Proof. exact (xidx_surj ncomp bs I ncomp_pos). Qed.

Lemma gidx_inj bs k m c k' m' c' :
  m < nseg (sh_at bs k) -> c < ncomp (sh_at bs k) -> m' < nseg (sh_at bs k') -> c' < ncomp (sh_at bs k') ->
  gidx bs k m c = gidx bs k' m' c' -> k = k' /\ m = m' /\ c = c'.
Proof. exact (xidx_inj ncomp bs k m c k' m' c'). Qed.

Lemma gidx_lt bs k m c : k < length bs -> m < nseg (sh_at bs k) -> c < ncomp (sh_at bs k) ->
  gidx bs k m c < btotal bs.
Proof. exact (xidx_lt ncomp bs k m c). Qed.

Definition ncont (s : shell F) (m c : nat) : F := nth c (nth m (norm_cont K s) []) (f0 K).

Lemma norm_cont_shape (s : shell F) : shape2 (nseg s) (ncomp s) (norm_cont K s).
Proof.
  unfold norm_cont. cbv zeta. split; [apply mk_length|]. intros m Hm.
  rewrite nth_mk by exact Hm. apply mk_length.
Qed.

Lemma ncont_eq (s : shell F) m c : m < nseg s -> c < ncomp s ->
  ncont s m c = fapx K (fdiv K (f1 K) (fsqrt K (nth4 K m c m c (overlap_block K s s)))).
Proof.
  intros Hm Hc. unfold ncont, norm_cont. cbv zeta.
  rewrite nth_mk by exact Hm. now rewrite nth_mk by exact Hc.
Qed.

Lemma nth_prep bs k : k < length bs -> nth k (map (prep K) bs) (dummy_p K) = prep K (sh_at bs k).
Proof.
  intros Hk. unfold sh_at. rewrite (nth_indep _ (dummy_p K) (prep K dshell)) by (now rewrite map_length).
  apply map_nth.
Qed.
End Index.

Section Assembled.
Context {F : Type} (K : Fops F).
Context {A : Type} (azero : A) (aadd : A -> A -> A) (ascale : F -> A -> A).
Variable blockf : shell F -> shell F -> list (list (list (list A))).

(* Cartesian shells with at least one segment, blocks of the declared shape *)
Definition cart_basis (bs : list (shell F)) : Prop :=
  forall s, In s bs -> s_sph s = false /\ 0 < nseg s.
Definition blocks_shaped (b1 b2 : list (shell F)) : Prop :=
  forall sa sb, In sa b1 -> In sb b2 -> shape4 (nseg sa) (ncomp sa) (nseg sb) (ncomp sb) (blockf sa sb).
End Assembled.

Lemma nth_skipn_add {A} (l : list A) k b d : nth b (skipn k l) d = nth (k + b) l d.
Proof. revert l. induction k as [|k IH]; intros [|x l]; cbn; try reflexivity; [now destruct b|apply IH]. Qed.
