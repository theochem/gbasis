(* Proofs/DiagSphCheckP.v — complete enumeration over the exact rationals: for every l <= 10 and every admissible
   (sine?, |m|) the row of Model/Spherical.sph_transform (rational core hcoef / hrad of Proofs/DiagSphP.v) is a
   unit vector for the overlap of unit-normalised Cartesians of one shell:
     hrad l m / (2l-1)!! * sum_cc' h_c G(c,c') h_c' = 1.
   The domain is finite (the property bounds l by 10), so this vm_compute is a proof.  What is evaluated is the
   sparse form DiagSphP.HGHt of the sum on the integers 2^l h_c / hnr, with G(c,c') in Z ([gram] of
   Model/SphExact.v); the same evaluation compares the coefficients h_c with those of the exact model (for
   Proofs/SphLinkP.v). *)
From Coq Require Import List Arith Lia Bool ZArith QArith Qcanon.
From GB Require Import Base.Field Base.FNum Base.Tables Model.Shell Model.Spherical Model.SphExact
  Proofs.CoreBlockP Proofs.DiagSphP Proofs.SphExactP.
Import ListNotations.

Definition QK : Fops Qc := QcK true (Q2Qc 0) (fun x => x) (fun x => x) (fun x => x) (fun _ x => x).

(* admissible (sine?, |m|) pairs of angular momentum l: c_0..c_l, s_1..s_l *)
Definition valid_sm (l : nat) (sine : bool) (m : nat) : Prop := (m <= l)%nat /\ (sine = true -> (1 <= m)%nat).
Definition all_sm (l : nat) : list (bool * nat) :=
  map (fun m => (false, m)) (seq 0 (S l)) ++ map (fun m => (true, m)) (seq 1 l).

Definition all_lsm : list (nat * (bool * nat)) := flat_map (fun l => map (fun p => (l, p)) (all_sm l)) (seq 0 11).

Lemma in_all_sm l sine m : valid_sm l sine m -> In (sine, m) (all_sm l).
Proof.
  intros [Hm Hs]. unfold all_sm. apply in_or_app. destruct sine.
  - right. apply in_map_iff. exists m. split; [reflexivity|]. apply in_seq. specialize (Hs eq_refl). lia.
  - left. apply in_map_iff. exists m. split; [reflexivity|]. apply in_seq. lia.
Qed.

Lemma in_all_lsm l sine m : (l <= 10)%nat -> valid_sm l sine m -> In (l, (sine, m)) all_lsm.
Proof.
  intros Hl Hv. unfold all_lsm. apply in_flat_map. exists l. split; [apply in_seq; lia|].
  apply in_map_iff. exists (sine, m). split; [reflexivity|]. now apply in_all_sm.
Qed.

Lemma qc_eqb_true x y : qc_eqb x y = true -> x = y.
Proof. intro H. apply Qc_is_canon. apply Qeq_bool_eq. exact H. Qed.

Definition nzq (x : Qc) : bool := negb (qc_eqb x (f0 QK)).

Lemma nzq_false x : nzq x = false -> x = f0 QK.
Proof. intro H. apply negb_false_iff in H. now apply qc_eqb_true. Qed.

(* Over QK the unary numerals of Base/FNum.v are the binary integers of Model/SphExact.v; what is evaluated below
   uses the latter. *)
Lemma ofnat_QK n : ofnat QK n = nq n.
Proof.
  induction n as [|n IH]; [reflexivity|]. cbn [ofnat]. rewrite IH. unfold nq.
  rewrite Nat2Z.inj_succ, <- Z.add_1_l, zq_add. apply qc_add_eq.
Qed.

Lemma fdf_odd_QK n : fdf_odd QK n = zq (zdf_odd n).
Proof.
  induction n as [|n IH]; [reflexivity|]. cbn [fdf_odd zdf_odd]. rewrite IH, ofnat_QK, zq_mul. apply qc_mul_eq.
Qed.

Lemma ffact_QK n : ffact QK n = zq (zfact n).
Proof.
  induction n as [|n IH]; [reflexivity|]. cbn [ffact zfact]. rewrite IH, ofnat_QK, zq_mul. apply qc_mul_eq.
Qed.

Definition Gz (t : list Z) (a b : comp) : Qc := zq (gram_t t a b).

Lemma Gz_eq k a b : Gz (g1_tab k) a b = Gk QK a b.
Proof.
  unfold Gz. rewrite gram_t_eq.
  assert (Hg : forall n, gk QK n = zq (g1 n)).
  { intro n. unfold gk, g1. destruct (Nat.even n); [apply fdf_odd_QK|reflexivity]. }
  destruct a as [[a1 a2] a3], b as [[b1 b2] b3]. unfold Gk, gram. cbn [cx cy cz fst snd].
  rewrite !Hg, !zq_mul. cbn [fmul QK QcK]. now rewrite !qc_mul_eq.
Qed.

(* expansion_coeff and hnr with the factorials in Z.  The common factor hnr of a row stays out of the sums: without
   it the coefficients times 2^l are integers ([row_ok] tests it), and the quadratic form is summed in Z. *)
Definition qbinom (n k : nat) : Qc :=
  if Nat.leb k n then fdiv QK (zq (zfact n)) (fmul QK (zq (zfact k)) (zq (zfact (n - k)))) else f0 QK.

Definition ebq (l m : nat) (sine : bool) (i j z : nat) : Qc :=
  fmul QK (fmul QK (fmul QK (fmul QK (fmul QK (fneg1pow QK (i + z))
    (fpow QK (fdiv QK (f1 QK) (fadd QK (fadd QK (fadd QK (f1 QK) (f1 QK)) (f1 QK)) (f1 QK))) i))
    (qbinom l i)) (qbinom (l - i) (m + i))) (qbinom i j)) (qbinom m (2 * z + (if sine then 1 else 0))).

Definition nrq (l m : nat) : Qc := fdiv QK (f1 QK) (fmul QK (fpow QK (fadd QK (f1 QK) (f1 QK)) m) (zq (zfact l))).

Definition hb (l m : nat) (sine : bool) : comp -> Qc := hcoef_with QK (ebq l m sine) l m sine.

Lemma hb_eq l m sine c : hcoef QK l m sine c = fmul QK (hb l m sine c) (nrq l m).
Proof.
  symmetry. apply (hcoef_with_eq QK (QcK_field _ _ _ _ _ _)). intros i j z.
  unfold ebq, nrq, qbinom, Spherical.expansion_coeff, hnr, fbinom. now rewrite <- !ffact_QK.
Qed.

(* DiagSphP.qform on integer coefficients *)
Fixpoint qformz (t : list Z) (ch : list (comp * Z)) : Z :=
  match ch with
  | [] => 0
  | p :: r =>
      snd p * (gram_t t (fst p) (fst p) * snd p
               + 2 * fold_right Z.add 0 (map (fun p' => gram_t t (fst p) (fst p') * snd p') r)) + qformz t r
  end%Z.

Lemma qformz_eq t ch : qform QK (Gz t) (map (fun p => (fst p, zq (snd p))) ch) = zq (qformz t ch).
Proof.
  induction ch as [|p r IH]; [reflexivity|]. cbn [map qform qformz fst snd]. rewrite IH, map_map. cbn [fst snd].
  assert (E : forall r', FNum.fsum QK (map (fun p' => fmul QK (Gz t (fst p) (fst p')) (zq (snd p'))) r')
                         = zq (fold_right Z.add 0%Z (map (fun p' => gram_t t (fst p) (fst p') * snd p')%Z r'))).
  { unfold FNum.fsum. induction r' as [|a r' IH']; [reflexivity|]. cbn [map fold_right]. rewrite IH', zq_add, zq_mul.
    cbn [fadd fmul QK QcK]. now rewrite qc_add_eq, qc_mul_eq. }
  rewrite E. unfold Gz. cbn [fadd fmul f1 QK QcK]. rewrite zq_add, zq_mul, zq_add, !zq_mul, !qc_add_eq, !qc_mul_eq.
  reflexivity.
Qed.

(* one row (l, sine, m): the coefficients of Model/Spherical are those of the dictionary of the exact model (used by
   Proofs/SphLinkP.v), and the row is a unit vector; the coefficients are computed once for both *)
Definition row_ok (l : nat) (sm : bool * nat) : bool :=
  let sine := fst sm in let m := snd sm in
  let h := real_solid_harmonic l m sine in
  let hc := hb l m sine in
  let d := zq (2 ^ Z.of_nat l) in
  let nr := fdiv QK (nrq l m) d in
  let tab := map (fun c => (c, fmul QK (hc c) d)) (default_comps l) in
  let ch := filter (fun p => nzq (snd p)) tab in
  forallb (fun p => qc_eqb (fmul QK (snd p) nr) (coef h (fst p))) tab
  && forallb (fun p : comp * Qc => Pos.eqb (Qden (snd p)) 1) ch
  && qc_eqb (fmul QK (fdiv QK (hrad QK l m) (fdf_odd QK l))
       (fmul QK (fmul QK nr nr)
          (zq (qformz (g1_tab (2 * l + 1)) (map (fun p : comp * Qc => (fst p, Qnum (snd p))) ch)))))
       (f1 QK).

Lemma row_ok_spec l sine m : row_ok l (sine, m) = true ->
  (forall c, In c (default_comps l) -> hcoef QK l m sine c = coef (real_solid_harmonic l m sine) c)
  /\ Eorth QK l m sine = f1 QK.
Proof.
  (* unfolded in the goal, not in H: the kernel then unfolds row_ok instead of evaluating the tests on variables *)
  unfold row_ok. intro H. apply andb_prop in H as [H Ho]. apply andb_prop in H as [Hc Hi]. cbn [fst snd] in Hc, Hi, Ho.
  set (d := zq (2 ^ Z.of_nat l)) in *.
  assert (Hh : forall c, hcoef QK l m sine c = fmul QK (fmul QK (hb l m sine c) d) (fdiv QK (nrq l m) d)).
  { intro c. rewrite hb_eq. cbn [fmul fdiv QK QcK]. rewrite !qc_mul_eq, qc_div_eq. field. apply zq_nz. lia. }
  split.
  - intros c Hin. rewrite Hh. apply qc_eqb_true.
    exact (proj1 (forallb_forall _ _) Hc _ (in_map (fun c => (c, fmul QK (hb l m sine c) d)) _ c Hin)).
  - apply qc_eqb_true. unfold Eorth.
    rewrite <- (HGHt_eq QK (QcK_field _ _ _ _ _ _) nzq _ nzq_false (Gz_eq (2 * l + 1)) _ _ _ _ _ _ Hh).
    unfold HGHt. rewrite <- qformz_eq, map_map in Ho. rewrite (map_ext_in _ (fun p => p)), map_id in Ho; [exact Ho|].
    intros [c x] Hx. cbn [fst snd]. f_equal. apply zq_num, Pos.eqb_eq. exact (proj1 (forallb_forall _ _) Hi _ Hx).
Qed.

Lemma check_rows_all : forallb (fun t : nat * (bool * nat) => row_ok (fst t) (snd t)) all_lsm = true.
Proof. vm_compute. reflexivity. Qed.

Lemma row_ok_le10 l sine m : (l <= 10)%nat -> valid_sm l sine m -> row_ok l (sine, m) = true.
Proof.
  intros Hl Hv. exact (proj1 (forallb_forall _ _) check_rows_all (l, (sine, m)) (in_all_lsm l sine m Hl Hv)).
Qed.

Lemma hcoef_coef_le10 l sine m c : (l <= 10)%nat -> valid_sm l sine m -> In c (default_comps l) ->
  hcoef QK l m sine c = coef (real_solid_harmonic l m sine) c.
Proof. intros Hl Hv. exact (proj1 (row_ok_spec l sine m (row_ok_le10 l sine m Hl Hv)) c). Qed.

Lemma Eorth_Q_le10 l sine m : (l <= 10)%nat -> valid_sm l sine m -> Eorth QK l m sine = f1 QK.
Proof. intros Hl Hv. exact (proj2 (row_ok_spec l sine m (row_ok_le10 l sine m Hl Hv))). Qed.
