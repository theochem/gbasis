(* Proofs/ParsersMergeP.v — the Gaussian94 MERGE RULE of parse_gbs (parsers.py:150-164) as a theorem.

   Proofs/ParsersP.v proves the round trip up to the parser's loop:  parse (print ast layout) = per element
   the left fold of [push] over the expected shells, hence  = expected ast  for files in which the merge rule
   never fires between two shells that the AST lists separately ([no_fuse]).  Here the rule itself is
   specified, independently of the parser's loop, by [fuse]: the expected shells of one element are read left
   to right with one OPEN shell (the last one of the result so far); a shell whose angular momentum and
   exponent list agree with the open shell adds its coefficient columns to it, any other shell closes the open
   shell and becomes the open shell.  The round trip then reads, for EVERY well-formed AST:
   parse (print ast layout) = per element [fuse (expected shells)]  (elements in file order), and the
   [no_fuse] theorem is the corollary  fuse = id.

   The parser's loop ([push], Model/Parsers.v) is a left fold that looks at the last element of the
   accumulated list ([rev acc]); [fuse_from] is a right recursion that carries the open shell.  For a
   combined block (SP ...) the units of the block are pushed one after the other, so "the last appended
   shell" is the shell that holds the PREVIOUS letter of the same block ([fuse_snoc], [only_first_fuses]);
   the seeded change C18-muta (stale [prev], computed once per file shell) is modelled by
   [push_block_stale] and shown not to satisfy these lemmas. *)
From Coq Require Import List String Ascii Bool Arith Lia.
From GB Require Import Model.Parsers Proofs.ParsersP.
Import ListNotations.
Open Scope string_scope.
Open Scope list_scope.
Open Scope nat_scope.

Definition sh_l (s : shell) : nat := fst (fst s).
Definition sh_exps (s : shell) : list string := snd (fst s).
Definition sh_cols (s : shell) : list (list string) := snd s.

Section Spec.
  (* the comparison of two exponent literals (np.allclose after float(); literal equality when the model runs) *)
  Variable close : string -> string -> bool.

  (* same angular momentum, same number of exponents, exponents pairwise close *)
  Definition same_key (s1 s2 : shell) : bool :=
    (sh_l s1 =? sh_l s2) && (List.length (sh_exps s1) =? List.length (sh_exps s2)) &&
    forallb (fun p => close (fst p) (snd p)) (combine (sh_exps s1) (sh_exps s2)).

  (* [cur] is the open shell: it may still receive columns.  (The tuple written back by the code carries the
     exponents of the LATER shell, parsers.py:158-162; with literal equality that is no difference.) *)
  Fixpoint fuse_from (cur : shell) (rest : list shell) : list shell :=
    match rest with
    | [] => [cur]
    | s :: r => if same_key cur s
                then fuse_from (sh_l s, sh_exps s, sh_cols cur ++ sh_cols s) r
                else cur :: fuse_from s r
    end.
  Definition fuse (l : list shell) : list shell :=
    match l with [] => [] | s :: r => fuse_from s r end.

  (* what the import must return for a Gaussian94 file: per element, in file order, the fused shells *)
  Definition expected_fused (a : ast) : dict :=
    map (fun e => (fst e, fuse (expected_shells (snd e)))) a.
End Spec.

(* literal version: the key (l, exponent literals) is compared with Leibniz equality *)
Definition key_eq_dec (k1 k2 : nat * list string) : {k1 = k2} + {k1 <> k2}.
Proof. decide equality; [apply (list_eq_dec string_dec) | apply Nat.eq_dec]. Defined.
Fixpoint fuse_lit_from (cur : shell) (rest : list shell) : list shell :=
  match rest with
  | [] => [cur]
  | s :: r => if key_eq_dec (fst cur) (fst s)
              then fuse_lit_from (fst cur, snd cur ++ snd s) r
              else cur :: fuse_lit_from s r
  end.
Definition fuse_lit (l : list shell) : list shell :=
  match l with [] => [] | s :: r => fuse_lit_from s r end.

Section FoldSpec.
  Variable close : string -> string -> bool.

  Lemma forall2b_combine e1 : forall e2,
    forall2b close e1 e2
    = (List.length e1 =? List.length e2) && forallb (fun p => close (fst p) (snd p)) (combine e1 e2).
  Proof.
    induction e1 as [|a r IH]; intros [|b s]; simpl; auto.
    rewrite IH. destruct (List.length r =? List.length s); simpl; auto.
    rewrite andb_false_r. reflexivity.
  Qed.
  Lemma same_key_fuses s1 s2 : same_key close s1 s2 = fuses close s1 s2.
  Proof.
    destruct s1 as [[l1 e1] c1], s2 as [[l2 e2] c2]. unfold same_key, fuses, sh_l, sh_exps. simpl.
    rewrite forall2b_combine. destruct (l1 =? l2); simpl; auto.
    destruct (List.length e1 =? List.length e2); reflexivity.
  Qed.

  (* one step of the parser's loop when the accumulated list is not empty *)
  Lemma push_last acc cur s :
    push close (acc ++ [cur]) s
    = if same_key close cur s
      then acc ++ [(sh_l s, sh_exps s, sh_cols cur ++ sh_cols s)]
      else (acc ++ [cur]) ++ [s].
  Proof.
    rewrite same_key_fuses. apply push_snoc.
  Qed.
  Lemma push_nil s : push close [] s = [s].
  Proof. reflexivity. Qed.

  (* the left fold with a look at the last element = the right recursion with an open shell *)
  Lemma push_fold_from S : forall acc cur,
    fold_left (push close) S (acc ++ [cur]) = acc ++ fuse_from close cur S.
  Proof.
    induction S as [|s r IH]; intros acc cur; simpl; auto.
    rewrite push_last. destruct (same_key close cur s).
    - apply IH.
    - rewrite IH, <- app_assoc. reflexivity.
  Qed.
  Lemma push_fold_fuse S : fold_left (push close) S [] = fuse close S.
  Proof.
    destruct S as [|s r]; simpl; auto. rewrite push_nil. apply (push_fold_from r [] s).
  Qed.
  Lemma push_fold_fuse_acc S1 S2 :
    fold_left (push close) S2 (fuse close S1) = fuse close (S1 ++ S2).
  Proof. rewrite <- !push_fold_fuse, fold_left_app. reflexivity. Qed.

  (* the comparison partner of every shell — also of every letter of a combined block — is the last
     shell of the result for the shells BEFORE it, i.e. it is updated between the letters of one block *)
  Lemma fuse_snoc S u :
    fuse close (S ++ [u])
    = match rev (fuse close S) with
      | last :: init =>
          if same_key close last u
          then rev init ++ [(sh_l u, sh_exps u, sh_cols last ++ sh_cols u)]
          else fuse close S ++ [u]
      | [] => [u]
      end.
  Proof.
    rewrite <- push_fold_fuse_acc. simpl. unfold push.
    destruct (rev (fuse close S)) as [|last init] eqn:E.
    - destruct (fuse close S) as [|x X]; [reflexivity|].
      apply (f_equal (@List.length shell)) in E. rewrite rev_length in E. discriminate.
    - rewrite same_key_fuses. reflexivity.
  Qed.

  (* adjacent angular momenta differ (S P, S P D, P S ...; the usual combined blocks) *)
  Fixpoint chain_distinct (l0 : nat) (us : list shell) : bool :=
    match us with
    | [] => true
    | u :: r => negb (l0 =? sh_l u) && chain_distinct (sh_l u) r
    end.

  Lemma same_key_l s1 s2 : same_key close s1 s2 = true -> sh_l s1 = sh_l s2.
  Proof.
    unfold same_key. intros H. apply andb_true_iff in H as [H _]. apply andb_true_iff in H as [H _].
    apply Nat.eqb_eq; auto.
  Qed.
  Lemma push_chain us : forall X v,
    chain_distinct (sh_l v) us = true -> fold_left (push close) us (X ++ [v]) = (X ++ [v]) ++ us.
  Proof.
    induction us as [|u r IH]; intros X v H; simpl.
    - rewrite app_nil_r. reflexivity.
    - simpl in H. apply andb_true_iff in H as [H1 H2]. apply negb_true_iff, Nat.eqb_neq in H1.
      rewrite push_last. destruct (same_key close v u) eqn:E.
      + apply same_key_l in E. contradiction.
      + rewrite (IH (X ++ [v]) u H2), <- !app_assoc. reflexivity.
  Qed.
  (* after one push the last shell has the angular momentum of the pushed unit *)
  Lemma push_shape acc u : exists X v, push close acc u = X ++ [v] /\ sh_l v = sh_l u.
  Proof.
    destruct acc as [|cur acc' _] using rev_ind.
    - exists [], u. auto.
    - rewrite push_last. destruct (same_key close cur u).
      + eexists acc', _. split; reflexivity.
      + eexists (acc' ++ [cur]), u. auto.
  Qed.
  (* within a combined block with adjacent letters distinct only the FIRST letter can continue the shell in
     front of the block; every later letter is compared with the shell of the letter before it — which has
     another angular momentum — and is appended *)
  Lemma only_first_fuses acc u rest :
    chain_distinct (sh_l u) rest = true ->
    fold_left (push close) (u :: rest) acc = push close acc u ++ rest.
  Proof.
    intros H. simpl. destruct (push_shape acc u) as (X & v & -> & Hv).
    apply push_chain. rewrite Hv. exact H.
  Qed.

  (* the seeded change C18-muta: [prev] and the exponent comparison are evaluated ONCE per file shell
     (= per block as printed) and reused for all its letters *)
  Definition push_block_stale (acc : list shell) (us : list shell) : list shell :=
    match rev acc with
    | [] => acc ++ us
    | prev :: _ =>
        fold_left (fun out u =>
                     if fuses close prev u
                     then removelast out ++ [(sh_l u, sh_exps u, sh_cols prev ++ sh_cols u)]
                     else out ++ [u]) us acc
    end.
End FoldSpec.

Section NoFuse.
  Variable close : string -> string -> bool.

  Lemma fuse_id S : no_fuse close S = true -> fuse close S = S.
  Proof. rewrite <- push_fold_fuse. apply push_fold_nofuse. Qed.
  Lemma expected_fused_id (a : ast) :
    forallb (fun e => no_fuse close (expected_shells (snd e))) a = true -> expected_fused close a = expected a.
  Proof.
    intros H. unfold expected_fused, expected. apply map_ext_in. intros e He.
    rewrite forallb_forall in H. rewrite fuse_id; auto.
  Qed.
End NoFuse.

Section Units.
  Variable close : string -> string -> bool.
  Hypothesis close_refl : forall s, close s s = true.

  Lemma same_key_cols l e c1 c2 s : same_key close (l, e, c1) s = same_key close (l, e, c2) s.
  Proof. reflexivity. Qed.
  Lemma same_key_cols_r l e c1 c2 s : same_key close s (l, e, c1) = same_key close s (l, e, c2).
  Proof. reflexivity. Qed.

  Lemma same_key_refl l e c1 c2 : same_key close (l, e, c1) (l, e, c2) = true.
  Proof.
    unfold same_key, sh_l, sh_exps. simpl. rewrite !Nat.eqb_refl. simpl.
    induction e; simpl; auto. rewrite close_refl. auto.
  Qed.
  Lemma same_key_difl l1 l2 e1 e2 c1 c2 : l1 <> l2 -> same_key close (l1, e1, c1) (l2, e2, c2) = false.
  Proof. intros H. unfold same_key, sh_l. simpl. apply Nat.eqb_neq in H. rewrite H. reflexivity. Qed.

  (* the units of one element, pushed on the empty list = the fused expected shells *)
  Lemma push_blocks_fused bs : Forall wfb bs ->
    fold_left (push close) (List.concat (map U bs)) [] = fuse close (expected_shells bs).
  Proof. intros HW. rewrite (push_blocks_units close close_refl) by auto. apply push_fold_fuse. Qed.
End Units.

Section GBSFused.
  Variable close : string -> string -> bool.
  Hypothesis close_refl : forall s, close s s = true.
  Variable L : layout.
  Hypothesis HL : layout_ok_gbs L.

  (* EVERY well-formed AST, every admissible layout: per element, in file order, the fused shells *)
  Theorem roundtrip_gbs_fused (a : ast) :
    wf_ast a = true -> parse_gbs_model close (print_gbs a L) = Some (expected_fused close a).
  Proof.
    intros Hwf. rewrite (roundtrip_gbs_pushed close close_refl L HL a Hwf). f_equal.
    apply map_ext. intros e. rewrite push_fold_fuse. reflexivity.
  Qed.
End GBSFused.

Lemma forallb_combine_eqb e1 : forall e2, List.length e1 = List.length e2 ->
  forallb (fun p => close_lit (fst p) (snd p)) (combine e1 e2) = true -> e1 = e2.
Proof.
  induction e1 as [|a r IH]; intros [|b s] Hl H; simpl in *; try discriminate; auto.
  apply andb_true_iff in H as [H1 H2]. apply String.eqb_eq in H1. f_equal; auto.
Qed.
Lemma same_key_lit s1 s2 : same_key close_lit s1 s2 = true <-> fst s1 = fst s2.
Proof.
  destruct s1 as [[l1 e1] c1], s2 as [[l2 e2] c2]. simpl. split.
  - unfold same_key, sh_l, sh_exps. simpl. intros H. apply andb_true_iff in H as [H H3]. apply andb_true_iff in H as [H1 H2].
    apply Nat.eqb_eq in H1, H2. f_equal; auto. apply forallb_combine_eqb; auto.
  - intros H. inversion H; subst. apply (same_key_refl close_lit close_lit_refl).
Qed.
Lemma fuse_from_lit S : forall cur, fuse_from close_lit cur S = fuse_lit_from cur S.
Proof.
  induction S as [|s r IH]; intros cur; simpl; auto.
  destruct (key_eq_dec (fst cur) (fst s)) as [E|E].
  - rewrite (proj2 (same_key_lit cur s) E). rewrite <- IH. f_equal.
    unfold sh_l, sh_exps, sh_cols. rewrite E. destruct s as [[l e] c]. reflexivity.
  - destruct (same_key close_lit cur s) eqn:K; [apply same_key_lit in K; contradiction|].
    rewrite IH. reflexivity.
Qed.
Lemma fuse_lit_spec S : fuse close_lit S = fuse_lit S.
Proof. destruct S; simpl; auto. apply fuse_from_lit. Qed.

Definition expected_fused_lit (a : ast) : dict :=
  map (fun e => (fst e, fuse_lit (expected_shells (snd e)))) a.
Lemma expected_fused_lit_spec a : expected_fused close_lit a = expected_fused_lit a.
Proof. unfold expected_fused, expected_fused_lit. apply map_ext. intros e. rewrite fuse_lit_spec. reflexivity. Qed.

Theorem roundtrip_gbs_fused_lit (L : layout) (HL : layout_ok_gbs L) (a : ast) :
  wf_ast a = true -> parse_gbs_model close_lit (print_gbs a L) = Some (expected_fused_lit a).
Proof.
  intros H. rewrite (roundtrip_gbs_fused close_lit close_lit_refl L HL a H), expected_fused_lit_spec. reflexivity.
Qed.

(* every written (l, exponents, column) triple, in file order: nothing lost, nothing duplicated *)
Definition flat (S : list shell) : list (nat * list string * list string) :=
  List.concat (map (fun s => map (fun c => (fst s, c)) (snd s)) S).
Lemma flat_cons x T : flat (x :: T) = map (fun c => (fst x, c)) (snd x) ++ flat T.
Proof. reflexivity. Qed.
Lemma fuse_lit_from_flat S : forall cur, flat (fuse_lit_from cur S) = flat (cur :: S).
Proof.
  induction S as [|s r IH]; intros cur; cbn [fuse_lit_from]; auto.
  destruct (key_eq_dec (fst cur) (fst s)) as [E|E].
  - rewrite IH, !flat_cons. cbn [fst snd]. rewrite map_app, <- app_assoc, E. reflexivity.
  - rewrite flat_cons, IH. reflexivity.
Qed.
Theorem fuse_lit_flat S : flat (fuse_lit S) = flat S.
Proof. destruct S; auto. apply fuse_lit_from_flat. Qed.

(* the result is fused as far as possible: no two neighbours with the same (l, exponents) *)
Lemma fuse_lit_from_hd S : forall cur, exists c T, fuse_lit_from cur S = (fst cur, c) :: T.
Proof.
  induction S as [|s r IH]; intros cur; simpl.
  - exists (snd cur), []. destruct cur; reflexivity.
  - destruct (key_eq_dec (fst cur) (fst s)).
    + destruct (IH (fst cur, snd cur ++ snd s)) as (c & T & ->). eexists _, _. reflexivity.
    + exists (snd cur), (fuse_lit_from s r). destruct cur; reflexivity.
Qed.
Fixpoint keys_differ (S : list shell) : Prop :=
  match S with
  | s1 :: ((s2 :: _) as r) => fst s1 <> fst s2 /\ keys_differ r
  | _ => True
  end.
Lemma fuse_lit_from_maximal S : forall cur, keys_differ (fuse_lit_from cur S).
Proof.
  induction S as [|s r IH]; intros cur; simpl; auto.
  destruct (key_eq_dec (fst cur) (fst s)) as [E|E]; [apply IH|].
  specialize (IH s). destruct (fuse_lit_from_hd r s) as (c & T & Hd). rewrite Hd in *.
  simpl. split; auto.
Qed.
Theorem fuse_lit_maximal S : keys_differ (fuse_lit S).
Proof. destruct S; simpl; auto. apply fuse_lit_from_maximal. Qed.

Section TwoBlocks.
  Variable close : string -> string -> bool.
  Hypothesis close_refl : forall s, close s s = true.

  (* "P then SP", same exponents: P, S, P — the P column of the SP block is compared with the S shell appended
     a moment ago, not with the P shell in front of the block *)
  Lemma fuse_P_SP l0 l e cs c0 c1 : l0 <> l ->
    fuse close [(l, e, cs); (l0, e, [c0]); (l, e, [c1])] = [(l, e, cs); (l0, e, [c0]); (l, e, [c1])].
  Proof.
    intros H. cbn [fuse fuse_from]. rewrite (same_key_difl close l l0) by auto.
    rewrite (same_key_difl close l0 l) by auto. reflexivity.
  Qed.
  (* "S then SP", same exponents: S with one more column, P *)
  Lemma fuse_S_SP l l1 e cs c0 c1 : l <> l1 ->
    fuse close [(l, e, cs); (l, e, [c0]); (l1, e, [c1])] = [(l, e, cs ++ [c0]); (l1, e, [c1])].
  Proof.
    intros H. cbn [fuse fuse_from]. rewrite (same_key_refl close close_refl). unfold sh_l, sh_exps, sh_cols. simpl.
    rewrite (same_key_difl close l l1) by auto. reflexivity.
  Qed.
  (* "SP then SP", same exponents: four shells *)
  Lemma fuse_SP_SP l0 l1 e a0 a1 c0 c1 : l0 <> l1 ->
    fuse close [(l0, e, [a0]); (l1, e, [a1]); (l0, e, [c0]); (l1, e, [c1])]
    = [(l0, e, [a0]); (l1, e, [a1]); (l0, e, [c0]); (l1, e, [c1])].
  Proof.
    intros H. cbn [fuse fuse_from]. rewrite (same_key_difl close l0 l1) by auto.
    rewrite (same_key_difl close l1 l0) by auto. rewrite (same_key_difl close l0 l1) by auto. reflexivity.
  Qed.

  (* the same at file level: any literals, any number of primitives, any admissible layout *)
  Variable L : layout.
  Hypothesis HL : layout_ok_gbs L.
  Theorem gbs_P_then_SP sym l0 l e cs c0 c1 :
    let a := [(sym, [ {| b_ls := [l]; b_exps := e; b_cols := cs |};
                      {| b_ls := [l0; l]; b_exps := e; b_cols := [c0; c1] |} ])] in
    wf_ast a = true -> l0 <> l ->
    parse_gbs_model close (print_gbs a L) = Some [(sym, [(l, e, cs); (l0, e, [c0]); (l, e, [c1])])].
  Proof.
    intros a Hwf Hl. rewrite (roundtrip_gbs_fused close close_refl L HL a Hwf).
    unfold expected_fused, a, expected_shells, expected_block. cbn [map fst snd b_ls b_exps b_cols List.concat combine app].
    rewrite fuse_P_SP by auto. reflexivity.
  Qed.
  Theorem gbs_S_then_SP sym l l1 e cs c0 c1 :
    let a := [(sym, [ {| b_ls := [l]; b_exps := e; b_cols := cs |};
                      {| b_ls := [l; l1]; b_exps := e; b_cols := [c0; c1] |} ])] in
    wf_ast a = true -> l <> l1 ->
    parse_gbs_model close (print_gbs a L) = Some [(sym, [(l, e, cs ++ [c0]); (l1, e, [c1])])].
  Proof.
    intros a Hwf Hl. rewrite (roundtrip_gbs_fused close close_refl L HL a Hwf).
    unfold expected_fused, a, expected_shells, expected_block. cbn [map fst snd b_ls b_exps b_cols List.concat combine app].
    rewrite fuse_S_SP by auto. reflexivity.
  Qed.
End TwoBlocks.

Definition e3 : list string := ["0.1E+02"; "2.5"; "0.3"].
Definition cP : list string := ["0.11"; "0.12"; "0.13"].
Definition cP' : list string := ["0.91"; "0.92"; "0.93"].
Definition cS : list string := ["-0.21"; "0.22"; "0.23"].
Definition cS' : list string := ["0.81"; "0.82"; "-0.83"].
Definition sp1 : list string := ["0.31"; "0.32"; "0.33"].
Definition sp2 : list string := ["0.41"; "0.42"; "0.43"].
Definition sp3 : list string := ["0.51"; "0.52"; "0.53"].
Definition sp4 : list string := ["0.61"; "0.62"; "0.63"].
Definition blk ls cols : block := {| b_ls := ls; b_exps := e3; b_cols := cols |}.

(* P then SP (the input of seeded/C18-muta/notes.md) *)
Definition ast_P_SP : ast := [("Na", [blk [1] [cP]; blk [0; 1] [sp1; sp2]])].
(* SP then SP *)
Definition ast_SP_SP : ast := [("Na", [blk [0; 1] [sp1; sp2]; blk [0; 1] [sp3; sp4]])].
(* S then SP then P *)
Definition ast_S_SP_P : ast := [("Na", [blk [0] [cS]; blk [0; 1] [sp1; sp2]; blk [1] [cP]])].
(* two elements; generalized S (2 columns) then S then SP then P then P, and a D then D with other exponents *)
Definition ast_mixed : ast :=
  [("Na", [blk [0] [cS; cS']; blk [0] [sp3]; blk [0; 1] [sp1; sp2]; blk [1] [cP]; blk [1] [cP']]);
   ("H", [blk [2] [cP]; {| b_ls := [2]; b_exps := ["1.5"; "2.5"; "0.3"]; b_cols := [cP'] |}; blk [2] [cS]])].

Lemma ex_merge_wf :
  wf_ast ast_P_SP = true /\ wf_ast ast_SP_SP = true /\ wf_ast ast_S_SP_P = true /\ wf_ast ast_mixed = true /\
  wf_ast_gbs close_lit ast_S_SP_P = false /\ wf_ast_gbs close_lit ast_mixed = false.
Proof.
  assert (wf_ast ast_S_SP_P = true) as H3 by (vm_compute; reflexivity).
  assert (wf_ast ast_mixed = true) as H4 by (vm_compute; reflexivity).
  unfold wf_ast_gbs. rewrite H3, H4. repeat apply conj; vm_compute; reflexivity.
Qed.
