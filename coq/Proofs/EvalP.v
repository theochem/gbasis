(* Lemmas about Model/Eval.v (generic field, all n l alpha x, by induction):
   the Leibniz/Hermite sum of the general back-end and the hand-expanded formulas of the direct
   back-end both equal the specification polynomial [u]; the rows the block runs hold exactly
   these values; the direct back-end refuses orders above two. *)
From Coq Require Import List Arith Lia Bool Field.
From GB Require Import Base.Field Base.FNum Base.Tables Base.Sums Model.Shell Model.MomentInt Model.Overlap
  Model.Eval.
Import ListNotations.

Notation sumn_zero := Sums.sumn_zero (only parsing).
Notation sumn_trunc := Sums.sumn_trunc (only parsing).
Notation sumn_add := Sums.sumn_add (only parsing).
Notation sumn_scale := Sums.sumn_scale (only parsing).

Section P.
Context {F : Type} (K : Fops F) (Kf : is_field K).
Add Field KF : Kf.
Local Open Scope F_scope.
Notation "0" := (f0 K) : F_scope.
Notation "1" := (f1 K) : F_scope.
Infix "+" := (fadd K) : F_scope.
Infix "*" := (fmul K) : F_scope.
Infix "-" := (fsub K) : F_scope.
Infix "/" := (fdiv K) : F_scope.
Notation "- x" := (fopp K x) : F_scope.
Notation "# n" := (ofnat K n) (at level 5) : F_scope.
Notation fpow := (FNum.fpow K).
Notation sumn := (Tables.sumn 0 (fadd K)).

Lemma sumn_S n f : sumn (S n) f = sumn n f + f n.
Proof. reflexivity. Qed.

Lemma lin_close (a b c : F) : a = b -> forall L R, L - R = c * (a - b) -> L = R.
Proof.
  intros E L R HLR. rewrite E in HLR.
  transitivity (R + (L - R)); [ring|]. rewrite HLR. ring.
Qed.

Lemma u_S alpha x l n : u K alpha l (S n) x =
  (match l with O => 0 | S l' => #l * u K alpha l' n x end) - (1 + 1) * alpha * u K alpha (S l) n x.
Proof. reflexivity. Qed.

Lemma u_X alpha x : forall n l, u K alpha (S l) n x = x * u K alpha l n x + #n * u K alpha l (n - 1) x.
Proof.
  induction n as [|n IH]; intros l.
  - cbn [u FNum.fpow ofnat]. ring.
  - replace (S n - 1)%nat with n by lia.
    rewrite (u_S alpha x (S l) n), (u_S alpha x l n).
    rewrite (IH (S l)).
    destruct l as [|l'].
    + destruct n as [|n'].
      * cbn [ofnat]. ring.
      * replace (S n' - 1)%nat with n' by lia.
        rewrite (u_S alpha x 0 n'). cbn [ofnat]. ring.
    + destruct n as [|n'].
      * rewrite (IH l'). cbn [ofnat]. ring.
      * pose proof (u_S alpha x (S l') n') as E2.
        rewrite (IH l') in E2 |- *.
        replace (S n' - 1)%nat with n' in * by lia.
        apply (lin_close _ _ (- #(S n')) E2). cbn [ofnat]. ring.
Qed.

Section Axis.
Variables alpha x : F.
Let U := fun l n => u K alpha l n x.
Let H := herm K alpha x.
Let B := pbin K.

Lemma hpair_snd m : snd (hpair K alpha x (S m)) = fst (hpair K alpha x m).
Proof. cbn [hpair]. destruct (hpair K alpha x m) as [a b]. reflexivity. Qed.

Lemma herm_S m : H (S m) = - ((1 + 1) * alpha * (x * H m + #m * snd (hpair K alpha x m))).
Proof. unfold H, herm. cbn [hpair]. destruct (hpair K alpha x m) as [a b]. reflexivity. Qed.

Lemma herm_0 : H 0%nat = 1.
Proof. reflexivity. Qed.

Lemma herm_1 : H 1%nat = - ((1 + 1) * alpha * x).
Proof. rewrite herm_S. cbn [hpair snd ofnat]. rewrite herm_0. ring. Qed.

Lemma herm_SS m : H (S (S m)) = - ((1 + 1) * alpha * (x * H (S m) + #(S m) * H m)).
Proof. rewrite herm_S. rewrite hpair_snd. reflexivity. Qed.

Lemma u_0_herm : forall n, U 0%nat n = H n /\ U 0%nat (S n) = H (S n).
Proof.
  induction n as [|n [IH1 IH2]].
  - split; [reflexivity|]. rewrite herm_1. unfold U. cbn [u FNum.fpow]. ring.
  - split; [exact IH2|]. unfold U in *.
    rewrite (u_S alpha x 0 (S n)), (u_X alpha x (S n) 0). replace (S n - 1)%nat with n by lia.
    rewrite IH1, IH2, herm_SS. ring.
Qed.

Let pd := fun l j => u K 0 l j x.

Lemma ffall_pd : forall j l,
  (if (j <=? l)%nat then ffall K l j * fpow x (l - j) else 0) = pd l j.
Proof.
  unfold pd. induction j as [|j IH]; intros l.
  - cbn [Nat.leb ffall u]. rewrite Nat.sub_0_r. ring.
  - rewrite u_S. destruct l as [|l'].
    + cbn [Nat.leb]. ring.
    + rewrite <- (IH l'). cbn [Nat.leb ffall Nat.sub]. rewrite Nat.sub_0_r.
      destruct (j <=? l')%nat; ring.
Qed.

Lemma pd_0_S j : pd 0 (S j) = 0.
Proof. unfold pd. rewrite u_S. ring. Qed.

Lemma pd_X j l : pd (S l) j = x * pd l j + #j * pd l (j - 1).
Proof. apply u_X. Qed.

Lemma pbin_gt : forall n k, (n < k)%nat -> B n k = 0.
Proof.
  induction n as [|n IH]; intros k Hk; destruct k as [|k']; try lia.
  - reflexivity.
  - unfold B in *. cbn [pbin]. rewrite (IH k') by lia. rewrite (IH (S k')) by lia. ring.
Qed.

Lemma pbin_nn : forall n, B n n = 1.
Proof.
  induction n as [|n IH]; [reflexivity|].
  unfold B in *. cbn [pbin]. rewrite IH. fold B. rewrite (pbin_gt n (S n)) by lia. ring.
Qed.

Lemma pbin_absorb : forall n k, #(S n - k) * B (S n) k = #(S n) * B n k.
Proof.
  induction n as [|n IH]; intros k.
  - destruct k as [|[|k']]; unfold B; cbn [pbin Nat.sub ofnat]; ring.
  - destruct k as [|k'].
    + unfold B. cbn [pbin]. rewrite Nat.sub_0_r. ring.
    + change (B (S (S n)) (S k')) with (B (S n) k' + B (S n) (S k')).
      replace (S (S n) - S k')%nat with (S n - k')%nat by lia.
      destruct (Nat.le_gt_cases k' n) as [Hle|Hgt].
      * pose proof (IH k') as E1. pose proof (IH (S k')) as E2.
        set (d := (S n - S k')%nat) in *.
        assert (Hd : (S n - k')%nat = S d) by (unfold d; lia).
        rewrite Hd in E1 |- *.
        transitivity (#(S d) * B (S n) k' + #d * B (S n) (S k') + B (S n) (S k'));
          [cbn [ofnat]; ring|].
        rewrite E1, E2.
        change (B (S n) (S k')) with (B n k' + B n (S k')). cbn [ofnat]. ring.
      * replace (S n - k')%nat with 0%nat by lia.
        rewrite (pbin_gt (S n) (S k')) by lia.
        cbn [ofnat]. ring.
Qed.

Definition G (n l : nat) : F := sumn (S n) (fun k => B n k * pd l (n - k) * H k).

Lemma gen_term_le n l k : (k <= n)%nat ->
  gen_term K n l alpha x k = B n k * pd l (n - k) * H k.
Proof.
  intros Hk. unfold gen_term.
  replace (n <? k)%nat with false by (symmetry; apply Nat.ltb_ge; lia).
  rewrite orb_false_r. rewrite <- (ffall_pd (n - k) l).
  destruct (Nat.ltb_spec k (n - l)) as [Hlt|Hge].
  - replace (n - k <=? l)%nat with false by (symmetry; apply Nat.leb_gt; lia). ring.
  - replace (n - k <=? l)%nat with true by (symmetry; apply Nat.leb_le; lia).
    replace (l + k - n)%nat with (l - (n - k))%nat by lia. unfold B, H. ring.
Qed.

Lemma gen_term_gt n l k : (n < k)%nat -> gen_term K n l alpha x k = 0.
Proof.
  intros Hk. unfold gen_term.
  replace (n <? k)%nat with true by (symmetry; apply Nat.ltb_lt; lia).
  rewrite orb_true_r. reflexivity.
Qed.

Lemma general_is_G nmax n l : (n <= nmax)%nat ->
  deriv_general_upto K nmax n l alpha x = G n l.
Proof.
  intros Hn. unfold deriv_general_upto, G.
  destruct (Nat.eqb_spec n 0) as [->|Hn0].
  - unfold pd. cbn [Tables.sumn Nat.sub u]. unfold B. cbn [pbin]. rewrite herm_0. ring.
  - rewrite (sumn_trunc K Kf (S n) (S nmax)); [| lia | intros k Hk; apply gen_term_gt; lia].
    apply sumn_ext. intros k Hk. apply gen_term_le. lia.
Qed.

Lemma G_0 n : G n 0 = H n.
Proof.
  unfold G. cbn [Tables.sumn]. rewrite (sumn_zero K Kf).
  - rewrite Nat.sub_diag, pbin_nn. unfold pd. cbn [u FNum.fpow]. ring.
  - intros k Hk. replace (n - k)%nat with (S (n - k - 1)) by lia. rewrite pd_0_S. ring.
Qed.

Lemma G_X n l : G n (S l) = x * G n l + #n * G (n - 1) l.
Proof.
  unfold G at 1.
  rewrite (sumn_ext _ _ (S n) _
     (fun k => x * (B n k * pd l (n - k) * H k) + #(n - k) * B n k * pd l (n - k - 1) * H k)).
  2:{ intros k Hk. rewrite pd_X. ring. }
  rewrite (sumn_add K Kf), (sumn_scale K Kf). fold (G n l). f_equal.
  destruct n as [|m].
  - cbn [Tables.sumn Nat.sub ofnat]. ring.
  - rewrite (sumn_S (S m)). rewrite Nat.sub_diag. change (ofnat K 0) with (f0 K).
    replace (S m - 1)%nat with m by lia. unfold G. rewrite <- (sumn_scale K Kf).
    transitivity (sumn (S m) (fun k => #(S m) * (B m k * pd l (m - k) * H k)) + 0); [|ring].
    f_equal; [|ring].
    apply sumn_ext. intros k Hk.
    replace (S m - k - 1)%nat with (m - k)%nat by lia.
    transitivity ((#(S m - k) * B (S m) k) * (pd l (m - k) * H k)); [ring|].
    rewrite pbin_absorb. ring.
Qed.

Lemma G_is_u : forall l n, G n l = U l n.
Proof.
  induction l as [|l IH]; intros n.
  - rewrite G_0. destruct (u_0_herm n) as [E _]. symmetry. exact E.
  - unfold U in *. rewrite G_X, u_X, !IH. reflexivity.
Qed.

Lemma general_correct_upto nmax n l : (n <= nmax)%nat ->
  deriv_general_upto K nmax n l alpha x = u K alpha l n x.
Proof. intros Hn. rewrite general_is_G by exact Hn. apply G_is_u. Qed.

Lemma general_correct n l : deriv_general K n l alpha x = u K alpha l n x.
Proof. apply general_correct_upto. lia. Qed.

Definition flags_ok (h1 h2 : bool) (l : nat) : Prop :=
  ((1 <= l)%nat -> h1 = true) /\ ((2 <= l)%nat -> h2 = true).

Lemma direct_first_correct l : direct_first K l alpha x = u K alpha l 1 x.
Proof.
  unfold direct_first. destruct l as [|l'].
  - cbn [Nat.eqb u FNum.fpow]. ring.
  - cbn [Nat.eqb u]. replace (S l' - 1)%nat with l' by lia. cbn [FNum.fpow]. ring.
Qed.

Lemma direct_second_correct h1 h2 l : flags_ok h1 h2 l ->
  direct_second K h1 h2 l alpha x = u K alpha l 2 x.
Proof.
  intros [F1 F2]. unfold direct_second.
  destruct l as [|[|l'']].
  - cbn [Nat.leb Nat.eqb]. rewrite !andb_false_r. cbn [u FNum.fpow ofnat]. ring.
  - rewrite (F1 ltac:(lia)). cbn [Nat.leb Nat.eqb]. rewrite !andb_false_r. cbn [andb].
    cbn [u FNum.fpow ofnat]. ring.
  - rewrite (F1 ltac:(lia)), (F2 ltac:(lia)). cbn [Nat.leb andb].
    replace (S (S l'') - 2)%nat with l'' by lia.
    replace (S (S l'') - 1)%nat with (S l'') by lia.
    cbn [u FNum.fpow ofnat]. ring.
Qed.

Lemma direct_correct h1 h2 n l : (n <= 2)%nat -> flags_ok h1 h2 l ->
  deriv_direct K h1 h2 n l alpha x = u K alpha l n x.
Proof.
  intros Hn Hf. destruct n as [|[|[|n']]]; try lia.
  - reflexivity.
  - apply direct_first_correct.
  - apply direct_second_correct. exact Hf.
Qed.

Lemma backends_agree h1 h2 nmax n l : (n <= 2)%nat -> (n <= nmax)%nat -> flags_ok h1 h2 l ->
  deriv_direct K h1 h2 n l alpha x = deriv_general_upto K nmax n l alpha x.
Proof.
  intros Hn Hm Hf. rewrite direct_correct by assumption.
  symmetry. apply general_correct_upto. exact Hm.
Qed.

Lemma xpows_nth n k : (k <= n)%nat -> nth k (xpows K x n) 0 = fpow x k.
Proof.
  intros Hk. unfold xpows.
  pose (P := fun (j : nat) (v : F) => v = fpow x j).
  change (P k (nth k (iter2 (fun _ cur _ => x * cur) n 0%nat 1 0) 0)).
  replace k with (0 + k)%nat at 1 by lia.
  apply (iter2_spec (fun (_ : nat) (cur _ : F) => x * cur) P); [| | |exact Hk].
  - intros j a b Ha _. unfold P in *. rewrite Ha. reflexivity.
  - reflexivity.
  - intros Hlt. lia.
Qed.

Lemma hrow_nth n k : (k <= n)%nat -> nth k (hrow K alpha x n) 0 = H k.
Proof.
  intros Hk. unfold hrow.
  pose (P := fun (j : nat) (v : F) => v = H j).
  change (P k (nth k (iter2 (fun j cur prev => - ((1 + 1) * alpha * (x * cur + #j * prev)))
                            n 0%nat 1 0) 0)).
  replace k with (0 + k)%nat at 1 by lia.
  apply (iter2_spec (fun j cur prev => - ((1 + 1) * alpha * (x * cur + #j * prev))) P);
    [| | |exact Hk].
  - intros j a b Ha Hb. unfold P in *. destruct j as [|j'].
    + rewrite Ha, herm_1, herm_0. cbn [ofnat]. ring.
    + rewrite herm_SS, Ha. rewrite (Hb ltac:(lia)).
      replace (S j' - 1)%nat with j' by lia. reflexivity.
  - reflexivity.
  - intros Hlt. lia.
Qed.

Lemma gen_row_nth nmax n L l : (l <= L)%nat ->
  nth l (gen_row K nmax n L (gen_ctab K nmax n L) alpha x) 0
  = deriv_general_upto K nmax n l alpha x.
Proof.
  intros Hl. unfold gen_row, deriv_general_upto.
  destruct (Nat.eqb n 0).
  - rewrite nth_mk by lia. apply xpows_nth. lia.
  - rewrite nth_mk by lia. apply sumn_ext. intros k Hk.
    unfold gen_ctab. rewrite (nth_mk (S L) _ [] l) by lia. rewrite nth_mk by lia.
    rewrite hrow_nth by lia. rewrite xpows_nth by lia.
    unfold gen_coef, gen_term. fold H.
    destruct ((k <? n - l)%nat || (n <? k)%nat); [ring|reflexivity].
Qed.

End Axis.

(* the rows of the block, general back-end: entry l of the row of axis ax is u l n; in error-scale mode
   the same row at (-|alpha|, |x|) *)
Lemma axis_row_gen (absm : bool) (L : nat) (o : comp) (ax : nat) (alpha x : F) (l : nat) :
  (ax < 3)%nat -> (l <= L)%nat ->
  nth l (axis_row K (gen_mode K absm L o) ax (comp_ax ax o) L alpha x) 0
  = if absm then u K (- (fabs K alpha)) l (comp_ax ax o) (fabs K x) else u K alpha l (comp_ax ax o) x.
Proof.
  intros Hax Hl. destruct o as [[ox oy] oz]. unfold gen_mode, axis_row.
  assert (Hm : (comp_ax ax (ox, oy, oz) <= order_max (ox, oy, oz))%nat).
  { unfold comp_ax, order_max. destruct ax as [|[|ax']]; lia. }
  destruct absm; (destruct ax as [|[|[|ax']]]; [| | |lia]); cbn [comp_ax] in *;
    rewrite gen_row_nth by exact Hl; apply general_correct_upto; exact Hm.
Qed.

Lemma axis_row_general (L : nat) (o : comp) (ax : nat) (alpha x : F) (l : nat) :
  (ax < 3)%nat -> (l <= L)%nat ->
  nth l (axis_row K (gen_mode K false L o) ax (comp_ax ax o) L alpha x) 0
  = u K alpha l (comp_ax ax o) x.
Proof. exact (axis_row_gen false L o ax alpha x l). Qed.

Lemma axis_row_direct (h1 h2 : bool) (ax n L : nat) (alpha x : F) (l : nat) :
  (l <= L)%nat -> (n <= 2)%nat -> flags_ok h1 h2 l ->
  nth l (axis_row K (RDir h1 h2) ax n L alpha x) 0 = u K alpha l n x.
Proof.
  intros Hl Hn Hf. unfold axis_row. rewrite nth_mk by lia. apply direct_correct; assumption.
Qed.

Lemma in_default_comps L a b : (a + b <= L)%nat -> In (a, b, (L - a - b)%nat) (default_comps L).
Proof.
  intros Hab. unfold default_comps. apply in_flat_map.
  exists (L - a)%nat. split; [apply in_seq; lia|].
  replace (L - (L - a))%nat with a by lia.
  apply in_map_iff. exists (L - a - b)%nat. split.
  - replace (L - a - (L - a - b))%nat with b by lia. reflexivity.
  - apply in_seq. lia.
Qed.

Lemma default_comps_le L c ax : In c (default_comps L) -> (comp_ax ax c <= L)%nat.
Proof.
  unfold default_comps. intros Hin. apply in_flat_map in Hin. destruct Hin as [xx [_ Hin]].
  apply in_map_iff in Hin. destruct Hin as [yy [Hc _]]. subst c.
  unfold comp_ax. destruct ax as [|[|ax']]; lia.
Qed.

Lemma default_flags_ok L (o : comp) c ax :
  first2 o <> None -> In c (default_comps L) ->
  let '(h1, h2) := flags (default_comps L) o in flags_ok h1 h2 (comp_ax ax c).
Proof.
  intros Hf Hin. unfold flags. destruct (first2 o) as [ax0|]; [|congruence].
  pose proof (default_comps_le L c ax Hin) as Hle.
  split; intros Hl; apply existsb_exists.
  - destruct ax0 as [|[|ax0']].
    + exists (1, L - 1, L - 1 - (L - 1))%nat. split; [apply in_default_comps; lia|reflexivity].
    + exists (0, 1, L - 0 - 1)%nat. split; [apply in_default_comps; lia|reflexivity].
    + exists (0, L - 1, L - 0 - (L - 1))%nat. split; [apply in_default_comps; lia|].
      cbn [comp_ax]. apply Nat.eqb_eq. lia.
  - destruct ax0 as [|[|ax0']].
    + exists (2, L - 2, L - 2 - (L - 2))%nat. split; [apply in_default_comps; lia|reflexivity].
    + exists (0, 2, L - 0 - 2)%nat. split; [apply in_default_comps; lia|reflexivity].
    + exists (0, L - 2, L - 0 - (L - 2))%nat. split; [apply in_default_comps; lia|].
      cbn [comp_ax]. apply Nat.leb_le. lia.
Qed.

Lemma first2_some (o : comp) ax : (ax < 3)%nat -> comp_ax ax o = 2%nat -> first2 o <> None.
Proof.
  destruct o as [[a b] d]. unfold first2, comp_ax. intros Hax H2.
  destruct (Nat.eqb_spec a 2); [discriminate|].
  destruct (Nat.eqb_spec b 2); [discriminate|].
  destruct (Nat.eqb_spec d 2); [discriminate|].
  destruct ax as [|[|ax']]; lia.
Qed.

(* the direct back-end on a complete Cartesian shell (the only kind the class builds): every
   entry the block reads is u, for every request the back-end accepts *)
Lemma axis_row_direct_complete (L : nat) (o c : comp) (ax : nat) (alpha x : F) :
  (order_max o <= 2)%nat -> In c (default_comps L) -> (ax < 3)%nat ->
  nth (comp_ax ax c)
      (axis_row K (mode_of K Direct L (default_comps L) o) ax (comp_ax ax o) L alpha x) 0
  = u K alpha (comp_ax ax c) (comp_ax ax o) x.
Proof.
  intros Ho Hc Hax. unfold mode_of.
  pose proof (default_comps_le L c ax Hc) as Hle.
  assert (Hn : (comp_ax ax o <= 2)%nat).
  { destruct o as [[a b] d]. unfold order_max, comp_ax in *. destruct ax as [|[|ax']]; lia. }
  pose proof (default_flags_ok L o c ax) as Hfl.
  destruct (flags (default_comps L) o) as [h1 h2].
  unfold axis_row. rewrite nth_mk by lia.
  destruct (Nat.eq_dec (comp_ax ax o) 2) as [E2|N2].
  - apply direct_correct; [exact Hn|]. apply Hfl; [|exact Hc].
    apply (first2_some o ax Hax E2).
  - destruct (comp_ax ax o) as [|[|n']]; try lia.
    + reflexivity.
    + apply direct_first_correct.
Qed.

Lemma direct_rejects_gt2 (s : shell F) (basis : list (shell F)) (pts : list (point (F:=F))) (o : comp)
      (T : option (list (list F))) :
  (2 < order_max o)%nat ->
  eval_block K s pts o Direct = None /\ evaluate_deriv_basis_model K basis pts o T Direct = None.
Proof.
  intros Ho. unfold eval_block, evaluate_deriv_basis_model, accepts.
  replace (order_max o <=? 2)%nat with false by (symmetry; apply Nat.leb_gt; exact Ho).
  split; reflexivity.
Qed.

End P.

Section NormDiag.
Context {F : Type} (K : Fops F).

Lemma nth_map_in {A B} (f : A -> B) (l : list A) (d : A) (e : B) n :
  n < length l -> nth n (map f l) e = f (nth n l d).
Proof. apply nth_map_lt. Qed.
End NormDiag.
