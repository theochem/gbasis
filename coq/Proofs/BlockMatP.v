(* Proofs/BlockMatP.v — index-level description of the block matrices built by the assembly
   models (Model/Assembly.v): entry (offset_i + a, offset_j + b) of
       vcat (mk n1 (fun i => hcat (mk n2 (fun j => B i j))))
   is entry (a, b) of block B i j ([offs w i] = w 0 + ... + w (i-1), the offset of block i when block k has
   width [w k]); entries and shape of [transpose]; the square matrices filled by mirroring ([mirror]). *)
From Coq Require Import List Arith Lia Bool.
From GB Require Import Base.Tables Base.Blocks Model.Assembly Proofs.AssemblyP.
Import ListNotations.

Fixpoint offs (w : nat -> nat) (i : nat) : nat :=
  match i with O => 0 | S i' => offs w i' + w i' end.

Lemma offs_mono w i n : i < n -> offs w i + w i <= offs w n.
Proof.
  induction n as [|n IH]; intros H; [lia|]. cbn [offs].
  destruct (Nat.eq_dec i n) as [->|Hne]; [lia|]. specialize (IH ltac:(lia)). lia.
Qed.

Lemma offs_le w i n : i <= n -> offs w i <= offs w n.
Proof. induction n as [|n IH]; intros H.
  - replace i with 0 by lia. lia.
  - destruct (Nat.eq_dec i (S n)) as [->|Hne]; [lia|]. cbn [offs]. specialize (IH ltac:(lia)). lia.
Qed.

Lemma offs_ext w w' n : (forall k, k < n -> w k = w' k) -> offs w n = offs w' n.
Proof. induction n as [|n IH]; intros H; cbn [offs]; [reflexivity|]. rewrite IH, H by (intros; try apply H; lia). reflexivity. Qed.

Lemma offs_add w n k : offs w (n + k) = offs w n + offs (fun t => w (n + t)) k.
Proof. induction k as [|k IH]; cbn [offs]; [rewrite Nat.add_0_r; lia|].
  replace (n + S k) with (S (n + k)) by lia. cbn [offs]. rewrite IH. lia. Qed.

(* every position below the total is (offset of a block) + (position inside the block) *)
Lemma offs_decompose w n I : I < offs w n -> exists i a, i < n /\ a < w i /\ I = offs w i + a.
Proof.
  induction n as [|n IH]; cbn [offs]; intros H; [lia|].
  destruct (Nat.lt_ge_cases I (offs w n)) as [Hlt|Hge].
  - destruct (IH Hlt) as (i & a & Hi & Ha & E). exists i, a. repeat split; auto.
  - exists n, (I - offs w n). repeat split; lia.
Qed.

Lemma offs_unique w i a j b : a < w i -> b < w j -> offs w i + a = offs w j + b -> i = j /\ a = b.
Proof.
  intros Ha Hb E. destruct (Nat.lt_trichotomy i j) as [H|[H|H]].
  - pose proof (offs_mono w i j H). lia.
  - subst j. split; [reflexivity|lia].
  - pose proof (offs_mono w j i H). lia.
Qed.

Lemma mk_app {A} n k (f : nat -> A) : mk (n + k) f = mk n f ++ mk k (fun t => f (n + t)).
Proof. exact (Tables.mk_app n k f). Qed.

Lemma length_concat_mk {A} n (f : nat -> list A) w :
  (forall k, k < n -> length (f k) = w k) -> length (concat (mk n f)) = offs w n.
Proof.
  induction n as [|n IH]; intros H; [reflexivity|].
  rewrite mk_S, concat_app, app_length, IH by (intros; apply H; lia).
  cbn [concat offs]. rewrite app_nil_r, H by lia. reflexivity.
Qed.

Lemma nth_concat_mk {A} n (f : nat -> list A) w d i a :
  (forall k, k < n -> length (f k) = w k) -> i < n -> a < w i ->
  nth (offs w i + a) (concat (mk n f)) d = nth a (f i) d.
Proof.
  induction n as [|n IH]; intros H Hi Ha; [lia|].
  rewrite mk_S, concat_app. cbn [concat]. rewrite app_nil_r.
  assert (HL : length (concat (mk n f)) = offs w n) by (apply length_concat_mk; intros; apply H; lia).
  destruct (Nat.eq_dec i n) as [->|Hne].
  - rewrite app_nth2 by lia. rewrite HL. f_equal. lia.
  - assert (Hin : i < n) by lia. pose proof (offs_mono w i n Hin).
    rewrite app_nth1 by lia. apply IH; auto.
Qed.

Lemma Forall_nth_in {A} (Q : A -> Prop) (l : list A) d i : Forall Q l -> i < length l -> Q (nth i l d).
Proof. intros H Hi. rewrite Forall_forall in H. apply H. now apply nth_In. Qed.

Section BlockMat.
Context {B : Type}.
Variables (n1 n2 : nat) (Bf : nat -> nat -> list (list B)) (r c : nat -> nat).
Hypothesis Hshape : forall i j, i < n1 -> j < n2 ->
  length (Bf i j) = r i /\ Forall (fun row => length row = c j) (Bf i j).
Hypothesis Hn2 : 0 < n2.

Lemma blockrow_length i : i < n1 -> length (hcat (mk n2 (fun j => Bf i j))) = r i.
Proof.
  intros Hi. apply hcat_length; [now apply mk_nonempty|].
  apply Forall_mk. intros j Hj. now apply Hshape.
Qed.

Lemma blockrow_nth i a : i < n1 -> a < r i ->
  nth a (hcat (mk n2 (fun j => Bf i j))) [] = concat (mk n2 (fun j => nth a (Bf i j) [])).
Proof.
  intros Hi Ha. rewrite (hcat_row (r i)); [| now apply mk_nonempty | | exact Ha].
  - now rewrite map_mk.
  - apply Forall_mk. intros j Hj. now apply Hshape.
Qed.

Lemma blockmat_length : length (two_asymm_blocks n1 n2 Bf) = offs r n1.
Proof. unfold two_asymm_blocks, vcat. apply length_concat_mk. intros; now apply blockrow_length. Qed.

Lemma blockmat_row i a : i < n1 -> a < r i ->
  nth (offs r i + a) (two_asymm_blocks n1 n2 Bf) [] = concat (mk n2 (fun j => nth a (Bf i j) [])).
Proof.
  intros Hi Ha. unfold two_asymm_blocks, vcat.
  rewrite (nth_concat_mk n1 _ r) by (auto using blockrow_length). now apply blockrow_nth.
Qed.

Lemma blockmat_row_length i a : i < n1 -> a < r i ->
  length (nth (offs r i + a) (two_asymm_blocks n1 n2 Bf) []) = offs c n2.
Proof.
  intros Hi Ha. rewrite blockmat_row by assumption. apply length_concat_mk.
  intros j Hj. destruct (Hshape i j Hi Hj) as [HL HF]. apply (Forall_nth_in _ _ [] a HF). lia.
Qed.

Theorem blockmat_entry d i j a b : i < n1 -> j < n2 -> a < r i -> b < c j ->
  nth (offs c j + b) (nth (offs r i + a) (two_asymm_blocks n1 n2 Bf) []) d = nth b (nth a (Bf i j) []) d.
Proof.
  intros Hi Hj Ha Hb. rewrite blockmat_row by assumption.
  apply (nth_concat_mk n2 (fun j => nth a (Bf i j) []) c); auto.
  intros k Hk. destruct (Hshape i k Hi Hk) as [HL HF]. apply (Forall_nth_in _ _ [] a HF). lia.
Qed.
End BlockMat.

Lemma matrix_ext {B} (d : B) (m m' : list (list B)) R C :
  length m = R -> length m' = R ->
  (forall a, a < R -> length (nth a m []) = C /\ length (nth a m' []) = C) ->
  (forall a b, a < R -> b < C -> nth b (nth a m []) d = nth b (nth a m' []) d) ->
  m = m'.
Proof.
  intros H1 H2 HC HE. apply (nth_ext _ _ [] []); [congruence|].
  intros a Ha. rewrite H1 in Ha. destruct (HC a Ha) as [C1 C2].
  apply (nth_ext _ _ d d); [congruence|]. intros b Hb. apply HE; lia.
Qed.

Lemma hd_length {B} (m : list (list B)) C :
  0 < length m -> Forall (fun row => length row = C) m -> length (hd [] m) = C.
Proof. intros HL HF. destruct m as [|r0 m']; [cbn in HL; lia|]. inversion HF as [|? ? Hr0 ?]. exact Hr0. Qed.

Section Transpose.
Context {B : Type} (d : B).

Lemma transpose_length (m : list (list B)) : length (transpose d m) = length (hd [] m).
Proof. unfold transpose. apply mk_length. Qed.

Lemma transpose_row_length (m : list (list B)) b : b < length (hd [] m) ->
  length (nth b (transpose d m) []) = length m.
Proof. intros Hb. unfold transpose. rewrite nth_mk by exact Hb. apply map_length. Qed.

Lemma transpose_entry (m : list (list B)) a b : a < length m -> b < length (hd [] m) ->
  nth a (nth b (transpose d m) []) d = nth b (nth a m []) d.
Proof.
  intros Ha Hb. unfold transpose. rewrite nth_mk by exact Hb.
  rewrite (nth_indep _ d (nth b [] d)) by (now rewrite map_length).
  now rewrite (map_nth (fun row => nth b row d)).
Qed.

Lemma transpose_shape (m : list (list B)) R C :
  0 < R -> length m = R -> Forall (fun row => length row = C) m ->
  length (transpose d m) = C /\ Forall (fun row => length row = R) (transpose d m).
Proof.
  intros HR HL HF. assert (Hhd : length (hd [] m) = C) by (apply hd_length; [lia|exact HF]).
  split; [now rewrite transpose_length|].
  unfold transpose. rewrite Hhd. apply Forall_mk. intros b Hb. now rewrite map_length.
Qed.

(* the transpose mapped entry by entry (f = conjugation in Model/OneBody.two_symm_blocks_h) *)
Lemma map_transpose_spec (f : B -> B) (m : list (list B)) R C :
  0 < R -> length m = R -> Forall (fun row => length row = C) m ->
  (length (map (map f) (transpose d m)) = C /\ Forall (fun row => length row = R) (map (map f) (transpose d m))) /\
  forall a b, a < R -> b < C -> nth a (nth b (map (map f) (transpose d m)) []) (f d) = f (nth b (nth a m []) d).
Proof.
  intros HR HL HF. destruct (transpose_shape m R C HR HL HF) as [TL TF].
  assert (Hhd : length (hd [] m) = C) by (apply hd_length; [lia|exact HF]).
  split.
  - split; [now rewrite map_length|]. apply Forall_forall. intros row Hr. apply in_map_iff in Hr.
    destruct Hr as [r0 [<- Hr0]]. rewrite map_length. rewrite Forall_forall in TF. now apply TF.
  - intros a b Ha Hb. rewrite (map_nth (map f) (transpose d m) [] b : nth b (map (map f) _) [] = _).
    rewrite map_nth. f_equal. apply transpose_entry; lia.
Qed.

Lemma transpose_spec (m : list (list B)) R C :
  0 < R -> length m = R -> Forall (fun row => length row = C) m ->
  (length (transpose d m) = C /\ Forall (fun row => length row = R) (transpose d m)) /\
  forall a b, a < R -> b < C -> nth a (nth b (transpose d m) []) d = nth b (nth a m []) d.
Proof.
  intros HR HL HF. split; [now apply transpose_shape|]. intros a b Ha Hb.
  apply transpose_entry; [lia|]. rewrite (hd_length m C); [exact Hb|lia|exact HF].
Qed.
End Transpose.

(* Square block matrices filled by mirroring: block (i, j) is [bf i j] where [up i j] holds and [g] of the mirrored block [bf j i] elsewhere.
   Model/Assembly.two_symm_blocks d is [mirror Nat.leb (transpose d)], Model/OneBody.two_symm_blocks_h d conj is
   [mirror Nat.ltb (fun M => map (map conj) (transpose d M))], Model/Assembly14.two_symm_blocks_t d is
   [mirror Nat.ltb (transpose d)], all by reflexivity. *)
Definition mirror {B} (up : nat -> nat -> bool) (g : list (list B) -> list (list B)) (n : nat)
  (bf : nat -> nat -> list (list B)) : list (list B) :=
  two_asymm_blocks n n (fun i j => if up i j then bf i j else g (bf j i)).

Lemma mirror_ext {B} up (g : list (list B) -> list (list B)) n bf bf' :
  (forall i j, up i j = true -> i <= j) -> (forall i j, up i j = false -> j <= i) ->
  (forall i j, i < n -> j < n -> i <= j -> bf i j = bf' i j) -> mirror up g n bf = mirror up g n bf'.
Proof.
  intros Ht Hf H. unfold mirror, two_asymm_blocks. f_equal. apply mk_ext; intros i Hi. f_equal.
  apply mk_ext; intros j Hj. destruct (up i j) eqn:E.
  - apply H; auto.
  - rewrite (H j i) by auto. reflexivity.
Qed.

Section Mirror.
Context {B : Type} (d d' : B) (phi : B -> B).
Variables (up : nat -> nat -> bool) (g : list (list B) -> list (list B)).
(* g turns a non-empty R x C matrix into a C x R one, entry (b, a) being phi of entry (a, b) *)
Hypothesis Hg : forall M R C, 0 < R -> length M = R -> Forall (fun row => length row = C) M ->
  (length (g M) = C /\ Forall (fun row => length row = R) (g M)) /\
  forall a b, a < R -> b < C -> nth a (nth b (g M) []) d' = phi (nth b (nth a M []) d).
Variables (n : nat) (bf : nat -> nat -> list (list B)) (w : nat -> nat).
Hypothesis Hw : forall i, i < n -> 0 < w i.
Hypothesis Hbf : forall i j, i < n -> j < n ->
  length (bf i j) = w i /\ Forall (fun row => length row = w j) (bf i j).

Lemma mirror_block_shape i j : i < n -> j < n ->
  length (if up i j then bf i j else g (bf j i)) = w i /\
  Forall (fun row => length row = w j) (if up i j then bf i j else g (bf j i)).
Proof.
  intros Hi Hj. destruct (up i j); [now apply Hbf|]. destruct (Hbf j i Hj Hi) as [HL HF].
  exact (proj1 (Hg _ _ _ (Hw j Hj) HL HF)).
Qed.

Lemma mirror_shape : 0 < n ->
  length (mirror up g n bf) = offs w n /\
  forall I, I < offs w n -> length (nth I (mirror up g n bf) []) = offs w n.
Proof.
  intros Hn. split; [exact (blockmat_length n n _ w w mirror_block_shape Hn)|].
  intros I HI. destruct (offs_decompose w n I HI) as (i & a & Hi & Ha & ->).
  exact (blockmat_row_length n n _ w w mirror_block_shape Hn i a Hi Ha).
Qed.

Theorem mirror_entry i j a b : i < n -> j < n -> a < w i -> b < w j ->
  nth (offs w j + b) (nth (offs w i + a) (mirror up g n bf) []) d'
  = if up i j then nth b (nth a (bf i j) []) d else phi (nth a (nth b (bf j i) []) d).
Proof.
  intros Hi Hj Ha Hb. unfold mirror.
  rewrite (blockmat_entry n n _ w w mirror_block_shape ltac:(lia) d' i j a b Hi Hj Ha Hb).
  destruct (up i j).
  - destruct (Hbf i j Hi Hj) as [HL HF]. apply nth_indep.
    rewrite (Forall_nth_in _ _ [] a HF) by lia. exact Hb.
  - destruct (Hbf j i Hj Hi) as [HL HF]. exact (proj2 (Hg _ _ _ (Hw j Hj) HL HF) b a Hb Ha).
Qed.
End Mirror.
