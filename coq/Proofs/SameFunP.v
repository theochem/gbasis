(* Property C16: the evaluation model (Model/Eval.v) and the integral models (Model/MomentInt.v,
   Model/DiffOp.v through Model/Overlap.two_symm_integral) describe ONE family of functions.

   A function descriptor [fdesc] is a finite list of weighted primitive Cartesian Gaussians (weight, centre,
   exponent, monomial).  [descr s] lists the descriptors of the functions of a shell, segment-major then
   component:
     Cartesian function (m, c)   : one term per primitive k with weight
                                   norm_cont[m][c] * (coeff[k][m] * norm_prim(l, c, alpha_k)), monomial c;
     spherical function (m, row) : the combination of the segment's Cartesian descriptors with the entries
                                   of the row of generate_transformation (Model/Spherical.shell_transform).
   The evaluation models return, row by row, [deriv_spec o d r] / [eval_spec d r] of [descr_basis basis]; the
   overlap / kinetic / moment matrices are the tables of
   [pair_spec I d1 d2] = sum_{t1 in d1} sum_{t2 in d2} w1 w2 I(t1, t2) over the same list in the same order,
   I being the E-functional of a pair of primitives.  That I is the integral of the product of the two
   primitives is (B1) of DESIGN 2.6; it is not proved here but assumed of an abstract functional Lin
   (additive, homogeneous, extensional) in Section Bridge. *)
From Coq Require Import List Arith Lia Bool Field.
From GB Require Import Base.Field Base.FNum Base.Tables Base.Sums Gauss.Moment1D Model.Shell Model.MomentInt
  Model.Spherical Model.Assembly Model.Overlap Model.DiffOp Model.OneBody Model.Eval
  Proofs.BlockP Proofs.CoreSumP Proofs.CoreBlockP Proofs.CoreDiffP Proofs.OverlapP Proofs.MomentIntP Proofs.DiffOpP
  Proofs.EvalP.
Import ListNotations.

Section ListU.
Context {A B C D : Type}.

Lemma combine_map_l' (g : A -> C) (l : list A) (l2 : list B) :
  combine (map g l) l2 = map (fun p => (g (fst p), snd p)) (combine l l2).
Proof. revert l2; induction l as [|a l IH]; intros [|b l2]; cbn; [reflexivity..|]. now rewrite IH. Qed.

Lemma combine_swap (l : list A) (l2 : list B) :
  combine l l2 = map (fun p => (snd p, fst p)) (combine l2 l).
Proof. revert l2; induction l as [|a l IH]; intros [|b l2]; cbn; [reflexivity..|]. now rewrite IH. Qed.

Lemma in_combine_seq (l : list A) n x i : In (x, i) (combine l (seq 0 n)) -> i < n.
Proof. intros H. apply in_combine_r in H. apply in_seq in H. lia. Qed.
End ListU.

Lemma map_map_id {A} (l : list (list A)) : map (map (fun x : A => x)) l = l.
Proof. induction l as [|a l IH]; cbn; [reflexivity|]. now rewrite map_id, IH. Qed.

(* Assembly.shell_block on blocks given by an entry function, for any element type with (azero, aadd, ascale);
   no laws are needed.  Used at F and, for the moments, at vectors over F. *)
Section Blk4.
Context {F : Type} (K : Fops F).
Context {A : Type} (azero : A) (aadd : A -> A -> A) (ascale : F -> A -> A).

Definition blk4 (M1 L1 M2 L2 : nat) (e : nat -> nat -> nat -> nat -> A) : list (list (list (list A))) :=
  mk M1 (fun ma => mk L1 (fun ia => mk M2 (fun mb => mk L2 (fun ib => e ma ia mb ib)))).

Lemma blk4_ext M1 L1 M2 L2 e e' :
  (forall ma ia mb ib, ma < M1 -> ia < L1 -> mb < M2 -> ib < L2 -> e ma ia mb ib = e' ma ia mb ib) ->
  blk4 M1 L1 M2 L2 e = blk4 M1 L1 M2 L2 e'.
Proof.
  intros H. unfold blk4. apply mk_ext; intros ma Hma. apply mk_ext; intros ia Hia.
  apply mk_ext; intros mb Hmb. apply mk_ext; intros ib Hib. now apply H.
Qed.

(* sum_k trow[k] * g k over k < n (truncated to the length of trow): tensordot along one axis *)
Definition lcomb (trow : list F) (n : nat) (g : nat -> A) : A :=
  asum azero aadd (map (fun p => ascale (fst p) (g (snd p))) (combine trow (seq 0 n))).

Lemma lcomb_ext trow n g g' : (forall c, c < n -> g c = g' c) -> lcomb trow n g = lcomb trow n g'.
Proof.
  intros H. unfold lcomb. f_equal. apply map_ext_in. intros [t c] Hin. cbn [fst snd].
  f_equal. apply H. eapply in_combine_seq. exact Hin.
Qed.

Lemma normalise_blk4 M1 L1 M2 L2 (n1 n2 : nat -> nat -> F) e :
  normalise K ascale (mk M1 (fun m => mk L1 (n1 m))) (mk M2 (fun m => mk L2 (n2 m))) (blk4 M1 L1 M2 L2 e)
  = blk4 M1 L1 M2 L2 (fun ma ia mb ib => ascale (fmul K (n1 ma ia) (n2 mb ib)) (e ma ia mb ib)).
Proof.
  unfold normalise, blk4. rewrite combine_mk, map_mk. apply mk_ext; intros ma _.
  rewrite combine_mk, map_mk. apply mk_ext; intros ia _.
  rewrite combine_mk, map_mk. apply mk_ext; intros mb _.
  rewrite combine_mk, map_mk. apply mk_ext; intros ib _. reflexivity.
Qed.

Lemma fold_slab M2 L2 (ee : nat -> nat -> nat -> A) (G : list (F * nat)) :
  fold_right (slab_add aadd) (mk M2 (fun _ => mk L2 (fun _ => azero)))
    (map (fun ts : F * list (list A) => let '(t, sl) := ts in slab_scale ascale t sl)
         (map (fun p => (fst p, mk M2 (fun mb => mk L2 (fun ib => ee (snd p) mb ib)))) G))
  = mk M2 (fun mb => mk L2 (fun ib =>
      asum azero aadd (map (fun p => ascale (fst p) (ee (snd p) mb ib)) G))).
Proof.
  induction G as [|[t c] G IH]; cbn [map fold_right fst snd]; [reflexivity|].
  rewrite IH. unfold slab_add, slab_scale. rewrite !map_mk. rewrite combine_mk, map_mk.
  apply mk_ext; intros mb _. rewrite map_mk. rewrite combine_mk, map_mk. reflexivity.
Qed.

Lemma tleft_blk4 T M1 L1 M2 L2 e : 0 < L1 ->
  transform_left azero aadd ascale T (blk4 M1 L1 M2 L2 e)
  = blk4 M1 (length T) M2 L2 (fun ma r mb ib => lcomb (nth r T []) L1 (fun c => e ma c mb ib)).
Proof.
  intros HL. unfold transform_left, blk4 at 1. rewrite map_mk. unfold blk4. apply mk_ext; intros ma _.
  rewrite (map_as_mk _ T []). apply mk_ext; intros r _.
  rewrite hd_mk by exact HL. unfold slab_zero. rewrite !map_mk.
  unfold mk at 3. rewrite combine_map_r.
  assert (Ez : mk M2 (fun j => map (fun _ : A => azero) (mk L2 (fun ib => e ma 0 j ib)))
               = mk M2 (fun _ => mk L2 (fun _ => azero))).
  { apply mk_ext; intros mb _. now rewrite map_mk. }
  rewrite Ez. rewrite (fold_slab M2 L2 (fun c mb ib => e ma c mb ib)). reflexivity.
Qed.

Lemma tright_blk4 T M1 L1 M2 L2 e :
  transform_right azero aadd ascale T (blk4 M1 L1 M2 L2 e)
  = blk4 M1 L1 M2 (length T) (fun ma ia mb r => lcomb (nth r T []) L2 (fun c => e ma ia mb c)).
Proof.
  unfold transform_right, blk4. rewrite map_mk. apply mk_ext; intros ma _.
  rewrite map_mk. apply mk_ext; intros ia _. rewrite map_mk. apply mk_ext; intros mb _.
  unfold apply_rows. rewrite (map_as_mk _ T []). apply mk_ext; intros r _.
  unfold lcomb. f_equal. unfold mk. rewrite combine_map_r, map_map.
  apply map_ext. intros [t c]. reflexivity.
Qed.

Definition flat4 (M1 R1 M2 R2 : nat) (e : nat -> nat -> nat -> nat -> A) : list (list A) :=
  concat (mk M1 (fun ma => mk R1 (fun r1 => concat (mk M2 (fun mb => mk R2 (fun r2 => e ma r1 mb r2)))))).

Lemma flat4_ext M1 R1 M2 R2 e e' :
  (forall ma r1 mb r2, ma < M1 -> r1 < R1 -> mb < M2 -> r2 < R2 -> e ma r1 mb r2 = e' ma r1 mb r2) ->
  flat4 M1 R1 M2 R2 e = flat4 M1 R1 M2 R2 e'.
Proof.
  intros H. unfold flat4. f_equal. apply mk_ext; intros ma Hma. apply mk_ext; intros ia Hia. f_equal.
  apply mk_ext; intros mb Hmb. apply mk_ext; intros ib Hib. now apply H.
Qed.

Lemma flatten_blk4 M1 L1 M2 L2 e : flatten_block (blk4 M1 L1 M2 L2 e) = flat4 M1 L1 M2 L2 e.
Proof.
  unfold flatten_block, blk4, flat4. rewrite flat_map_concat_map, map_mk. f_equal.
  apply mk_ext; intros ma _. now rewrite map_mk.
Qed.

Definition eL (sph1 : bool) (T1 : list (list F)) (L1 : nat) (e : nat -> nat -> nat -> nat -> A) :=
  fun ma r mb ib => if sph1 then lcomb (nth r T1 []) L1 (fun c => e ma c mb ib) else e ma r mb ib.
Definition eR (sph2 : bool) (T2 : list (list F)) (L2 : nat) (e : nat -> nat -> nat -> nat -> A) :=
  fun ma r mb r2 => if sph2 then lcomb (nth r2 T2 []) L2 (fun c => e ma r mb c) else e ma r mb r2.
Definition rows_of (sph : bool) (T : list (list F)) (L : nat) : nat := if sph then length T else L.

Theorem shell_block_blk4 sph1 sph2 T1 T2 M1 L1 M2 L2 (n1 n2 : nat -> nat -> F) e : 0 < L1 ->
  shell_block K azero aadd ascale sph1 sph2 T1 T2
    (mk M1 (fun m => mk L1 (n1 m))) (mk M2 (fun m => mk L2 (n2 m))) (blk4 M1 L1 M2 L2 e)
  = flat4 M1 (rows_of sph1 T1 L1) M2 (rows_of sph2 T2 L2)
      (eR sph2 T2 L2 (eL sph1 T1 L1
         (fun ma ia mb ib => ascale (fmul K (n1 ma ia) (n2 mb ib)) (e ma ia mb ib)))).
Proof.
  intros HL. unfold shell_block. rewrite normalise_blk4.
  destruct sph1, sph2; unfold rows_of, eL, eR;
    rewrite ?(tleft_blk4 _ _ _ _ _ _ HL), ?tright_blk4; apply flatten_blk4.
Qed.

Lemma outer_flat4 {D} (f : D -> D -> A) M1 R1 M2 R2 (d1 d2 : nat -> nat -> D) :
  map (fun x => map (fun y => f x y) (concat (mk M2 (fun mb => mk R2 (d2 mb)))))
      (concat (mk M1 (fun ma => mk R1 (d1 ma))))
  = flat4 M1 R1 M2 R2 (fun ma r1 mb r2 => f (d1 ma r1) (d2 mb r2)).
Proof.
  unfold flat4. rewrite concat_map, map_mk. f_equal. apply mk_ext; intros ma _.
  rewrite map_mk. apply mk_ext; intros r1 _.
  rewrite concat_map, map_mk. f_equal. apply mk_ext; intros mb _. now rewrite map_mk.
Qed.
End Blk4.

Section P.
Context {F : Type} (K : Fops F) (Kf : is_field K).
Add Field KF16 : Kf.
Hypothesis Hapx : forall x, fapx K x = x.
Local Open Scope F_scope.
Notation "0" := (f0 K) : F_scope.
Notation "1" := (f1 K) : F_scope.
Infix "+" := (fadd K) : F_scope.
Infix "*" := (fmul K) : F_scope.
Infix "-" := (fsub K) : F_scope.
Infix "/" := (fdiv K) : F_scope.
Notation "- x" := (fopp K x) : F_scope.
Notation "# n" := (ofnat K n) (at level 5) : F_scope.
Notation fpow := (FNum.fpow K).
Notation fsum := (FNum.fsum K).

Notation fsum_cons := (Sums.fsum_cons K).
Notation fsum_app := (Sums.fsum_app K Kf).
Notation fsum_map_scale := (Sums.fsum_map_scale K Kf).
Notation fsum_map_add := (Sums.fsum_map_add K Kf).
Notation fsum_map_ext_in := (Sums.fsum_map_ext_in K).
Notation fsum_swap := (Sums.fsum_swap K Kf).

Lemma fsum_concat (ll : list (list F)) : fsum (concat ll) = fsum (map fsum ll).
Proof. apply (Sums.fsum_concat K Kf). Qed.

(* a primitive Cartesian Gaussian (x-X)^a (y-Y)^b (z-Z)^c exp(-alpha |r-R|^2) and a weighted one *)
Record gprim := mkG { g_x : F; g_y : F; g_z : F; g_a : F; g_c : comp }.
Record pterm := mkT { t_w : F; t_g : gprim }.
Definition fdesc := list pterm.
Definition t_x t := g_x (t_g t).  Definition t_y t := g_y (t_g t).  Definition t_z t := g_z (t_g t).
Definition t_a t := g_a (t_g t).  Definition t_c t := g_c (t_g t).

Definition cx (c : comp) : nat := fst (fst c).
Definition cy (c : comp) : nat := snd (fst c).
Definition cz (c : comp) : nat := snd c.

(* value at the point r of the derivative of order o of one weighted primitive
     w (x-X)^a (y-Y)^b (z-Z)^c exp(-alpha |r-R|^2) ;
   u alpha l n x is the polynomial with d^n/dx^n [x^l e^{-alpha x^2}] = u e^{-alpha x^2} (C05) *)
Definition term_val (o : comp) (r : point (F:=F)) (t : pterm) : F :=
  let dx := fst (fst r) - t_x t in let dy := snd (fst r) - t_y t in let dz := snd r - t_z t in
  t_w t * (u K (t_a t) (cx (t_c t)) (cx o) dx * u K (t_a t) (cy (t_c t)) (cy o) dy
           * u K (t_a t) (cz (t_c t)) (cz o) dz)
  * fexp K (- (t_a t * (dx * dx + dy * dy + dz * dz))).
Definition deriv_spec (o : comp) (d : fdesc) (r : point (F:=F)) : F := fsum (map (term_val o r) d).
Definition eval_spec (d : fdesc) (r : point (F:=F)) : F := deriv_spec (0, 0, 0)%nat d r.

Definition dscale (s : F) (d : fdesc) : fdesc :=
  map (fun t => mkT (s * t_w t) (t_g t)) d.
Definition dcomb (trow : list F) (ds : list fdesc) : fdesc :=
  concat (map (fun p => dscale (fst p) (snd p)) (combine trow ds)).

Lemma deriv_spec_app o d1 d2 r : deriv_spec o (d1 ++ d2) r = deriv_spec o d1 r + deriv_spec o d2 r.
Proof. unfold deriv_spec. now rewrite map_app, fsum_app. Qed.

Lemma deriv_spec_dscale o s d r : deriv_spec o (dscale s d) r = s * deriv_spec o d r.
Proof.
  unfold deriv_spec, dscale. rewrite map_map, <- fsum_map_scale. apply fsum_map_ext_in. intros t _.
  unfold term_val, t_x, t_y, t_z, t_a, t_c. cbn [t_w t_g]. ring.
Qed.

Lemma deriv_spec_dcomb o trow ds r :
  deriv_spec o (dcomb trow ds) r
  = fsum (map (fun p => fst p * deriv_spec o (snd p) r) (combine trow ds)).
Proof.
  unfold dcomb. induction (combine trow ds) as [|[t d] L IH]; cbn [map concat fst snd]; [reflexivity|].
  now rewrite deriv_spec_app, deriv_spec_dscale, fsum_cons, IH.
Qed.

Definition ncf (s : shell F) (m ic : nat) : F := nth ic (nth m (norm_cont K s) []) 0.
Definition ncomp (s : shell F) : nat := length (comps_of s).
Definition compi (s : shell F) (ic : nat) : comp := nth ic (comps_of s) (0, 0, 0)%nat.

Definition cart_desc (s : shell F) (m ic : nat) : fdesc :=
  map (fun ae => mkT (ncf s m ic * (nth m (snd ae) 0 * norm_prim K (s_l s) (compi s ic) (fst ae)))
                     (mkG (s_x s) (s_y s) (s_z s) (fst ae) (compi s ic)))
      (combine (s_exps s) (s_coeffs s)).

Definition seg_descs (s : shell F) (m : nat) : list fdesc :=
  let carts := mk (ncomp s) (cart_desc s m) in
  if s_sph s then map (fun trow => dcomb trow carts) (shell_transform K s) else carts.

Definition descr (s : shell F) : list fdesc := concat (mk (nseg s) (seg_descs s)).
Definition descr_basis (basis : list (shell F)) : list fdesc := concat (map descr basis).

Definition comps_ok (s : shell F) : Prop :=
  comps_of s <> [] /\ forall c, In c (comps_of s) -> forall ax, (comp_ax ax c <= s_l s)%nat.

Lemma default_comps_nonempty l : default_comps l <> [].
Proof.
  unfold default_comps. rewrite <- cons_seq. cbn [flat_map]. rewrite Nat.sub_0_r, Nat.sub_diag.
  cbn [seq map app]. discriminate.
Qed.

Lemma default_comps_ok (s : shell F) : s_comps s = [] -> comps_ok s.
Proof.
  intros E. unfold comps_ok, comps_of. rewrite E. split; [apply default_comps_nonempty|].
  intros c Hc ax. now apply default_comps_le.
Qed.

Lemma ncomp_pos s : comps_ok s -> (0 < ncomp s)%nat.
Proof. intros [H _]. unfold ncomp. destruct (comps_of s); [congruence|cbn; lia]. Qed.

Lemma compi_in s ic : (ic < ncomp s)%nat -> In (compi s ic) (comps_of s).
Proof. intros H. apply nth_In. exact H. Qed.

Lemma compi_le s ic : comps_ok s -> (ic < ncomp s)%nat ->
  (cx (compi s ic) <= s_l s /\ cy (compi s ic) <= s_l s /\ cz (compi s ic) <= s_l s)%nat.
Proof.
  intros [_ H] Hic. pose proof (H _ (compi_in s ic Hic)) as Hc. destruct (compi s ic) as [[a b] c].
  exact (conj (Hc 0%nat) (conj (Hc 1%nat) (Hc 2%nat))).
Qed.

Lemma norm_cont_mk s :
  norm_cont K s = mk (nseg s) (fun m => mk (ncomp s) (ncf s m)).
Proof.
  unfold ncf. unfold norm_cont at 1. apply mk_ext; intros m Hm. apply mk_ext; intros c Hc.
  unfold norm_cont. rewrite nth_mk by exact Hm. now rewrite nth_mk by exact Hc.
Qed.

(* the descriptors as a doubly indexed family: segment m, row r (component or spherical row) *)
Definition dd (s : shell F) (m r : nat) : fdesc :=
  if s_sph s then dcomb (nth r (shell_transform K s) []) (mk (ncomp s) (cart_desc s m))
  else cart_desc s m r.
Definition nrows (s : shell F) : nat := rows_of (s_sph s) (shell_transform K s) (ncomp s).

Lemma descr_mk s : descr s = concat (mk (nseg s) (fun m => mk (nrows s) (dd s m))).
Proof.
  unfold descr, seg_descs, nrows, rows_of, dd. f_equal. apply mk_ext; intros m _.
  destruct (s_sph s); [|reflexivity]. now rewrite (map_as_mk _ (shell_transform K s) []).
Qed.

Section EvalSide.
Variables (o : comp) (pts : list (point (F:=F))).

(* the un-normalised entry (segment m, component ic, point p) of EvalDeriv.construct_array_contraction *)
Definition raw_entry (s : shell F) (m ic : nat) (p : point (F:=F)) : F :=
  fsum (map (fun ae => nth m (snd ae) 0 *
      (norm_prim K (s_l s) (compi s ic) (fst ae)
       * (u K (fst ae) (cx (compi s ic)) (cx o) (fst (fst p) - s_x s)
          * u K (fst ae) (cy (compi s ic)) (cy o) (snd (fst p) - s_y s)
          * u K (fst ae) (cz (compi s ic)) (cz o) (snd p - s_z s))
       * fexp K (- (fst ae * ((fst (fst p) - s_x s) * (fst (fst p) - s_x s)
                              + (snd (fst p) - s_y s) * (snd (fst p) - s_y s)
                              + (snd p - s_z s) * (snd p - s_z s))))))
    (combine (s_exps s) (s_coeffs s))).

Lemma block_general_mk (s : shell F) : comps_ok s ->
  block_with K (gen_mode K false (s_l s) o) (fun c => c) (fexp K) s o pts
  = mk (nseg s) (fun m => mk (ncomp s) (fun ic => map (raw_entry s m ic) pts)).
Proof.
  intros Hok. unfold block_with. cbv zeta. fold (ncomp s).
  apply mk_ext; intros m Hm. apply mk_ext; intros ic Hic.
  rewrite map_map. apply map_ext; intros p.
  unfold pt_mat. cbv zeta. rewrite nth_mk by exact Hm.
  unfold pt_vals. cbv zeta. rewrite map_map.
  rewrite (nth_map_combine _ (comps_of s) (norms K s) ic (0,0,0)%nat [] 0)
    by (rewrite ?length_norms; auto).
  rewrite (nth_norms K s ic Hic). fold (compi s ic). unfold raw_entry.
  destruct (compi_le s ic Hok Hic) as (Hx & Hy & Hz).
  destruct (compi s ic) as [[ax ay] az].
  rewrite combine_map_same, map_map.
  rewrite combine_map_r, map_map.
  rewrite (combine_swap (s_exps s) (s_coeffs s)), map_map.
  apply fsum_map_ext_in. intros [crow alpha] _. cbn [fst snd].
  unfold prim_data. destruct p as [[px py] pz]. destruct o as [[ox oy] oz]. cbn [fst snd cx cy cz].
  rewrite (axis_row_general K Kf (s_l s) (ox, oy, oz) 0 alpha _ ax),
    (axis_row_general K Kf (s_l s) (ox, oy, oz) 1 alpha _ ay),
    (axis_row_general K Kf (s_l s) (ox, oy, oz) 2 alpha _ az) by (assumption || lia).
  reflexivity.
Qed.

Lemma cart_entry (s : shell F) m ic p :
  ncf s m ic * raw_entry s m ic p = deriv_spec o (cart_desc s m ic) p.
Proof.
  unfold raw_entry, deriv_spec, cart_desc. rewrite map_map, <- fsum_map_scale.
  apply fsum_map_ext_in. intros [alpha crow] _. unfold term_val, t_x, t_y, t_z, t_a, t_c.
  cbn [fst snd t_w t_g g_x g_y g_z g_a g_c]. ring.
Qed.

(* vectors over the points: the module the one-index assembly works in *)
Notation vz l := (map (fun _ : F => 0) l).
Notation vadd := (fun x y : list F => map (fun ac : F * F => let '(a, c) := ac in a + c) (combine x y)).
Notation vsc := (fun (t : F) (x : list F) => map (fmul K t) x).

Lemma asum_vec (G : list (F * fdesc)) :
  asum (map (fun _ : point (F:=F) => 0) pts) vadd
       (map (fun td : F * list F => let '(t, x) := td in vsc t x)
            (map (fun p => (fst p, map (deriv_spec o (snd p)) pts)) G))
  = map (fun r => fsum (map (fun p => fst p * deriv_spec o (snd p) r) G)) pts.
Proof.
  unfold asum. induction G as [|[t d] G IH]; cbn [map fold_right fst snd].
  - apply map_ext. reflexivity.
  - rewrite IH. rewrite map_map, combine_map_same, map_map. apply map_ext. intros r.
    now rewrite fsum_cons.
Qed.

Lemma apply_rows_descs (T : list (list F)) (ds : list fdesc) : ds <> [] ->
  apply_rows (vz (hd [] (map (fun d => map (deriv_spec o d) pts) ds))) vadd vsc
             T (map (fun d => map (deriv_spec o d) pts) ds)
  = map (fun trow => map (deriv_spec o (dcomb trow ds)) pts) T.
Proof.
  intros Hne. unfold apply_rows. apply map_ext. intros trow.
  rewrite combine_map_r.
  assert (Ez : vz (hd [] (map (fun d => map (deriv_spec o d) pts) ds))
               = map (fun _ : point (F:=F) => 0) pts).
  { destruct ds as [|d0 ds']; [congruence|]. cbn [map hd]. now rewrite map_map. }
  rewrite Ez, asum_vec. apply map_ext. intros r. now rewrite deriv_spec_dcomb.
Qed.

Lemma shell_rows_descr (s : shell F) : comps_ok s ->
  shell_rows K (fun x => x) (s_sph s) (shell_transform K s) (norm_cont K s)
    (block_with K (gen_mode K false (s_l s) o) (fun c => c) (fexp K) s o pts)
  = map (fun d => map (deriv_spec o d) pts) (descr s).
Proof.
  intros Hok. rewrite block_general_mk by exact Hok. rewrite norm_cont_mk.
  unfold shell_rows. cbv zeta.
  assert (Enorm : normalise1 K (mk (nseg s) (fun m => mk (ncomp s) (ncf s m)))
            (mk (nseg s) (fun m => mk (ncomp s) (fun ic => map (raw_entry s m ic) pts)))
          = mk (nseg s) (fun m => map (fun d => map (deriv_spec o d) pts) (mk (ncomp s) (cart_desc s m)))).
  { unfold normalise1. rewrite combine_mk, map_mk. apply mk_ext; intros m Hm.
    rewrite combine_mk, !map_mk. apply mk_ext; intros ic Hic.
    rewrite map_map. apply map_ext. intros p. apply cart_entry. }
  rewrite Enorm. unfold descr, seg_descs. rewrite concat_map.
  destruct (s_sph s).
  - f_equal. rewrite !map_mk. apply mk_ext; intros m Hm.
    rewrite map_map_id. rewrite map_map.
    apply apply_rows_descs.
    pose proof (ncomp_pos s Hok). destruct (ncomp s); [lia|]. discriminate.
  - now rewrite map_mk.
Qed.

(* (i) evaluation model = eval of the descriptors, same order, all shells / l / K / M / types *)
Theorem same_function_eval (basis : list (shell F)) :
  Forall comps_ok basis ->
  evaluate_deriv_basis_model K basis pts o None General
  = Some (map (fun d => map (deriv_spec o d) pts) (descr_basis basis)).
Proof.
  intros Hok. unfold evaluate_deriv_basis_model. cbn [accepts]. f_equal.
  unfold one_index. unfold descr_basis. rewrite concat_map, !map_map. f_equal.
  apply map_ext_in. intros s Hs. cbn [prep_fast p_shell p_T p_norm mode_of].
  rewrite Forall_forall in Hok. unfold norm_cont_diag. apply shell_rows_descr. now apply Hok.
Qed.

(* with a transformation matrix (tensordot(transform, array, (1, 0))): the rows are the values of
   the combined descriptors sum_k T[i][k] bf_k *)
Theorem same_function_eval_transformed (basis : list (shell F)) (T : list (list F)) :
  Forall comps_ok basis -> descr_basis basis <> [] ->
  evaluate_deriv_basis_model K basis pts o (Some T) General
  = Some (map (fun trow => map (deriv_spec o (dcomb trow (descr_basis basis))) pts) T).
Proof.
  intros Hok Hne.
  pose proof (same_function_eval basis Hok) as E. unfold evaluate_deriv_basis_model in *.
  cbn [accepts] in *. f_equal. injection E as E.
  set (blocks := map _ basis) in *.
  change (one_index K (fun x => x) blocks (Some T))
    with (apply_rows (vz (hd [] (one_index K (fun x => x) blocks None))) vadd vsc
            (map (map (fun x : F => x)) T) (one_index K (fun x => x) blocks None)).
  assert (E' : one_index K (fun x => x) blocks None
               = map (fun d => map (deriv_spec o d) pts) (descr_basis basis)) by exact E.
  rewrite E', map_map_id. now apply apply_rows_descs.
Qed.
End EvalSide.

Theorem same_function_eval_values (basis : list (shell F)) pts :
  Forall comps_ok basis ->
  evaluate_basis_model K basis pts None = map (fun d => map (eval_spec d) pts) (descr_basis basis).
Proof.
  intros Hok. pose proof (same_function_eval (0,0,0)%nat pts basis Hok) as E.
  unfold evaluate_deriv_basis_model in E. cbn [accepts] in E. injection E as E. exact E.
Qed.

(* sum_{t1 in d1} sum_{t2 in d2} w1 w2 I(t1, t2), I a function of the two primitives only *)
Definition pair_spec (Ip : gprim -> gprim -> F) (d1 d2 : fdesc) : F :=
  fsum (map (fun t1 => fsum (map (fun t2 => t_w t1 * t_w t2 * Ip (t_g t1) (t_g t2)) d2)) d1).

Lemma pair_spec_flip Ip d1 d2 : pair_spec Ip d1 d2 = pair_spec (fun x y => Ip y x) d2 d1.
Proof.
  unfold pair_spec. rewrite fsum_swap. apply fsum_map_ext_in; intros t2 _.
  apply fsum_map_ext_in; intros t1 _. ring.
Qed.

Lemma pair_spec_app_l Ip d d' d2 : pair_spec Ip (d ++ d') d2 = pair_spec Ip d d2 + pair_spec Ip d' d2.
Proof. unfold pair_spec. now rewrite map_app, fsum_app. Qed.

Lemma pair_spec_dscale_l Ip c d d2 : pair_spec Ip (dscale c d) d2 = c * pair_spec Ip d d2.
Proof.
  unfold pair_spec, dscale. rewrite map_map, <- fsum_map_scale. apply fsum_map_ext_in; intros t1 _.
  cbn [t_w t_g]. rewrite <- fsum_map_scale. apply fsum_map_ext_in; intros t2 _. ring.
Qed.

Lemma pair_spec_dcomb_l Ip trow ds d2 :
  pair_spec Ip (dcomb trow ds) d2 = fsum (map (fun p => fst p * pair_spec Ip (snd p) d2) (combine trow ds)).
Proof.
  unfold dcomb. induction (combine trow ds) as [|[t d] L IH]; cbn [map concat fst snd]; [reflexivity|].
  now rewrite pair_spec_app_l, pair_spec_dscale_l, fsum_cons, IH.
Qed.

Lemma pair_spec_dcomb_r Ip d1 trow ds :
  pair_spec Ip d1 (dcomb trow ds) = fsum (map (fun p => fst p * pair_spec Ip d1 (snd p)) (combine trow ds)).
Proof.
  rewrite pair_spec_flip, pair_spec_dcomb_l. apply fsum_map_ext_in; intros p _.
  now rewrite (pair_spec_flip Ip d1 (snd p)).
Qed.

Lemma pair_spec_sym_on Ip d1 d2 :
  (forall t1 t2, In t1 d1 -> In t2 d2 -> Ip (t_g t1) (t_g t2) = Ip (t_g t2) (t_g t1)) ->
  pair_spec Ip d1 d2 = pair_spec Ip d2 d1.
Proof.
  intros H. rewrite pair_spec_flip. unfold pair_spec. apply fsum_map_ext_in; intros t2 H2.
  apply fsum_map_ext_in; intros t1 H1. now rewrite (H t1 t2 H1 H2).
Qed.

Lemma pair_spec_maps {A B} Ip (f : A -> pterm) (g : B -> pterm) la lb :
  pair_spec Ip (map f la) (map g lb)
  = fsum (map (fun a => fsum (map (fun b => t_w (f a) * t_w (g b) * Ip (t_g (f a)) (t_g (g b))) lb)) la).
Proof. unfold pair_spec. rewrite map_map. apply fsum_map_ext_in; intros a _. now rewrite map_map. Qed.

Lemma lcomb_mk {X} (f : X -> F) trow L (g : nat -> F) (cd : nat -> X) :
  (forall c, (c < L)%nat -> g c = f (cd c)) ->
  lcomb 0 (fadd K) (fmul K) trow L g = fsum (map (fun p => fst p * f (snd p)) (combine trow (mk L cd))).
Proof.
  intros H. unfold lcomb, mk. rewrite combine_map_r, map_map.
  change (asum 0 (fadd K)) with fsum. apply fsum_map_ext_in. intros [t c] Hin. cbn [fst snd].
  rewrite H; [reflexivity|]. eapply in_combine_seq. exact Hin.
Qed.

Lemma lcomb_l Ip trow L (g : nat -> F) (cd : nat -> fdesc) d2 :
  (forall c, (c < L)%nat -> g c = pair_spec Ip (cd c) d2) ->
  lcomb 0 (fadd K) (fmul K) trow L g = pair_spec Ip (dcomb trow (mk L cd)) d2.
Proof. intros H. rewrite pair_spec_dcomb_l. now apply (lcomb_mk (fun d => pair_spec Ip d d2)). Qed.

Lemma lcomb_r Ip trow L (g : nat -> F) d1 (cd : nat -> fdesc) :
  (forall c, (c < L)%nat -> g c = pair_spec Ip d1 (cd c)) ->
  lcomb 0 (fadd K) (fmul K) trow L g = pair_spec Ip d1 (dcomb trow (mk L cd)).
Proof. intros H. rewrite pair_spec_dcomb_r. now apply (lcomb_mk (fun d => pair_spec Ip d1 d)). Qed.

Section Pair.
Variables (sa sb : shell F).

(* every two-index kernel hands [block_of] the (K_b, K_a) matrices of primitive integrals of one
   pair of components: here as a function J alpha beta ca cb of the two exponents *)
Section Kernel.
Variable J : F -> F -> comp -> comp -> F.

Definition pfJ (ca cb : comp) : list (list F) :=
  map (fun beta => map (fun alpha => J alpha beta ca cb) (s_exps sa)) (s_exps sb).

Definition ES (ma ia mb ib : nat) : F :=
  fsum (map (fun bq =>
      fsum (map (fun ap => J (fst ap) (fst bq) (compi sa ia) (compi sb ib)
                           * norm_prim K (s_l sa) (compi sa ia) (fst ap) * nth ma (snd ap) 0)
                (combine (s_exps sa) (s_coeffs sa)))
      * norm_prim K (s_l sb) (compi sb ib) (fst bq) * nth mb (snd bq) 0)
    (combine (s_exps sb) (s_coeffs sb))).

End Kernel.

Lemma block_of_blk4 pf :
  block_of K sa sb pf = blk4 (nseg sa) (ncomp sa) (nseg sb) (ncomp sb) (fun ma ia mb ib =>
    nth4 K ma ia mb ib (block_of K sa sb pf)).
Proof.
  unfold nth4, blk4, block_of. cbv zeta. rewrite !combine_length, !length_norms, !Nat.min_id.
  fold (ncomp sa) (ncomp sb).
  apply mk_ext; intros ma Hma. apply mk_ext; intros ia Hia.
  apply mk_ext; intros mb Hmb. apply mk_ext; intros ib Hib.
  now rewrite (nth_mk _ _ _ ma Hma), (nth_mk _ _ _ ia Hia), (nth_mk _ _ _ mb Hmb), (nth_mk _ _ _ ib Hib).
Qed.

Lemma block_of_ext pf pf' : (forall ca cb, pf ca cb = pf' ca cb) -> block_of K sa sb pf = block_of K sa sb pf'.
Proof.
  intros H. unfold block_of. cbv zeta.
  apply mk_ext; intros ma _. apply mk_ext; intros ia _. apply mk_ext; intros mb _. apply mk_ext; intros ib _.
  do 4 f_equal. apply map_ext; intros [ca na]. apply map_ext; intros [cb nb]. now rewrite H.
Qed.

Lemma block_of_pfJ J :
  block_of K sa sb (pfJ J) = blk4 (nseg sa) (ncomp sa) (nseg sb) (ncomp sb) (ES J).
Proof.
  rewrite block_of_blk4. apply blk4_ext. intros ma ia mb ib Hma Hia Hmb Hib.
  now apply (block_of_entry_lists K sa sb (pfJ J) (fun alpha beta => J alpha beta (compi sa ia) (compi sb ib))).
Qed.

Definition gp (s : shell F) (alpha : F) (ic : nat) : gprim := mkG (s_x s) (s_y s) (s_z s) alpha (compi s ic).

Section Processed.
Variables (J : F -> F -> comp -> comp -> F) (Ip : gprim -> gprim -> F).
Hypothesis HJ : forall alpha beta ia ib,
  In alpha (s_exps sa) -> In beta (s_exps sb) -> (ia < ncomp sa)%nat -> (ib < ncomp sb)%nat ->
  J alpha beta (compi sa ia) (compi sb ib) = Ip (gp sa alpha ia) (gp sb beta ib).

Lemma core_entry ma ia mb ib : (ia < ncomp sa)%nat -> (ib < ncomp sb)%nat ->
  (ncf sa ma ia * ncf sb mb ib) * ES J ma ia mb ib = pair_spec Ip (cart_desc sa ma ia) (cart_desc sb mb ib).
Proof.
  intros Ha Hb. unfold cart_desc. rewrite pair_spec_maps, fsum_swap. unfold ES.
  rewrite <- fsum_map_scale. apply fsum_map_ext_in; intros [beta crow_b] Hinb. cbn [fst snd t_w t_g].
  transitivity ((ncf sa ma ia * ncf sb mb ib * norm_prim K (s_l sb) (compi sb ib) beta * nth mb crow_b 0)
                * fsum (map (fun ap => J (fst ap) beta (compi sa ia) (compi sb ib)
                                       * norm_prim K (s_l sa) (compi sa ia) (fst ap) * nth ma (snd ap) 0)
                            (combine (s_exps sa) (s_coeffs sa)))); [ring|].
  rewrite <- fsum_map_scale. apply fsum_map_ext_in; intros [alpha crow_a] Hina. cbn [fst snd].
  rewrite (HJ alpha beta ia ib (in_combine_l _ _ _ _ Hina) (in_combine_l _ _ _ _ Hinb) Ha Hb).
  unfold gp. ring.
Qed.

Lemma processed_entry (c : nat -> nat -> nat -> nat -> F) ma r1 mb r2 :
  (forall ma ia mb ib, (ia < ncomp sa)%nat -> (ib < ncomp sb)%nat ->
     c ma ia mb ib = pair_spec Ip (cart_desc sa ma ia) (cart_desc sb mb ib)) ->
  (r1 < nrows sa)%nat -> (r2 < nrows sb)%nat ->
  eR 0 (fadd K) (fmul K) (s_sph sb) (shell_transform K sb) (ncomp sb)
    (eL 0 (fadd K) (fmul K) (s_sph sa) (shell_transform K sa) (ncomp sa) c) ma r1 mb r2
  = pair_spec Ip (dd sa ma r1) (dd sb mb r2).
Proof.
  intros Hc Hr1 Hr2. unfold eR, eL, dd, nrows, rows_of in *.
  destruct (s_sph sa), (s_sph sb).
  - apply lcomb_r. intros c2 Hc2. apply lcomb_l. intros c1 Hc1. now apply Hc.
  - apply lcomb_l. intros c1 Hc1. now apply Hc.
  - apply lcomb_r. intros c2 Hc2. now apply Hc.
  - now apply Hc.
Qed.

Theorem processed_block_descr (blk : list (list (list (list F)))) :
  comps_ok sa ->
  blk = blk4 (nseg sa) (ncomp sa) (nseg sb) (ncomp sb) (ES J) ->
  shell_block K 0 (fadd K) (fmul K) (s_sph sa) (s_sph sb) (shell_transform K sa) (shell_transform K sb)
    (norm_cont K sa) (norm_cont K sb) blk
  = map (fun d1 => map (fun d2 => pair_spec Ip d1 d2) (descr sb)) (descr sa).
Proof.
  intros Hok ->. rewrite (norm_cont_mk sa), (norm_cont_mk sb).
  rewrite shell_block_blk4 by (now apply ncomp_pos).
  rewrite (descr_mk sa), (descr_mk sb), outer_flat4. fold (nrows sa) (nrows sb).
  apply flat4_ext. intros ma r1 mb r2 Hma Hr1 Hmb Hr2.
  apply processed_entry; [|exact Hr1|exact Hr2]. intros. now apply core_entry.
Qed.
End Processed.
End Pair.

(* one axis: the E-functional value that (B1) reads as
   int (x-C)^k (x-A)^i (x-B)^j exp(-alpha (x-A)^2) exp(-beta (x-B)^2) dx  (C01_table_exact) *)
Definition mom1 (Cx Ax Bx alpha beta : F) (k i j : nat) : F :=
  base K Ax Bx alpha beta
  * T3 K (1 / twop K alpha beta) (PA K Ax Bx alpha beta) (PB K Ax Bx alpha beta) (PC K Ax Bx Cx alpha beta) k i j.

Definition Imom (Cx Cy Cz : F) (o : comp) (g1 g2 : gprim) : F :=
  mom1 Cx (g_x g1) (g_x g2) (g_a g1) (g_a g2) (cx o) (cx (g_c g1)) (cx (g_c g2))
  * mom1 Cy (g_y g1) (g_y g2) (g_a g1) (g_a g2) (cy o) (cy (g_c g1)) (cy (g_c g2))
  * mom1 Cz (g_z g1) (g_z g2) (g_a g1) (g_a g2) (cz o) (cz (g_c g1)) (cz (g_c g2)).
Definition Iov : gprim -> gprim -> F := Imom 0 0 0 (0, 0, 0)%nat.

Lemma mom1_sym Cx Ax Bx alpha beta k i j : mom1 Cx Ax Bx alpha beta k i j = mom1 Cx Bx Ax beta alpha k j i.
Proof.
  change (base K Ax Bx alpha beta * T1 K Ax Bx Cx alpha beta k i j
          = base K Bx Ax beta alpha * T1 K Bx Ax Cx beta alpha k j i).
  now rewrite (base_sym K Kf Ax Bx), (T1_sym K Kf Ax Bx).
Qed.

Lemma Imom_sym Cx Cy Cz o g1 g2 : Imom Cx Cy Cz o g1 g2 = Imom Cx Cy Cz o g2 g1.
Proof.
  unfold Imom.
  rewrite (mom1_sym Cx (g_x g1)), (mom1_sym Cy (g_y g1)), (mom1_sym Cz (g_z g1)). reflexivity.
Qed.

(* exponent pairs whose sum can be divided by *)
Definition exps_ok (sa sb : shell F) : Prop :=
  forall alpha beta, In alpha (s_exps sa) -> In beta (s_exps sb) -> psum K alpha beta <> 0.

Lemma prim3_axes (tx ty tz : list (list (list F))) (o ca cb : comp) (vx vy vz : F) :
  nth3 K (cx o) (cx cb) (cx ca) tx = vx -> nth3 K (cy o) (cy cb) (cy ca) ty = vy ->
  nth3 K (cz o) (cz cb) (cz ca) tz = vz -> prim3 K (tx, ty, tz) o ca cb = vx * vy * vz.
Proof.
  destruct o as [[ox oy] oz], ca as [[ax ay] az], cb as [[bx by_] bz]. cbn [cx cy cz fst snd].
  intros <- <- <-. apply Hapx.
Qed.

Section MomentKernel.
Variables (Cx Cy Cz : F) (orders : list comp) (sa sb : shell F).
Hypothesis H2 : 1 + 1 <> 0.
Hypothesis Hoka : comps_ok sa.
Hypothesis Hokb : comps_ok sb.
Hypothesis Hexp : exps_ok sa sb.

Definition Jmm (o : comp) (alpha beta : F) (ca cb : comp) : F :=
  prim3 K (table K (s_x sa) (s_x sb) Cx alpha beta (s_l sa) (s_l sb) (omax orders),
           table K (s_y sa) (s_y sb) Cy alpha beta (s_l sa) (s_l sb) (omax orders),
           table K (s_z sa) (s_z sb) Cz alpha beta (s_l sa) (s_l sb) (omax orders)) o ca cb.

Lemma mm_block_pfJ :
  mm_block K Cx Cy Cz orders sa sb = map (fun o => block_of K sa sb (pfJ sa sb (Jmm o))) orders.
Proof.
  unfold mm_block. cbv zeta. apply map_ext. intros o. apply block_of_ext. intros ca cb.
  unfold tabs, pfJ. rewrite map_map. apply map_ext. intros beta. rewrite map_map. reflexivity.
Qed.

Lemma Jmm_spec o alpha beta ia ib :
  In o orders -> In alpha (s_exps sa) -> In beta (s_exps sb) -> (ia < ncomp sa)%nat -> (ib < ncomp sb)%nat ->
  Jmm o alpha beta (compi sa ia) (compi sb ib) = Imom Cx Cy Cz o (gp sa alpha ia) (gp sb beta ib).
Proof.
  intros Ho Ha Hb Hia Hib. unfold Jmm, Imom, mom1, gp. cbn [g_x g_y g_z g_a g_c].
  destruct (compi_le sa ia Hoka Hia) as (Ax & Ay & Az). destruct (compi_le sb ib Hokb Hib) as (Bx & By & Bz).
  destruct (CoreBlockP.omax_ge orders o Ho) as (Ox & Oy & Oz). pose proof (Hexp alpha beta Ha Hb) as Hp.
  apply prim3_axes; now apply (table_correct K Kf).
Qed.
End MomentKernel.

Notation pblockF := (pblock K 0 (fadd K) (fmul K)).
Definition outer (f : fdesc -> fdesc -> F) (D1 D2 : list fdesc) : list (list F) :=
  map (fun d1 => map (fun d2 => f d1 d2) D2) D1.

Theorem same_function_pblock_overlap sa sb :
  1 + 1 <> 0 -> comps_ok sa -> comps_ok sb -> exps_ok sa sb ->
  pblockF (overlap_block K) (prep K sa) (prep K sb) = outer (pair_spec Iov) (descr sa) (descr sb).
Proof.
  intros H2 Hoka Hokb Hexp. unfold pblock, prep. cbn [p_shell p_norm p_T].
  apply (processed_block_descr sa sb (Jmm 0 0 0 [(0,0,0)%nat] sa sb (0,0,0)%nat) Iov).
  - intros alpha beta ia ib Ha Hb Hia Hib.
    apply (Jmm_spec 0 0 0 [(0,0,0)%nat] sa sb H2 Hoka Hokb Hexp); auto. now left.
  - exact Hoka.
  - unfold overlap_block. rewrite mm_block_pfJ. cbn [map hd]. apply block_of_pfJ.
Qed.

Definition dshell : shell F := mkShell F 0 0 0 0 [] [] false [] [].

Lemma nth_prep basis i : (i < length basis)%nat -> nth i (map (prep K) basis) (dummy_p K) = prep K (nth i basis dshell).
Proof.
  intros Hi. rewrite (nth_indep _ (dummy_p K) (prep K dshell)) by (now rewrite map_length).
  apply map_nth.
Qed.

Lemma hcat_cons2 {B} (m m' : list (list B)) rest :
  hcat (m :: m' :: rest)
  = map (fun r12 : list B * list B => let '(r1, r2) := r12 in r1 ++ r2) (combine m (hcat (m' :: rest))).
Proof. reflexivity. Qed.

Lemma hcat_outer {D} (f : D -> D -> F) (x : list D) (dss : list (list D)) : dss <> [] ->
  hcat (map (fun ds => map (fun a => map (f a) ds) x) dss) = map (fun a => map (f a) (concat dss)) x.
Proof.
  induction dss as [|d0 rest IH]; [congruence|]. intros _. destruct rest as [|d1 rest'].
  - cbn [map hcat concat]. now rewrite app_nil_r.
  - cbn [map] in *. rewrite hcat_cons2, IH by discriminate. rewrite combine_map_same, map_map.
    apply map_ext. intros a. cbn [concat]. now rewrite (map_app (f a) d0).
Qed.

Lemma transpose_outer {D} (f : D -> D -> F) (x y : list D) : x <> [] ->
  transpose 0 (map (fun a => map (f a) y) x) = map (fun b => map (fun a => f a b) x) y.
Proof.
  intros Hx. unfold transpose.
  assert (Eh : length (hd [] (map (fun a => map (f a) y) x)) = length y).
  { destruct x as [|a0 x']; [congruence|]. cbn [map hd]. apply map_length. }
  rewrite Eh. destruct y as [|b0 y']; [reflexivity|].
  rewrite (map_as_mk (fun b => map (fun a => f a b) x) (b0 :: y') b0).
  apply mk_ext; intros c Hc. rewrite map_map. apply map_ext; intros a.
  rewrite (nth_indep _ 0 (f a b0)) by (rewrite map_length; exact Hc). now rewrite map_nth.
Qed.

Lemma two_symm_blocks_full {D} (f : D -> D -> F) n (ds : nat -> list D) :
  (forall i j a b, (i < n)%nat -> (j < n)%nat -> In a (ds i) -> In b (ds j) -> f a b = f b a) ->
  (forall i, (i < n)%nat -> ds i <> []) ->
  two_symm_blocks 0 n (fun i j => map (fun a => map (f a) (ds j)) (ds i))
  = map (fun a => map (f a) (concat (mk n ds))) (concat (mk n ds)).
Proof.
  intros Hsym Hne. unfold two_symm_blocks, vcat.
  destruct n as [|n']; [reflexivity|].
  rewrite concat_map, map_mk. f_equal. apply mk_ext; intros i Hi.
  rewrite <- (hcat_outer f (ds i) (mk (S n') ds)) by (unfold mk; cbn; discriminate).
  rewrite map_mk. f_equal. apply mk_ext; intros j Hj.
  destruct (Nat.leb i j); [reflexivity|].
  rewrite transpose_outer by (now apply Hne). apply map_ext_in; intros b Hb. apply map_ext_in; intros a Ha.
  apply (Hsym j i a b Hj Hi Ha Hb).
Qed.

Lemma descr_length s : length (descr s) = (nseg s * nrows s)%nat.
Proof.
  rewrite descr_mk. rewrite (concat_length_const _ (nrows s)).
  - now rewrite mk_length.
  - apply Forall_mk. intros m _. apply mk_length.
Qed.

Lemma nrows_eq s : nrows s = if s_sph s then length (labels_of s) else ncomp s.
Proof.
  unfold nrows, rows_of. destruct (s_sph s); [|reflexivity].
  unfold shell_transform, sph_transform. now rewrite !map_length.
Qed.

(* a shell that has functions at all *)
Definition shell_wf (s : shell F) : Prop :=
  comps_ok s /\ (0 < nseg s)%nat /\ (s_sph s = true -> labels_of s <> []).

Lemma descr_nonempty s : shell_wf s -> descr s <> [].
Proof.
  intros [Hok [Hseg Hlab]] E. apply (f_equal (@length _)) in E. rewrite descr_length, nrows_eq in E.
  cbn [length] in E. pose proof (ncomp_pos s Hok).
  destruct (s_sph s).
  - specialize (Hlab eq_refl). destruct (labels_of s); [congruence|]. cbn [length] in E. lia.
  - lia.
Qed.

Lemma default_shell_wf (s : shell F) : s_comps s = [] -> (0 < nseg s)%nat -> s_labels s = [] -> shell_wf s.
Proof.
  intros Hc Hn Hl. split; [now apply default_comps_ok|]. split; [exact Hn|].
  intros _. unfold labels_of. rewrite Hl. unfold default_labels.
  destruct (Nat.eqb (s_l s) 1); [discriminate|]. intro E. apply (f_equal (@length _)) in E.
  rewrite app_length, !map_length, !seq_length in E. cbn in E. lia.
Qed.

Lemma comps_ok_of_wf basis : Forall shell_wf basis -> Forall comps_ok basis.
Proof. apply Forall_impl. now intros s [H _]. Qed.

Lemma descr_basis_mk basis : descr_basis basis = concat (mk (length basis) (fun i => descr (nth i basis dshell))).
Proof. unfold descr_basis. now rewrite (map_as_mk descr basis dshell). Qed.

Definition dexps_in (s : shell F) (d : fdesc) : Prop := forall t, In t d -> In (g_a (t_g t)) (s_exps s).

Lemma cart_desc_exps s m ic : dexps_in s (cart_desc s m ic).
Proof.
  intros t Ht. unfold cart_desc in Ht. apply in_map_iff in Ht. destruct Ht as [[alpha crow] [<- Hin]].
  cbn [t_g g_a fst]. eapply in_combine_l. exact Hin.
Qed.

Lemma dcomb_exps s trow ds : (forall d, In d ds -> dexps_in s d) -> dexps_in s (dcomb trow ds).
Proof.
  intros H t Ht. unfold dcomb in Ht. apply in_concat in Ht. destruct Ht as [l [Hl Ht]].
  apply in_map_iff in Hl. destruct Hl as [[c d] [<- Hcd]]. cbn [fst snd] in Ht.
  unfold dscale in Ht. apply in_map_iff in Ht. destruct Ht as [t' [<- Ht']]. cbn [t_g].
  apply (H d); [|exact Ht']. eapply in_combine_r. exact Hcd.
Qed.

Lemma descr_exps s d : In d (descr s) -> dexps_in s d.
Proof.
  intros Hd. rewrite descr_mk in Hd. apply in_concat in Hd. destruct Hd as [l [Hl Hd]].
  unfold mk in Hl. apply in_map_iff in Hl. destruct Hl as [m [<- _]].
  unfold mk in Hd. apply in_map_iff in Hd. destruct Hd as [r [<- _]].
  unfold dd. destruct (s_sph s); [|apply cart_desc_exps].
  apply dcomb_exps. intros d' Hd'. unfold mk in Hd'. apply in_map_iff in Hd'. destruct Hd' as [c [<- _]].
  apply cart_desc_exps.
Qed.

Section SymmAssembly.
Variables (Ip : gprim -> gprim -> F) (basis : list (shell F)).
Hypothesis Hsym : forall sa sb g1 g2,
  In sa basis -> In sb basis -> In (g_a g1) (s_exps sa) -> In (g_a g2) (s_exps sb) -> Ip g1 g2 = Ip g2 g1.
Hypothesis Hwf : Forall shell_wf basis.

Lemma two_symm_blocks_descr (bf : nat -> nat -> list (list F)) :
  (forall i j, (i < length basis)%nat -> (j < length basis)%nat -> (i <= j)%nat ->
     bf i j = outer (pair_spec Ip) (descr (nth i basis dshell)) (descr (nth j basis dshell))) ->
  two_symm_blocks 0 (length basis) bf = outer (pair_spec Ip) (descr_basis basis) (descr_basis basis).
Proof.
  intros H. rewrite (two_symm_blocks_ext_le 0 _ _ _ H), descr_basis_mk.
  apply (two_symm_blocks_full (pair_spec Ip)).
  - intros i j a b Hi Hj Ha Hb. apply pair_spec_sym_on. intros t1 t2 H1 H2.
    apply (Hsym (nth i basis dshell) (nth j basis dshell)); try (now apply nth_In).
    + now apply (descr_exps _ a Ha).
    + now apply (descr_exps _ b Hb).
  - intros i Hi. apply descr_nonempty. rewrite Forall_forall in Hwf. apply Hwf. now apply nth_In.
Qed.

Lemma two_symm_full (blockf : shell F -> shell F -> list (list (list (list F)))) :
  (forall sa sb, In sa basis -> In sb basis ->
     pblockF blockf (prep K sa) (prep K sb) = outer (pair_spec Ip) (descr sa) (descr sb)) ->
  two_symm_integral K 0 (fadd K) (fmul K) blockf basis None
  = outer (pair_spec Ip) (descr_basis basis) (descr_basis basis).
Proof.
  intros H. rewrite two_symm_integral_unfold. cbv zeta. rewrite map_length.
  apply two_symm_blocks_descr. intros i j Hi Hj _.
  rewrite (nth_prep basis i Hi), (nth_prep basis j Hj). apply H; now apply nth_In.
Qed.
End SymmAssembly.

(* (ii) overlap_integral = the table of pairings of the SAME descriptor list that the evaluation
   model evaluates, in the same order *)
Theorem same_function_overlap (basis : list (shell F)) :
  1 + 1 <> 0 -> Forall shell_wf basis ->
  (forall sa sb, In sa basis -> In sb basis -> exps_ok sa sb) ->
  overlap_integral K basis None = outer (pair_spec Iov) (descr_basis basis) (descr_basis basis).
Proof.
  intros H2 Hwf Hexp. unfold overlap_integral. apply two_symm_full; [|exact Hwf|].
  - intros sa sb x y _ _ _ _. apply Imom_sym.
  - intros sa sb Ha Hb. rewrite Forall_forall in Hwf.
    apply same_function_pblock_overlap; auto; now apply Hwf.
Qed.

(* one axis: int phi_a d^k/dx^k phi_b dx as the E-functional expression (C02_diffop_is_derivative_of_right) *)
Definition dk1 (Ax Bx alpha beta : F) (k i j : nat) : F :=
  iterop (Bop K beta) k (Sfun K Ax Bx alpha beta) i j.
Definition Ider (o : comp) (g1 g2 : gprim) : F :=
  dk1 (g_x g1) (g_x g2) (g_a g1) (g_a g2) (cx o) (cx (g_c g1)) (cx (g_c g2))
  * dk1 (g_y g1) (g_y g2) (g_a g1) (g_a g2) (cy o) (cy (g_c g1)) (cy (g_c g2))
  * dk1 (g_z g1) (g_z g2) (g_a g1) (g_a g2) (cz o) (cz (g_c g1)) (cz (g_c g2)).
(* -1/2 int phi_a (d2/dx2 + d2/dy2 + d2/dz2) phi_b *)
Definition Ikin (g1 g2 : gprim) : F :=
  (- (1 / (1 + 1))) * ((Ider (2,0,0)%nat g1 g2 + Ider (0,2,0)%nat g1 g2) + Ider (0,0,2)%nat g1 g2).

Lemma zip4_blk4 (f : F -> F -> F) M1 L1 M2 L2 e1 e2 :
  zip4 f (blk4 M1 L1 M2 L2 e1) (blk4 M1 L1 M2 L2 e2)
  = blk4 M1 L1 M2 L2 (fun ma ia mb ib => f (e1 ma ia mb ib) (e2 ma ia mb ib)).
Proof.
  unfold zip4, blk4. rewrite combine_mk, map_mk. apply mk_ext; intros ma _.
  rewrite combine_mk, map_mk. apply mk_ext; intros ia _.
  rewrite combine_mk, map_mk. apply mk_ext; intros mb _.
  rewrite combine_mk, map_mk. apply mk_ext; intros ib _. reflexivity.
Qed.

Lemma map4_blk4 (f : F -> F) M1 L1 M2 L2 e :
  map4 f (blk4 M1 L1 M2 L2 e) = blk4 M1 L1 M2 L2 (fun ma ia mb ib => f (e ma ia mb ib)).
Proof.
  unfold map4, blk4. rewrite map_mk. apply mk_ext; intros ma _. rewrite map_mk. apply mk_ext; intros ia _.
  rewrite map_mk. apply mk_ext; intros mb _. now rewrite map_mk.
Qed.

Lemma ES_lin3 sa sb c (J1 J2 J3 : F -> F -> comp -> comp -> F) ma ia mb ib :
  c * ((ES sa sb J1 ma ia mb ib + ES sa sb J2 ma ia mb ib) + ES sa sb J3 ma ia mb ib)
  = ES sa sb (fun alpha beta ca cb => c * ((J1 alpha beta ca cb + J2 alpha beta ca cb) + J3 alpha beta ca cb))
       ma ia mb ib.
Proof.
  unfold ES. rewrite <- !fsum_map_add, <- fsum_map_scale. apply fsum_map_ext_in; intros bq _.
  set (Y := norm_prim K (s_l sb) (compi sb ib) (fst bq)). set (Z := nth mb (snd bq) 0).
  match goal with |- c * ((?S1 * Y * Z + ?S2 * Y * Z) + ?S3 * Y * Z) = ?R * Y * Z =>
    transitivity ((c * ((S1 + S2) + S3)) * Y * Z); [ring|] end.
  f_equal. f_equal. rewrite <- !fsum_map_add, <- fsum_map_scale. apply fsum_map_ext_in; intros ap _. ring.
Qed.

Section KineticKernel.
Variables (sa sb : shell F).
Hypothesis H2 : 1 + 1 <> 0.
Hypothesis Hoka : comps_ok sa.
Hypothesis Hokb : comps_ok sb.
Hypothesis Hexp : exps_ok sa sb.

Definition Jd (o : comp) (alpha beta : F) (ca cb : comp) : F :=
  prim3 K (dtable K (s_x sa) (s_x sb) alpha beta (s_l sa) (s_l sb) 2,
           dtable K (s_y sa) (s_y sb) alpha beta (s_l sa) (s_l sb) 2,
           dtable K (s_z sa) (s_z sb) alpha beta (s_l sa) (s_l sb) 2) o ca cb.
Definition Jkin (alpha beta : F) (ca cb : comp) : F :=
  (- (1 / (1 + 1))) * ((Jd (2,0,0)%nat alpha beta ca cb + Jd (0,2,0)%nat alpha beta ca cb)
                       + Jd (0,0,2)%nat alpha beta ca cb).

Lemma diffop_block_pfJ :
  diffop_block K [(2,0,0); (0,2,0); (0,0,2)]%nat sa sb
  = [block_of K sa sb (pfJ sa sb (Jd (2,0,0)%nat)); block_of K sa sb (pfJ sa sb (Jd (0,2,0)%nat));
     block_of K sa sb (pfJ sa sb (Jd (0,0,2)%nat))].
Proof.
  unfold diffop_block. cbv zeta. change (omax [(2,0,0); (0,2,0); (0,0,2)]%nat) with 2%nat. cbn [map].
  assert (E : forall o, block_of K sa sb (fun ca cb => map (map (fun t => prim3 K t o ca cb)) (dtabs K 2 sa sb))
                        = block_of K sa sb (pfJ sa sb (Jd o))).
  { intros o. apply block_of_ext. intros ca cb. unfold dtabs, pfJ. rewrite map_map. apply map_ext.
    intros beta. now rewrite map_map. }
  now rewrite !E.
Qed.

Lemma kinetic_block_blk4 :
  kinetic_block K sa sb = blk4 (nseg sa) (ncomp sa) (nseg sb) (ncomp sb) (ES sa sb Jkin).
Proof.
  unfold kinetic_block. rewrite diffop_block_pfJ, !block_of_pfJ, !zip4_blk4, map4_blk4.
  apply blk4_ext. intros ma ia mb ib _ _ _ _. apply ES_lin3.
Qed.

Lemma Jd_spec o alpha beta ia ib :
  (cx o <= 2)%nat -> (cy o <= 2)%nat -> (cz o <= 2)%nat ->
  In alpha (s_exps sa) -> In beta (s_exps sb) -> (ia < ncomp sa)%nat -> (ib < ncomp sb)%nat ->
  Jd o alpha beta (compi sa ia) (compi sb ib) = Ider o (gp sa alpha ia) (gp sb beta ib).
Proof.
  intros Ox Oy Oz Ha Hb Hia Hib. unfold Jd, Ider, gp, dk1. cbn [g_x g_y g_z g_a g_c].
  destruct (compi_le sa ia Hoka Hia) as (Ax & Ay & Az). destruct (compi_le sb ib Hokb Hib) as (Bx & By & Bz).
  pose proof (Hexp alpha beta Ha Hb) as Hp.
  apply prim3_axes; now apply (diffop_slice_is_deriv_b K Kf).
Qed.

Lemma Jkin_spec alpha beta ia ib :
  In alpha (s_exps sa) -> In beta (s_exps sb) -> (ia < ncomp sa)%nat -> (ib < ncomp sb)%nat ->
  Jkin alpha beta (compi sa ia) (compi sb ib) = Ikin (gp sa alpha ia) (gp sb beta ib).
Proof.
  intros Ha Hb Hia Hib. unfold Jkin, Ikin.
  rewrite !Jd_spec by (auto; cbn [cx cy cz fst snd]; lia). reflexivity.
Qed.
End KineticKernel.

Theorem same_function_pblock_kinetic sa sb :
  1 + 1 <> 0 -> comps_ok sa -> comps_ok sb -> exps_ok sa sb ->
  pblockF (kinetic_block K) (prep K sa) (prep K sb) = outer (pair_spec Ikin) (descr sa) (descr sb).
Proof.
  intros H2 Hoka Hokb Hexp. unfold pblock, prep. cbn [p_shell p_norm p_T].
  apply (processed_block_descr sa sb (Jkin sa sb) Ikin).
  - intros alpha beta ia ib Ha Hb Hia Hib. now apply Jkin_spec.
  - exact Hoka.
  - apply kinetic_block_blk4.
Qed.

(* kinetic_energy_integral: evaluated blocks i <= j are the pairing tables of (bf_i, bf_j) with the
   primitive pairing Ikin = E-functional of  -1/2 phi_a Laplacian(phi_b); the blocks below the diagonal are
   their transposes (base_two_symm.py:171-181).  (The table over the whole of descr_basis, as for the
   overlap, needs the symmetry Ikin(a,b) = Ikin(b,a), i.e. integration by parts on both sides: see
   same_function_kinetic below.) *)
Theorem same_function_kinetic_blocks (basis : list (shell F)) :
  1 + 1 <> 0 -> Forall comps_ok basis ->
  (forall sa sb, In sa basis -> In sb basis -> exps_ok sa sb) ->
  kinetic_integral K basis None
  = two_symm_blocks 0 (length basis) (fun i j =>
      outer (pair_spec Ikin) (descr (nth i basis dshell)) (descr (nth j basis dshell))).
Proof.
  intros H2 Hok Hexp. unfold kinetic_integral. rewrite two_symm_integral_unfold. cbv zeta. rewrite map_length.
  apply two_symm_blocks_ext_le. intros i j Hi Hj _. rewrite (nth_prep basis i Hi), (nth_prep basis j Hj).
  rewrite Forall_forall in Hok. apply same_function_pblock_kinetic; auto using nth_In.
Qed.

(* Ikin is symmetric: integration by parts on both sides (CoreDiffP.D1_swap) *)
Lemma dk1_swap_even Ax Bx alpha beta k i j : psum K alpha beta <> 0 -> 1 + 1 <> 0 -> Nat.even k = true ->
  dk1 Bx Ax beta alpha k j i = dk1 Ax Bx alpha beta k i j.
Proof.
  intros Hp H2 Hk. change (D1 K Bx Ax beta alpha k j i = D1 K Ax Bx alpha beta k i j).
  rewrite (D1_swap K Kf H2 Ax Bx alpha beta k i j Hp). unfold fneg1pow. rewrite Hk. ring.
Qed.

Lemma Ikin_sym g1 g2 : psum K (g_a g1) (g_a g2) <> 0 -> 1 + 1 <> 0 -> Ikin g1 g2 = Ikin g2 g1.
Proof.
  intros Hp H2. unfold Ikin, Ider. cbn [cx cy cz fst snd].
  now rewrite !(dk1_swap_even _ _ (g_a g1) (g_a g2)) by (assumption || reflexivity).
Qed.

(* (ii) kinetic_energy_integral = table of the pairings Ikin over the same descriptor list, same order *)
Theorem same_function_kinetic (basis : list (shell F)) :
  1 + 1 <> 0 -> Forall shell_wf basis ->
  (forall sa sb, In sa basis -> In sb basis -> exps_ok sa sb) ->
  kinetic_integral K basis None = outer (pair_spec Ikin) (descr_basis basis) (descr_basis basis).
Proof.
  intros H2 Hwf Hexp. unfold kinetic_integral. apply two_symm_full; [|exact Hwf|].
  - intros sa sb g1 g2 Ha Hb H1 H3. apply Ikin_sym; [|exact H2]. now apply (Hexp sa sb Ha Hb).
  - intros sa sb Ha Hb. rewrite Forall_forall in Hwf.
    apply same_function_pblock_kinetic; auto; now apply Hwf.
Qed.

(* Moments: a block entry is a vector with one slot per requested order; the element operations are
   (vzero = [], vadd, vscale), and [] is a zero for vectors of every length, hence the second case of okv. *)
Notation vz0 := (@vzero F).
Notation vad := (vadd K).
Notation vsc' := (vscale K).
Definition okv (n : nat) (v : list F) : Prop := length v = n \/ v = [].

Lemma nth_nil0 d : nth d (@nil F) 0 = 0.
Proof. destruct d; reflexivity. Qed.

Lemma nth_vscale d t v : nth d (vsc' t v) 0 = t * nth d v 0.
Proof.
  unfold vscale. destruct (Nat.lt_ge_cases d (length v)) as [H|H].
  - rewrite (nth_indep _ 0 (t * 0)) by (now rewrite map_length). apply (map_nth (fmul K t)).
  - rewrite !nth_overflow by (rewrite ?map_length; lia). ring.
Qed.

Lemma okv_vscale n t v : okv n v -> okv n (vsc' t v).
Proof. intros [H| ->]; [left; unfold vscale; now rewrite map_length|right; reflexivity]. Qed.

Lemma vadd_spec n d x y : okv n x -> okv n y ->
  nth d (vad x y) 0 = nth d x 0 + nth d y 0 /\ okv n (vad x y).
Proof.
  intros Hx Hy. destruct x as [|a x'].
  - cbn [vadd]. split; [rewrite nth_nil0; ring|exact Hy].
  - destruct y as [|b y'].
    + cbn [vadd]. split; [rewrite nth_nil0; ring|exact Hx].
    + destruct Hx as [Hx|Hx]; [|discriminate]. destruct Hy as [Hy|Hy]; [|discriminate].
      unfold vadd. split.
      * destruct (Nat.lt_ge_cases d n) as [H|H].
        -- rewrite (nth_map_combine _ (a :: x') (b :: y') d 0 0 0) by lia. reflexivity.
        -- rewrite !nth_overflow by (rewrite ?map_length, ?combine_length; lia). ring.
      * left. rewrite map_length, combine_length. lia.
Qed.

Lemma lcomb_proj n d trow L (g : nat -> list F) : (forall c, (c < L)%nat -> okv n (g c)) ->
  nth d (lcomb vz0 vad vsc' trow L g) 0 = lcomb 0 (fadd K) (fmul K) trow L (fun c => nth d (g c) 0)
  /\ okv n (lcomb vz0 vad vsc' trow L g).
Proof.
  intros H. unfold lcomb, asum.
  assert (Hl : forall p, In p (combine trow (seq 0 L)) -> okv n (g (snd p))).
  { intros [t c] Hp. apply H. eapply in_combine_seq. exact Hp. }
  induction (combine trow (seq 0 L)) as [|[t c] l IH]; cbn [map fold_right fst snd].
  - split; [apply nth_nil0|now right].
  - destruct IH as [IH1 IH2]; [intros p Hp; apply Hl; now right|].
    destruct (vadd_spec n d (vsc' t (g c)) (fold_right vad vz0 (map (fun p => vsc' (fst p) (g (snd p))) l)))
      as [E1 E2]; [apply okv_vscale, (Hl (t, c)); now left|exact IH2|].
    split; [|exact E2]. now rewrite E1, IH1, nth_vscale.
Qed.

Lemma lcomb_nth n d trow L (g : nat -> list F) : (forall c, (c < L)%nat -> okv n (g c)) ->
  nth d (lcomb vz0 vad vsc' trow L g) 0 = lcomb 0 (fadd K) (fmul K) trow L (fun c => nth d (g c) 0).
Proof. intros H. now apply (lcomb_proj n). Qed.

Lemma lcomb_okv n trow L (g : nat -> list F) : (forall c, (c < L)%nat -> okv n (g c)) ->
  okv n (lcomb vz0 vad vsc' trow L g).
Proof. intros H. now apply (lcomb_proj n 0). Qed.

Lemma proj_entry n d sph1 sph2 T1 T2 L1 L2 (ev : nat -> nat -> nat -> nat -> list F)
      (c0 : nat -> nat -> nat -> nat -> F) ma r1 mb r2 :
  (forall ma ia mb ib, (ia < L1)%nat -> (ib < L2)%nat -> okv n (ev ma ia mb ib)) ->
  (sph1 = false -> (r1 < L1)%nat) -> (sph2 = false -> (r2 < L2)%nat) ->
  nth d (eR vz0 vad vsc' sph2 T2 L2 (eL vz0 vad vsc' sph1 T1 L1
           (fun ma ia mb ib => vsc' (c0 ma ia mb ib) (ev ma ia mb ib))) ma r1 mb r2) 0
  = eR 0 (fadd K) (fmul K) sph2 T2 L2 (eL 0 (fadd K) (fmul K) sph1 T1 L1
           (fun ma ia mb ib => c0 ma ia mb ib * nth d (ev ma ia mb ib) 0)) ma r1 mb r2.
Proof.
  intros Hok H1 H2. unfold eR, eL.
  assert (Hv : forall ia ib, (ia < L1)%nat -> (ib < L2)%nat -> okv n (vsc' (c0 ma ia mb ib) (ev ma ia mb ib)))
    by (intros; apply okv_vscale, Hok; assumption).
  destruct sph1, sph2.
  - rewrite (lcomb_nth n) by (intros c Hc; apply (lcomb_okv n); intros c1 Hc1; now apply Hv).
    apply lcomb_ext; intros c Hc. rewrite (lcomb_nth n) by (intros c1 Hc1; now apply Hv).
    apply lcomb_ext; intros c1 Hc1. apply nth_vscale.
  - rewrite (lcomb_nth n) by (intros c1 Hc1; apply Hv; auto).
    apply lcomb_ext; intros c1 Hc1. apply nth_vscale.
  - rewrite (lcomb_nth n) by (intros c Hc; apply Hv; auto).
    apply lcomb_ext; intros c Hc. apply nth_vscale.
  - apply nth_vscale.
Qed.

Lemma map_flat4 {A B} (h : A -> B) M1 R1 M2 R2 e :
  map (map h) (flat4 M1 R1 M2 R2 e) = flat4 M1 R1 M2 R2 (fun ma r1 mb r2 => h (e ma r1 mb r2)).
Proof.
  unfold flat4. rewrite concat_map, map_mk. f_equal. apply mk_ext; intros ma _.
  rewrite map_mk. apply mk_ext; intros r1 _. rewrite concat_map, map_mk. f_equal.
  apply mk_ext; intros mb _. now rewrite map_mk.
Qed.

Section MomentVec.
Variables (Cx Cy Cz : F) (orders : list comp) (sa sb : shell F).
Hypothesis H2 : 1 + 1 <> 0.
Hypothesis Hoka : comps_ok sa.
Hypothesis Hokb : comps_ok sb.
Hypothesis Hexp : exps_ok sa sb.
Hypothesis Hord : orders <> [].

Lemma moment_block_blk4 :
  moment_block K Cx Cy Cz orders sa sb
  = blk4 (nseg sa) (ncomp sa) (nseg sb) (ncomp sb) (fun ma ia mb ib =>
      map (fun o => ES sa sb (Jmm Cx Cy Cz orders sa sb o) ma ia mb ib) orders).
Proof.
  unfold moment_block. cbv zeta. rewrite mm_block_pfJ.
  rewrite (map_ext _ _ (fun o => block_of_pfJ sa sb (Jmm Cx Cy Cz orders sa sb o))).
  destruct orders as [|o0 rest]; [congruence|].
  cbn [map]. unfold blk4. rewrite mk_length.
  apply mk_ext; intros ma Hma. rewrite (nth_mk _ _ _ ma Hma), mk_length.
  apply mk_ext; intros ia Hia. rewrite (nth_mk _ _ _ ia Hia), mk_length.
  apply mk_ext; intros mb Hmb. rewrite (nth_mk _ _ _ mb Hmb), mk_length.
  apply mk_ext; intros ib Hib. rewrite (nth_mk _ _ _ ib Hib). f_equal.
  rewrite map_map. apply map_ext. intros o.
  now rewrite (nth_mk _ _ _ ma Hma), (nth_mk _ _ _ ia Hia), (nth_mk _ _ _ mb Hmb), (nth_mk _ _ _ ib Hib).
Qed.

Theorem same_function_pblock_moment d : (d < length orders)%nat ->
  map (map (fun v => nth d v 0))
      (pblock K vz0 vad vsc' (moment_block K Cx Cy Cz orders) (prep K sa) (prep K sb))
  = outer (pair_spec (Imom Cx Cy Cz (nth d orders (0,0,0)%nat))) (descr sa) (descr sb).
Proof.
  intros Hd. unfold pblock, prep. cbn [p_shell p_norm p_T].
  rewrite moment_block_blk4, (norm_cont_mk sa), (norm_cont_mk sb).
  rewrite shell_block_blk4 by (now apply ncomp_pos). rewrite map_flat4.
  unfold outer. rewrite (descr_mk sa), (descr_mk sb), outer_flat4. fold (nrows sa) (nrows sb).
  apply flat4_ext. intros ma r1 mb r2 Hma Hr1 Hmb Hr2.
  rewrite (proj_entry (length orders) d).
  - apply processed_entry; [|exact Hr1|exact Hr2]. intros ma' ia mb' ib Hia Hib.
    rewrite (nth_map_lt _ orders d (0,0,0)%nat) by exact Hd.
    apply (core_entry sa sb (Jmm Cx Cy Cz orders sa sb (nth d orders (0,0,0)%nat))); [|exact Hia|exact Hib].
    intros alpha beta ja jb Ha Hb Hja Hjb.
    apply (Jmm_spec Cx Cy Cz orders sa sb H2 Hoka Hokb Hexp); auto. now apply nth_In.
  - intros. left. apply map_length.
  - intros E. unfold nrows, rows_of in Hr1. now rewrite E in Hr1.
  - intros E. unfold nrows, rows_of in Hr2. now rewrite E in Hr2.
Qed.
End MomentVec.

Lemma hcat_map {A B} (h : A -> B) (ms : list (list (list A))) :
  map (map h) (hcat ms) = hcat (map (map (map h)) ms).
Proof.
  induction ms as [|m rest IH]; [reflexivity|]. destruct rest as [|m' rest']; [reflexivity|].
  cbn [map] in *. rewrite !hcat_cons2, <- IH, Tables.combine_map_both, !map_map.
  apply map_ext. intros [r1 r2]. cbn [fst snd]. apply map_app.
Qed.

Lemma transpose_map {A B} (h : A -> B) za (m : list (list A)) :
  transpose (h za) (map (map h) m) = map (map h) (transpose za m).
Proof.
  unfold transpose.
  assert (E : length (hd [] (map (map h) m)) = length (hd [] m)) by (destruct m; cbn; [reflexivity|apply map_length]).
  rewrite E, map_mk. apply mk_ext; intros c _. rewrite !map_map. apply map_ext. intros row.
  apply (map_nth h).
Qed.

Lemma two_symm_blocks_map {A B} (h : A -> B) za n (bf : nat -> nat -> list (list A)) :
  map (map h) (two_symm_blocks za n bf) = two_symm_blocks (h za) n (fun i j => map (map h) (bf i j)).
Proof.
  unfold two_symm_blocks, vcat. rewrite concat_map, map_mk. f_equal. apply mk_ext; intros i _.
  rewrite hcat_map, map_mk. f_equal. apply mk_ext; intros j _.
  destruct (Nat.leb i j); [reflexivity|]. now rewrite transpose_map.
Qed.

(* (ii) moment_integral: slot d of every entry = pairing with the moment functional of order orders[d],
   over the same descriptor list in the same order *)
Theorem same_function_moment Cx Cy Cz (orders : list comp) (basis : list (shell F)) d :
  1 + 1 <> 0 -> Forall shell_wf basis ->
  (forall sa sb, In sa basis -> In sb basis -> exps_ok sa sb) ->
  (d < length orders)%nat ->
  map (map (fun v => nth d v 0)) (moment_integral K Cx Cy Cz orders basis None)
  = outer (pair_spec (Imom Cx Cy Cz (nth d orders (0,0,0)%nat))) (descr_basis basis) (descr_basis basis).
Proof.
  intros H2 Hwf Hexp Hd. unfold moment_integral. rewrite two_symm_integral_unfold. cbv zeta.
  rewrite map_length, two_symm_blocks_map. change (nth d vz0 0) with (nth d (@nil F) 0). rewrite nth_nil0.
  apply two_symm_blocks_descr; [intros; apply Imom_sym|exact Hwf|]. intros i j Hi Hj _.
  rewrite (nth_prep basis i Hi), (nth_prep basis j Hj). rewrite Forall_forall in Hwf.
  apply same_function_pblock_moment; auto using nth_In.
  - now apply Hwf, nth_In.
  - now apply Hwf, nth_In.
  - destruct orders; [cbn in Hd; lia|discriminate].
Qed.

(* Any linear functional that is right on products of two PRIMITIVES (B1) is right on products of two
   evaluated functions, on the density and on the kinetic-energy density. *)
Lemma fsum_mul {A B} (f : A -> F) (g : B -> F) la lb :
  fsum (map f la) * fsum (map g lb) = fsum (map (fun a => fsum (map (fun b => f a * g b) lb)) la).
Proof.
  transitivity (fsum (map (fun a => fsum (map g lb) * f a) la)).
  - rewrite fsum_map_scale. ring.
  - apply fsum_map_ext_in; intros a _. transitivity (f a * fsum (map g lb)); [ring|].
    now rewrite <- fsum_map_scale.
Qed.

Definition contract2 (P : list (list F)) (ds : list fdesc) (f : fdesc -> fdesc -> F) : F :=
  fsum (map (fun pa => fsum (map (fun pb => fst pb * f (snd pa) (snd pb)) (combine (fst pa) ds)))
            (combine P ds)).

Definition dval (o : comp) (g : gprim) (r : point (F:=F)) : F := term_val o r (mkT 1 g).

Lemma term_val_w o r t : term_val o r t = t_w t * dval o (t_g t) r.
Proof. unfold dval, term_val, t_x, t_y, t_z, t_a, t_c. cbn [t_w t_g]. ring. Qed.

Definition q_ov (g1 g2 : gprim) (r : point (F:=F)) : F := dval (0,0,0)%nat g1 r * dval (0,0,0)%nat g2 r.
Definition q_kin (g1 g2 : gprim) (r : point (F:=F)) : F :=
  (1 / (1 + 1)) * ((dval (1,0,0)%nat g1 r * dval (1,0,0)%nat g2 r + dval (0,1,0)%nat g1 r * dval (0,1,0)%nat g2 r)
                   + dval (0,0,1)%nat g1 r * dval (0,0,1)%nat g2 r).

(* bilinear extension of a pointwise form of two primitives to descriptors *)
Definition qq (q : gprim -> gprim -> point (F:=F) -> F) (d1 d2 : fdesc) (r : point (F:=F)) : F :=
  fsum (map (fun t1 => fsum (map (fun t2 => t_w t1 * t_w t2 * q (t_g t1) (t_g t2) r) d2)) d1).

Lemma deriv_product o d1 d2 r :
  deriv_spec o d1 r * deriv_spec o d2 r
  = fsum (map (fun t1 => fsum (map (fun t2 => t_w t1 * t_w t2 * (dval o (t_g t1) r * dval o (t_g t2) r)) d2)) d1).
Proof.
  unfold deriv_spec. rewrite fsum_mul. apply fsum_map_ext_in; intros t1 _. apply fsum_map_ext_in; intros t2 _.
  rewrite (term_val_w o r t1), (term_val_w o r t2). ring.
Qed.

Lemma eval_product d1 d2 r : eval_spec d1 r * eval_spec d2 r = qq q_ov d1 d2 r.
Proof. unfold eval_spec. rewrite deriv_product. reflexivity. Qed.

Lemma grad_product d1 d2 r :
  (1 / (1 + 1)) * ((deriv_spec (1,0,0)%nat d1 r * deriv_spec (1,0,0)%nat d2 r
                    + deriv_spec (0,1,0)%nat d1 r * deriv_spec (0,1,0)%nat d2 r)
                   + deriv_spec (0,0,1)%nat d1 r * deriv_spec (0,0,1)%nat d2 r)
  = qq q_kin d1 d2 r.
Proof.
  rewrite !deriv_product. unfold qq. rewrite <- !fsum_map_add, <- fsum_map_scale. apply fsum_map_ext_in; intros t1 _.
  rewrite <- !fsum_map_add, <- fsum_map_scale. apply fsum_map_ext_in; intros t2 _. unfold q_kin. ring.
Qed.

Section Bridge.
Variable Lin : (point (F:=F) -> F) -> F.
Hypothesis Lin_ext : forall f g, (forall r, f r = g r) -> Lin f = Lin g.
Hypothesis Lin_add : forall f g, Lin (fun r => f r + g r) = Lin f + Lin g.
Hypothesis Lin_scale : forall c f, Lin (fun r => c * f r) = c * Lin f.

Lemma Lin_zero : Lin (fun _ => 0) = 0.
Proof.
  transitivity (Lin (fun r : point (F:=F) => 0 * 0)); [apply Lin_ext; intros; ring|].
  rewrite (Lin_scale 0 (fun _ => 0)). ring.
Qed.

Lemma Lin_fsum {A} (h : A -> point (F:=F) -> F) l :
  Lin (fun r => fsum (map (fun x => h x r) l)) = fsum (map (fun x => Lin (h x)) l).
Proof.
  induction l as [|a l IH]; cbn [map].
  - apply Lin_zero.
  - transitivity (Lin (fun r => h a r + fsum (map (fun x => h x r) l))).
    + apply Lin_ext. intros r. apply fsum_cons.
    + now rewrite Lin_add, IH, fsum_cons.
Qed.

Lemma contract2_ext P ds (f g : fdesc -> fdesc -> F) :
  (forall da db, f da db = g da db) -> contract2 P ds f = contract2 P ds g.
Proof.
  intros H. unfold contract2. apply fsum_map_ext_in; intros pa _. apply fsum_map_ext_in; intros pb _. now rewrite H.
Qed.

Section B1.
Variable q : gprim -> gprim -> point (F:=F) -> F.
Variable Ip : gprim -> gprim -> F.
(* (B1) for one pair of primitives *)
Hypothesis B1 : forall g1 g2, Lin (q g1 g2) = Ip g1 g2.

Theorem lin_pairing d1 d2 : Lin (qq q d1 d2) = pair_spec Ip d1 d2.
Proof.
  unfold qq, pair_spec. rewrite Lin_fsum. apply fsum_map_ext_in; intros t1 _.
  rewrite Lin_fsum. apply fsum_map_ext_in; intros t2 _. now rewrite Lin_scale, B1.
Qed.

Theorem lin_contract P ds :
  Lin (fun r => contract2 P ds (fun da db => qq q da db r)) = contract2 P ds (pair_spec Ip).
Proof.
  unfold contract2. rewrite Lin_fsum. apply fsum_map_ext_in; intros pa _.
  rewrite Lin_fsum. apply fsum_map_ext_in; intros pb _. now rewrite Lin_scale, lin_pairing.
Qed.

Lemma lin_pairing_of (f : fdesc -> fdesc -> point (F:=F) -> F) : (forall d1 d2 r, f d1 d2 r = qq q d1 d2 r) ->
  forall d1 d2, Lin (f d1 d2) = pair_spec Ip d1 d2.
Proof. intros Hf d1 d2. rewrite <- lin_pairing. apply Lin_ext, Hf. Qed.

Lemma lin_contract_of (f : fdesc -> fdesc -> point (F:=F) -> F) : (forall d1 d2 r, f d1 d2 r = qq q d1 d2 r) ->
  forall P ds, Lin (fun r => contract2 P ds (fun da db => f da db r)) = contract2 P ds (pair_spec Ip).
Proof. intros Hf P ds. rewrite <- lin_contract. apply Lin_ext. intros r. apply contract2_ext. intros. apply Hf. Qed.
End B1.

(* "integral" of the product of two evaluated functions = the overlap-model entry of the same descriptors *)
Theorem lin_of_product Ip : (forall g1 g2, Lin (q_ov g1 g2) = Ip g1 g2) ->
  forall d1 d2, Lin (fun r => eval_spec d1 r * eval_spec d2 r) = pair_spec Ip d1 d2.
Proof. intros B1. exact (lin_pairing_of q_ov Ip B1 _ eval_product). Qed.

(* "integral" of the density sum_ab P_ab phi_a phi_b = sum_ab P_ab S_ab = tr(P S) for symmetric P *)
Theorem lin_of_density Ip : (forall g1 g2, Lin (q_ov g1 g2) = Ip g1 g2) ->
  forall P ds, Lin (fun r => contract2 P ds (fun da db => eval_spec da r * eval_spec db r))
               = contract2 P ds (pair_spec Ip).
Proof. intros B1. exact (lin_contract_of q_ov Ip B1 _ eval_product). Qed.

End Bridge.

End P.

(* One descriptor list [descr_basis basis] serves BOTH halves, in the same order and with the same
   weights and signs, for all shells, angular momenta, contraction lengths, segment numbers, coordinate
   types, points, derivative orders, moment origins and orders (no bound).  Not covered here: the optional
   `transform` argument of the two-index integrals (C09 relates it to the untransformed matrices; the
   one-index side with a transform is same_function_eval_transformed). *)
Theorem same_function_objects {F : Type} (K : Fops F) (Kf : is_field K) (Hapx : forall x, fapx K x = x)
        (basis : list (shell F)) (pts : list (point (F:=F))) (o : comp)
        (Cx Cy Cz : F) (orders : list comp) (d : nat) :
  fadd K (f1 K) (f1 K) <> f0 K -> Forall shell_wf basis ->
  (forall sa sb, In sa basis -> In sb basis -> exps_ok K sa sb) ->
  d < length orders ->
  let ds := descr_basis K basis in
  evaluate_deriv_basis_model K basis pts o None General = Some (map (fun bf => map (deriv_spec K o bf) pts) ds)
  /\ evaluate_basis_model K basis pts None = map (fun bf => map (eval_spec K bf) pts) ds
  /\ overlap_integral K basis None = outer (pair_spec K (Iov K)) ds ds
  /\ map (map (fun v => nth d v (f0 K))) (moment_integral K Cx Cy Cz orders basis None)
     = outer (pair_spec K (Imom K Cx Cy Cz (nth d orders (0, 0, 0)))) ds ds
  /\ kinetic_integral K basis None = outer (pair_spec K (Ikin K)) ds ds.
Proof.
  intros H2 Hwf Hexp Hd ds. pose proof (comps_ok_of_wf basis Hwf) as Hok.
  repeat split.
  - now apply same_function_eval.
  - now apply same_function_eval_values.
  - now apply same_function_overlap.
  - now apply same_function_moment.
  - now apply same_function_kinetic.
Qed.

(* Concrete instance over Qc: a generalized Cartesian p shell (K = 2, M = 2) off the origin and a
   spherical d shell; the oracle closures are arbitrary computable functions (the identities are algebraic). *)
From Coq Require Import ZArith QArith Qcanon.
Module Ex.
Definition q (n : Z) (d : positive) : Qc := qc_of n d.
Definition KQ : Fops Qc :=
  QcK true (q 3 1) (fun x => x) (fun x => qc_div (q 1 1) (qc_add (q 1 1) (qc_mul x x))) (fun x => x) (fun _ x => x).
Definition sP : shell Qc :=
  mkShell Qc 1 (q 1 2) (q (-1) 4) (q 0 1) [q 1 2; q 5 4] [[q 1 1; q 1 2]; [q (-1) 4; q 2 1]] false [] [].
Definition sD : shell Qc :=
  mkShell Qc 2 (q 0 1) (q 1 4) (q (-1) 2) [q 3 4] [[q 1 1]] true [] [].
Definition basis : list (shell Qc) := [sP; sD].
Definition pts : list (point (F:=Qc)) := [(q 1 4, q 0 1, q (-3) 8); (q 0 1, q 1 4, q (-1) 2)].
Definition ds := descr_basis KQ basis.

Fixpoint list_eqb {A} (e : A -> A -> bool) (a b : list A) : bool :=
  match a, b with
  | [], [] => true
  | x :: a', y :: b' => e x y && list_eqb e a' b'
  | _, _ => false
  end.
Definition mat_eqb := list_eqb (list_eqb qc_eqb).

(* the hypotheses of same_function_objects hold for this instance *)
Lemma ex_hyps :
  is_field KQ /\ (forall x, fapx KQ x = x) /\ fadd KQ (f1 KQ) (f1 KQ) <> f0 KQ /\ Forall shell_wf basis
  /\ (forall sa sb, In sa basis -> In sb basis -> exps_ok KQ sa sb).
Proof.
  split; [apply QcK_field|]. split; [reflexivity|]. split.
  { intro H. apply (f_equal this) in H. vm_compute in H. discriminate. }
  split.
  { constructor; [apply default_shell_wf; [reflexivity|cbn; lia|reflexivity]|].
    constructor; [apply default_shell_wf; [reflexivity|cbn; lia|reflexivity]|constructor]. }
  intros sa sb Ha Hb alpha beta Hal Hbe H.
  apply (f_equal this) in H.
  cbn in Ha, Hb. destruct Ha as [<-|[<-|[]]]; destruct Hb as [<-|[<-|[]]]; cbn in Hal, Hbe;
    repeat (destruct Hal as [<-|Hal]; [|try contradiction]); 
    repeat (destruct Hbe as [<-|Hbe]; [|try contradiction]); vm_compute in H; discriminate.
Qed.

Lemma list_eqb_refl {A} (e : A -> A -> bool) : (forall x, e x x = true) -> forall l, list_eqb e l l = true.
Proof. intros He l. induction l as [|x l IH]; cbn [list_eqb]; [reflexivity|]. now rewrite He, IH. Qed.

Lemma mat_eqb_refl m : mat_eqb m m = true.
Proof. apply list_eqb_refl, list_eqb_refl. exact Qeq_bool_refl. Qed.

End Ex.
