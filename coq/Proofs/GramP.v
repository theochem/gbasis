(* Gram matrices of a real (semi-)inner-product space (property C17).

   Setting: an ABSTRACT real semi-inner-product space [ipspace]: a type of vectors with addition,
   scaling and zero, and a form [ip] that is symmetric, additive and homogeneous in its first
   argument, vanishes on the zero vector and satisfies [0 <= ip v v].  Nothing else is assumed
   (no definiteness, no dimension, no vector-space laws on the carrier).  Everything the property states
   (positive semi-definiteness, Schwarz bounds, unit-diagonal bound, the sign of the point-charge matrix,
   the pair form of the repulsion integrals, stability under an entrywise perturbation) follows for the Gram
   matrix of any family of vectors; the one-centre, one-axis Gaussian moment functional is shown to be such
   a space on polynomials.

   What is NOT proved here (analytic bridge B3 of DESIGN.md 2.6): that the L2 form
   int f g and the Coulomb form iint f(1) g(2) / r12 and the weighted form int f g / |r - C|
   ARE such semi-inner products on the span of the basis functions.  For functions on different
   centres this is a statement about integrals of positive kernels, not an algebraic consequence of
   the moment functional [E]. *)
From Coq Require Import List Arith Lia Reals Lra Psatz RealField.
From GB Require Import Base.Field Base.Tables Gauss.Moment1D Proofs.DiffOpP.
Import ListNotations.
Local Open Scope R_scope.

Fixpoint rsum (l : list R) : R := match l with [] => 0 | x :: r => x + rsum r end.

Lemma rsum_map_add {A} (f g : A -> R) l :
  rsum (map (fun x => f x + g x) l) = rsum (map f l) + rsum (map g l).
Proof. induction l as [|a l IH]; cbn [map rsum]; [lra|]. rewrite IH. lra. Qed.

Lemma rsum_map_scal {A} (c : R) (f : A -> R) l :
  rsum (map (fun x => c * f x) l) = c * rsum (map f l).
Proof. induction l as [|a l IH]; cbn [map rsum]; [lra|]. rewrite IH. lra. Qed.

Lemma rsum_map_ext {A} (f g : A -> R) l :
  (forall x, f x = g x) -> rsum (map f l) = rsum (map g l).
Proof. intros H. induction l as [|a l IH]; cbn [map rsum]; [reflexivity|]. now rewrite H, IH. Qed.

Lemma rsum_map_le {A} (f g : A -> R) l :
  (forall x, f x <= g x) -> rsum (map f l) <= rsum (map g l).
Proof. intros H. induction l as [|a l IH]; cbn [map rsum]; [lra|]. pose proof (H a). lra. Qed.

Lemma rsum_map_nonneg {A} (f : A -> R) l : (forall x, 0 <= f x) -> 0 <= rsum (map f l).
Proof. intros H. induction l as [|a l IH]; cbn [map rsum]; [lra|]. pose proof (H a). lra. Qed.

Section QF.
Context {I : Type}.
Implicit Types (G M : I -> I -> R) (l : list (R * I)).

(* sum_{(c,a) in l} sum_{(d,b) in l} c d G a b : the vector "sum_a c_a e_a" may list an index more
   than once (then the coefficients add up), so every finitely supported coefficient vector occurs *)
Definition qf G l : R :=
  rsum (map (fun p => rsum (map (fun q => fst p * fst q * G (snd p) (snd q)) l)) l).

Definition psd G : Prop := forall l, 0 <= qf G l.
Definition nsd G : Prop := forall l, qf G l <= 0.
Definition symm G : Prop := forall a b, G a b = G b a.

Definition sum_abs l : R := rsum (map (fun p => Rabs (fst p)) l).
Definition sum_sq l : R := rsum (map (fun p => fst p * fst p) l).

Lemma qf_add G M l : qf (fun a b => G a b + M a b) l = qf G l + qf M l.
Proof.
  unfold qf. rewrite <- rsum_map_add. apply rsum_map_ext. intros p.
  rewrite <- rsum_map_add. apply rsum_map_ext. intros q. ring.
Qed.

Lemma qf_scal k G l : qf (fun a b => k * G a b) l = k * qf G l.
Proof.
  unfold qf. rewrite <- rsum_map_scal. apply rsum_map_ext. intros p.
  rewrite <- rsum_map_scal. apply rsum_map_ext. intros q. ring.
Qed.

Lemma qf_ext G M l : (forall a b, G a b = M a b) -> qf G l = qf M l.
Proof.
  intros H. unfold qf. apply rsum_map_ext. intros p. apply rsum_map_ext. intros q. now rewrite H.
Qed.

Lemma qf_two G x a y b :
  qf G [(x, a); (y, b)] = x * x * G a a + x * y * G a b + y * x * G b a + y * y * G b b.
Proof. unfold qf. cbn [map rsum fst snd]. ring. Qed.

Lemma qf_one G x a : qf G [(x, a)] = x * x * G a a.
Proof. unfold qf. cbn [map rsum fst snd]. ring. Qed.

Lemma psd_diag G a : psd G -> 0 <= G a a.
Proof. intros H. pose proof (H [(1, a)]) as H1. rewrite qf_one in H1. lra. Qed.

(* the discriminant argument without division *)
Lemma psd_schwarz G a b : symm G -> psd G -> G a b * G a b <= G a a * G b b.
Proof.
  intros Hs Hp.
  pose proof (psd_diag G a Hp) as Ha. pose proof (psd_diag G b Hp) as Hb.
  pose proof (Hs b a) as Hba.
  pose proof (Hp [(G b b, a); (- G a b, b)]) as H1. rewrite qf_two, Hba in H1.
  pose proof (Hp [(G a b, a); (- G a a, b)]) as H2. rewrite qf_two, Hba in H2.
  pose proof (Hp [(1, a); (- G a b, b)]) as H3. rewrite qf_two, Hba in H3.
  generalize dependent (G a b). generalize dependent (G a a). generalize dependent (G b b).
  intros B Hb A Ha X _ H1 H2 H3.
  (* H1 : B (A B - X^2) >= 0,  H2 : A (A B - X^2) >= 0,  H3 : A - 2 X^2 + X^2 B >= 0 *)
  destruct (Rlt_le_dec 0 B) as [HB|HB].
  - assert (0 <= B * (A * B - X * X)) by lra. nra.
  - assert (B = 0) by lra. subst B.
    destruct (Rlt_le_dec 0 A) as [HA|HA].
    + assert (0 <= A * (A * 0 - X * X)) by lra. nra.
    + assert (A = 0) by lra. subst A. nra.
Qed.

Lemma psd_schwarz_abs G a b : symm G -> psd G -> Rabs (G a b) <= sqrt (G a a * G b b).
Proof.
  intros Hs Hp. pose proof (psd_schwarz G a b Hs Hp) as H.
  rewrite <- sqrt_Rsqr_abs. apply sqrt_le_1_alt. exact H.
Qed.

Lemma psd_unit_diag_bound G a b : symm G -> psd G -> G a a = 1 -> G b b = 1 -> Rabs (G a b) <= 1.
Proof.
  intros Hs Hp Ha Hb. pose proof (psd_schwarz_abs G a b Hs Hp) as H.
  rewrite Ha, Hb, Rmult_1_r, sqrt_1 in H. exact H.
Qed.

Lemma neg_scal_nsd G q : 0 <= q -> psd G -> nsd (fun a b => - q * G a b).
Proof. intros Hq Hp l. rewrite qf_scal. pose proof (Hp l). nra. Qed.

Lemma rsum_abs_bound (D : I -> I -> R) eps l (x : R) (a : I) :
  (forall a b, Rabs (D a b) <= eps) ->
  Rabs (rsum (map (fun q => x * fst q * D a (snd q)) l)) <= eps * (Rabs x * sum_abs l).
Proof.
  intros HD. unfold sum_abs. induction l as [|q l IH]; cbn [map rsum].
  - rewrite Rabs_R0. lra.
  - eapply Rle_trans; [apply Rabs_triang|].
    assert (Rabs (x * fst q * D a (snd q)) <= eps * (Rabs x * Rabs (fst q))).
    { rewrite !Rabs_mult. pose proof (HD a (snd q)). pose proof (Rabs_pos x). pose proof (Rabs_pos (fst q)).
      pose proof (Rabs_pos (D a (snd q))).
      assert (0 <= Rabs x * Rabs (fst q)) by nra. nra. }
    nra.
Qed.

Lemma qf_abs_bound (D : I -> I -> R) eps l :
  (forall a b, Rabs (D a b) <= eps) -> Rabs (qf D l) <= eps * (sum_abs l * sum_abs l).
Proof.
  intros HD. unfold qf.
  assert (Hgen : forall l0 : list (R * I),
    Rabs (rsum (map (fun p => rsum (map (fun q => fst p * fst q * D (snd p) (snd q)) l)) l0))
    <= eps * (sum_abs l0 * sum_abs l)).
  { induction l0 as [|p l0 IH]; cbn [map rsum].
    - unfold sum_abs at 1. cbn [map rsum]. rewrite Rabs_R0. lra.
    - eapply Rle_trans; [apply Rabs_triang|].
      pose proof (rsum_abs_bound D eps l (fst p) (snd p) HD) as H1.
      unfold sum_abs at 1. cbn [map rsum]. fold (sum_abs l0). nra. }
  apply Hgen.
Qed.

(* (sum |c|)^2 <= n sum c^2, via  2 x sum|c| <= n x^2 + sum c^2 *)
Lemma two_x_sum_abs l x : 2 * x * sum_abs l <= INR (length l) * (x * x) + sum_sq l.
Proof.
  unfold sum_abs, sum_sq. induction l as [|p l IH].
  - cbn [map rsum length INR]. nra.
  - cbn [map rsum]. replace (length (p :: l)) with (S (length l)) by reflexivity. rewrite S_INR.
    assert (2 * x * Rabs (fst p) <= x * x + fst p * fst p).
    { pose proof (Rle_0_sqr (x - Rabs (fst p))) as H. unfold Rsqr in H.
      assert (Rabs (fst p) * Rabs (fst p) = fst p * fst p).
      { rewrite <- Rabs_mult. apply Rabs_pos_eq. apply Rle_0_sqr. }
      nra. }
    nra.
Qed.

Lemma sum_abs_sq_bound l : sum_abs l * sum_abs l <= INR (length l) * sum_sq l.
Proof.
  induction l as [|p l IH].
  - unfold sum_abs, sum_sq. cbn [map rsum length INR]. lra.
  - pose proof (two_x_sum_abs l (Rabs (fst p))) as H2.
    assert (Hsq : Rabs (fst p) * Rabs (fst p) = fst p * fst p).
    { rewrite <- Rabs_mult. apply Rabs_pos_eq. apply Rle_0_sqr. }
    replace (length (p :: l)) with (S (length l)) by reflexivity. rewrite S_INR.
    unfold sum_abs, sum_sq in *. cbn [map rsum].
    set (s := rsum (map (fun p0 : R * I => Rabs (fst p0)) l)) in *.
    set (q := rsum (map (fun p0 : R * I => fst p0 * fst p0) l)) in *.
    set (n := INR (length l)) in *.
    assert (0 <= q) by (apply rsum_map_nonneg; intros; apply Rle_0_sqr).
    assert (0 <= n) by apply pos_INR.
    generalize dependent (Rabs (fst p)). intros x H2 Hsq. rewrite <- Hsq. nra.
Qed.

Theorem perturbation G M eps l :
  psd G -> (forall a b, Rabs (M a b - G a b) <= eps) ->
  - (INR (length l) * eps * sum_sq l) <= qf M l.
Proof.
  intros Hp HD.
  assert (E : qf M l = qf G l + qf (fun a b => M a b - G a b) l).
  { rewrite <- qf_add. apply qf_ext. intros; ring. }
  pose proof (qf_abs_bound (fun a b => M a b - G a b) eps l HD) as HB.
  pose proof (sum_abs_sq_bound l) as HS.
  pose proof (Hp l) as H0.
  destruct l as [|p l'].
  - unfold qf, sum_sq. cbn [map rsum length INR]. lra.
  - assert (0 <= eps).
    { pose proof (HD (snd p) (snd p)) as Hx.
      pose proof (Rabs_pos (M (snd p) (snd p) - G (snd p) (snd p))). lra. }
    set (l := p :: l') in *.
    assert (0 <= sum_sq l) by (apply rsum_map_nonneg; intros; apply Rle_0_sqr).
    pose proof (Rle_abs (- qf (fun a b => M a b - G a b) l)) as Hab. rewrite Rabs_Ropp in Hab.
    nra.
Qed.

End QF.

Record ipspace := mkIP {
  vec : Type;
  vadd : vec -> vec -> vec;
  vscal : R -> vec -> vec;
  vzero : vec;
  ip : vec -> vec -> R;
  ip_sym : forall u v, ip u v = ip v u;
  ip_add_l : forall u v w, ip (vadd u v) w = ip u w + ip v w;
  ip_scal_l : forall c u w, ip (vscal c u) w = c * ip u w;
  ip_zero_l : forall w, ip vzero w = 0;
  ip_pos : forall v, 0 <= ip v v
}.

Section Gram.
Variable S : ipspace.
Context {I : Type}.
Variable v : I -> vec S.          (* the family of vectors (basis functions) *)

Definition gram : I -> I -> R := fun a b => ip S (v a) (v b).

Fixpoint lincomb (l : list (R * I)) : vec S :=
  match l with [] => vzero S | p :: r => vadd S (vscal S (fst p) (v (snd p))) (lincomb r) end.

Lemma ip_lincomb_l l w : ip S (lincomb l) w = rsum (map (fun p => fst p * ip S (v (snd p)) w) l).
Proof.
  induction l as [|p l IH]; cbn [lincomb map rsum].
  - apply ip_zero_l.
  - now rewrite ip_add_l, ip_scal_l, IH.
Qed.

Lemma ip_lincomb_r l w : ip S w (lincomb l) = rsum (map (fun p => fst p * ip S w (v (snd p))) l).
Proof.
  rewrite ip_sym, ip_lincomb_l. apply rsum_map_ext. intros p. now rewrite ip_sym.
Qed.

Lemma qf_gram_is_norm l : qf gram l = ip S (lincomb l) (lincomb l).
Proof.
  rewrite ip_lincomb_l. unfold qf. apply rsum_map_ext. intros p.
  rewrite ip_lincomb_r, <- rsum_map_scal. apply rsum_map_ext. intros q. unfold gram. ring.
Qed.

Theorem gram_psd : psd gram.
Proof. intros l. rewrite qf_gram_is_norm. apply ip_pos. Qed.

Lemma gram_symm : symm gram.
Proof. intros a b. apply ip_sym. Qed.

Theorem gram_schwarz a b : gram a b * gram a b <= gram a a * gram b b.
Proof. apply psd_schwarz; [exact gram_symm | exact gram_psd]. Qed.

Theorem gram_schwarz_abs a b : Rabs (gram a b) <= sqrt (gram a a * gram b b).
Proof. apply psd_schwarz_abs; [exact gram_symm | exact gram_psd]. Qed.

(* the point-charge matrix -q * <phi_a | 1/|r-C| | phi_b> of a charge q >= 0 *)
Theorem neg_charge_nsd q : 0 <= q -> nsd (fun a b => - q * gram a b).
Proof. intros Hq. apply neg_scal_nsd; [exact Hq | exact gram_psd]. Qed.

(* a computed matrix within eps of the Gram matrix: quadratic form >= - n eps |c|^2 *)
Theorem gram_perturbation (M : I -> I -> R) eps l :
  (forall a b, Rabs (M a b - gram a b) <= eps) -> - (INR (length l) * eps * sum_sq l) <= qf M l.
Proof. apply perturbation. exact gram_psd. Qed.
End Gram.

Theorem cauchy_schwarz (S : ipspace) (u w : vec S) : ip S u w * ip S u w <= ip S u u * ip S w w.
Proof. exact (gram_schwarz S (fun x : vec S => x) u w). Qed.

Theorem cauchy_schwarz_abs (S : ipspace) (u w : vec S) : Rabs (ip S u w) <= sqrt (ip S u u * ip S w w).
Proof. exact (gram_schwarz_abs S (fun x : vec S => x) u w). Qed.

(* electron repulsion: a four-index array that is a Gram matrix over index pairs *)
Section Pair.
Variable S : ipspace.               (* the Coulomb (semi-)inner product on charge distributions *)
Context {I : Type}.
Variable w : I -> I -> vec S.       (* the product density phi_a phi_b *)

Definition eri (a b c d : I) : R := ip S (w a b) (w c d).
Definition eri_mat : (I * I) -> (I * I) -> R := fun p q => eri (fst p) (snd p) (fst q) (snd q).

Theorem eri_pair_psd : psd eri_mat.
Proof. exact (gram_psd S (fun p : I * I => w (fst p) (snd p))). Qed.

Theorem eri_schwarz a b c d : eri a b c d * eri a b c d <= eri a b a b * eri c d c d.
Proof. exact (gram_schwarz S (fun p : I * I => w (fst p) (snd p)) (a, b) (c, d)). Qed.

End Pair.

(* a concrete space: R^2 with the dot product (the hypotheses of [ipspace] are satisfiable), and
   a degenerate one: R^2 with the form x1*y1 (semi-definite: a non-zero vector of norm zero) *)
Definition R2 : ipspace.
Proof.
  refine (mkIP (R * R) (fun u v => (fst u + fst v, snd u + snd v)) (fun c u => (c * fst u, c * snd u)) (0, 0)
               (fun u v => fst u * fst v + snd u * snd v) _ _ _ _ _); cbn [fst snd]; intros; try ring.
  nra.
Defined.

Definition R2semi : ipspace.
Proof.
  refine (mkIP (R * R) (fun u v => (fst u + fst v, snd u + snd v)) (fun c u => (c * fst u, c * snd u)) (0, 0)
               (fun u v => fst u * fst v) _ _ _ _ _); cbn [fst snd]; intros; try ring.
  nra.
Defined.

Example R2_schwarz_example : forall x1 y1 x2 y2 : R,
  (x1 * x2 + y1 * y2) * (x1 * x2 + y1 * y2) <= (x1 * x1 + y1 * y1) * (x2 * x2 + y2 * y2).
Proof. intros. exact (cauchy_schwarz R2 (x1, y1) (x2, y2)). Qed.

(* two vectors at 60 degrees, listed with a duplicate (a linearly dependent family): PSD *)
Example R2_gram_example : forall c0 c1 c2 : R,
  let fam := fun i : nat => match i with 0%nat => (1, 0) | 1%nat => (1 / 2, 1) | _ => (1, 0) end in
  0 <= qf (gram R2 fam) [(c0, 0%nat); (c1, 1%nat); (c2, 2%nat)].
Proof. intros. apply (gram_psd R2). Qed.

Example R2semi_degenerate : ip R2semi (0, 1) (0, 1) = 0 /\ (0, 1) <> vzero R2semi.
Proof. split; [cbn; ring|]. cbn. intros H. inversion H. lra. Qed.

Example unit_diag_satisfiable : gram R2 (fun i : bool => if i then (1, 0) else (3 / 5, 4 / 5)) true true = 1
  /\ gram R2 (fun i : bool => if i then (1, 0) else (3 / 5, 4 / 5)) false false = 1.
Proof. unfold gram. cbn. split; field. Qed.

(* the bound of [perturbation] is attained up to the factor it states: M = G - eps on the diagonal only
   would give - eps |c|^2; here a 1x1 instance showing the hypotheses are satisfiable *)
Example perturbation_example : forall c : R,
  - (INR 1 * (1 / 4) * (c * c + 0)) <= qf (fun _ _ : unit => 3 / 4) [(c, tt)].
Proof.
  intros c.
  exact (gram_perturbation R2 (fun _ : unit => (1, 0)) (fun _ _ => 3 / 4) (1 / 4) [(c, tt)]
           (fun _ _ => ltac:(unfold gram; cbn; rewrite Rabs_left; lra))).
Qed.

(* Model-level facts that ARE algebraic (any field): the one-dimensional primitive integrals the
   overlap and kinetic models are assembled from are symmetric under exchanging the two functions *)
From GB Require Import Model.MomentInt Proofs.CoreDiffP.

Section Sym.
Context {F : Type} (K : Fops F) (Kf : is_field K).
Add Field KFg : Kf.
Local Open Scope F_scope.
Notation "0" := (f0 K) : F_scope.
Notation "1" := (f1 K) : F_scope.
Infix "+" := (fadd K) : F_scope.
Infix "*" := (fmul K) : F_scope.
Infix "-" := (fsub K) : F_scope.
Infix "/" := (fdiv K) : F_scope.
Notation "- x" := (fopp K x) : F_scope.

Variables (Ax Bx alpha beta : F).
Hypothesis Hp : psum K alpha beta <> 0.
Hypothesis H2 : 1 + 1 <> 0.

Theorem overlap_prim_symm i j : Sfun K Bx Ax beta alpha j i = Sfun K Ax Bx alpha beta i j.
Proof. apply (Sfun_swap K Kf). Qed.

(* second derivative: < d^2 a | b > (i, j) = < d^2 b | a > (j, i); with [ibp_iter] both equal
   < a | d^2 b >: the 1-D kinetic primitive is symmetric *)
Theorem kinetic_prim_symm i j :
  iterop (negA K beta) 2 (Sfun K Bx Ax beta alpha) j i
  = iterop (negA K alpha) 2 (Sfun K Ax Bx alpha beta) i j.
Proof.
  rewrite (ibp_iter K Kf Ax Bx alpha beta Hp H2 2 i j).
  cbn [iterop]. unfold negA, Bop. rewrite !overlap_prim_symm. ring.
Qed.
End Sym.

(* One centre, one exponent pair, one axis: the Gaussian moment functional E (variance v >= 0) is
   positive on squares, E(f f) >= 0 for EVERY polynomial f (every degree): the Hankel matrix
   (m_{i+j}) of the moments m_{2k} = (2k-1)!! v^k is positive semi-definite.  Proof: the identity
       E(f g) = sum_k v^k / k! * E(f^(k)) * E(g^(k))
   (induction on f with Stein's lemma), whose right-hand side is a sum of squares for g = f.
   Hence polynomials with <f, g> = E(f g) form an [ipspace]: for this case the bridge B3 is PROVED.
   Not proved: the three-dimensional (tensor-product) and the several-centre / several-exponent cases. *)
Definition RKg : Fops R :=
  mkFops R 0 1 Rplus Rmult Rminus Ropp Rdiv Rinv (fun _ _ => true) (fun _ _ => true)
         PI sqrt exp ln (fun _ _ => 0) (fun x => x).

(* E(f * g) written through the functionals Eaux: sum_i f_i * E(y^i g) *)
Fixpoint hank (v : R) (n : nat) (f g : list R) : R :=
  match f with [] => 0 | c :: f' => c * Eaux RKg v n g + hank v (S n) f' g end.

Lemma RKg_field : is_field RKg.
Proof. exact Rfield. Qed.

Section Hankel.
Variable v : R.
Notation Ea := (Eaux RKg v).
Notation D := (pderiv RKg).
Notation sh := (pshift RKg).
Notation pad := (padd RKg).

Lemma ofnat_INR k : ofnat RKg k = INR k.
Proof.
  induction k as [|k IH]; [reflexivity|]. rewrite S_INR. cbn [ofnat]. rewrite IH.
  cbn [fadd f1 RKg]. ring.
Qed.

Fixpoint Dk (k : nat) (f : list R) : list R :=
  match k with O => f | S k' => Dk k' (D f) end.

Lemma Dk_nil k : Dk k [] = [].
Proof. induction k as [|k IH]; [reflexivity|]. cbn [Dk]. exact IH. Qed.

Lemma Dk_padd k f g : Dk k (pad f g) = pad (Dk k f) (Dk k g).
Proof.
  revert f g. induction k as [|k IH]; intros f g; [reflexivity|].
  cbn [Dk]. rewrite (pderiv_padd RKg RKg_field). apply IH.
Qed.

Lemma Dk_comm k f : Dk k (D f) = D (Dk k f).
Proof. revert f. induction k as [|k IH]; intros f; [reflexivity|]. cbn [Dk]. apply IH. Qed.

Lemma pderiv_aux_S k g : pderiv_aux RKg (S k) g = pad g (pderiv_aux RKg k g).
Proof.
  revert k. induction g as [|a g IH]; intros k; [reflexivity|].
  cbn [pderiv_aux padd]. rewrite IH. f_equal.
  cbn [ofnat fmul fadd f1 RKg]. ring.
Qed.

Lemma D_shift_cons a g : D (sh (a :: g)) = pad (a :: g) (sh (D (a :: g))).
Proof.
  unfold pshift, pderiv. cbn [pderiv_aux padd]. f_equal.
  - cbn [ofnat]. cbn [fmul fadd f1 f0 RKg]. ring.
  - apply pderiv_aux_S.
Qed.

Lemma length_pderiv_aux k f : length (pderiv_aux RKg k f) = length f.
Proof. revert k. induction f as [|a f IH]; intros k; [reflexivity|]. cbn [pderiv_aux length]. now rewrite IH. Qed.

Lemma length_D f : length (D f) = (length f - 1)%nat.
Proof. destruct f as [|a f]; [reflexivity|]. cbn [pderiv length]. rewrite length_pderiv_aux. lia. Qed.

Lemma length_Dk k f : length (Dk k f) = (length f - k)%nat.
Proof.
  revert f. induction k as [|k IH]; intros f; cbn [Dk]; [lia|]. rewrite IH, length_D. lia.
Qed.

Lemma Dk_vanish k f n : (length f <= k)%nat -> Ea n (Dk k f) = 0.
Proof.
  intros H. assert (E : Dk k f = []).
  { apply length_zero_iff_nil. rewrite length_Dk. lia. }
  rewrite E. reflexivity.
Qed.

Lemma Dk_shift k : forall g n,
  Ea n (Dk k (sh g)) = Ea (S n) (Dk k g) + INR k * Ea n (Dk (k - 1) g).
Proof.
  induction k as [|k IH]; intros g n.
  - cbn [Dk INR]. rewrite (Eaux_pshift RKg RKg_field). ring.
  - cbn [Dk]. destruct g as [|a g].
    + change (D (sh [])) with (@nil R). change (D []) with (@nil R). rewrite !Dk_nil. cbn [Eaux f0 RKg]. ring.
    + rewrite D_shift_cons, Dk_padd, (Eaux_padd RKg RKg_field), IH.
      cbn [fadd RKg].
      replace (S k - 1)%nat with k by lia.
      destruct k as [|k'].
      * cbn [INR Dk]. ring.
      * replace (S k' - 1)%nat with k' by lia. cbn [Dk]. rewrite !S_INR. ring.
Qed.

Definition ek (k : nat) (f : list R) : R := Ea 0 (Dk k f).

Lemma ek_shift k g : ek k (sh g) = v * ek (S k) g + INR k * ek (k - 1) g.
Proof.
  unfold ek. rewrite Dk_shift. f_equal.
  rewrite <- (Eaux_pshift RKg RKg_field).
  change (Ea 0 (sh (Dk k g))) with (E RKg v (sh (Dk k g))).
  rewrite (stein RKg RKg_field). cbn [Dk]. rewrite Dk_comm. reflexivity.
Qed.

Lemma ek_cons k c h : ek k (c :: h) = (match k with O => c | _ => 0 end) + ek k (sh h).
Proof.
  unfold ek. destruct k as [|k].
  - cbn [Dk]. unfold pshift. cbn [Eaux]. rewrite (mom_0 RKg).
    cbn [fadd fmul f0 f1 RKg]. ring.
  - cbn [Dk]. change (D (c :: h)) with (D (sh h)). ring.
Qed.

Lemma ek_vanish k f : (length f <= k)%nat -> ek k f = 0.
Proof. apply Dk_vanish. Qed.

Lemma hank_shift_r n f g : hank v n f (sh g) = hank v (S n) f g.
Proof.
  revert n. induction f as [|c f IH]; intros n; cbn [hank]; [reflexivity|].
  rewrite IH, (Eaux_pshift RKg RKg_field). reflexivity.
Qed.

Fixpoint wk (k : nat) : R := match k with O => 1 | S k' => wk k' * v / INR (S k') end.

Lemma wk_S k : INR (S k) * wk (S k) = v * wk k.
Proof. cbn [wk]. field. apply not_0_INR. lia. Qed.

Fixpoint rsumn (n : nat) (f : nat -> R) : R := match n with O => 0 | S n' => rsumn n' f + f n' end.

Lemma rsumn_ext n f g : (forall k, (k < n)%nat -> f k = g k) -> rsumn n f = rsumn n g.
Proof. induction n as [|n IH]; intros H; cbn [rsumn]; [reflexivity|]. rewrite IH by (intros; apply H; lia). rewrite H by lia. reflexivity. Qed.

Lemma exchange (a b : nat -> R) N :
  rsumn (S N) (fun k => wk k * (v * a (S k) + INR k * a (k - 1)%nat) * b k)
  - rsumn (S N) (fun k => wk k * a k * (v * b (S k) + INR k * b (k - 1)%nat))
  = v * wk N * (a (S N) * b N - a N * b (S N)).
Proof.
  induction N as [|N IH].
  - cbn [rsumn INR wk Nat.sub]. ring.
  - cbn [rsumn] in *. replace (S N - 1)%nat with N by lia.
    pose proof (wk_S N) as HW.
    generalize dependent (rsumn N (fun k => wk k * (v * a (S k) + INR k * a (k - 1)%nat) * b k)).
    generalize dependent (rsumn N (fun k => wk k * a k * (v * b (S k) + INR k * b (k - 1)%nat))).
    intros s1 s2 IH.
    assert (E1 : wk (S N) * (INR (S N) * a N) * b (S N) = v * wk N * a N * b (S N)).
    { transitivity ((INR (S N) * wk (S N)) * a N * b (S N)); [ring|]. rewrite HW. ring. }
    assert (E2 : wk (S N) * a (S N) * (INR (S N) * b N) = v * wk N * a (S N) * b N).
    { transitivity ((INR (S N) * wk (S N)) * a (S N) * b N); [ring|]. rewrite HW. ring. }
    nra.
Qed.

Theorem hank_identity f : forall g N, (length f <= N)%nat ->
  hank v 0 f g = rsumn (S N) (fun k => wk k * ek k f * ek k g).
Proof.
  induction f as [|c h IH]; intros g N HN.
  - cbn [hank]. symmetry. transitivity (rsumn (S N) (fun _ => 0)).
    + apply rsumn_ext. intros k _. unfold ek. rewrite Dk_nil. cbn [Eaux f0 RKg]. ring.
    + clear. induction (S N) as [|n IH]; cbn [rsumn]; [reflexivity|]. rewrite IH. ring.
  - cbn [hank]. rewrite <- hank_shift_r. rewrite (IH (sh g) N) by (cbn [length] in HN; lia).
    pose proof (exchange (fun k => ek k h) (fun k => ek k g) N) as EX. cbn beta in EX.
    rewrite (ek_vanish (S N) h) in EX by (cbn [length] in HN; lia).
    rewrite (ek_vanish N h) in EX by (cbn [length] in HN; lia).
    assert (S1 : rsumn (S N) (fun k => wk k * ek k h * ek k (sh g))
                 = rsumn (S N) (fun k => wk k * ek k h * (v * ek (S k) g + INR k * ek (k - 1) g))).
    { apply rsumn_ext. intros k _. now rewrite ek_shift. }
    assert (S2 : rsumn (S N) (fun k => wk k * ek k (c :: h) * ek k g)
                 = c * ek 0 g + rsumn (S N) (fun k => wk k * (v * ek (S k) h + INR k * ek (k - 1) h) * ek k g)).
    { clear. induction N as [|N IHN].
      - cbn [rsumn]. rewrite ek_cons, ek_shift. cbn [wk]. ring.
      - cbn [rsumn] in *. rewrite IHN. rewrite (ek_cons (S N)), ek_shift. ring. }
    rewrite S1, S2. change (Ea 0 g) with (ek 0 g).
    replace (v * wk N * (0 * ek N g - 0 * ek (S N) g)) with 0 in EX by ring. lra.
Qed.

Lemma wk_nonneg k : 0 <= v -> 0 <= wk k.
Proof.
  intros Hv. induction k as [|k IH]; cbn [wk]; [lra|].
  apply Rmult_le_pos; [nra|]. left. apply Rinv_0_lt_compat. apply lt_0_INR. lia.
Qed.

Theorem hankel_psd f : 0 <= v -> 0 <= hank v 0 f f.
Proof.
  intros Hv. rewrite (hank_identity f f (length f)) by lia.
  induction (S (length f)) as [|n IH]; cbn [rsumn]; [lra|].
  pose proof (wk_nonneg n Hv). pose proof (Rle_0_sqr (ek n f)) as Hs. unfold Rsqr in Hs. nra.
Qed.
End Hankel.

Section PolySpace.
Variable v : R.
Hypothesis Hv : 0 <= v.

Lemma hank_sym f g : hank v 0 f g = hank v 0 g f.
Proof.
  rewrite (hank_identity v f g (Nat.max (length f) (length g))) by lia.
  rewrite (hank_identity v g f (Nat.max (length f) (length g))) by lia.
  apply rsumn_ext. intros k _. ring.
Qed.

Lemma hank_add_l n f g h : hank v n (padd RKg f g) h = hank v n f h + hank v n g h.
Proof.
  revert n g. induction f as [|a f IH]; intros n g; cbn [padd hank]; [ring|].
  destruct g as [|b g]; cbn [padd hank]; [ring|]. rewrite IH.
  cbn [fadd RKg]. ring.
Qed.

Lemma hank_scal_l n c f h : hank v n (pscale RKg c f) h = c * hank v n f h.
Proof.
  revert n. induction f as [|a f IH]; intros n; cbn [pscale map hank]; [ring|].
  fold (pscale RKg c f). rewrite IH. cbn [fmul RKg]. ring.
Qed.

Definition poly_space : ipspace :=
  mkIP (list R) (padd RKg) (pscale RKg) [] (hank v 0)
       hank_sym (hank_add_l 0) (hank_scal_l 0) (fun _ => eq_refl) (fun f => hankel_psd v f Hv).

End PolySpace.

(* the moments of the standard normal law (v = 1): 1, 0, 1, 0, 3;  E((1 + y)^2) = 2 *)
Example hank_example : hank 1 0 [1; 1] [1; 1] = 2 /\ hank 1 0 [0; 0; 1] [0; 0; 1] = 3.
Proof. unfold hank, Eaux, mom. cbn [mom2 fst snd ofnat RKg f0 f1 fadd fmul]. split; ring. Qed.

(* The whole property, with the analytic bridge B3 as an explicit HYPOTHESIS: if the four arrays
   are Gram matrices (of the basis functions in L2, of their gradients, of the basis functions
   under the weight q/|r-C|, of the pair densities under the Coulomb form) then every bound the
   property states holds. *)
Lemma psd_ext {I} (G M : I -> I -> R) : (forall a b, G a b = M a b) -> psd M -> psd G.
Proof. intros H HM l. rewrite (qf_ext G M l H). apply HM. Qed.

Lemma gram_rep_symm_psd {I} (M : I -> I -> R) :
  (exists (S : ipspace) (phi : I -> vec S), forall a b, M a b = ip S (phi a) (phi b)) -> symm M /\ psd M.
Proof.
  intros [S [phi H]]. split; [intros a b; rewrite !H; apply ip_sym|].
  apply (psd_ext M (gram S phi) H), gram_psd.
Qed.

Lemma VG_bounds (I : Type) (Vm : I -> I -> R) (G : I -> I -> I -> I -> R) (q : R) :
  0 <= q ->
  (exists (W : ipspace) (phi : I -> vec W), forall a b, Vm a b = - q * ip W (phi a) (phi b)) ->
  (exists (C : ipspace) (rho : I -> I -> vec C), forall a b c d, G a b c d = ip C (rho a b) (rho c d)) ->
  symm Vm /\ nsd Vm /\
  psd (fun p r : I * I => G (fst p) (snd p) (fst r) (snd r)) /\
  (forall a b c d, G a b c d = G c d a b) /\
  (forall a b, 0 <= G a b a b) /\
  (forall a b c d, G a b c d * G a b c d <= G a b a b * G c d c d).
Proof.
  intros Hq [W [wphi HV]] [C [rho HG]]. repeat split.
  - intros a b. rewrite !HV. f_equal. apply ip_sym.
  - intros l. rewrite (qf_ext Vm (fun a b => - q * gram W wphi a b) l HV). apply neg_charge_nsd. exact Hq.
  - apply (psd_ext _ (eri_mat C rho)); [intros p r; apply HG | apply eri_pair_psd].
  - intros a b c d. rewrite !HG. apply ip_sym.
  - intros a b. rewrite HG. apply ip_pos.
  - intros a b c d. rewrite !HG. apply (eri_schwarz C rho).
Qed.

Theorem all_bounds_from_B3 (I : Type) (Sm Tm Vm : I -> I -> R) (G : I -> I -> I -> I -> R) (q : R) :
  0 <= q ->
  (exists (L2 : ipspace) (phi : I -> vec L2), forall a b, Sm a b = ip L2 (phi a) (phi b)) ->
  (exists (H1 : ipspace) (dphi : I -> vec H1), forall a b, Tm a b = ip H1 (dphi a) (dphi b)) ->
  (exists (W : ipspace) (phi : I -> vec W), forall a b, Vm a b = - q * ip W (phi a) (phi b)) ->
  (exists (C : ipspace) (rho : I -> I -> vec C), forall a b c d, G a b c d = ip C (rho a b) (rho c d)) ->
  (forall a, Sm a a = 1) ->
  symm Sm /\ psd Sm /\ (forall a b, Rabs (Sm a b) <= 1) /\
  symm Tm /\ psd Tm /\
  symm Vm /\ nsd Vm /\
  psd (fun p r : I * I => G (fst p) (snd p) (fst r) (snd r)) /\
  (forall a b c d, G a b c d = G c d a b) /\
  (forall a b, 0 <= G a b a b) /\
  (forall a b c d, G a b c d * G a b c d <= G a b a b * G c d c d).
Proof.
  intros Hq HS HT HV HG Hdiag.
  destruct (gram_rep_symm_psd Sm HS) as [Ssym Spsd]. destruct (gram_rep_symm_psd Tm HT) as [Tsym Tpsd].
  split; [exact Ssym|]. split; [exact Spsd|]. split; [intros a b; apply psd_unit_diag_bound; auto|].
  split; [exact Tsym|]. split; [exact Tpsd|]. exact (VG_bounds I Vm G q Hq HV HG).
Qed.

(* the hypotheses are jointly satisfiable: one function, all four arrays from R^2 *)
Example all_bounds_hypotheses_satisfiable :
  exists (Sm Tm Vm : unit -> unit -> R) (G : unit -> unit -> unit -> unit -> R),
  (exists (L2 : ipspace) (phi : unit -> vec L2), forall a b, Sm a b = ip L2 (phi a) (phi b)) /\
  (exists (H1 : ipspace) (dphi : unit -> vec H1), forall a b, Tm a b = ip H1 (dphi a) (dphi b)) /\
  (exists (W : ipspace) (phi : unit -> vec W), forall a b, Vm a b = - 2 * ip W (phi a) (phi b)) /\
  (exists (C : ipspace) (rho : unit -> unit -> vec C), forall a b c d, G a b c d = ip C (rho a b) (rho c d)) /\
  (forall a, Sm a a = 1).
Proof.
  exists (fun _ _ => 1), (fun _ _ => 4), (fun _ _ => -2), (fun _ _ _ _ => 1).
  repeat split.
  - exists R2, (fun _ => (1, 0)). intros. cbn. ring.
  - exists R2, (fun _ => (0, 2)). intros. cbn. ring.
  - exists R2, (fun _ => (1, 0)). intros. cbn. ring.
  - exists R2, (fun _ _ => (1, 0)). intros. cbn. ring.
Qed.
