(* Proofs/OrientP.v — both orientations of a shell pair agree AS COMPUTED (property C11).

   The recursion of _moment_int.py / _diff_operator_int.py is not symmetric in its two
   arguments: the row over the left angular momentum is built first, the rows over the right
   one afterwards, the derivative acts on the left function (with padding).  The theorems say
   that the table computed for (A, alpha, la | B, beta, lb), read at [k][j][i], and the table
   computed INDEPENDENTLY for the swapped pair (B, beta, lb | A, alpha, la), read at [k][i][j],
   hold the same number (times (-1)^k for the k-th derivative table): both hold the closed-form
   one-axis integral, which is symmetric (CoreBlockP.T1_sym) resp. picks up the sign under
   integration by parts (CoreDiffP.D1_swap).
   Stated at table level (one axis, one primitive pair) for all la, lb, orders, exponents and
   centres; the block-level statements are mm_block_sym and diffop_block_swap. *)
From Coq Require Import List Arith Lia Field.
From GB Require Import Base.Field Base.FNum Base.Tables Gauss.Moment1D Model.Shell Model.MomentInt
  Model.DiffOp Proofs.MomentIntP Proofs.DiffOpP Proofs.CoreBlockP Proofs.CoreDiffP.
Import ListNotations.

Section P.
Context {F : Type} (K : Fops F) (Kf : is_field K).
Add Field KF_or : Kf.
Local Open Scope F_scope.
Notation "0" := (f0 K) : F_scope.
Notation "1" := (f1 K) : F_scope.
Infix "+" := (fadd K) : F_scope.
Infix "*" := (fmul K) : F_scope.
Notation "- x" := (fopp K x) : F_scope.

Variables (Ax Bx Cx alpha beta : F).
Hypothesis Hp : psum K alpha beta <> 0.
Hypothesis H2 : 1 + 1 <> 0.

Lemma Hp' : psum K beta alpha <> 0.
Proof. rewrite (psum_sym K Kf). exact Hp. Qed.

Theorem table_swap la lb km k j i : k <= km -> j <= lb -> i <= la ->
  nth3 K k i j (table K Bx Ax Cx beta alpha lb la km)
  = nth3 K k j i (table K Ax Bx Cx alpha beta la lb km).
Proof.
  intros Hk Hj Hi.
  rewrite !(table_T1 K Kf H2) by (assumption || exact Hp').
  now rewrite (base_sym K Kf Ax Bx), (T1_sym K Kf Ax Bx).
Qed.

Fixpoint sg (k : nat) (x : F) : F := match k with O => x | S k' => - sg k' x end.

Lemma sg_fneg1pow k x : sg k x = fneg1pow K k * x.
Proof.
  induction k as [|k IH]; cbn [sg].
  - unfold fneg1pow. cbn [Nat.even]. ring.
  - rewrite IH, (fneg1pow_S K Kf). ring.
Qed.

(* the k-th derivative table of the swapped pair is (-1)^k times the transposed table:
   k = 1 (momentum, angular momentum) antisymmetric, k = 2 (kinetic energy) symmetric *)
Theorem dtable_swap la lb D k j i : k <= D -> j <= lb -> i <= la ->
  nth3 K k i j (dtable K Bx Ax beta alpha lb la D)
  = sg k (nth3 K k j i (dtable K Ax Bx alpha beta la lb D)).
Proof.
  intros Hk Hj Hi.
  rewrite (diffop_slice_is_deriv_b K Kf Bx Ax beta alpha lb la D Hp' H2 k i j Hk Hi Hj).
  rewrite (diffop_slice_is_deriv_b K Kf Ax Bx alpha beta la lb D Hp H2 k j i Hk Hj Hi).
  rewrite sg_fneg1pow. exact (D1_swap K Kf H2 Ax Bx alpha beta k i j Hp).
Qed.

Corollary dtable_swap_first la lb D j i : 1 <= D -> j <= lb -> i <= la ->
  nth3 K 1 i j (dtable K Bx Ax beta alpha lb la D) = - nth3 K 1 j i (dtable K Ax Bx alpha beta la lb D).
Proof. intros. now rewrite dtable_swap by assumption. Qed.
Corollary dtable_swap_second la lb D j i : 2 <= D -> j <= lb -> i <= la ->
  nth3 K 2 i j (dtable K Bx Ax beta alpha lb la D) = nth3 K 2 j i (dtable K Ax Bx alpha beta la lb D).
Proof. intros. rewrite dtable_swap by assumption. cbn [sg]. ring. Qed.
End P.
