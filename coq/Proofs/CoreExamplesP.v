(* Proofs/CoreExamplesP.v — the hypotheses of the block-level theorems (Proofs/CoreBlockP.v,
   CoreDiffP.v) are satisfiable: a concrete non-trivial instance over the executable field Qc
   (any oracle closures): a generalized d shell (K = 2 primitives, M = 2 segments, 6 components)
   against an off-centre p shell, with every index hypothesis in range. *)
From Coq Require Import List Arith Lia ZArith QArith Qcanon.
From GB Require Import Base.Field Base.FNum Base.Tables Model.Shell Model.MomentInt
  Proofs.CoreSumP Proofs.CoreBlockP.
Import ListNotations.
Local Open Scope nat_scope.

Section Ex.
Variables (opi : Qc) (osqrt oexp oln : Qc -> Qc) (oboys : nat -> Qc -> Qc).
Definition KQ : Fops Qc := QcK true opi osqrt oexp oln oboys.

Definition q (n : Z) (d : positive) : Qc := Q2Qc (Qmake n d).

Definition ex_sa : shell Qc :=
  mkShell Qc 2 (q 0 1) (q 0 1) (q 0 1) [q 1 2; q 2 1] [[q 1 1; q 1 2]; [q 1 3; q 1 1]] false [] [].
Definition ex_sb : shell Qc :=
  mkShell Qc 1 (q 1 2) (q (-1) 1) (q 0 1) [q 3 4] [[q 1 1]] false [] [].

Lemma KQ_field : is_field KQ.
Proof. apply QcK_field. Qed.

Lemma KQ_apx : forall x : Qc, fapx KQ x = x.
Proof. reflexivity. Qed.

Lemma KQ_two : fadd KQ (f1 KQ) (f1 KQ) <> f0 KQ.
Proof. apply qc_neq. vm_compute. reflexivity. Qed.

Lemma ex_wf_a : wf_shell ex_sa.
Proof. apply wf_shell_default; reflexivity. Qed.
Lemma ex_wf_b : wf_shell ex_sb.
Proof. apply wf_shell_default; reflexivity. Qed.

Lemma ex_exps_ok : exps_ok KQ ex_sa ex_sb.
Proof.
  intros alpha beta Ha Hb. cbn [ex_sa ex_sb s_exps In] in Ha, Hb.
  destruct Hb as [<-|[]]. destruct Ha as [<-|[<-|[]]]; apply qc_neq; vm_compute; reflexivity.
Qed.

Lemma ex_ranges :
  1 < nseg ex_sa /\ 5 < length (comps_of ex_sa) /\ 0 < nseg ex_sb /\ 2 < length (comps_of ex_sb).
Proof. vm_compute. repeat split; lia. Qed.

Theorem block_hypotheses_satisfiable :
  is_field KQ /\ (forall x : Qc, fapx KQ x = x) /\ fadd KQ (f1 KQ) (f1 KQ) <> f0 KQ
  /\ wf_shell ex_sa /\ wf_shell ex_sb /\ exps_ok KQ ex_sa ex_sb /\ exps_ok KQ ex_sa ex_sa
  /\ 1 < nseg ex_sa /\ 5 < length (comps_of ex_sa) /\ 0 < nseg ex_sb /\ 2 < length (comps_of ex_sb).
Proof.
  refine (conj KQ_field (conj KQ_apx (conj KQ_two (conj ex_wf_a (conj ex_wf_b (conj ex_exps_ok
           (conj _ ex_ranges))))))).
  intros alpha beta Ha Hb. cbn [ex_sa s_exps In] in Ha, Hb.
  destruct Ha as [<-|[<-|[]]]; destruct Hb as [<-|[<-|[]]]; apply qc_neq; vm_compute; reflexivity.
Qed.
End Ex.
