(* Proofs/BlockP.v — the default component list of angular momentum l holds exactly the triples of
   degree l; every entry of a shell-pair block built by [block_of] (_cleanup_intermediate_integrals:
   the two tensordots and the final transpose) is the defining double sum [entry_sum] over the
   primitives of b and of a. *)
From Coq Require Import List Arith Lia.
From GB Require Import Base.Field Base.Tables Model.Shell Model.MomentInt.
Import ListNotations.

Lemma default_comps_degree l c : In c (default_comps l) -> fst (fst c) + snd (fst c) + snd c = l.
Proof.
  unfold default_comps. intros H. apply in_flat_map in H. destruct H as [xx [Hxx H]].
  cbv zeta in H. apply in_map_iff in H. destruct H as [yy [E Hyy]]. subst c.
  apply in_seq in Hxx. apply in_seq in Hyy. cbn [fst snd]. lia.
Qed.

Lemma default_comps_all l x y z : x + y + z = l -> In (x, y, z) (default_comps l).
Proof.
  intros H. unfold default_comps. apply in_flat_map. exists (l - x). split.
  - apply in_seq. lia.
  - cbv zeta. apply in_map_iff. exists (l - x - y). split.
    + f_equal; [f_equal|]; lia.
    + apply in_seq. lia.
Qed.

Section P.
Context {F : Type} (K : Fops F).
Local Open Scope F_scope.
Notation "0" := (f0 K) : F_scope.
Infix "*" := (fmul K) : F_scope.
Notation fsum := (FNum.fsum K).

Lemma combine_map_l {A B C} (g : A -> C) (l : list A) (l2 : list B) :
  combine (map g l) l2 = map (fun p => (g (fst p), snd p)) (combine l l2).
Proof. revert l2; induction l as [|a l IH]; intros [|b l2]; cbn; [reflexivity..|]. now rewrite IH. Qed.

Lemma length_norms (s : shell F) : length (norms K s) = length (comps_of s).
Proof. unfold norms. apply map_length. Qed.

Lemma nth_map_combine {A B C} (f : A * B -> C) (la : list A) (lb : list B) i da db dc :
  i < length la -> length lb = length la ->
  nth i (map f (combine la lb)) dc = f (nth i la da, nth i lb db).
Proof.
  intros Hi Hl. rewrite (nth_indep _ dc (f (da, db))) by (rewrite map_length, combine_length; lia).
  rewrite map_nth. now rewrite combine_nth by (symmetry; exact Hl).
Qed.

Definition entry_sum (sa sb : shell F) (P : list (list F)) (na nb : list F) (ma mb : nat) : F :=
  fsum (map (fun r : list F * (F * list F) =>
          fsum (map (fun q : F * (F * list F) => fst q * fst (snd q) * nth ma (snd (snd q)) 0)
                    (combine (fst r) (combine na (s_coeffs sa))))
          * fst (snd r) * nth mb (snd (snd r)) 0)
       (combine P (combine nb (s_coeffs sb)))).

Theorem block_of_entry (sa sb : shell F) (pf : comp -> comp -> list (list F)) ma ia mb ib :
  ma < nseg sa -> ia < length (comps_of sa) -> mb < nseg sb -> ib < length (comps_of sb) ->
  nth ib (nth mb (nth ia (nth ma (block_of K sa sb pf) []) []) []) 0
  = entry_sum sa sb (pf (nth ia (comps_of sa) (0, 0, 0)%nat) (nth ib (comps_of sb) (0, 0, 0)%nat))
              (nth ia (norms K sa) []) (nth ib (norms K sb) []) ma mb.
Proof.
  intros Hma Hia Hmb Hib. unfold block_of. cbv zeta.
  rewrite !combine_length, !length_norms, !Nat.min_id.
  rewrite nth_mk by exact Hma. rewrite nth_mk by exact Hia.
  rewrite nth_mk by exact Hmb. rewrite nth_mk by exact Hib.
  rewrite (nth_map_combine _ (comps_of sa) (norms K sa) ia (0,0,0)%nat [] [])
    by (rewrite ?length_norms; auto).
  rewrite (nth_map_combine _ (comps_of sb) (norms K sb) ib (0,0,0)%nat [] [])
    by (rewrite ?length_norms; auto).
  unfold contract_b. rewrite nth_mk by exact Hma. rewrite nth_mk by exact Hmb.
  unfold contract_a, entry_sum. rewrite combine_map_l, map_map.
  f_equal. apply map_ext. intros [prow [n crow]]. cbn [fst snd].
  rewrite nth_mk by exact Hma.
  f_equal. f_equal. f_equal. apply map_ext. intros [x [n' crow']]. reflexivity.
Qed.

End P.
