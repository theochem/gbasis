(* Proofs/StressP.v — the documented formulas of stress_tensor.py obey the
   definitions (property C15), for all alpha, beta, every symmetric density
   matrix, any number of basis functions, in any commutative ring with three
   derivations.  Identities between combinations are decided by [equivb]
   (vm_compute on closed terms, complete enumeration of the 3 / 9 components)
   and transported to every model by [equivb_sound]. *)
From Coq Require Import QArith Qcanon Ring List Bool Arith.
From GB Require Import Base.Field Base.Tables Gauss.Jets Model.Stress.
Import ListNotations.
Local Close Scope Qc_scope.
Local Close Scope Q_scope.
Local Open Scope nat_scope.

Lemma stress_forms_equiv i j : equivb (stress_doc1 i j) (stress_doc i j) = true.
Proof. destruct i, j; vm_compute; reflexivity. Qed.
Lemma stress_sym_equiv i j : equivb (stress_doc i j) (stress_doc j i) = true.
Proof. destruct i, j; vm_compute; reflexivity. Qed.
Lemma force_equiv j : equivb (force_doc j) (force_def j) = true.
Proof. destruct j; vm_compute; reflexivity. Qed.
Lemma hess_equiv j k : equivb (hess_doc j k) (hess_def j k) = true.
Proof. destruct j, k; vm_compute; reflexivity. Qed.
Lemma hess_symm_sym_equiv j k : equivb (hess_symm j k) (hess_symm k j) = true.
Proof. destruct j, k; vm_compute; reflexivity. Qed.

(* the term the code skips at a special value has coefficient zero there *)
Lemma skip_alpha_0 b : csubst (Some 0%Qc) b c_al = czero.
Proof. destruct b; vm_compute; reflexivity. Qed.
Lemma skip_alpha_1 b : csubst (Some 1%Qc) b c_1mal = czero.
Proof. destruct b; vm_compute; reflexivity. Qed.
Lemma skip_alpha_half b : csubst (Some qhalf) b c_1m2al = czero.
Proof. destruct b; vm_compute; reflexivity. Qed.
Lemma skip_beta_0 a : csubst a (Some 0%Qc) c_hbe = czero.
Proof.
  destruct a as [v|]; unfold csubst, c_hbe, czero;
    (apply (f_equal2 pair); [apply (f_equal2 pair)|]); try reflexivity; ring.
Qed.

Lemma all2b_nth {A B} (f : A -> B -> bool) : forall la lb, all2b f la lb = true ->
  forall n a b, nth_error la n = Some a -> nth_error lb n = Some b -> f a b = true.
Proof.
  induction la as [|x la IH]; intros [|y lb] H n a b Ha Hb; cbn [all2b] in H; try discriminate;
    destruct n; cbn [nth_error] in *; try discriminate.
  - apply andb_true_iff in H. destruct H as [H _]. now inversion Ha; inversion Hb; subst.
  - apply andb_true_iff in H. destruct H as [_ H]. eapply IH; eauto.
Qed.
Lemma all2b_length {A B} (f : A -> B -> bool) : forall la lb, all2b f la lb = true -> length la = length lb.
Proof.
  induction la as [|x la IH]; intros [|y lb] H; cbn [all2b] in H; try discriminate; [reflexivity|].
  apply andb_true_iff in H. cbn [length]. f_equal. now apply IH.
Qed.

Section P.
Context {R : Type} (K : Fops R) (Kr : is_ring K).
Add Ring KR3 : Kr.
Local Open Scope F_scope.
Notation "0" := (f0 K) : F_scope.
Notation "1" := (f1 K) : F_scope.
Infix "+" := (fadd K) : F_scope.
Infix "*" := (fmul K) : F_scope.
Infix "-" := (fsub K) : F_scope.
Notation "- x" := (fopp K x) : F_scope.

Lemma evalq_app inj G a b : evalq K inj G (a ++ b) = evalq K inj G a + evalq K inj G b.
Proof. induction a as [|u a IHa]; cbn [app evalq]; [ring|]. rewrite IHa. ring. Qed.

Section L1.
Variable inj : Qc -> R.
Hypothesis Hinj : is_qhom K inj.
Variables (alpha beta : R) (G : order -> order -> R).
Hypothesis Gsym : forall a b, G a b = G b a.
Notation ev := (eval K inj alpha beta G).
Notation evq := (evalq K inj G).
Let sound := equivb_sound K Kr inj Hinj alpha beta G Gsym.

Lemma half_half : inj qhalf + inj qhalf = 1.
Proof. rewrite <- (inj_add K inj Hinj), <- (inj_1 K inj Hinj). f_equal. apply Qc_is_canon. reflexivity. Qed.

Lemma stress_sym i j : ev (stress_doc i j) = ev (stress_doc j i).
Proof. apply sound, stress_sym_equiv. Qed.
Lemma stress_formula i j :
  ev (stress_doc i j)
  = (- alpha) * G (e_ i) (e_ j) + (1 - alpha) * G (oadd (e_ i) (e_ j)) o0
    - (if aeqb i j then inj qhalf * beta * evq lap_rho else 0).
Proof.
  unfold stress_doc. rewrite !(eval_app K Kr), !(eval_scal K Kr inj Hinj).
  rewrite (cev_opp K Kr inj Hinj). unfold c_al, c_1mal, c_hbe, sym.
  cbn [evalq cev kev fst snd]. rewrite (inj_opp K Kr inj Hinj), (inj_0 K Kr inj Hinj), (inj_1 K inj Hinj).
  unfold kev; cbn [fst snd].
  destruct (aeqb i j).
  - rewrite (eval_scal K Kr inj Hinj), (cev_opp K Kr inj Hinj). cbn [cev].
    rewrite (inj_0 K Kr inj Hinj). ring.
  - cbn [eval]. ring.
Qed.
Lemma hessian_symmetrised j k :
  ev (hess_symm j k) = inj qhalf * (ev (hess_doc j k) + ev (hess_doc k j)).
Proof. unfold hess_symm. now rewrite (eval_lscale K Kr inj Hinj), (eval_app K Kr). Qed.
Lemma hess_symm_sym j k : ev (hess_symm j k) = ev (hess_symm k j).
Proof. apply sound, hess_symm_sym_equiv. Qed.
Lemma force_eq_def j : ev (force_doc j) = ev (force_def j).
Proof. apply sound, force_equiv. Qed.
Lemma hess_eq_def j k : ev (hess_doc j k) = ev (hess_def j k).
Proof. apply sound, hess_equiv. Qed.

(* a regenerated trace table that passes [check_table] computes the specification *)
Section Traced.
Variable tt : list trace_case.
Hypothesis Hchk : check_table tt = true.
Variables (n : nat) (ab : par * par) (tc : trace_case).
Hypothesis Hab : nth_error cases n = Some ab.
Hypothesis Htc : nth_error tt n = Some tc.
(* the parameters have the values of the case (nothing is asked of a symbolic one) *)
Hypothesis Ha : forall v, fst ab = Some v -> alpha = inj v.
Hypothesis Hb : forall v, snd ab = Some v -> beta = inj v.

Lemma case_ok_parts :
  all2b equivb (t_stress tc) (spec_stress (fst ab) (snd ab)) = true
  /\ all2b equivb (t_force tc) (spec_force (fst ab) (snd ab)) = true
  /\ all2b equivb (t_hess tc) (spec_hess (fst ab) (snd ab)) = true
  /\ all2b equivb (t_hess_symm tc) (spec_hess_symm (fst ab) (snd ab)) = true.
Proof.
  pose proof (all2b_nth check_case cases tt Hchk n ab tc Hab Htc) as H. unfold check_case in H.
  rewrite !andb_true_iff in H. tauto.
Qed.

Lemma traced_component (sel : trace_case -> list comb) (spec : list comb) :
  all2b equivb (sel tc) (map (lsubst (fst ab) (snd ab)) spec) = true ->
  forall m c s, nth_error (sel tc) m = Some c -> nth_error spec m = Some s -> ev c = ev s.
Proof.
  intros H m c s Hc Hs.
  rewrite <- (eval_lsubst K Kr inj Hinj alpha beta G (fst ab) (snd ab) s Ha Hb).
  apply sound. eapply all2b_nth; [exact H|exact Hc|]. now apply map_nth_error.
Qed.

(* every component of the case is the documented formula, and nothing is missing: every case and every
   component has its traced counterpart *)
Theorem traced_table_correct :
  (forall m c s, nth_error (t_stress tc) m = Some c -> nth_error (tab2 stress_doc) m = Some s -> ev c = ev s)
  /\ (forall m c s, nth_error (t_force tc) m = Some c -> nth_error (tab1 force_doc) m = Some s -> ev c = ev s)
  /\ (forall m c s, nth_error (t_hess tc) m = Some c -> nth_error (tab2 hess_doc) m = Some s -> ev c = ev s)
  /\ (forall m c s, nth_error (t_hess_symm tc) m = Some c -> nth_error (tab2 hess_symm) m = Some s -> ev c = ev s)
  /\ length tt = length cases /\ length (t_stress tc) = 9 /\ length (t_force tc) = 3
  /\ length (t_hess tc) = 9 /\ length (t_hess_symm tc) = 9.
Proof.
  destruct case_ok_parts as (H1 & H2 & H3 & H4).
  split; [exact (traced_component t_stress _ H1)|]. split; [exact (traced_component t_force _ H2)|].
  split; [exact (traced_component t_hess _ H3)|]. split; [exact (traced_component t_hess_symm _ H4)|].
  apply all2b_length in H1, H2, H3, H4.
  unfold spec_stress, spec_force, spec_hess, spec_hess_symm in *. rewrite map_length in *.
  split; [symmetry; exact (all2b_length _ _ _ Hchk)|]. cbn in *. tauto.
Qed.
End Traced.
End L1.

Section L2.
Variable M : dmodel K.
Hypothesis Mok : dmodel_ok K M.
Notation ev := (m_eval K M).
Notation D := (m_D M).
Let Hinj := ok_inj K M Mok.
Let Gs : forall a b, m_G K M a b = m_G K M b a :=
  Gphi_sym K Kr (m_nb M) (m_P M) (m_phi M) (ok_Psym K M Mok).
Let evdk : forall k l, ev (dk k l) = D k (ev l) :=
  eval_dk_phi K Kr (m_inj M) (m_alpha M) (m_beta M) D (ok_add K M Mok) (ok_mul K M Mok)
    (ok_cinj K M Mok) (ok_alpha K M Mok) (ok_beta K M Mok) (m_nb M) (m_P M) (m_phi M)
    (ok_P K M Mok) (ok_phi K M Mok).

Lemma G_product_rule k o1 o2 : D k (m_G K M o1 o2) = m_G K M (osucc k o1) o2 + m_G K M o1 (osucc k o2).
Proof.
  apply (Gphi_deriv K Kr D (ok_add K M Mok) (ok_mul K M Mok) (m_nb M) (m_P M) (m_phi M)
           (ok_P K M Mok) (ok_phi K M Mok)).
Qed.

Lemma laplacian_meaning :
  m_evalq K M lap_rho = D AX (D AX (m_G K M o0 o0)) + D AY (D AY (m_G K M o0 o0)) + D AZ (D AZ (m_G K M o0 o0)).
Proof.
  unfold m_evalq, lap_rho, lsum, axes. cbn [flat_map].
  rewrite !evalq_app.
  rewrite !(evalq_dkq K Kr (m_inj M) D (ok_add K M Mok) (ok_mul K M Mok) (ok_cinj K M Mok)
              (m_G K M) G_product_rule).
  unfold rho, sym. cbn [evalq kev fst snd app]. rewrite (inj_1 K (m_inj M) Hinj).
  unfold kev; cbn [fst snd].
  assert (E : 1 * m_G K M o0 o0 + 0 = m_G K M o0 o0) by ring. rewrite E. ring.
Qed.

Theorem stress_tensor_formula i j :
  ev (stress_doc i j)
  = (- m_alpha M) * m_G K M (e_ i) (e_ j) + (1 - m_alpha M) * m_G K M (oadd (e_ i) (e_ j)) o0
    - (if aeqb i j then m_inj M qhalf * m_beta M *
         (D AX (D AX (m_G K M o0 o0)) + D AY (D AY (m_G K M o0 o0)) + D AZ (D AZ (m_G K M o0 o0)))
       else 0).
Proof.
  unfold m_eval. rewrite (stress_formula (m_inj M) Hinj). now rewrite <- laplacian_meaning.
Qed.

Theorem stress_symmetric i j : ev (stress_doc i j) = ev (stress_doc j i).
Proof. apply (stress_sym (m_inj M) Hinj _ _ _ Gs). Qed.

Theorem force_is_minus_div_stress j :
  ev (force_doc j)
  = - (D AX (ev (stress_doc AX j)) + D AY (ev (stress_doc AY j)) + D AZ (ev (stress_doc AZ j))).
Proof.
  unfold m_eval at 1. rewrite (force_eq_def (m_inj M) Hinj _ _ _ Gs).
  unfold force_def. rewrite (eval_lopp K Kr (m_inj M) Hinj), (eval_lsum K Kr).
  cbn [axes fold_right]. fold (m_eval K M). rewrite !evdk. ring.
Qed.

Theorem hessian_is_jacobian_of_force j k : ev (hess_doc j k) = D k (ev (force_doc j)).
Proof.
  unfold m_eval at 1. rewrite (hess_eq_def (m_inj M) Hinj _ _ _ Gs).
  unfold hess_def. fold (m_eval K M). apply evdk.
Qed.

Theorem hessian_symmetrised_avg j k :
  ev (hess_symm j k) = m_inj M qhalf * (ev (hess_doc j k) + ev (hess_doc k j))
  /\ m_inj M qhalf + m_inj M qhalf = 1
  /\ ev (hess_symm j k) = ev (hess_symm k j).
Proof.
  split; [apply (hessian_symmetrised (m_inj M) Hinj)|].
  split; [apply (half_half (m_inj M) Hinj)|].
  apply (hess_symm_sym (m_inj M) Hinj _ _ _ Gs).
Qed.
End L2.
End P.

(* the hypotheses are satisfiable: rationals, constant basis functions (all derivatives vanish): a degenerate but
   genuine model; ExDual below has non-zero derivatives *)
Section ExConst.
Local Open Scope Qc_scope.
Definition exK : Fops Qc := QcK true 0 (fun x => x) (fun x => x) (fun x => x) (fun _ x => x).
Definition exKr : is_ring exK := F_R (QcK_field true 0 (fun x => x) (fun x => x) (fun x => x) (fun _ x => x)).
Definition exM : dmodel exK :=
  mkdmodel Qc exK (fun q => q) (Q2Qc (1 # 3)) (Q2Qc (2 # 1)) (fun _ _ => 0) 2%nat
           (fun a b => Q2Qc (Z.of_nat (a + b) # 1))
           (fun o a => if oeqb o o0 then Q2Qc (Z.of_nat (S a) # 1) else 0).
Lemma exM_ok : dmodel_ok exK exM.
Proof.
  constructor; cbn [exM exK QcK m_inj m_alpha m_beta m_D m_nb m_P m_phi f0 f1 fadd fmul].
  - unfold is_qhom. cbn [exK QcK f1 fadd fmul]. split; [|split]; intros.
    + reflexivity.
    + now rewrite qc_add_eq.
    + now rewrite qc_mul_eq.
  - intros. rewrite qc_add_eq. ring.
  - intros. rewrite qc_add_eq, !qc_mul_eq. ring.
  - reflexivity.
  - reflexivity.
  - reflexivity.
  - reflexivity.
  - intros k [[a b] c] i. destruct k; cbn [osucc oeqb o0 Nat.eqb andb]; rewrite ?andb_false_r; reflexivity.
  - intros a b. now rewrite Nat.add_comm.
Qed.
End ExConst.

(* A model with non-vanishing derivatives of every order: dual numbers a + b.eps (eps^2 = 0) over Qc
   with the derivations D_k (a + b.eps) = c_k b.eps; phi^o_a = [o=0] + c^o s_a eps
   (first-order germ of 1 + s_a (exp(c.r) - 1) eps). *)
Section ExDual.
Local Open Scope Qc_scope.
Definition dual := (Qc * Qc)%type.
Definition d_add (x y : dual) : dual := (fst x + fst y, snd x + snd y).
Definition d_mul (x y : dual) : dual := (fst x * fst y, fst x * snd y + snd x * fst y).
Definition d_opp (x : dual) : dual := (- fst x, - snd x).
Definition d_sub (x y : dual) : dual := d_add x (d_opp y).
Definition dualK : Fops dual :=
  mkFops dual (0, 0) (1, 0) d_add d_mul d_sub d_opp (fun x _ => x) (fun x => x)
         (fun _ _ => true) (fun _ _ => true) (0, 0) (fun x => x) (fun x => x) (fun x => x) (fun _ x => x) (fun x => x).
Lemma dualKr : is_ring dualK.
Proof.
  constructor; cbn [dualK f0 f1 fadd fmul fsub fopp]; unfold d_sub, d_add, d_mul, d_opp;
    intros; repeat match goal with x : dual |- _ => destruct x end; cbn [fst snd];
    try reflexivity; apply (f_equal2 pair); ring.
Qed.
Definition cdir (k : axis) : Qc := match k with AX => Q2Qc (1 # 2) | AY => Q2Qc (2 # 1) | AZ => Q2Qc (-3 # 1) end.
Definition cpow (o : order) : Qc :=
  let '(a, b, c) := o in Qcpower (cdir AX) a * Qcpower (cdir AY) b * Qcpower (cdir AZ) c.
Definition dualM : dmodel dualK :=
  mkdmodel dual dualK (fun q => (q, 0)) (Q2Qc (1 # 3), 0) (Q2Qc (2 # 1), 0)
           (fun k x => (0, cdir k * snd x)) 2%nat
           (fun a b => (Q2Qc (Z.of_nat (a + b) # 1), 0))
           (fun o a => ((if oeqb o o0 then 1 else 0), cpow o * Q2Qc (Z.of_nat (S a) # 1))).
Lemma dualM_ok : dmodel_ok dualK dualM.
Proof.
  constructor; cbn [dualM dualK m_inj m_alpha m_beta m_D m_nb m_P m_phi f0 f1 fadd fmul];
    unfold d_add, d_mul; cbn [fst snd].
  (* the ring-like conditions hold componentwise *)
  2-7: intros; apply (f_equal2 pair); ring.
  - split; [reflexivity|]. split; intros; cbn [dualK fadd fmul]; unfold d_add, d_mul; cbn [fst snd];
      apply (f_equal2 pair); ring.
  - intros k [[a b] c] i. apply (f_equal2 pair).
    + destruct k; cbn [osucc oeqb o0 Nat.eqb andb]; rewrite ?andb_false_r; reflexivity.
    + destruct k; cbn [osucc cpow cdir Qcpower]; ring.
  - intros a b. now rewrite Nat.add_comm.
Qed.
(* the derivations are not trivial in this model *)
Lemma dualM_nontrivial : m_D dualM AX (m_phi dualM o0 0%nat) <> f0 dualK.
Proof. cbn. intro H. inversion H. Qed.
End ExDual.
