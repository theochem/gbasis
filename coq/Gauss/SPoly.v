(* Gauss/SPoly.v — the vertical (Obara–Saika) recursion with auxiliary index m,
   over any commutative ring, for ANY sequence beta (no property of the Boys
   function is used).

   With s = t^2 the Coulomb integrand is, for each s, a Gaussian moment with
   variance v (1 - s) and centre PA - s PC, both polynomial in s (DESIGN.md 2.4).
   [Vf a m] is the function the code's recursion defines along one axis,
   [Pc a] a polynomial in s attached to the angular index a:
     V_is_Phi : Vf a m = Phi_m (Pc a)   where Phi_m (s^k) = beta (m + k)
     Pc_eval  : peval (Pc a) s = E_{v(1-s)} ((y + PA - s PC)^a)
   so the array entry is the linear functional Phi_m applied to the exact
   per-s Gaussian moment. *)
From Coq Require Import List Arith Lia Field.
From GB Require Import Base.Field Gauss.Moment1D.
Import ListNotations.

Section SPoly.
Context {F : Type} (K : Fops F) (Kf : is_field K).
Add Field KFsp : Kf.
Local Open Scope F_scope.
Notation "0" := (f0 K) : F_scope.
Notation "1" := (f1 K) : F_scope.
Infix "+" := (fadd K) : F_scope.
Infix "*" := (fmul K) : F_scope.
Infix "-" := (fsub K) : F_scope.
Notation "- x" := (fopp K x) : F_scope.
Notation "# n" := (ofnat K n) (at level 5) : F_scope.
Notation padd := (padd K).
Notation pscale := (pscale K).

Variables (pa pc v : F).          (* PA, PC, 1/(2p) along one axis *)
Variable beta : nat -> F.         (* beta m = (2 pi/p) K_AB F_m(T): ANY sequence *)

Fixpoint V2 (a : nat) : (nat -> F) * (nat -> F) :=   (* (V a, V (a+1)) *)
  match a with
  | O => (beta, fun m => pa * beta m - pc * beta (S m))
  | S a' => let '(Va, Va1) := V2 a' in
            (Va1, fun m => pa * Va1 m - pc * Va1 (S m) + #(S a') * v * (Va m - Va (S m)))
  end.
Definition Vf a := fst (V2 a).
Lemma Vf_0 m : Vf O m = beta m. Proof. reflexivity. Qed.
Lemma Vf_1 m : Vf (S O) m = pa * beta m - pc * beta (S m). Proof. reflexivity. Qed.
Lemma Vf_SS a m : Vf (S (S a)) m =
  pa * Vf (S a) m - pc * Vf (S a) (S m) + #(S a) * v * (Vf a m - Vf a (S m)).
Proof. unfold Vf. cbn [V2]. destruct (V2 a) as [Va Va1] eqn:E. cbn [fst]. reflexivity. Qed.

Fixpoint peval (f : list F) (s : F) : F := match f with [] => 0 | c :: f' => c + s * peval f' s end.
Fixpoint Phi (m : nat) (f : list F) : F :=
  match f with [] => 0 | c :: f' => c * beta m + Phi (S m) f' end.
Definition psub (f g : list F) := padd f (pscale (fopp K (f1 K)) g).

Lemma peval_padd f g s : peval (padd f g) s = peval f s + peval g s.
Proof. revert g; induction f as [|a f IH]; intros g; cbn [Moment1D.padd peval]; [ring|].
  destruct g as [|b g]; cbn [peval]; [ring|]. rewrite IH. ring. Qed.
Lemma peval_pscale c f s : peval (pscale c f) s = c * peval f s.
Proof. induction f as [|a f IH]; cbn [Moment1D.pscale map peval]; [ring|].
  fold (pscale c f). rewrite IH. ring. Qed.
Lemma Phi_padd m f g : Phi m (padd f g) = Phi m f + Phi m g.
Proof. exact (Lsum_padd K Kf beta m f g). Qed.
Lemma Phi_pscale m c f : Phi m (pscale c f) = c * Phi m f.
Proof. exact (Lsum_pscale K Kf beta m c f). Qed.
Lemma Phi_shift m f : Phi m (0 :: f) = Phi (S m) f. Proof. cbn [Phi]. ring. Qed.
Lemma peval_shift f s : peval (0 :: f) s = s * peval f s. Proof. cbn [peval]. ring. Qed.

Fixpoint Pc2 (a : nat) : list F * list F :=
  match a with
  | O => ([1], [pa; - pc])
  | S a' => let '(Pa, Pa1) := Pc2 a' in
     (Pa1, padd (psub (pscale pa Pa1) (pscale pc (0 :: Pa1)))
                (pscale (#(S a') * v) (psub Pa (0 :: Pa))))
  end.
Definition Pc a := fst (Pc2 a).
Lemma Pc_SS a : Pc (S (S a)) = padd (psub (pscale pa (Pc (S a))) (pscale pc (0 :: Pc (S a))))
                                   (pscale (#(S a) * v) (psub (Pc a) (0 :: Pc a))).
Proof. unfold Pc. cbn [Pc2]. destruct (Pc2 a) as [Pa Pa1]. reflexivity. Qed.

Theorem V_is_Phi : forall a m, Vf a m = Phi m (Pc a) /\ Vf (S a) m = Phi m (Pc (S a)).
Proof. induction a as [|a IH]; intros m.
  - split; [rewrite Vf_0 | rewrite Vf_1]; unfold Pc; cbn [Pc2 fst Phi]; ring.
  - split; [apply IH|]. rewrite Vf_SS, Pc_SS.
    unfold psub. rewrite !Phi_padd, !Phi_pscale, !Phi_padd, !Phi_pscale, !Phi_shift.
    destruct (IH m) as [H0 H1]. destruct (IH (S m)) as [H0' H1'].
    rewrite H0, H1, H0', H1'. ring.
Qed.

Definition Gs (s : F) (a : nat) : F := S3 K (v * (1 - s)) (pa - s * pc) 0 0 0%nat 0%nat a 0%nat.

Lemma Gs_0 s : Gs s O = 1.
Proof. unfold Gs. apply (S3_000 K Kf). Qed.
Lemma Gs_S s a : Gs s (S a) = (pa - s * pc) * Gs s a
   + v * (1 - s) * match a with O => 0 | S a' => #a * Gs s a' end.
Proof. unfold Gs. rewrite (OS3_a K Kf). unfold lower, dn. destruct a; ring. Qed.

Theorem Pc_eval : forall a s, peval (Pc a) s = Gs s a /\ peval (Pc (S a)) s = Gs s (S a).
Proof. induction a as [|a IH]; intros s.
  - split; [rewrite Gs_0 | rewrite Gs_S, Gs_0]; unfold Pc; cbn [Pc2 fst peval]; ring.
  - split; [apply IH|]. rewrite Pc_SS. unfold psub.
    rewrite !peval_padd, !peval_pscale, !peval_padd, !peval_pscale, !peval_shift.
    destruct (IH s) as [H0 H1]. rewrite H0, H1.
    rewrite (Gs_S s (S a)). ring.
Qed.

End SPoly.

(* Vf depends on beta only through beta m .. beta (m + a): entries of the NumPy array with
   m + a <= L never depend on the (zero-filled, meaningless) row m = L+1 *)
Section Locality.
Context {F : Type} (K : Fops F).
Variables (pa pc v : F).
Lemma Vf_depends_on (b1 b2 : nat -> F) : forall a m,
  (forall k, k <= a -> b1 (m + k)%nat = b2 (m + k)%nat) -> Vf K pa pc v b1 a m = Vf K pa pc v b2 a m.
Proof.
  induction a as [| |a IH0 IH1] using nat_ind2; intros m H.
  - rewrite !Vf_0, <- (Nat.add_0_r m). apply H. lia.
  - pose proof (H 0%nat ltac:(lia)) as H0. pose proof (H 1%nat ltac:(lia)) as H1.
    rewrite Nat.add_0_r in H0. rewrite Nat.add_1_r in H1. now rewrite !Vf_1, H0, H1.
  - assert (Hs : forall k, k <= S a -> b1 (S m + k)%nat = b2 (S m + k)%nat).
    { intros k Hk. replace (S m + k)%nat with (m + S k)%nat by lia. apply H. lia. }
    rewrite !Vf_SS, (IH1 m), (IH1 (S m) Hs), (IH0 m), (IH0 (S m)) by (intros; (apply H || apply Hs); lia).
    reflexivity.
Qed.

Lemma Vf_local (b1 b2 : nat -> F) a : forall m,
  (forall k, k <= S a -> b1 (m + k)%nat = b2 (m + k)%nat) ->
  Vf K pa pc v b1 a m = Vf K pa pc v b2 a m /\
  ((forall k, k <= S a -> b1 (m + k)%nat = b2 (m + k)%nat) ->
   Vf K pa pc v b1 (S a) m = Vf K pa pc v b2 (S a) m).
Proof.
  intros m H. split; [|intros _]; apply Vf_depends_on; [intros k Hk; apply H; lia | exact H].
Qed.
End Locality.
