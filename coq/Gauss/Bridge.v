(* Gauss/Bridge.v — algebraic half of the analytic bridge (B1) of DESIGN.md 2.6, over any field.

   Polynomials in y = x - P are coefficient lists (low degree first), as in Gauss/Moment1D.v.
   [gderiv p f] is the polynomial q with  d/dy [ f(y) e^{-p y^2} ] = q(y) e^{-p y^2},
   i.e. q = f' - 2 p y f   (proved as [is_derive] over R in Gauss/BridgeR.v).

   UNIQUENESS ([bridge_uniqueness]): a functional I on coefficient lists that is additive for
   [padd], homogeneous for [pscale] and vanishes on [gderiv p (y^n)] for every n equals
   I [1] * E, where E is the moment functional of Moment1D.v with v = 1/(2p) (given division-free
   as 2 p v = 1).  Nothing is assumed about trailing zeros or extensional equality of lists: it
   follows.  CONVERSE ([E_linear], [E_kills_derivatives]): E satisfies these laws, for every f.
   Hence [bridge_characterisation]: among linear functionals, "kills derivatives of
   polynomial x Gaussian" <-> "is a multiple of E".

   Also: the Gaussian product identity a(x-A)^2 + b(x-B)^2 = p(x-P)^2 + mu(A-B)^2.
   No axioms, no ordered structure, no ofnat-injectivity needed. *)
From Coq Require Import List Arith Lia Field.
From GB Require Import Base.Field Gauss.Moment1D.
Import ListNotations.

Section Bridge.
Context {F : Type} (K : Fops F) (Kf : is_field K).
Add Field KFbr : Kf.
Local Open Scope F_scope.
Notation "0" := (f0 K) : F_scope.
Notation "1" := (f1 K) : F_scope.
Infix "+" := (fadd K) : F_scope.
Infix "*" := (fmul K) : F_scope.
Infix "-" := (fsub K) : F_scope.
Infix "/" := (fdiv K) : F_scope.
Notation "- x" := (fopp K x) : F_scope.
Notation "# n" := (ofnat K n) (at level 5) : F_scope.

Notation poly := (list F).
Notation padd := (padd K).
Notation pscale := (pscale K).
Notation pshift := (pshift K).
Notation pderiv := (pderiv K).
Notation pderiv_aux := (pderiv_aux K).
Notation Lsum := (Lsum K).

Section Sequence.
Variables p v : F.
Hypothesis Hpv : (1 + 1) * p * v = 1.          (* v = 1/(2p), division-free *)

(* J 1 = 0 and n J(n-1) - 2p J(n+1) = 0 for n >= 1 (written with n-1 =: n) *)
Definition gauss_moment_laws (J : nat -> F) : Prop :=
  J 1%nat = 0 /\ forall n, #(S n) * J n - (1 + 1) * p * J (S (S n)) = 0.

Lemma moments_unique (J : nat -> F) :
  gauss_moment_laws J -> forall n, J n = J 0%nat * mom K v n.
Proof.
  intros [H1 Hrec]. apply (mom_unique K Kf v J H1). intro n.
  transitivity ((1 + 1) * p * v * J (S (S n)) + v * (#(S n) * J n - (1 + 1) * p * J (S (S n))));
    [rewrite Hpv, Hrec|]; ring.
Qed.

Lemma mom_satisfies_laws (c0 : F) : gauss_moment_laws (fun n => c0 * mom K v n).
Proof.
  split; [rewrite mom_1; ring|]. intro n. rewrite (mom_SS K).
  transitivity (#(S n) * (c0 * mom K v n) * (1 - (1 + 1) * p * v)); [ring|]. rewrite Hpv. ring.
Qed.
End Sequence.

Fixpoint shiftn (n : nat) (f : poly) : poly :=      (* y^n f *)
  match n with O => f | S k => 0 :: shiftn k f end.
Definition mono (n : nat) : poly := shiftn n [1].   (* y^n *)

Definition plinear (I : poly -> F) : Prop :=
  (forall f g, I (padd f g) = I f + I g) /\ (forall c f, I (pscale c f) = c * I f).

Lemma shiftn_cons n c f : shiftn n (c :: f) = padd (pscale c (mono n)) (shiftn (S n) f).
Proof.
  unfold mono. induction n as [|n IH]; cbn [shiftn Moment1D.pscale map Moment1D.padd].
  - f_equal. ring.
  - f_equal; [ring | exact IH].
Qed.

Lemma shiftn_nil_zero n : shiftn n [] = pscale 0 (shiftn n []).
Proof. induction n as [|n IH]; [reflexivity|]. cbn [shiftn Moment1D.pscale map].
  fold (pscale 0 (shiftn n [])). rewrite <- IH. f_equal. ring. Qed.

Lemma linear_expand (I : poly -> F) : plinear I ->
  forall f n, I (shiftn n f) = Lsum (fun k => I (mono k)) n f.
Proof.
  intros [Hadd Hsc]. induction f as [|c f IH]; intro n.
  - cbn [Lsum]. rewrite shiftn_nil_zero, Hsc. ring.
  - rewrite shiftn_cons, Hadd, Hsc, IH. reflexivity.
Qed.

Corollary linear_determined (I : poly -> F) : plinear I ->
  forall f, I f = Lsum (fun k => I (mono k)) 0 f.
Proof. intros H f. exact (linear_expand I H f 0%nat). Qed.

Lemma Lsum_shiftn J k f : forall n, Lsum J n (shiftn k f) = Lsum J (k + n) f.
Proof. induction k as [|k IH]; intro n; [reflexivity|]. cbn [shiftn Lsum]. rewrite IH.
  replace (k + S n)%nat with (S k + n)%nat by lia. ring. Qed.
Lemma Lsum_mono J n k : Lsum J n (mono k) = J (k + n)%nat.
Proof. unfold mono. rewrite Lsum_shiftn. cbn [Lsum]. ring. Qed.
Lemma Lsum_pderiv_aux_mono J k : forall n j,
  Lsum J n (pderiv_aux j (mono k)) = #(j + k) * J (k + n)%nat.
Proof. induction k as [|k IH]; intros n j.
  - cbn [mono shiftn Moment1D.pderiv_aux Lsum]. rewrite Nat.add_0_r. cbn [Nat.add]. ring.
  - change (mono (S k)) with (0 :: mono k). cbn [Moment1D.pderiv_aux Lsum]. rewrite IH.
    replace (S j + k)%nat with (j + S k)%nat by lia.
    replace (k + S n)%nat with (S k + n)%nat by lia. ring. Qed.

Variables p v : F.
Hypothesis Hpv : (1 + 1) * p * v = 1.

Definition gderiv (f : poly) : poly := padd (pderiv f) (pscale (- ((1 + 1) * p)) (pshift f)).

Definition kills_derivatives (I : poly -> F) : Prop := forall n, I (gderiv (mono n)) = 0.
Definition kills_all_derivatives (I : poly -> F) : Prop := forall f, I (gderiv f) = 0.

Lemma kills_all_kills I : kills_all_derivatives I -> kills_derivatives I.
Proof. intros H n. apply H. Qed.

Lemma Lsum_gderiv_mono J n :
  Lsum J 0 (gderiv (mono n)) =
  match n with O => 0 | S k => #n * J k end - (1 + 1) * p * J (S n).
Proof.
  unfold gderiv. rewrite (Lsum_padd K Kf), (Lsum_pscale K Kf), (Lsum_pshift K Kf), Lsum_mono.
  replace (n + 1)%nat with (S n) by lia.
  destruct n as [|k].
  - cbn [mono shiftn Moment1D.pderiv Moment1D.pderiv_aux Lsum]. ring.
  - change (mono (S k)) with (0 :: mono k). cbn [Moment1D.pderiv].
    rewrite Lsum_pderiv_aux_mono. rewrite Nat.add_0_r. change (1 + k)%nat with (S k). ring.
Qed.

Lemma kills_gives_laws I : plinear I -> kills_derivatives I ->
  gauss_moment_laws p (fun k => I (mono k)).
Proof.
  intros HL HK. split.
  - pose proof (HK 0%nat) as H0. rewrite (linear_determined I HL), Lsum_gderiv_mono in H0.
    transitivity (v * (- (0 - (1 + 1) * p * I (mono 1)))).
    + transitivity (((1 + 1) * p * v) * I (mono 1)); [rewrite Hpv|]; ring.
    + rewrite H0. ring.
  - intro n. pose proof (HK (S n)) as Hn.
    rewrite (linear_determined I HL), Lsum_gderiv_mono in Hn. exact Hn.
Qed.

Theorem bridge_uniqueness (I : poly -> F) :
  plinear I -> kills_derivatives I -> forall f, I f = I [1] * E K v f.
Proof.
  intros HL HK f. rewrite (linear_determined I HL). unfold E.
  rewrite Eaux_Lsum, <- (Lsum_wscale K Kf). apply (Lsum_ext K). intro n.
  exact (moments_unique p v Hpv _ (kills_gives_laws I HL HK) n).
Qed.

Corollary bridge_uniqueness_c0 (I : poly -> F) (c0 : F) :
  plinear I -> kills_derivatives I -> I [1] = c0 -> forall f, I f = c0 * E K v f.
Proof. intros HL HK <-. now apply bridge_uniqueness. Qed.

Corollary bridge_unique_pair (I I' : poly -> F) :
  plinear I -> kills_derivatives I -> plinear I' -> kills_derivatives I' ->
  I [1] = I' [1] -> forall f, I f = I' f.
Proof. intros A B C D H f. rewrite (bridge_uniqueness I A B), (bridge_uniqueness I' C D), H. reflexivity. Qed.

Lemma E_linear : plinear (E K v).
Proof. split; intros; unfold E; [apply (Eaux_padd K Kf) | apply (Eaux_pscale K Kf)]. Qed.

Lemma E_kills_derivatives : kills_all_derivatives (E K v).
Proof.
  intro f. unfold gderiv, E. rewrite (Eaux_padd K Kf), (Eaux_pscale K Kf).
  fold (E K v (pshift f)) (E K v (pderiv f)). rewrite (stein K Kf).
  transitivity (E K v (pderiv f) * (1 - (1 + 1) * p * v)); [ring|]. rewrite Hpv. ring.
Qed.

Lemma E_one : E K v [1] = 1.
Proof. unfold E. cbn [Eaux]. rewrite mom_0. ring. Qed.

Lemma cE_linear c0 : plinear (fun f => c0 * E K v f).
Proof. destruct E_linear as [A B]. split; intros; rewrite ?A, ?B; ring. Qed.
Lemma cE_kills c0 : kills_all_derivatives (fun f => c0 * E K v f).
Proof. intro f. rewrite E_kills_derivatives. ring. Qed.

Theorem bridge_characterisation (I : poly -> F) : plinear I ->
  (kills_derivatives I <-> forall f, I f = I [1] * E K v f).
Proof.
  intro HL. split; [now apply bridge_uniqueness|].
  intros H n. rewrite H, E_kills_derivatives. ring.
Qed.

(* consequences that were NOT assumed: I sees only the polynomial, not the list *)
Corollary bridge_trailing_zero (I : poly -> F) : plinear I -> forall f, I (f ++ [0]) = I f.
Proof.
  intros HL f. rewrite !(linear_determined I HL).
  generalize 0%nat. induction f as [|c f IH]; intro n; cbn [app Lsum]; [ring|]. now rewrite IH.
Qed.

End Bridge.

Section Product.
Context {F : Type} (K : Fops F) (Kf : is_field K).
Add Field KFbp : Kf.
Local Open Scope F_scope.
Infix "+" := (fadd K) : F_scope.
Infix "*" := (fmul K) : F_scope.
Infix "-" := (fsub K) : F_scope.
Infix "/" := (fdiv K) : F_scope.

Theorem gauss_product_identity (al be A B x : F) :
  al + be <> f0 K ->
  let p := al + be in let P := (al * A + be * B) / p in let mu := al * be / p in
  al * ((x - A) * (x - A)) + be * ((x - B) * (x - B))
  = p * ((x - P) * (x - P)) + mu * ((A - B) * (A - B)).
Proof. intros Hp p P mu. unfold P, mu, p. field. exact Hp. Qed.

(* the two displacements P - A, P - B used by the recurrences *)
Lemma gauss_product_PA (al be A B : F) : al + be <> f0 K ->
  (al * A + be * B) / (al + be) - A = be * (B - A) / (al + be).
Proof. intro Hp. field. exact Hp. Qed.
Lemma gauss_product_PB (al be A B : F) : al + be <> f0 K ->
  (al * A + be * B) / (al + be) - B = al * (A - B) / (al + be).
Proof. intro Hp. field. exact Hp. Qed.
End Product.

(* the hypotheses are satisfiable: over Qc with p = 1, v = 1/2, I = 3 * E *)
From Coq Require Import QArith Qcanon.
Section Examples.
Let KQ : Fops Qc := QcK true (Q2Qc 0) (fun x => x) (fun x => x) (fun x => x) (fun _ x => x).
Let KQf : is_field KQ := QcK_field _ _ _ _ _ _.
Let pQ : Qc := Q2Qc 1.
Let vQ : Qc := Q2Qc (1 # 2).
Fact Hpv_Q : fmul KQ (fmul KQ (fadd KQ (f1 KQ) (f1 KQ)) pQ) vQ = f1 KQ.
Proof. apply Qc_is_canon. vm_compute. reflexivity. Qed.

Example bridge_hypotheses_satisfiable :
  exists (I : list Qc -> Qc),
    plinear KQ I /\ kills_derivatives KQ pQ I /\ I [f1 KQ] = Q2Qc 3.
Proof.
  exists (fun f => fmul KQ (Q2Qc 3) (E KQ vQ f)). split; [|split].
  - apply (cE_linear KQ KQf).
  - apply (kills_all_kills KQ). apply (cE_kills KQ KQf pQ vQ Hpv_Q).
  - rewrite (E_one KQ KQf). apply Qc_is_canon. vm_compute. reflexivity.
Qed.

Example gauss_moment_laws_satisfiable :
  gauss_moment_laws KQ pQ (fun n => fmul KQ (Q2Qc 3) (mom KQ vQ n)).
Proof. apply (mom_satisfies_laws KQ KQf pQ vQ Hpv_Q). Qed.
End Examples.
