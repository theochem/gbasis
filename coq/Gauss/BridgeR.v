(* Gauss/BridgeR.v — real-analysis half of the analytic bridge (B1) of DESIGN.md 2.6 (Coquelicot).

   The honest object: the improper Riemann integral over the whole real line,
       is_RInt_gen g (Rbar_locally m_infty) (Rbar_locally p_infty) l         ("gint g l" below),
   of g(x) = f(x) exp(-p x^2), f a polynomial (coefficient list, [peval]).

   Proved here WITHOUT evaluating any Gaussian integral:
     (a) d/dx [x^n e^{-p x^2}] = (n x^(n-1) - 2p x^(n+1)) e^{-p x^2}        [gw_derive]
     (b) x^n e^{-p x^2} -> 0 at both infinities                               [gw_lim_p, gw_lim_m]
     (c) the improper integral of the derivative in (a) exists and is 0       [gauss_integral_kills_derivatives]
     (d) if J0 is the improper integral of e^{-p x^2} then for every n the improper integral of
         x^n e^{-p x^2} EXISTS and equals J0 * m_n, m_n the algebraic moments of Moment1D.v with
         v = 1/(2p)                                                           [gauss_moments]
     (e) hence for every coefficient list f: integral of f(x) e^{-p x^2} = J0 * E f
                                                                              [gauss_bridge], shifted centre [gauss_bridge_shift]
     (f) final form of (B1): J0 = sqrt(PI/p) -> integral / sqrt(PI/p) = E f   [bridge_B1_modulo_gaussian_integral]
     (g) the Gaussian integral EXISTS and is positive                         [gaussian_integral_exists, gaussian_integral_pos]
         hence, with no hypothesis: integral of f e^{-p x^2} / integral of e^{-p x^2} = E f   [gauss_bridge_normalised]
     (h) scaling: the value for every p follows from  integral of e^{-x^2} = sqrt PI            [gaussian_integral_from_unit, bridge_B1]
   What stays outside THIS file: the single number  integral of e^{-x^2} = sqrt PI  — proved in Gauss/GaussInt.v.
   Assumptions reported by Print Assumptions: the classical real numbers of the standard library only. *)
From Coq Require Import Reals Lra Lia List.
From Coquelicot Require Import Coquelicot.
From GB Require Import Base.Field Gauss.Moment1D Gauss.SPoly Gauss.Bridge Gauss.DerivBridge.
Import ListNotations.
Open Scope R_scope.

Definition gint (g : R -> R) (l : R) : Prop :=
  is_RInt_gen g (Rbar_locally m_infty) (Rbar_locally p_infty) l.

(* Coquelicot states these at the carrier of its module structure on R, where ring and field do not apply *)
Lemma scal_R (a b : R) : scal a b = a * b.
Proof. reflexivity. Qed.

Lemma is_RInt_extR (f g : R -> R) (a b l : R) :
  (forall x : R, f x = g x) -> is_RInt f a b l -> is_RInt g a b l.
Proof. intros H. apply is_RInt_ext. intros x _. apply H. Qed.

Lemma RInt_constR (a b c v : R) : (b - a) * c = v -> RInt (fun _ : R => c) a b = v.
Proof. intros <-. exact (RInt_const a b c). Qed.

Definition gw (p : R) (n : nat) (x : R) : R := x ^ n * exp (- p * x ^ 2).
Definition dgw (p : R) (n : nat) (x : R) : R :=
  (match n with O => 0 | S n' => INR n * x ^ n' end - 2 * p * x ^ (S n)) * exp (- p * x ^ 2).

Lemma gw_0 p x : gw p 0 x = exp (- p * x ^ 2).
Proof. unfold gw. cbn [pow]. ring. Qed.

Lemma gw_derive p n x : is_derive (gw p n) x (dgw p n x).
Proof. exact (first_rule p n x). Qed.

Lemma gw_continuous p n x : continuous (gw p n) x.
Proof. apply (ex_derive_continuous (gw p n) x). exists (dgw p n x). apply gw_derive. Qed.

Lemma dgw_gw p n x :
  dgw p n x = match n with O => 0 | S n' => INR n * gw p n' x end - 2 * p * gw p (S n) x.
Proof. unfold dgw, gw. destruct n; ring. Qed.

Lemma dgw_continuous p n x : continuous (dgw p n) x.
Proof. apply (ex_derive_continuous (dgw p n) x). unfold dgw. destruct n; auto_derive; exact I. Qed.

Lemma Derive_gw p n x : Derive (gw p n) x = dgw p n x.
Proof. apply is_derive_unique. apply gw_derive. Qed.

Lemma exp_pow_INR (y : R) (m : nat) : exp y ^ m = exp (INR m * y).
Proof.
  induction m as [|m IH]; [cbn [pow INR]; now rewrite Rmult_0_l, exp_0|].
  rewrite S_INR. cbn [pow]. rewrite IH, <- exp_plus. f_equal. ring.
Qed.

Lemma pow_le_self (r : R) (m : nat) : 0 <= r <= 1 -> r ^ (S m) <= r.
Proof.
  intros [H0 H1]. cbn [pow].
  assert (Hm : r ^ m <= 1) by (rewrite <- (pow1 m); apply pow_incr; lra).
  assert (Hm0 : 0 <= r ^ m) by (apply pow_le; lra). nra.
Qed.

Lemma lin_gauss_bound q x : 0 < q -> 0 < Rabs x -> Rabs x * exp (- (q * x ^ 2)) <= / (q * Rabs x).
Proof.
  intros Hq Hx.
  assert (Hsq : x ^ 2 = Rabs x * Rabs x) by (rewrite <- pow2_abs; ring).
  assert (Ht : 0 < q * x ^ 2) by (rewrite Hsq; apply Rmult_lt_0_compat; [lra|nra]).
  rewrite exp_Ropp.
  assert (He : q * x ^ 2 <= exp (q * x ^ 2)) by (pose proof (exp_ineq1_le (q * x ^ 2)); lra).
  assert (Hi : / exp (q * x ^ 2) <= / (q * x ^ 2)) by (apply Rinv_le_contravar; lra).
  apply Rle_trans with (Rabs x * / (q * x ^ 2)).
  - apply Rmult_le_compat_l; lra.
  - right. rewrite Hsq. field. split; lra.
Qed.

Lemma gw_bound p n x : 0 < p -> 1 <= Rabs x -> INR (S n) / p <= Rabs x ->
  Rabs (gw p n x) <= (INR (S n) / p) / Rabs x.
Proof.
  intros Hp H1 H2. set (m := S n). set (q := p / INR m).
  assert (Hm : 0 < INR m) by (apply lt_0_INR; unfold m; lia).
  assert (Hq : 0 < q) by (unfold q; apply Rdiv_lt_0_compat; lra).
  assert (Hx : 0 < Rabs x) by lra.
  unfold gw. rewrite Rabs_mult, <- RPow_abs, (Rabs_pos_eq (exp _)) by (left; apply exp_pos).
  replace (- p * x ^ 2) with (INR m * (- (q * x ^ 2))) by (unfold q; field; lra).
  rewrite <- exp_pow_INR.
  apply Rle_trans with (Rabs x ^ m * exp (- (q * x ^ 2)) ^ m).
  - apply Rmult_le_compat_r; [apply pow_le; left; apply exp_pos|].
    apply Rle_pow; [exact H1 | unfold m; lia].
  - rewrite <- Rpow_mult_distr.
    pose proof (lin_gauss_bound q x Hq Hx) as Hb.
    assert (Hpos : 0 <= Rabs x * exp (- (q * x ^ 2)))
      by (apply Rmult_le_pos; [lra | left; apply exp_pos]).
    assert (Heq : / (q * Rabs x) = INR m / p / Rabs x) by (unfold q; field; repeat split; lra).
    assert (Hle1 : / (q * Rabs x) <= 1) by (rewrite Heq; apply Rle_div_l; fold m in H2; lra).
    rewrite <- Heq.
    apply Rle_trans with ((/ (q * Rabs x)) ^ m).
    + apply pow_incr. split; assumption.
    + unfold m. apply pow_le_self. split; [|exact Hle1]. lra.
Qed.

Lemma decay_from_bound (f : R -> R) (C : R) : 0 <= C ->
  (forall x, 1 <= Rabs x -> C <= Rabs x -> Rabs (f x) <= C / Rabs x) ->
  filterlim f (Rbar_locally p_infty) (locally 0) /\ filterlim f (Rbar_locally m_infty) (locally 0).
Proof.
  intros HC Hb.
  assert (Key : forall eps : posreal, forall x, Rmax (Rmax 1 C) (C / eps) < Rabs x -> Rabs (f x - 0) < eps).
  { intros eps x Hx. destruct eps as [e He]; cbn [pos] in *.
    assert (H1 : 1 < Rabs x) by (pose proof (Rmax_l (Rmax 1 C) (C / e)); pose proof (Rmax_l 1 C); lra).
    assert (H2 : C < Rabs x) by (pose proof (Rmax_l (Rmax 1 C) (C / e)); pose proof (Rmax_r 1 C); lra).
    assert (H3 : C / e < Rabs x) by (pose proof (Rmax_r (Rmax 1 C) (C / e)); lra).
    rewrite Rminus_0_r. apply Rle_lt_trans with (C / Rabs x); [apply Hb; lra|].
    apply Rlt_div_l in H3; [|exact He]. apply Rlt_div_l; lra. }
  split; intros P [eps HP].
  - exists (Rmax (Rmax 1 C) (C / eps)). intros x Hx. apply HP. apply Key.
    apply Rlt_le_trans with x; [exact Hx | apply Rle_abs].
  - exists (- Rmax (Rmax 1 C) (C / eps)). intros x Hx. apply HP. apply Key.
    apply Rlt_le_trans with (- x); [lra | rewrite <- Rabs_Ropp; apply Rle_abs].
Qed.

Lemma gw_decay p n : 0 < p ->
  filterlim (gw p n) (Rbar_locally p_infty) (locally 0) /\
  filterlim (gw p n) (Rbar_locally m_infty) (locally 0).
Proof.
  intro Hp. apply (decay_from_bound (gw p n) (INR (S n) / p)).
  - apply Rlt_le, Rdiv_lt_0_compat; [apply lt_0_INR; lia | exact Hp].
  - intros x H1 H2. now apply gw_bound.
Qed.

Lemma gw_lim_p p n : 0 < p -> filterlim (gw p n) (Rbar_locally p_infty) (locally 0).
Proof. intro Hp. apply (gw_decay p n Hp). Qed.
Lemma gw_lim_m p n : 0 < p -> filterlim (gw p n) (Rbar_locally m_infty) (locally 0).
Proof. intro Hp. apply (gw_decay p n Hp). Qed.

Lemma is_RInt_gen_ext_eq {Fa Fb : (R -> Prop) -> Prop} {FFa : Filter Fa} {FFb : Filter Fb}
      (f g : R -> R) (l l' : R) :
  (forall x, f x = g x) -> l = l' -> is_RInt_gen f Fa Fb l -> is_RInt_gen g Fa Fb l'.
Proof.
  intros Hfg <- H. apply (is_RInt_gen_ext f g); [|exact H]. apply filter_forall. intros ab x _. apply Hfg.
Qed.

Lemma is_RInt_gen_unique_eq {Fa Fb : (R -> Prop) -> Prop} {FFa : ProperFilter' Fa} {FFb : ProperFilter' Fb}
      (f : R -> R) (l l' : R) : is_RInt_gen f Fa Fb l -> is_RInt_gen f Fa Fb l' -> l = l'.
Proof. intros H H'. rewrite <- (is_RInt_gen_unique f l H). exact (is_RInt_gen_unique f l' H'). Qed.

Lemma gint_ext (f g : R -> R) (l l' : R) :
  (forall x, f x = g x) -> l = l' -> gint f l -> gint g l'.
Proof. exact (is_RInt_gen_ext_eq f g l l'). Qed.

Theorem gauss_integral_kills_derivatives p n : 0 < p -> gint (dgw p n) 0.
Proof.
  intro Hp.
  apply (gint_ext (Derive (gw p n)) (dgw p n) (0 - 0) 0); [apply Derive_gw | ring |].
  unfold gint. apply is_RInt_gen_Derive.
  - apply filter_forall. intros ab x _. eexists. apply gw_derive.
  - apply filter_forall. intros ab x _.
    apply (continuous_ext (dgw p n)); [intro t; symmetry; apply Derive_gw | apply dgw_continuous].
  - now apply gw_lim_m.
  - now apply gw_lim_p.
Qed.

Lemma gint_scal (k : R) (f : R -> R) (l : R) : gint f l -> gint (fun x => k * f x) (k * l).
Proof. intro H. exact (is_RInt_gen_scal f k l H). Qed.
Lemma gint_plus (f g : R -> R) (lf lg : R) :
  gint f lf -> gint g lg -> gint (fun x => f x + g x) (lf + lg).
Proof. intros Hf Hg. exact (is_RInt_gen_plus f g lf lg Hf Hg). Qed.
Lemma gint_minus (f g : R -> R) (lf lg : R) :
  gint f lf -> gint g lg -> gint (fun x => f x - g x) (lf - lg).
Proof. intros Hf Hg. exact (is_RInt_gen_minus f g lf lg Hf Hg). Qed.
Lemma gint_zero : gint (fun _ => 0) 0.
Proof.
  apply (gint_ext (fun x => 0 * dgw 1 0 x) _ (0 * 0)); [intro; ring | ring |].
  apply (gint_scal 0 (dgw 1 0) 0). apply gauss_integral_kills_derivatives. lra.
Qed.
Lemma gint_unique (f : R -> R) (l l' : R) : gint f l -> gint f l' -> l = l'.
Proof. exact (is_RInt_gen_unique_eq f l l'). Qed.

Definition vR (p : R) : R := / (2 * p).
Definition momR (p : R) (n : nat) : R := mom RKd (vR p) n.

Lemma momR_0 p : momR p 0 = 1. Proof. reflexivity. Qed.
Lemma momR_1 p : momR p 1 = 0. Proof. reflexivity. Qed.
Lemma momR_SS p n : momR p (S (S n)) = INR (S n) * vR p * momR p n.
Proof. unfold momR. rewrite (mom_SS RKd), ofnat_INR. reflexivity. Qed.

Lemma gauss_first_moment p : 0 < p -> gint (gw p 1) 0.
Proof.
  intro Hp. apply (gint_ext (fun x => (- / (2 * p)) * dgw p 0 x) _ ((- / (2 * p)) * 0)).
  - intro x. unfold gw, dgw. field. lra.
  - ring.
  - exact (gint_scal (- / (2 * p)) (dgw p 0) 0 (gauss_integral_kills_derivatives p 0 Hp)).
Qed.

Theorem gauss_moments (p J0 : R) : 0 < p ->
  gint (fun x => exp (- p * x ^ 2)) J0 ->
  forall n, gint (gw p n) (J0 * momR p n).
Proof.
  intros Hp H0. induction n as [| |n A _] using nat_ind2.
  - apply (gint_ext (fun x => exp (- p * x ^ 2)) _ J0); [| |exact H0].
    + intro x. symmetry. apply gw_0.
    + rewrite momR_0. ring.
  - apply (gint_ext (gw p 1) _ 0); [reflexivity | rewrite momR_1; ring | now apply gauss_first_moment].
  - apply (gint_ext (fun x => / (2 * p) * (INR (S n) * gw p n x - dgw p (S n) x)) _
                    (/ (2 * p) * (INR (S n) * (J0 * momR p n) - 0))).
    + intro x. unfold gw, dgw. field. lra.
    + rewrite momR_SS. unfold vR. ring.
    + apply (gint_scal (/ (2 * p)) (fun x => INR (S n) * gw p n x - dgw p (S n) x)).
      apply (gint_minus (fun x => INR (S n) * gw p n x) (dgw p (S n))).
      * exact (gint_scal (INR (S n)) (gw p n) _ A).
      * exact (gauss_integral_kills_derivatives p (S n) Hp).
Qed.

Fixpoint peval (f : list R) (x : R) : R :=
  match f with [] => 0 | c :: f' => c + x * peval f' x end.

Lemma gauss_bridge_aux (p J0 : R) : 0 < p ->
  gint (fun x => exp (- p * x ^ 2)) J0 ->
  forall f n, gint (fun x => x ^ n * peval f x * exp (- p * x ^ 2)) (J0 * Eaux RKd (vR p) n f).
Proof.
  intros Hp H0. induction f as [|c f IH]; intro n.
  - apply (gint_ext (fun _ => 0) _ 0); [intro x; cbn [peval]; ring | cbn [Eaux f0 RKd]; ring | apply gint_zero].
  - apply (gint_ext (fun x => c * gw p n x + x ^ (S n) * peval f x * exp (- p * x ^ 2)) _
                    (c * (J0 * momR p n) + J0 * Eaux RKd (vR p) (S n) f)).
    + intro x. unfold gw. cbn [peval pow]. ring.
    + cbn [Eaux fadd fmul RKd]. unfold momR. ring.
    + apply (gint_plus (fun x => c * gw p n x) (fun x => x ^ (S n) * peval f x * exp (- p * x ^ 2))).
      * exact (gint_scal c (gw p n) _ (gauss_moments p J0 Hp H0 n)).
      * exact (IH (S n)).
Qed.

Theorem gauss_bridge (p J0 : R) : 0 < p ->
  gint (fun x => exp (- p * x ^ 2)) J0 ->
  forall f, gint (fun x => peval f x * exp (- p * x ^ 2)) (J0 * E RKd (vR p) f).
Proof.
  intros Hp H0 f.
  apply (gint_ext (fun x => x ^ 0 * peval f x * exp (- p * x ^ 2)) _ (J0 * Eaux RKd (vR p) 0 f));
    [intro x; cbn [pow]; ring | reflexivity | now apply gauss_bridge_aux].
Qed.

Lemma is_RInt_gen_spelled_out {Fa Fb : (R -> Prop) -> Prop} {FFa : Filter Fa} {FFb : Filter Fb}
      (g : R -> R) (l : R) :
  is_RInt_gen g Fa Fb l <->
  (forall eps : posreal, exists Qa Qb : R -> Prop, Fa Qa /\ Fb Qb /\
     forall a b : R, Qa a -> Qb b -> exists y : R, is_RInt g a b y /\ Rabs (y - l) < eps).
Proof.
  unfold is_RInt_gen, filterlimi, filter_le, filtermapi. split.
  - intros H eps.
    destruct (H (fun y => Rabs (y - l) < eps)) as [Qa Qb Ha Hb HQ].
    { exists eps. intros y Hy. exact Hy. }
    exists Qa, Qb. split; [exact Ha|]. split; [exact Hb|]. exact HQ.
  - intros H P [eps HP]. destruct (H eps) as [Qa [Qb [Ha [Hb HQ]]]].
    apply (Filter_prod _ _ _ Qa Qb Ha Hb). intros a b HQa HQb.
    destruct (HQ a b HQa HQb) as [y [Hy Hd]]. exists y. split; [exact Hy|]. apply HP. exact Hd.
Qed.

Lemma gint_spelled_out (g : R -> R) (l : R) :
  gint g l <->
  (forall eps : posreal, exists M : R, forall a b : R, a < - M -> M < b ->
     exists y : R, is_RInt g a b y /\ Rabs (y - l) < eps).
Proof.
  unfold gint. rewrite is_RInt_gen_spelled_out. split; intros H eps.
  - destruct (H eps) as [Qa [Qb [[M1 H1] [[M2 H2] HQ]]]].
    exists (Rmax (- M1) M2). intros a b Ha Hb. apply HQ.
    + apply H1. pose proof (Rmax_l (- M1) M2). lra.
    + apply H2. pose proof (Rmax_r (- M1) M2). lra.
  - destruct (H eps) as [M HM]. exists (fun a => a < - M), (fun b => M < b).
    split; [exists (- M); intros x Hx; exact Hx|]. split; [exists M; intros x Hx; exact Hx|]. exact HM.
Qed.

Lemma even_RInt_neg (g : R -> R) (b y : R) :
  (forall x, g (- x) = g x) -> is_RInt g 0 b y -> is_RInt g (- b) 0 y.
Proof.
  intros Hev H.
  apply (is_RInt_ext (fun t => opp (opp (g (- t))))).
  - intros t _. rewrite opp_opp. apply Hev.
  - replace y with (opp (opp y)) by apply opp_opp.
    apply (is_RInt_opp (fun t => opp (g (- t))) (- b) 0 (opp y)).
    apply (is_RInt_comp_opp g (- b) 0 (opp y)).
    rewrite Ropp_involutive, Ropp_0.
    apply (is_RInt_swap g b 0 y). exact H.
Qed.

Lemma gint_comp_lin (g : R -> R) (l k c : R) : 0 < k -> gint g l -> gint (fun x => g (k * x + c)) (l / k).
Proof.
  intros Hk. rewrite !gint_spelled_out. intros H eps.
  assert (He : 0 < eps * k) by (apply Rmult_lt_0_compat; [apply cond_pos | exact Hk]).
  destruct (H (mkposreal _ He)) as [M HM]. cbn [pos] in HM.
  exists ((M + Rabs c) / k). intros a b Ha Hb.
  assert (Hik : 0 < / k) by now apply Rinv_0_lt_compat.
  pose proof (Rle_abs c). pose proof (Rle_abs (- c)) as Hc. rewrite Rabs_Ropp in Hc.
  apply (Rmult_lt_compat_l k _ _ Hk) in Ha, Hb.
  replace (k * - ((M + Rabs c) / k)) with (- (M + Rabs c)) in Ha by (field; lra).
  replace (k * ((M + Rabs c) / k)) with (M + Rabs c) in Hb by (field; lra).
  destruct (HM (k * a + c) (k * b + c)) as [y [Hy Hd]]; [lra | lra |].
  exists (/ k * y). split.
  - apply (is_RInt_extR (fun x => scal (/ k) (scal k (g (k * x + c))))).
    + intro x. unfold scal; cbn. unfold mult; cbn. field. lra.
    + apply (is_RInt_scal (fun x => scal k (g (k * x + c))) a b (/ k) y).
      exact (is_RInt_comp_lin g k c a b y Hy).
  - replace (/ k * y - l / k) with ((y - l) * / k) by (field; lra).
    rewrite Rabs_mult, (Rabs_pos_eq (/ k)) by lra. apply Rlt_div_l; lra.
Qed.

(* translation: the centre P of DESIGN.md 2.3 *)
Lemma gint_shift (g : R -> R) (l c : R) : gint g l -> gint (fun x => g (x - c)) l.
Proof.
  intro H. apply (gint_ext (fun x => g (1 * x + - c)) _ (l / 1)); [intro x; f_equal; ring | field |].
  apply gint_comp_lin; [lra | exact H].
Qed.

Theorem gauss_bridge_shift (p P J0 : R) : 0 < p ->
  gint (fun x => exp (- p * x ^ 2)) J0 ->
  forall f, gint (fun x => peval f (x - P) * exp (- p * (x - P) ^ 2)) (J0 * E RKd (vR p) f).
Proof.
  intros Hp H0 f.
  exact (gint_shift (fun y => peval f y * exp (- p * y ^ 2)) _ P (gauss_bridge p J0 Hp H0 f)).
Qed.

Definition Gint (g : R -> R) : R := RInt_gen g (Rbar_locally m_infty) (Rbar_locally p_infty).

Lemma Gint_correct g l : gint g l -> Gint g = l.
Proof. intro H. exact (is_RInt_gen_unique g l H). Qed.

Lemma sqrt_pi_p_pos p : 0 < p -> 0 < sqrt (PI / p).
Proof. intro Hp. apply sqrt_lt_R0. apply Rdiv_lt_0_compat; [apply PI_RGT_0 | exact Hp]. Qed.

Lemma bridge_normalised_by (p P J0 : R) : 0 < p -> J0 <> 0 ->
  gint (fun x => exp (- p * x ^ 2)) J0 ->
  forall f : list R,
    gint (fun x => peval f (x - P) * exp (- p * (x - P) ^ 2)) (J0 * E RKd (vR p) f)
    /\ Gint (fun x => peval f (x - P) * exp (- p * (x - P) ^ 2)) / J0 = E RKd (vR p) f.
Proof.
  intros Hp HJ H0 f. pose proof (gauss_bridge_shift p P _ Hp H0 f) as H. split; [exact H|].
  rewrite (Gint_correct _ _ H). now field.
Qed.

Theorem bridge_B1_modulo_gaussian_integral (p P : R) : 0 < p ->
  gint (fun x => exp (- p * x ^ 2)) (sqrt (PI / p)) ->
  forall f : list R,
    gint (fun x => peval f (x - P) * exp (- p * (x - P) ^ 2)) (sqrt (PI / p) * E RKd (vR p) f)
    /\ Gint (fun x => peval f (x - P) * exp (- p * (x - P) ^ 2)) / sqrt (PI / p) = E RKd (vR p) f.
Proof. intro Hp. apply bridge_normalised_by; [exact Hp|]. apply Rgt_not_eq. now apply sqrt_pi_p_pos. Qed.

(* monomials (x-P)^n: the statement (B1) of DESIGN.md 2.6 *)
Corollary bridge_B1_monomials (p P : R) : 0 < p ->
  gint (fun x => exp (- p * x ^ 2)) (sqrt (PI / p)) ->
  forall n, gint (fun x => (x - P) ^ n * exp (- p * (x - P) ^ 2)) (sqrt (PI / p) * momR p n).
Proof.
  intros Hp H0 n.
  exact (gint_shift (gw p n) _ P (gauss_moments p _ Hp H0 n)).
Qed.

(* list polynomials over R: evaluation commutes with the list operations of Moment1D.v, and
   [gderiv] of Bridge.v IS the derivative of polynomial x Gaussian *)
Lemma peval_padd f g x : peval (padd RKd f g) x = peval f x + peval g x.
Proof. exact (SPoly.peval_padd RKd RKd_field f g x). Qed.
Lemma peval_pscale c f x : peval (pscale RKd c f) x = c * peval f x.
Proof. exact (SPoly.peval_pscale RKd RKd_field c f x). Qed.
Lemma peval_pshift f x : peval (pshift RKd f) x = x * peval f x.
Proof. exact (SPoly.peval_shift RKd RKd_field f x). Qed.
Lemma peval_pderiv_aux_S k f x :
  peval (pderiv_aux RKd (S k) f) x = peval f x + peval (pderiv_aux RKd k f) x.
Proof. revert k; induction f as [|a f IH]; intro k; cbn [pderiv_aux peval]; [ring|].
  rewrite (IH (S k)). cbn [ofnat fadd fmul f1 RKd]. ring. Qed.
Lemma peval_pderiv_aux_0 f x : peval (pderiv_aux RKd 0 f) x = x * peval (pderiv RKd f) x.
Proof. destruct f as [|a f]; cbn [pderiv_aux pderiv peval ofnat fmul f0 RKd]; ring. Qed.
Lemma peval_pderiv_cons c f x :
  peval (pderiv RKd (c :: f)) x = peval f x + x * peval (pderiv RKd f) x.
Proof. cbn [pderiv]. now rewrite peval_pderiv_aux_S, peval_pderiv_aux_0. Qed.

Lemma peval_derive f x : is_derive (peval f) x (peval (pderiv RKd f) x).
Proof.
  revert x. induction f as [|c f IH]; intro x.
  - cbn [pderiv peval]. apply (is_derive_const (0 : R)).
  - rewrite peval_pderiv_cons.
    replace (peval f x + x * peval (pderiv RKd f) x)
      with (0 + (1 * peval f x + x * peval (pderiv RKd f) x)) by ring.
    apply (is_derive_plus (fun _ : R => c) (fun t => t * peval f t) x 0).
    + apply (is_derive_const c).
    + apply (is_derive_mult (fun t : R => t) (peval f) x 1 (peval (pderiv RKd f) x)).
      * apply (is_derive_id x).
      * apply IH.
      * exact Rmult_comm.
Qed.

Lemma peval_gderiv p f x :
  peval (gderiv RKd p f) x = peval (pderiv RKd f) x - 2 * p * x * peval f x.
Proof. unfold gderiv. rewrite peval_padd, peval_pscale, peval_pshift.
  cbn [fopp fmul fadd f1 RKd]. ring. Qed.

Theorem poly_gauss_derive p f x :
  is_derive (fun t => peval f t * exp (- p * t ^ 2)) x
            (peval (gderiv RKd p f) x * exp (- p * x ^ 2)).
Proof.
  rewrite peval_gderiv.
  replace ((peval (pderiv RKd f) x - 2 * p * x * peval f x) * exp (- p * x ^ 2))
    with (peval (pderiv RKd f) x * exp (- p * x ^ 2)
          + peval f x * (- (2 * p * x) * exp (- p * x ^ 2))) by ring.
  apply (is_derive_mult (peval f) (fun t => exp (- p * t ^ 2)) x).
  - apply peval_derive.
  - apply gauss_derive.
  - exact Rmult_comm.
Qed.

(* EXISTENCE of the Gaussian integral (not its value): Cauchy criterion on the product filter,
   tails bounded by  int_u^w |x| e^{-p x^2} dx = (e^{-p u^2} - e^{-p w^2}) / (2p) *)
Lemma exp_le_compat x y : x <= y -> exp x <= exp y.
Proof. intros [H|H]; [left; now apply exp_increasing | right; now f_equal]. Qed.

Section Existence.
Variable p : R.
Hypothesis Hp : 0 < p.
Let g : R -> R := gw p 0.

Lemma g_eq x : g x = exp (- p * x ^ 2).
Proof. exact (gw_0 p x). Qed.
Lemma g_pos x : 0 < g x.
Proof. rewrite g_eq. apply exp_pos. Qed.
Lemma g_ex a b : ex_RInt g a b.
Proof. apply (ex_RInt_continuous g a b). intros z _. apply gw_continuous. Qed.
Lemma g_mono M x : M * M <= x * x -> g x <= g M.
Proof. intro H. rewrite !g_eq. apply exp_le_compat. nra. Qed.
Lemma g_Chasles a b c : RInt g a b + RInt g b c = RInt g a c.
Proof. exact (RInt_Chasles g a b c (g_ex a b) (g_ex b c)). Qed.
Lemma g_RInt_nonneg a b : a <= b -> 0 <= RInt g a b.
Proof. intro Hab. apply RInt_ge_0; [exact Hab | apply g_ex | intros x _; left; apply g_pos]. Qed.

Lemma tail_int s a b :
  is_RInt (fun x => s * gw p 1 x) a b ((- s / (2 * p)) * g b - (- s / (2 * p)) * g a).
Proof.
  apply (is_RInt_derive (fun x => (- s / (2 * p)) * g x) (fun x => s * gw p 1 x) a b).
  - intros x _.
    replace (s * gw p 1 x) with ((- s / (2 * p)) * dgw p 0 x) by (unfold gw, dgw; field; lra).
    apply (is_derive_scal g x (- s / (2 * p)) (dgw p 0 x)). apply gw_derive.
  - intros x _. apply (continuous_scal_r s (gw p 1)). apply gw_continuous.
Qed.

Lemma tail_ordered s M a b : s = 1 \/ s = -1 -> 1 <= M -> M <= s * a -> M <= s * b -> a <= b ->
  0 <= RInt g a b <= g M / (2 * p).
Proof.
  intros Hs HM Ha Hb Hab. split.
  - exact (g_RInt_nonneg a b Hab).
  - apply Rle_trans with (RInt (fun x => s * gw p 1 x) a b).
    + apply RInt_le; [exact Hab | apply g_ex | eexists; apply tail_int |].
      intros x Hx. assert (H1 : 1 <= s * x) by (destruct Hs; subst s; lra).
      unfold g, gw. cbn [pow]. pose proof (exp_pos (- p * (x * (x * 1)))). nra.
    + rewrite (is_RInt_unique _ _ _ _ (tail_int s a b)).
      pose proof (g_pos a). pose proof (g_pos b).
      assert (Hga : g a <= g M) by (apply g_mono; destruct Hs; subst s; nra).
      assert (Hgb : g b <= g M) by (apply g_mono; destruct Hs; subst s; nra).
      assert (Hi : 0 < / (2 * p)) by (apply Rinv_0_lt_compat; lra).
      unfold Rdiv. destruct Hs; subst s; nra.
Qed.

Lemma tail_bound s M a b : s = 1 \/ s = -1 -> 1 <= M -> M <= s * a -> M <= s * b ->
  Rabs (RInt g a b) <= g M / (2 * p).
Proof.
  intros Hs HM Ha Hb. destruct (Rle_dec a b) as [Hab|Hab].
  - destruct (tail_ordered s M a b Hs HM Ha Hb Hab) as [H0 H1]. now rewrite Rabs_pos_eq.
  - assert (Hba : b <= a) by lra.
    destruct (tail_ordered s M b a Hs HM Hb Ha Hba) as [H0 H1].
    pose proof (opp_RInt_swap g b a (g_ex b a)) as Hsw. change (- RInt g b a = RInt g a b) in Hsw.
    rewrite <- Hsw, Rabs_Ropp. now rewrite Rabs_pos_eq.
Qed.

Lemma g_small (eps : posreal) : exists M, 1 <= M /\ g M / (2 * p) + g M / (2 * p) < eps.
Proof.
  assert (He : 0 < eps * p) by (apply Rmult_lt_0_compat; [apply cond_pos | exact Hp]).
  destruct (gw_lim_p p 0 Hp (fun y => Rabs y < eps * p)) as [M0 HM0].
  { exists (mkposreal _ He). intros y Hy. change (Rabs (y - 0) < eps * p) in Hy.
    now rewrite Rminus_0_r in Hy. }
  exists (Rmax 1 (M0 + 1)). split; [apply Rmax_l|].
  assert (Hg : g (Rmax 1 (M0 + 1)) < eps * p).
  { apply Rle_lt_trans with (Rabs (g (Rmax 1 (M0 + 1)))); [apply Rle_abs|].
    apply HM0. pose proof (Rmax_r 1 (M0 + 1)). lra. }
  replace (g (Rmax 1 (M0 + 1)) / (2 * p) + g (Rmax 1 (M0 + 1)) / (2 * p))
    with (g (Rmax 1 (M0 + 1)) / p) by (field; lra).
  apply Rlt_div_l; [exact Hp | exact Hg].
Qed.

Lemma gauss_cauchy : exists l : R,
  filterlim (fun ab : R * R => RInt g (fst ab) (snd ab))
            (filter_prod (Rbar_locally m_infty) (Rbar_locally p_infty)) (locally l).
Proof.
  apply (proj1 (filterlim_locally_cauchy
                  (F := filter_prod (Rbar_locally m_infty) (Rbar_locally p_infty))
                  (fun ab : R * R => RInt g (fst ab) (snd ab)))).
  intro eps. destruct (g_small eps) as [M [HM1 HMe]].
  exists (fun ab : R * R => fst ab < - M /\ M < snd ab). split.
  - apply (Filter_prod _ _ _ (fun a => a < - M) (fun b => M < b)).
    + exists (- M). intros x Hx. exact Hx.
    + exists M. intros x Hx. exact Hx.
    + intros a b Ha Hb. split; assumption.
  - intros [a b] [a' b'] [Ha Hb] [Ha' Hb']. cbn [fst snd] in *.
    change (Rabs (RInt g a' b' - RInt g a b) < eps).
    replace (RInt g a' b' - RInt g a b) with (RInt g a' a + RInt g b b')
      by (rewrite <- (g_Chasles a' a b'), <- (g_Chasles a b b'); ring).
    apply Rle_lt_trans with (1 := Rabs_triang _ _).
    pose proof (tail_bound (-1) M a' a (or_intror eq_refl) HM1) as T1.
    pose proof (tail_bound 1 M b b' (or_introl eq_refl) HM1) as T2.
    assert (T1' : Rabs (RInt g a' a) <= g M / (2 * p)) by (apply T1; lra).
    assert (T2' : Rabs (RInt g b b') <= g M / (2 * p)) by (apply T2; lra).
    lra.
Qed.

Theorem gaussian_integral_exists : exists J0 : R, gint (fun x => exp (- p * x ^ 2)) J0.
Proof.
  destruct gauss_cauchy as [l Hl]. exists l.
  apply (gint_ext g _ l l); [apply g_eq | reflexivity |].
  unfold gint, is_RInt_gen, filterlimi, filter_le, filtermapi. intros P HP.
  specialize (Hl P HP). unfold filtermap in Hl. revert Hl. apply filter_imp.
  intros [a b] H. cbn [fst snd] in *. exists (RInt g a b). split; [|exact H].
  apply (RInt_correct g a b). apply g_ex.
Qed.

Theorem gaussian_integral_pos (J0 : R) : gint (fun x => exp (- p * x ^ 2)) J0 -> 0 < J0.
Proof.
  intro H0.
  assert (Hg : gint g J0) by (apply (gint_ext _ g J0 J0 (fun x => eq_sym (g_eq x)) eq_refl H0)).
  assert (Hc : 0 < exp (- p) / 2) by (pose proof (exp_pos (- p)); lra).
  destruct (proj1 (gint_spelled_out g J0) Hg (mkposreal _ Hc)) as [M HM]. cbn [pos] in HM.
  set (a := - (Rabs M + 1)). set (b := Rabs M + 2).
  pose proof (Rle_abs M) as HaM. pose proof (Rabs_pos M) as HaM0.
  destruct (HM a b) as [y [Hy Hd]]; [unfold a; lra | unfold b; lra |].
  rewrite <- (is_RInt_unique g a b y Hy) in Hd.
  assert (Hlow : exp (- p) <= RInt g a b).
  { rewrite <- (g_Chasles a 0 b), <- (g_Chasles 0 1 b).
    assert (P1 : 0 <= RInt g a 0) by (apply g_RInt_nonneg; unfold a; lra).
    assert (P2 : 0 <= RInt g 1 b) by (apply g_RInt_nonneg; unfold b; lra).
    assert (P3 : exp (- p) <= RInt g 0 1).
    { replace (exp (- p)) with (RInt (fun _ => exp (- p)) 0 1).
      - apply RInt_le; [lra | apply ex_RInt_const | apply g_ex |].
        intros x Hx. rewrite g_eq. apply exp_le_compat.
        assert (Hx2 : x ^ 2 <= 1) by (cbn [pow]; nra). nra.
      - apply RInt_constR. ring. }
    lra. }
  apply Rabs_def2 in Hd. lra.
Qed.
End Existence.

(* UNCONDITIONAL normalised bridge: the Gaussian expectation of a polynomial is E f.  Nothing
   is assumed; the only thing not determined here is the VALUE of the normalising constant. *)
Definition J0R (p : R) : R := Gint (fun x => exp (- p * x ^ 2)).

Lemma J0R_correct p : 0 < p -> gint (fun x => exp (- p * x ^ 2)) (J0R p).
Proof. intro Hp. destruct (gaussian_integral_exists p Hp) as [l Hl]. unfold J0R.
  now rewrite (Gint_correct _ _ Hl). Qed.
Lemma J0R_pos p : 0 < p -> 0 < J0R p.
Proof. intro Hp. exact (gaussian_integral_pos p Hp _ (J0R_correct p Hp)). Qed.

(* the improper integral of the derivative of ANY polynomial x Gaussian is 0: the bridge applied to
   [gderiv f], on which E vanishes (Stein) *)
Lemma vR_law p : 0 < p -> fmul RKd (fmul RKd (fadd RKd (f1 RKd) (f1 RKd)) p) (vR p) = f1 RKd.
Proof. intro Hp. cbn [fmul fadd f1 RKd]. unfold vR. field. lra. Qed.

Theorem gauss_integral_kills_all_derivatives p f : 0 < p ->
  gint (fun x => peval (gderiv RKd p f) x * exp (- p * x ^ 2)) 0.
Proof.
  intro Hp. refine (gint_ext _ _ _ _ (fun _ => eq_refl) _ (gauss_bridge p _ Hp (J0R_correct p Hp) _)).
  rewrite (E_kills_derivatives RKd RKd_field p (vR p) (vR_law p Hp)). apply Rmult_0_r.
Qed.

(* the honest integral, as a functional on coefficient lists, satisfies the hypotheses of the
   abstract uniqueness theorem of Bridge.v; so [bridge_uniqueness] applies to it *)
Definition Gfun (p : R) (f : list R) : R := Gint (fun x => peval f x * exp (- p * x ^ 2)).

Theorem Gfun_bridge_laws (p J0 : R) : 0 < p ->
  gint (fun x => exp (- p * x ^ 2)) J0 ->
  plinear RKd (Gfun p) /\ kills_all_derivatives RKd p (Gfun p) /\ Gfun p [1] = J0.
Proof.
  intros Hp H0.
  assert (Hex : forall f, gint (fun x => peval f x * exp (- p * x ^ 2)) (Gfun p f)).
  { intro f. pose proof (gauss_bridge p J0 Hp H0 f) as H. unfold Gfun.
    rewrite (Gint_correct _ _ H). exact H. }
  split; [split|split].
  - intros f g. apply Gint_correct.
    apply (gint_ext (fun x => peval f x * exp (- p * x ^ 2) + peval g x * exp (- p * x ^ 2)) _
                    (Gfun p f + Gfun p g)); [intro x; rewrite peval_padd; ring | reflexivity |].
    exact (gint_plus _ _ _ _ (Hex f) (Hex g)).
  - intros c f. apply Gint_correct.
    apply (gint_ext (fun x => c * (peval f x * exp (- p * x ^ 2))) _ (c * Gfun p f));
      [intro x; rewrite peval_pscale; ring | reflexivity |].
    exact (gint_scal c _ _ (Hex f)).
  - intro f. apply Gint_correct. now apply gauss_integral_kills_all_derivatives.
  - apply Gint_correct.
    apply (gint_ext (fun x => exp (- p * x ^ 2)) _ J0 J0); [|reflexivity|exact H0].
    intro x. cbn [peval]. ring.
Qed.

(* second proof of [gauss_bridge], through the abstract theorem *)
Corollary gauss_bridge_via_uniqueness (p J0 : R) : 0 < p ->
  gint (fun x => exp (- p * x ^ 2)) J0 ->
  forall f, Gfun p f = J0 * E RKd (vR p) f.
Proof.
  intros Hp H0 f. destruct (Gfun_bridge_laws p J0 Hp H0) as [HL [HK H1]].
  rewrite <- H1.
  exact (bridge_uniqueness RKd RKd_field p (vR p) (vR_law p Hp) (Gfun p) HL
           (kills_all_kills RKd p (Gfun p) HK) f).
Qed.

Theorem gauss_bridge_normalised (p P : R) (f : list R) : 0 < p ->
  gint (fun x => peval f (x - P) * exp (- p * (x - P) ^ 2)) (J0R p * E RKd (vR p) f)
  /\ Gint (fun x => peval f (x - P) * exp (- p * (x - P) ^ 2)) / J0R p = E RKd (vR p) f.
Proof.
  intro Hp. apply (bridge_normalised_by p P (J0R p) Hp); [|now apply J0R_correct].
  apply Rgt_not_eq. now apply J0R_pos.
Qed.

(* scaling: the value for every p follows from the single number  int e^{-x^2} = sqrt PI *)
Theorem gaussian_integral_from_unit (p : R) : 0 < p ->
  gint (fun x => exp (- x ^ 2)) (sqrt PI) ->
  gint (fun x => exp (- p * x ^ 2)) (sqrt (PI / p)).
Proof.
  intros Hp H1.
  assert (Hs : 0 < sqrt p) by now apply sqrt_lt_R0.
  apply (gint_ext (fun x => exp (- (sqrt p * x + 0) ^ 2)) _ (sqrt PI / sqrt p)).
  - intro x. f_equal. rewrite Rplus_0_r, Rpow_mult_distr. cbn [pow]. rewrite Rmult_1_r, sqrt_sqrt by lra. ring.
  - rewrite sqrt_div_alt by exact Hp. reflexivity.
  - exact (gint_comp_lin (fun x => exp (- x ^ 2)) (sqrt PI) (sqrt p) 0 Hs H1).
Qed.

(* (B1), final form; the hypothesis is GaussInt.gaussian_integral_unit *)
Theorem bridge_B1 (p P : R) : 0 < p ->
  gint (fun x => exp (- x ^ 2)) (sqrt PI) ->
  forall f : list R,
    gint (fun x => peval f (x - P) * exp (- p * (x - P) ^ 2)) (sqrt (PI / p) * E RKd (vR p) f)
    /\ Gint (fun x => peval f (x - P) * exp (- p * (x - P) ^ 2)) / sqrt (PI / p) = E RKd (vR p) f.
Proof.
  intros Hp H1. apply bridge_B1_modulo_gaussian_integral; [exact Hp|].
  now apply gaussian_integral_from_unit.
Qed.

(* the hypotheses of the conditional theorems are satisfiable *)
Example gauss_moments_hypothesis_satisfiable :
  exists p J0, 0 < p /\ gint (fun x => exp (- p * x ^ 2)) J0.
Proof. exists 1. destruct (gaussian_integral_exists 1 Rlt_0_1) as [J0 H]. exists J0. split; [lra|exact H]. Qed.

Example gauss_moments_values_hypothesis_satisfiable :
  exists p (J : nat -> R), 0 < p /\ forall n, gint (gw p n) (J n).
Proof.
  exists 1. destruct (gaussian_integral_exists 1 Rlt_0_1) as [J0 H].
  exists (fun n => J0 * momR 1 n). split; [lra|]. apply gauss_moments; [lra | exact H].
Qed.

(* a concrete instance: int x^2 e^{-p x^2} / int e^{-p x^2} = 1/(2p) *)
Example second_moment p : 0 < p -> Gint (gw p 2) / J0R p = / (2 * p).
Proof.
  intro Hp. rewrite (Gint_correct _ _ (gauss_moments p _ Hp (J0R_correct p Hp) 2)).
  rewrite momR_SS, momR_0. unfold vR. cbn [INR]. field. split; [lra|]. apply Rgt_not_eq. now apply J0R_pos.
Qed.
