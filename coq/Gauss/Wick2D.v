(* Gauss/Wick2D.v — bivariate Gaussian moments by Wick's (Isserlis') recursion,
   over any field (only ring identities are used).

   (y1, y2) centred Gaussian with covariance ((s11 s12) (s12 s22));
     M i k = E[(y1 + a1)^i (y2 + c1)^k]
   is DEFINED by raising the first exponent (the marginal of the second variable is
   the univariate recursion):
     M 0 0 = 1
     M 0 (k+1) = c1 M 0 k + k s22 M 0 (k-1)
     M (i+1) k = a1 M i k + i s11 M (i-1) k + k s12 M i (k-1)
   so that the rule for the second exponent and the symmetry in the two variables are theorems.
   Section ERI is the instance used by the electron-repulsion code
   (DESIGN.md 2.4: s = t^2, rho = p q/(p+q)):
     s11 = (1 - s rho/p)/(2p)   s12 = s/(2(p+q))   s22 = (1 - s rho/q)/(2q)
     a1 = PA - s (rho/p) PQ     c1 = QC + s (rho/q) PQ *)
From Coq Require Import List Arith Lia Field.
From GB Require Import Base.Field Gauss.Moment1D.
Import ListNotations.

Section Wick2D.
Context {F : Type} (K : Fops F) (Kf : is_field K).
Add Field KFw : Kf.
Local Open Scope F_scope.
Notation "0" := (f0 K) : F_scope.
Notation "1" := (f1 K) : F_scope.
Infix "+" := (fadd K) : F_scope.
Infix "*" := (fmul K) : F_scope.
Infix "-" := (fsub K) : F_scope.
Notation "- x" := (fopp K x) : F_scope.
Notation "# n" := (ofnat K n) (at level 5) : F_scope.

(* n * f (n-1), with the boundary convention 0 * (anything) = 0 *)
Definition lo (n : nat) (f : nat -> F) : F := match n with O => 0 | S n' => #n * f n' end.
Lemma lo_0 f : lo 0 f = 0. Proof. reflexivity. Qed.
Lemma lo_S n f : lo (S n) f = #(S n) * f n. Proof. reflexivity. Qed.
Lemma lo_ext n f g : (forall j, j < n -> f j = g j) -> lo n f = lo n g.
Proof. intros H. destruct n as [|n]; [reflexivity|]. rewrite !lo_S, H by lia. reflexivity. Qed.
(* the form the array code uses, with truncated subtraction *)
Lemma lo_pred n f : lo n f = #n * f (n - 1)%nat.
Proof. destruct n as [|n]; [cbn [lo ofnat]; ring|]. rewrite lo_S. now replace (S n - 1)%nat with n by lia. Qed.

Lemma lo_scale c n f : lo n (fun j => c * f j) = c * lo n f.
Proof. destruct n as [|n]; [rewrite !lo_0 | rewrite !lo_S]; ring. Qed.

Variables (a1 c1 s11 s12 s22 : F).

(* marginal of the second variable: U k = E[(y2 + c1)^k] *)
Fixpoint U2 (k : nat) : F * F :=            (* (U k, U (k+1)) *)
  match k with
  | O => (1, c1)
  | S k' => let '(x, y) := U2 k' in (y, c1 * y + #(S k') * s22 * x)
  end.
Definition U k := fst (U2 k).
Lemma U_0 : U 0 = 1. Proof. reflexivity. Qed.
Lemma U_1 : U 1 = c1. Proof. reflexivity. Qed.
Lemma U_SS k : U (S (S k)) = c1 * U (S k) + #(S k) * s22 * U k.
Proof. unfold U. cbn [U2]. destruct (U2 k) as [x y]. reflexivity. Qed.
Lemma U_S k : U (S k) = c1 * U k + s22 * lo k U.
Proof. destruct k as [|k]; [rewrite U_1, U_0, lo_0; ring|]. rewrite U_SS, lo_S. ring. Qed.

Fixpoint M2 (i : nat) : (nat -> F) * (nat -> F) :=       (* (M i, M (i+1)) *)
  match i with
  | O => (U, fun k => a1 * U k + s12 * lo k U)
  | S i' => let '(Mi, Mi1) := M2 i' in
            (Mi1, fun k => a1 * Mi1 k + #(S i') * s11 * Mi k + s12 * lo k Mi1)
  end.
Definition M (i : nat) : nat -> F := fst (M2 i).

Lemma M_0 k : M 0 k = U k. Proof. reflexivity. Qed.
Lemma M_00 : M 0 0 = 1. Proof. reflexivity. Qed.
Lemma M_1 k : M 1 k = a1 * U k + s12 * lo k U. Proof. reflexivity. Qed.
Lemma M_SS i k : M (S (S i)) k = a1 * M (S i) k + #(S i) * s11 * M i k + s12 * lo k (M (S i)).
Proof. unfold M. cbn [M2]. destruct (M2 i) as [Mi Mi1]. reflexivity. Qed.

(* the defining rule, uniform in i *)
Theorem wick_first_rule i k :
  M (S i) k = a1 * M i k + s11 * lo i (fun i' => M i' k) + s12 * lo k (M i).
Proof.
  destruct i as [|i].
  - rewrite M_1, lo_0. change (M 0) with U. ring.
  - rewrite M_SS, lo_S. ring.
Qed.

Definition R2 (i k : nat) : Prop :=
  M i (S k) = c1 * M i k + s22 * lo k (M i) + s12 * lo i (fun i' => M i' k).

Lemma R2_0 k : R2 0 k.
Proof. unfold R2. change (M 0) with U. rewrite U_S, lo_0. ring. Qed.

Lemma R2_1 k : R2 1 k.
Proof.
  unfold R2. rewrite !M_1, !lo_S. change (M 0) with U.
  destruct k as [|k].
  - rewrite !lo_0, U_1, U_0. cbn [ofnat]. ring.
  - rewrite !lo_S, M_1, (U_S (S k)), lo_S, (U_S k). cbn [ofnat]. ring.
Qed.

Lemma R2_SS i : (forall k, R2 i k) -> (forall k, R2 (S i) k) -> forall k, R2 (S (S i)) k.
Proof.
  intros H0 H1 k. unfold R2 in *.
  rewrite (wick_first_rule (S i) (S k)), !lo_S, (H1 k), (H0 k), !lo_S.
  rewrite (wick_first_rule (S i) k), !lo_S.
  destruct k as [|k].
  - rewrite !lo_0. rewrite (wick_first_rule i 0%nat), lo_0. cbn [ofnat]. ring.
  - rewrite !lo_S. rewrite (wick_first_rule (S i) k), !lo_S.
    (* only s12 * (#(S k) - #(S i)) * M (S i) (S k) is left over: first rule for #(S i), second for #(S k) *)
    pose proof (f_equal (fmul K #(S i)) (wick_first_rule i (S k))) as E1.
    pose proof (f_equal (fmul K #(S k)) (H1 k)) as E2. rewrite lo_S in E1, E2.
    change (#(S (S k))) with (1 + #(S k)). change (#(S (S i))) with (1 + #(S i)).
    ring [E1 E2].
Qed.

Theorem wick_second_rule i k :
  M i (S k) = c1 * M i k + s22 * lo k (M i) + s12 * lo i (fun i' => M i' k).
Proof.
  revert k. induction i using nat_ind2; [apply R2_0 | apply R2_1 | now apply R2_SS].
Qed.

(* the rule for k at i = 0 and the rule for i determine a family up to its value at (0, 0) *)
Lemma M_determined (N : nat -> nat -> F) :
  (forall k, N 0%nat (S k) = c1 * N 0%nat k + s22 * lo k (N 0%nat)) ->
  (forall i k, N (S i) k = a1 * N i k + s11 * lo i (fun i' => N i' k) + s12 * lo k (N i)) ->
  forall i k, N i k = N 0%nat 0%nat * M i k.
Proof.
  intros N0 N1.
  assert (HU : forall k, N 0%nat k = N 0%nat 0%nat * U k).
  { induction k as [| |k IH0 IH1] using nat_ind2.
    - rewrite U_0. ring.
    - rewrite N0, U_1, lo_0. ring.
    - rewrite N0, IH1, lo_S, IH0, U_SS. ring. }
  induction i as [| |i IH0 IH1] using nat_ind2; intro k.
  - rewrite M_0. apply HU.
  - rewrite N1, lo_0, M_1, (HU k), (lo_ext k (N 0%nat) (fun j => N 0%nat 0%nat * U j)) by (intros; apply HU).
    rewrite lo_scale. ring.
  - rewrite N1, lo_S, M_SS, (IH1 k), (IH0 k).
    rewrite (lo_ext k (N (S i)) (fun j => N 0%nat 0%nat * M (S i) j)) by (intros; apply IH1).
    rewrite lo_scale. ring.
Qed.

Theorem M_unique (N : nat -> nat -> F) :
  N 0%nat 0%nat = 1 ->
  (forall k, N 0%nat (S k) = c1 * N 0%nat k + s22 * lo k (N 0%nat)) ->
  (forall i k, N (S i) k = a1 * N i k + s11 * lo i (fun i' => N i' k) + s12 * lo k (N i)) ->
  forall i k, N i k = M i k.
Proof. intros N00 N0 N1 i k. rewrite (M_determined N N0 N1), N00. ring. Qed.

Lemma M_S0 i : M (S i) 0 = a1 * M i 0 + s11 * lo i (fun i' => M i' 0%nat).
Proof. rewrite wick_first_rule, lo_0. ring. Qed.

(* the marginals are the one-dimensional Gaussian moments of Moment1D *)
Lemma marginal_is_S3 (c s : F) (J : nat -> F) :
  J 0%nat = 1 -> (forall k, J (S k) = c * J k + s * lo k J) ->
  forall k, J k = S3 K s c 0 0 0 0 k 0.
Proof.
  intros J0 JS. induction k as [| |k IH0 IH1] using nat_ind2.
  - rewrite J0. symmetry. apply (S3_000 K Kf).
  - rewrite JS, lo_0, J0, (OS3_a K Kf), (S3_000 K Kf). unfold lower, dn. ring.
  - rewrite JS, lo_S, IH1, IH0, (OS3_a K Kf _ _ _ _ _ (S k)). unfold lower, dn. ring.
Qed.
Lemma M_0k k : M 0 k = S3 K s22 c1 0 0 0 0 k 0 /\ M 0 (S k) = S3 K s22 c1 0 0 0 0 (S k) 0.
Proof. split; apply (marginal_is_S3 c1 s22 (M 0) M_00 U_S). Qed.
Lemma M_i0 i : M i 0 = S3 K s11 a1 0 0 0 0 i 0 /\ M (S i) 0 = S3 K s11 a1 0 0 0 0 (S i) 0.
Proof. split; apply (marginal_is_S3 a1 s11 (fun i => M i 0%nat) M_00 M_S0). Qed.

(* electron transfer, abstract form: trade one power of (y1 + a1) for one of (y2 + c1) *)
Theorem etransfer_gen (r coef h : F) :
  c1 + r * a1 = coef -> s12 + r * s11 = h -> s22 + r * s12 = h ->
  forall i k, M i (S k) = coef * M i k + h * lo i (fun i' => M i' k) + h * lo k (M i) - r * M (S i) k.
Proof.
  intros Hc H1 H2 i k. rewrite wick_second_rule, wick_first_rule, <- Hc.
  rewrite <- H1 at 1. rewrite <- H2. ring.
Qed.

End Wick2D.

Section Swap.
Context {F : Type} (K : Fops F) (Kf : is_field K).
Add Field KFws : Kf.
Variables (a1 c1 s11 s12 s22 : F).
Let N i k := M K c1 a1 s22 s12 s11 k i.
Lemma swap_rule_k k : N 0 (S k) = fadd K (fmul K c1 (N 0 k)) (fmul K s22 (lo K k (N 0))).
Proof. unfold N. rewrite (wick_first_rule K Kf), lo_0. ring. Qed.
Lemma swap_rule_i i k :
  N (S i) k = fadd K (fadd K (fmul K a1 (N i k)) (fmul K s11 (lo K i (fun i' => N i' k))))
                     (fmul K s12 (lo K k (N i))).
Proof. unfold N. rewrite (wick_second_rule K Kf).
  change (fun i' : nat => M K c1 a1 s22 s12 s11 k i') with (M K c1 a1 s22 s12 s11 k). ring. Qed.
Theorem M_swap i k : M K a1 c1 s11 s12 s22 i k = M K c1 a1 s22 s12 s11 k i.
Proof. symmetry.
  apply (M_unique K Kf a1 c1 s11 s12 s22 N); [reflexivity|exact swap_rule_k|exact swap_rule_i]. Qed.
End Swap.

Section ERI.
Context {F : Type} (K : Fops F) (Kf : is_field K).
Add Field KFwe : Kf.
Local Open Scope F_scope.
Notation "0" := (f0 K) : F_scope.
Notation "1" := (f1 K) : F_scope.
Infix "+" := (fadd K) : F_scope.
Infix "*" := (fmul K) : F_scope.
Infix "-" := (fsub K) : F_scope.
Infix "/" := (fdiv K) : F_scope.
Notation "# n" := (ofnat K n) (at level 5) : F_scope.

Variables (p q PA QC PQ : F).       (* p = alpha+beta, q = gamma+delta, P-A, Q-C, P-Q along the axis *)
Hypothesis Hp : p <> 0.
Hypothesis Hq : q <> 0.
Hypothesis Hpq : p + q <> 0.
Hypothesis H2 : 1 + 1 <> 0.

Definition rho : F := p * q / (p + q).
Definition sig11 (s : F) : F := (1 - s * (rho / p)) / ((1 + 1) * p).
Definition sig12 (s : F) : F := s / ((1 + 1) * (p + q)).
Definition sig22 (s : F) : F := (1 - s * (rho / q)) / ((1 + 1) * q).
Definition mean1 (s : F) : F := PA - s * (rho / p) * PQ.
Definition mean2 (s : F) : F := QC + s * (rho / q) * PQ.

(* the per-axis integrand of (a0|c0) at s = t^2 *)
Definition Ms (s : F) (i k : nat) : F := M K (mean1 s) (mean2 s) (sig11 s) (sig12 s) (sig22 s) i k.

Lemma eri_cancel_mean s : mean2 s + p / q * mean1 s = QC + p / q * PA.
Proof. unfold mean1, mean2, rho. field. repeat split; assumption. Qed.
Lemma eri_cancel_1 s : sig12 s + p / q * sig11 s = 1 / ((1 + 1) * q).
Proof. unfold sig12, sig11, rho. field. repeat split; assumption. Qed.
Lemma eri_cancel_2 s : sig22 s + p / q * sig12 s = 1 / ((1 + 1) * q).
Proof. unfold sig12, sig22, rho. field. repeat split; assumption. Qed.

(* _two_elec_int.py:413-526, for the exact integrand at every s:
   E[c+1][a] = (QC + (p/q) PA) E[c][a] + a/(2q) E[c][a-1] + c/(2q) E[c-1][a] - (p/q) E[c][a+1] *)
Theorem etransfer_correct s a c :
  Ms s a (S c) = (QC + p / q * PA) * Ms s a c
                 + #a / ((1 + 1) * q) * Ms s (a - 1) c
                 + #c / ((1 + 1) * q) * Ms s a (c - 1)
                 - p / q * Ms s (S a) c.
Proof.
  unfold Ms.
  rewrite (etransfer_gen K Kf _ _ _ _ _ (p / q) (QC + p / q * PA) (1 / ((1 + 1) * q))
             (eri_cancel_mean s) (eri_cancel_1 s) (eri_cancel_2 s)).
  rewrite !(lo_pred K Kf). field. split; assumption.
Qed.
End ERI.
