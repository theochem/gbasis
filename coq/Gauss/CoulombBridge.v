(* Gauss/CoulombBridge.v — analytic bridge (B2) of DESIGN.md 2.4/2.6 reduced to the exchange of integrals.

   The header of Gauss/BoysBridge.v leaves ONE identity trusted for the Coulomb (point-charge /
   nuclear-attraction) integrals:
        int_{R^3} phi_a(r) phi_b(r) / |r - C| d^3r  =  prim_val RKB ...      (= the t-integral over [0,1])
   and splits it into (i) the Laplace/Gaussian representation of 1/r, (ii) the exchange of the
   u-integral with the integral over R^3, (iii) Gaussian integration at fixed u, (iv) the
   substitution t^2 = u^2/(p+u^2).  THIS FILE PROVES (i), (iii), (iv) AND THEIR COMPOSITION; only (ii) is
   left, as an explicit hypothesis [exchange_holds].

   Objects.  [hint g l] : the improper Riemann integral of g over [0, +oo) is l
                          (is_RInt_gen g (at_point 0) (Rbar_locally p_infty) l; spelled out by hint_spelled_out);
             [HInt g]   : its value (RInt_gen);   [gint], [gint3] : Gauss/BridgeR.v, Gauss/Bridge3D.v.
             dist2 x y z = |r - C|^2;   cprim = Cartesian Gaussian primitive of Gauss/Bridge3D.v;
             coulomb_kernel u x y z = (2/sqrt PI) phi_a(r) phi_b(r) exp(-u^2 |r-C|^2)      (the (u, r)-integrand)
             coulomb_integrand x y z = phi_a(r) phi_b(r) / sqrt(|r-C|^2)                   (the Coulomb integrand)

   Proved (all exponents > 0, all centres, all Cartesian powers, no other hypothesis):
     (i)   inv_r_gaussian_representation   r > 0 -> hint (fun u => exp(-u^2 r^2)) (sqrt PI / (2 r))
           inv_sqrt_laplace                d2 > 0 -> hint (fun u => 2/sqrt PI * exp(-u^2 d2)) (/ sqrt d2)
           coulomb_integrand_is_u_integral r <> C -> hint (fun u => coulomb_kernel u r) (coulomb_integrand r)
           (tool: gint_even_half — the half-line integral of an even function is half of [gint])
     (iii) three_gauss_1d                  int (x-A)^i (x-B)^j e^{-al(x-A)^2} e^{-be(x-B)^2} e^{-w(x-C)^2} dx
                                           = e^{-mu(A-B)^2} e^{-(p w/(p+w))(P-C)^2} sqrt(PI/(p+w)) S3(1/(2(p+w)); W-A, W-B; 0,0,i,j),
                                           W = (p P + w C)/(p+w), every w >= 0
           three_gauss_1d_model            the same in the variables of the model: s = w/(p+w), variance v(1-s),
                                           displacements PA - s PC, PB - s PC, exponent p s (P-C)^2
           gaussian_at_fixed_u_raw         gint3 (phi_a phi_b e^{-u^2|r-C|^2}) = (PI/q)^{3/2} e^{-mu|AB|^2} e^{-(p u^2/q)|PC|^2}
                                           prod_axes S3(1/(2q); W-A, W-B; 0,0,a_i,b_i),  q = p+u^2, W = (p P + u^2 C)/q
           gaussian_at_fixed_u             gint3 (coulomb_kernel u) (Ju u),
                                           Ju u = (2/sqrt PI) (PI/q) sqrt(PI/q) e^{-mu|AB|^2} e^{-p s|PC|^2}
                                                  prod_axes S3(v(1-s); PA - s PC, PB - s PC; 0,0,a_i,b_i),  q = p+u^2, s = u^2/q
     (iv)  hint_subst_tau                  for every continuous g:  int_0^oo g(u/sqrt(p+u^2)) p (p+u^2)^{-3/2} du = int_0^1 g(t) dt
                                           (is_RInt_comp on [0,U], tau U -> 1, continuity of the primitive)
           Ju_integral                     hint Ju (prim_val RKB ...)          [with BoysBridge.prim_val_is_t_integral]
     composition
           coulomb_u_then_r_integral_is_prim_val
                                           int_0^oo [ iterated integral over R^3 of coulomb_kernel u ] du = prim_val RKB ...
                                           — everything of (B2) except the order of integration, no hypothesis
           exchange_gives_prim_val         exchange_holds (coulomb_kernel) F -> gint3 F (prim_val RKB ...), for F = coulomb_integrand
                                           and for F r = HInt (fun u => coulomb_kernel u r), the integrand WRITTEN as the
                                           u-integral (equal to coulomb_integrand off the single point r = C)
           exchange_equivalent_to_conclusion
                                           the hypothesis is exactly as strong as the conclusion (nothing beyond (ii) is assumed)

   WHAT REMAINS TRUSTED FOR (B2) AFTER THIS FILE — only (ii), for this explicit continuous kernel:
        exchange_holds K F  :=  forall J L, (forall u, 0 <= u -> gint3 (K u) (J u)) -> hint J L -> gint3 F L
     with K = coulomb_kernel, F = coulomb_integrand, where F r = int_0^oo K u r du for every r <> C (proved).  I.e.
     "iterated integral over R^3 of the u-integral = u-integral of the iterated integral over R^3" (Fubini-Tonelli
     for a non-negative-dominated integrand: |K| <= (2/sqrt PI) |phi_a phi_b| e^{-u^2 |r-C|^2}) together with the
     irrelevance of the single point r = C (where [coulomb_integrand] has Coq's value x/0 = 0).  The premises of
     [exchange_holds] are PROVED for J = Ju and L = prim_val (coulomb_u_then_r_integral_is_prim_val), so the
     hypothesis is used at a non-vacuous instance; its satisfiability for a concrete Gaussian pair IS the trusted
     statement (it is equivalent to the conclusion), so no Example can discharge it here — see
     [exchange_holds_satisfiable_abstract] for the predicate itself and [exchange_premises_satisfied] for the premises.
   Assumptions: the classical real numbers of the standard library only. *)
From Coq Require Import Reals Lra Lia List.
From Coquelicot Require Import Coquelicot.
From GB Require Import Base.Field Base.FNum Gauss.Moment1D Gauss.SPoly Gauss.Bridge Gauss.DerivBridge
  Gauss.BridgeR Gauss.GaussInt Model.Shell Proofs.CoreBlockP Proofs.ScreeningP Proofs.OneElecP
  Gauss.Bridge3D Gauss.BoysBridge.
Import ListNotations.
Open Scope R_scope.

Definition hint (g : R -> R) (l : R) : Prop :=
  is_RInt_gen g (at_point 0) (Rbar_locally p_infty) l.
Definition HInt (g : R -> R) : R := RInt_gen g (at_point 0) (Rbar_locally p_infty).

(* what [hint] says: for every eps there is M such that every proper integral over [0, b], M < b,
   exists and is within eps of l *)
Lemma hint_spelled_out (g : R -> R) (l : R) :
  hint g l <->
  (forall eps : posreal, exists M : R, forall b : R, M < b ->
     exists y : R, is_RInt g 0 b y /\ Rabs (y - l) < eps).
Proof.
  unfold hint. rewrite is_RInt_gen_spelled_out. split; intros H eps.
  - destruct (H eps) as [Qa [Qb [H0 [[M HM] HQ]]]].
    exists M. intros b Hb. apply HQ; [exact H0 | now apply HM].
  - destruct (H eps) as [M HM]. exists (fun a => a = 0), (fun b => M < b).
    split; [reflexivity|]. split; [exists M; intros x Hx; exact Hx|].
    intros a b -> Hb. now apply HM.
Qed.

Lemma hint_ext (f g : R -> R) (l l' : R) :
  (forall x, f x = g x) -> l = l' -> hint f l -> hint g l'.
Proof. exact (is_RInt_gen_ext_eq f g l l'). Qed.

Lemma hint_ext_nonneg (f g : R -> R) (l : R) :
  (forall x, 0 <= x -> f x = g x) -> hint f l -> hint g l.
Proof.
  intro E. rewrite !hint_spelled_out. intros H eps. destruct (H eps) as [M HM].
  exists (Rmax M 0). intros b Hb. pose proof (Rmax_l M 0). pose proof (Rmax_r M 0).
  destruct (HM b) as [y [Hy Hd]]; [lra|]. exists y. split; [|exact Hd].
  apply (is_RInt_ext f); [|exact Hy].
  intros x Hx. apply E. rewrite Rmin_left in Hx by lra. lra.
Qed.

Lemma hint_scal (k : R) (f : R -> R) (l : R) : hint f l -> hint (fun x => k * f x) (k * l).
Proof. intro H. exact (is_RInt_gen_scal f k l H). Qed.

Lemma hint_unique (f : R -> R) (l l' : R) : hint f l -> hint f l' -> l = l'.
Proof. exact (is_RInt_gen_unique_eq f l l'). Qed.

Lemma HInt_correct g l : hint g l -> HInt g = l.
Proof. intro H. exact (is_RInt_gen_unique g l H). Qed.

Theorem gint_even_half (g : R -> R) (l : R) :
  (forall x, g (- x) = g x) -> gint g l -> hint g (l / 2).
Proof.
  intros Hev H. rewrite gint_spelled_out in H. rewrite hint_spelled_out. intro eps.
  destruct (H eps) as [M HM]. exists (Rmax M 0). intros b Hb.
  assert (HbM : M < b) by (pose proof (Rmax_l M 0); lra).
  assert (Hb0 : 0 < b) by (pose proof (Rmax_r M 0); lra).
  destruct (HM (- b) b) as [y [Hy Hd]]; [lra | lra |].
  assert (Hex : ex_RInt g 0 b).
  { apply (ex_RInt_Chasles_2 g (- b) 0 b); [lra | exists y; exact Hy]. }
  destruct Hex as [y2 Hy2].
  pose proof (even_RInt_neg g b y2 Hev Hy2) as Hneg.
  pose proof (is_RInt_Chasles g (- b) 0 b y2 y2 Hneg Hy2) as Hc.
  pose proof (is_RInt_unique _ _ _ _ Hc) as E1. pose proof (is_RInt_unique _ _ _ _ Hy) as E2.
  assert (E : y = y2 + y2) by (rewrite <- E2, E1; reflexivity).
  exists y2. split; [exact Hy2|].
  replace (y2 - l / 2) with ((y - l) * / 2) by (rewrite E; field).
  rewrite Rabs_mult, (Rabs_pos_eq (/ 2)) by lra.
  pose proof (Rabs_pos (y - l)). lra.
Qed.

Lemma half_gaussian (d2 : R) : 0 < d2 ->
  hint (fun u => exp (- u ^ 2 * d2)) (sqrt PI / (2 * sqrt d2)).
Proof.
  intro Hd. assert (Hs : 0 < sqrt d2) by now apply sqrt_lt_R0.
  apply (hint_ext (fun u => exp (- d2 * u ^ 2)) _ (sqrt (PI / d2) / 2)).
  - intro u. f_equal. ring.
  - rewrite sqrt_div_alt by exact Hd. field. lra.
  - apply gint_even_half; [|now apply gaussian_integral].
    intro x. f_equal. ring.
Qed.

Theorem inv_r_gaussian_representation (r : R) : 0 < r ->
  hint (fun u => exp (- u ^ 2 * r ^ 2)) (sqrt PI / (2 * r)).
Proof.
  intro Hr. assert (H2 : 0 < r ^ 2) by (apply pow_lt; exact Hr).
  pose proof (half_gaussian (r ^ 2) H2) as H.
  replace (sqrt (r ^ 2)) with r in H; [exact H|].
  symmetry. replace (r ^ 2) with (Rsqr r) by (unfold Rsqr; ring). apply sqrt_Rsqr. lra.
Qed.

Lemma sqrt_PI_pos : 0 < sqrt PI.
Proof. apply sqrt_lt_R0. apply PI_RGT_0. Qed.

Theorem inv_sqrt_laplace (d2 : R) : 0 < d2 ->
  hint (fun u => 2 / sqrt PI * exp (- u ^ 2 * d2)) (/ sqrt d2).
Proof.
  intro Hd. assert (Hs : 0 < sqrt d2) by now apply sqrt_lt_R0. pose proof sqrt_PI_pos.
  apply (hint_ext (fun u => 2 / sqrt PI * exp (- u ^ 2 * d2)) _ (2 / sqrt PI * (sqrt PI / (2 * sqrt d2))));
    [reflexivity | field; split; lra |].
  apply (hint_scal (2 / sqrt PI) (fun u => exp (- u ^ 2 * d2))). now apply half_gaussian.
Qed.

Theorem three_gauss_1d (al be w A B C : R) (i j : nat) : 0 < al -> 0 < be -> 0 <= w ->
  let p := al + be in let P := (al * A + be * B) / p in let mu := al * be / p in
  let q := p + w in let W := (p * P + w * C) / q in
  gint (fun x => (x - A) ^ i * (x - B) ^ j
                 * exp (- al * (x - A) ^ 2) * exp (- be * (x - B) ^ 2) * exp (- w * (x - C) ^ 2))
       (exp (- mu * (A - B) ^ 2) * exp (- (p * w / q) * (P - C) ^ 2) * sqrt (PI / q)
        * S3 RKd (vR q) (W - A) (W - B) 0 0 0 i j).
Proof.
  intros Hal Hbe Hw p P mu q W. assert (Hq : 0 < q) by (unfold q, p; lra).
  set (c := exp (- mu * (A - B) ^ 2) * exp (- (p * w / q) * (P - C) ^ 2)).
  refine (gint_ext _ _ _ _ _ _ (g3_gauss_integral q W A B W c 0 i j Hq)).
  - intro x.
    (* the Gaussian product identity applied twice:
         al (x-A)^2 + be (x-B)^2 + w (x-C)^2 = q (x-W)^2 + mu (A-B)^2 + (p w / q) (P-C)^2 *)
    assert (Hexp : exp (- al * (x - A) ^ 2) * exp (- be * (x - B) ^ 2) * exp (- w * (x - C) ^ 2)
                   = c * exp (- q * (x - W) ^ 2)).
    { unfold c. rewrite <- !exp_plus. f_equal. unfold W, q, mu, P, p. field. split; lra. }
    rewrite !Rmult_assoc, <- (Rmult_assoc (exp (- al * (x - A) ^ 2))), Hexp. cbn [pow]. ring.
  - replace (W - W) with 0 by ring. unfold c. ring.
Qed.

(* RKB (honest Boys function in the oracle slot) and RKd agree on the moment functional; [ofnat] is a
   top-level fixpoint taking the record as an argument, so this is an induction, not a conversion *)
Lemma ofnat_RKB n : ofnat RKB n = ofnat RKd n.
Proof. induction n as [|n IH]; [reflexivity|]. cbn [ofnat]. rewrite IH. reflexivity. Qed.
Lemma mom2_RKB v n : mom2 RKB v n = mom2 RKd v n.
Proof.
  induction n as [|n IH]; [reflexivity|]. cbn [mom2]. rewrite IH.
  destruct (mom2 RKd v n) as [a b]. f_equal. rewrite ofnat_RKB. reflexivity.
Qed.
Lemma Eaux_RKB v f : forall n, Eaux RKB v n f = Eaux RKd v n f.
Proof.
  induction f as [|c f IH]; intro n; [reflexivity|]. cbn [Eaux]. rewrite IH. unfold mom.
  rewrite mom2_RKB. reflexivity.
Qed.
Lemma S3_RKB_RKd v a b c n k i j : S3 RKB v a b c n k i j = S3 RKd v a b c n k i j.
Proof. unfold S3. rewrite Eaux_RKB. reflexivity. Qed.

(* the moment factor of [three_gauss_1d] in the variables of the model (DESIGN.md 2.4): s = w/(p+w)
   (= t^2 after the substitution), variance v (1 - s), displacements PA - s PC and PB - s PC *)
Lemma S3_model_variables (p w P A B C : R) (i j : nat) : 0 < p -> 0 <= w ->
  let q := p + w in let s := w / q in
  S3 RKd (vR q) ((p * P + w * C) / q - A) ((p * P + w * C) / q - B) 0 0 0 i j
  = S3 RKB (1 / ((1 + 1) * p) * (1 - s)) (P - A - s * (P - C)) (P - B - s * (P - C)) 0 0 0 i j.
Proof.
  intros Hp Hw q s. rewrite S3_RKB_RKd.
  replace (vR q) with (1 / ((1 + 1) * p) * (1 - s)) by (unfold vR, s, q; field; lra).
  replace ((p * P + w * C) / q - A) with (P - A - s * (P - C)) by (unfold s, q; field; lra).
  replace ((p * P + w * C) / q - B) with (P - B - s * (P - C)) by (unfold s, q; field; lra).
  reflexivity.
Qed.

Theorem three_gauss_1d_model (al be w A B C : R) (i j : nat) : 0 < al -> 0 < be -> 0 <= w ->
  let p := al + be in let P := (al * A + be * B) / p in let mu := al * be / p in
  let q := p + w in let s := w / q in let v := 1 / ((1 + 1) * p) in
  gint (fun x => cg1 al A i x * cg1 be B j x * exp (- w * (x - C) ^ 2))
       (exp (- mu * (A - B) ^ 2) * exp (- (p * s) * (P - C) ^ 2) * sqrt (PI / q)
        * S3 RKB (v * (1 - s)) (P - A - s * (P - C)) (P - B - s * (P - C)) 0 0 0 i j).
Proof.
  intros Hal Hbe Hw p P mu q s v. assert (Hp : 0 < p) by (unfold p; lra).
  assert (Hq : 0 < q) by (unfold q; lra).
  pose proof (three_gauss_1d al be w A B C i j Hal Hbe Hw) as H. cbv zeta in H. fold p P mu q in H.
  refine (gint_ext _ _ _ _ _ _ H).
  - intro x. unfold cg1. ring.
  - pose proof (S3_model_variables p w P A B C i j Hp Hw) as E. cbv zeta in E. fold q s v in E. rewrite E.
    replace (p * w / q) with (p * s) by (unfold s; field; lra). reflexivity.
Qed.

Definition tau (p u : R) : R := u / sqrt (p + u ^ 2).
Definition dtau (p u : R) : R := p / ((p + u ^ 2) * sqrt (p + u ^ 2)).

Lemma sqrt_q p u : 0 < p ->
  0 < p + u ^ 2 /\ 0 < sqrt (p + u ^ 2) /\ sqrt (p + u ^ 2) * sqrt (p + u ^ 2) = p + u ^ 2.
Proof.
  intro Hp. assert (Hq : 0 < p + u ^ 2) by (pose proof (pow2_ge_0 u); lra).
  split; [exact Hq|]. split; [now apply sqrt_lt_R0 | apply sqrt_sqrt; lra].
Qed.

Lemma tau_0 p : tau p 0 = 0.
Proof. unfold tau, Rdiv. ring. Qed.

Lemma tau_sq p u : 0 < p -> tau p u ^ 2 = u ^ 2 / (p + u ^ 2).
Proof.
  intro Hp. destruct (sqrt_q p u Hp) as [Hq [Hs Hr]]. unfold tau.
  set (r := sqrt (p + u ^ 2)) in *. rewrite <- Hr. field. lra.
Qed.

Lemma tau_derive p u : 0 < p -> is_derive (tau p) u (dtau p u).
Proof.
  intro Hp. destruct (sqrt_q p u Hp) as [Hq [Hs Hr]].
  unfold tau, dtau. auto_derive.
  - replace (p + u * (u * 1)) with (p + u ^ 2) by ring. repeat split; lra.
  - replace (p + u * (u * 1)) with (p + u ^ 2) by ring.
    set (r := sqrt (p + u ^ 2)) in *.
    assert (Hp' : p = r * r - u ^ 2) by lra. rewrite Hp'. field. lra.
Qed.

Lemma dtau_continuous p u : 0 < p -> continuous (dtau p) u.
Proof.
  intro Hp. destruct (sqrt_q p u Hp) as [Hq [Hs _]].
  apply (ex_derive_continuous (dtau p) u). unfold dtau. auto_derive.
  replace (p + u * (u * 1)) with (p + u ^ 2) by ring. repeat split; try exact I; try lra.
  apply Rgt_not_eq. now apply Rmult_lt_0_compat.
Qed.

Lemma tau_bounds p u : 0 < p -> 0 < u -> 0 < tau p u < 1 /\ 1 - tau p u <= p / u ^ 2.
Proof.
  intros Hp Hu. destruct (sqrt_q p u Hp) as [Hq [Hs Hr]]. unfold tau.
  set (r := sqrt (p + u ^ 2)) in *.
  assert (Hu2 : u ^ 2 = u * u) by ring.
  assert (Hru : u < r) by nra.
  assert (Hp' : p = r * r - u ^ 2) by lra.
  split; [split|].
  - now apply Rdiv_lt_0_compat.
  - apply Rmult_lt_reg_r with r; [exact Hs|]. unfold Rdiv. rewrite Rmult_assoc, Rinv_l by lra. lra.
  - replace (1 - u / r) with (p / (r * (r + u))) by (rewrite Hp'; field; split; lra).
    unfold Rdiv. apply Rmult_le_compat_l; [lra|].
    apply Rinv_le_contravar; [rewrite Hu2; now apply Rmult_lt_0_compat | nra].
Qed.

Lemma tau_lim p : 0 < p -> filterlim (tau p) (Rbar_locally p_infty) (locally 1).
Proof.
  intros Hp P [eps HP]. destruct eps as [e He]. cbn [pos] in HP.
  exists (Rmax 1 (p / e)). intros U HU. apply HP.
  assert (H1 : 1 < U) by (pose proof (Rmax_l 1 (p / e)); lra).
  assert (H2 : p / e < U) by (pose proof (Rmax_r 1 (p / e)); lra).
  destruct (tau_bounds p U Hp) as [[B0 B1] B2]; [lra|].
  change (Rabs (tau p U - 1) < e). rewrite Rabs_left1 by lra.
  apply Rle_lt_trans with (1 := (Req_le _ _ (Ropp_minus_distr _ _))).
  apply Rle_lt_trans with (1 := B2).
  assert (HU2 : 0 < U ^ 2) by (apply pow_lt; lra).
  apply (proj2 (Rlt_div_l p e (U ^ 2) HU2)).
  apply (proj1 (Rlt_div_l p U e He)) in H2. nra.
Qed.

Theorem hint_subst_tau (p : R) (g : R -> R) : 0 < p -> (forall t, continuous g t) ->
  hint (fun u => dtau p u * g (tau p u)) (RInt g 0 1).
Proof.
  intros Hp Hg.
  assert (Hex : forall a b, ex_RInt g a b).
  { intros a b. apply (ex_RInt_continuous g a b). intros z _. apply Hg. }
  set (Ig := fun z : R => RInt g 0 z).
  assert (Hc : continuous Ig 1).
  { apply (continuous_RInt_1 g 0 1 Ig). apply filter_forall. intro z. apply (RInt_correct g 0 z). apply Hex. }
  assert (Hlim : filterlim (fun U => Ig (tau p U)) (Rbar_locally p_infty) (locally (Ig 1))).
  { apply (filterlim_comp _ _ _ (tau p) Ig (Rbar_locally p_infty) (locally 1) (locally (Ig 1)));
      [now apply tau_lim | exact Hc]. }
  rewrite hint_spelled_out. intro eps.
  destruct (Hlim (fun y => Rabs (y - Ig 1) < eps)) as [M HM].
  { exists eps. intros y Hy. exact Hy. }
  exists M. intros b Hb. exists (Ig (tau p b)). split; [|exact (HM b Hb)].
  pose proof (is_RInt_comp g (tau p) (dtau p) 0 b) as H. rewrite tau_0 in H. apply H.
  - intros x _. apply Hg.
  - intros x _. split; [now apply tau_derive | now apply dtau_continuous].
Qed.

Lemma speval_continuous (f : list R) (x : R) : continuous (SPoly.peval RK f) x.
Proof.
  induction f as [|c f IH].
  - apply continuous_const.
  - apply (continuous_plus (fun _ : R => c) (fun s : R => s * SPoly.peval RK f s)).
    + apply continuous_const.
    + apply (continuous_mult (fun s : R => s) (SPoly.peval RK f)); [apply continuous_id | exact IH].
Qed.

Definition dist2 (Cx Cy Cz x y z : R) : R := (x - Cx) ^ 2 + (y - Cy) ^ 2 + (z - Cz) ^ 2.

Lemma dist2_pos Cx Cy Cz x y z : (x, y, z) <> (Cx, Cy, Cz) -> 0 < dist2 Cx Cy Cz x y z.
Proof.
  intro Hne. unfold dist2.
  pose proof (pow2_ge_0 (x - Cx)) as H1. pose proof (pow2_ge_0 (y - Cy)) as H2.
  pose proof (pow2_ge_0 (z - Cz)) as H3.
  destruct (Req_dec (x - Cx) 0) as [Ex|Ex]; [|assert (0 < (x - Cx) ^ 2) by (apply pow2_gt_0; exact Ex); lra].
  destruct (Req_dec (y - Cy) 0) as [Ey|Ey]; [|assert (0 < (y - Cy) ^ 2) by (apply pow2_gt_0; exact Ey); lra].
  destruct (Req_dec (z - Cz) 0) as [Ez|Ez]; [|assert (0 < (z - Cz) ^ 2) by (apply pow2_gt_0; exact Ez); lra].
  exfalso. apply Hne. f_equal; [f_equal|]; lra.
Qed.

(* (2/sqrt PI) phi_a(r) phi_b(r) exp(-u^2 |r-C|^2): its u-integral over [0,oo) is phi_a phi_b / |r-C| (r <> C) *)
Definition coulomb_kernel (Cx Cy Cz Ax Ay Az Bx By Bz al be : R) (ca cb : Shell.comp) (u x y z : R) : R :=
  2 / sqrt PI * (cprim al Ax Ay Az ca x y z * cprim be Bx By Bz cb x y z)
  * exp (- u ^ 2 * dist2 Cx Cy Cz x y z).

(* the Coulomb integrand itself (Coq's x / 0 = 0 at the single point r = C) *)
Definition coulomb_integrand (Cx Cy Cz Ax Ay Az Bx By Bz al be : R) (ca cb : Shell.comp) (x y z : R) : R :=
  cprim al Ax Ay Az ca x y z * cprim be Bx By Bz cb x y z / sqrt (dist2 Cx Cy Cz x y z).

(* (ii), the one step left: the iterated integral over R^3 of F equals the u-integral of the iterated
   integrals over R^3 of K u — for F r = int_0^oo K u r du (r <> C) *)
Definition exchange_holds (K : R -> R -> R -> R -> R) (F : R -> R -> R -> R) : Prop :=
  forall (J : R -> R) (L : R),
    (forall u, 0 <= u -> gint3 (K u) (J u)) -> hint J L -> gint3 F L.

(* the product over the axes of the per-s Gaussian moments: the polynomial in s of DESIGN.md 2.4,
   literally the factor of the integrand of BoysBridge.prim_val_is_t_integral (at s = t^2) *)
Definition Gprod (Cx Cy Cz Ax Ay Az Bx By Bz al be : R) (ca cb : Shell.comp) (s : R) : R :=
  let p := al + be in
  let Px := (al * Ax + be * Bx) / p in let Py := (al * Ay + be * By) / p in
  let Pz := (al * Az + be * Bz) / p in
  let v := 1 / ((1 + 1) * p) in
  S3 RKB (v * (1 - s)) (Px - Ax - s * (Px - Cx)) (Px - Bx - s * (Px - Cx)) 0 0 0
     (fst (fst ca)) (fst (fst cb))
  * S3 RKB (v * (1 - s)) (Py - Ay - s * (Py - Cy)) (Py - By - s * (Py - Cy)) 0 0 0
       (snd (fst ca)) (snd (fst cb))
  * S3 RKB (v * (1 - s)) (Pz - Az - s * (Pz - Cz)) (Pz - Bz - s * (Pz - Cz)) 0 0 0
       (snd ca) (snd cb).

(* the value of the iterated integral over R^3 of the kernel at fixed u *)
Definition Ju (Cx Cy Cz Ax Ay Az Bx By Bz al be : R) (ca cb : Shell.comp) (u : R) : R :=
  let p := al + be in
  let Px := (al * Ax + be * Bx) / p in let Py := (al * Ay + be * By) / p in
  let Pz := (al * Az + be * Bz) / p in
  let mu := al * be / p in
  let ab2 := (Ax - Bx) * (Ax - Bx) + (Ay - By) * (Ay - By) + (Az - Bz) * (Az - Bz) in
  let pc2 := (Px - Cx) * (Px - Cx) + (Py - Cy) * (Py - Cy) + (Pz - Cz) * (Pz - Cz) in
  let q := p + u ^ 2 in let s := u ^ 2 / q in
  2 / sqrt PI * (PI / q * sqrt (PI / q)) * exp (- (mu * ab2)) * exp (- (p * pc2) * s)
  * Gprod Cx Cy Cz Ax Ay Az Bx By Bz al be ca cb s.

Section Pair.
Variables (Cx Cy Cz Ax Ay Az Bx By Bz al be : R) (ca cb : Shell.comp).

Let kernel := coulomb_kernel Cx Cy Cz Ax Ay Az Bx By Bz al be ca cb.
Let integrand := coulomb_integrand Cx Cy Cz Ax Ay Az Bx By Bz al be ca cb.
Let Gp := Gprod Cx Cy Cz Ax Ay Az Bx By Bz al be ca cb.
Let Jp := Ju Cx Cy Cz Ax Ay Az Bx By Bz al be ca cb.

Let p := al + be.
Let Px := (al * Ax + be * Bx) / p.
Let Py := (al * Ay + be * By) / p.
Let Pz := (al * Az + be * Bz) / p.
Let mu := al * be / p.
Let ab2 := (Ax - Bx) * (Ax - Bx) + (Ay - By) * (Ay - By) + (Az - Bz) * (Az - Bz).
Let pc2 := (Px - Cx) * (Px - Cx) + (Py - Cy) * (Py - Cy) + (Pz - Cz) * (Pz - Cz).
Let pval := prim_val RKB Cx Cy Cz Ax Ay Az Bx By Bz al be ca cb.
Let ppoly := prim_poly RKB Cx Cy Cz Ax Ay Az Bx By Bz al be ca cb.

(* in the raw variables (no prefactor 2/sqrt PI): combined exponent q = p + u^2,
   combined centre W = (p P + u^2 C)/q, variance 1/(2q) *)
Theorem gaussian_at_fixed_u_raw (u : R) : 0 < al -> 0 < be ->
  let q := p + u ^ 2 in
  let Wx := (p * Px + u ^ 2 * Cx) / q in let Wy := (p * Py + u ^ 2 * Cy) / q in
  let Wz := (p * Pz + u ^ 2 * Cz) / q in
  gint3 (fun x y z => cprim al Ax Ay Az ca x y z * cprim be Bx By Bz cb x y z
                      * exp (- u ^ 2 * ((x - Cx) ^ 2 + (y - Cy) ^ 2 + (z - Cz) ^ 2)))
        (PI / q * sqrt (PI / q)
         * exp (- mu * ((Ax - Bx) ^ 2 + (Ay - By) ^ 2 + (Az - Bz) ^ 2))
         * exp (- (p * u ^ 2 / q) * ((Px - Cx) ^ 2 + (Py - Cy) ^ 2 + (Pz - Cz) ^ 2))
         * (S3 RKd (vR q) (Wx - Ax) (Wx - Bx) 0 0 0 (cx ca) (cx cb)
            * S3 RKd (vR q) (Wy - Ay) (Wy - By) 0 0 0 (cy ca) (cy cb)
            * S3 RKd (vR q) (Wz - Az) (Wz - Bz) 0 0 0 (cz ca) (cz cb))).
Proof.
  intros Ha Hb q Wx Wy Wz. assert (Hw : 0 <= u ^ 2) by apply pow2_ge_0.
  pose proof (three_gauss_1d al be (u ^ 2) Ax Bx Cx (cx ca) (cx cb) Ha Hb Hw) as Hx.
  pose proof (three_gauss_1d al be (u ^ 2) Ay By Cy (cy ca) (cy cb) Ha Hb Hw) as Hy.
  pose proof (three_gauss_1d al be (u ^ 2) Az Bz Cz (cz ca) (cz cb) Ha Hb Hw) as Hz.
  cbv zeta in Hx, Hy, Hz. fold p q mu Px Py Pz Wx Wy Wz in Hx, Hy, Hz.
  assert (Hq : 0 < q) by (unfold q, p; lra).
  refine (gint3_ext _ _ _ _ _ _ (gint3_prod _ _ _ _ _ _ Hx Hy Hz)).
  - intros x y z. rewrite !cprim_split. unfold cg1. rewrite exp_sum3. ring.
  - assert (E3 : PI / q = sqrt (PI / q) * sqrt (PI / q)).
    { symmetry. apply sqrt_sqrt. apply Rlt_le, Rdiv_lt_0_compat; [apply PI_RGT_0 | exact Hq]. }
    rewrite !exp_sum3. set (r := sqrt (PI / q)) in *. rewrite E3. ring.
Qed.

Theorem gaussian_at_fixed_u (u : R) : 0 < al -> 0 < be -> gint3 (kernel u) (Jp u).
Proof.
  intros Ha Hb. assert (Hp : 0 < p) by (unfold p; lra). assert (Hw : 0 <= u ^ 2) by apply pow2_ge_0.
  refine (gint3_ext _ _ _ _ _ _ (gint3_scal (2 / sqrt PI) _ _ (gaussian_at_fixed_u_raw u Ha Hb))).
  - intros x y z. unfold kernel, coulomb_kernel, dist2. ring.
  - cbv zeta.
    rewrite (S3_model_variables p (u ^ 2) Px Ax Bx Cx _ _ Hp Hw), (S3_model_variables p (u ^ 2) Py Ay By Cy _ _ Hp Hw),
      (S3_model_variables p (u ^ 2) Pz Az Bz Cz _ _ Hp Hw).
    unfold Jp, Ju, Gprod. cbv zeta. fold p Px Py Pz mu.
    replace (- mu * ((Ax - Bx) ^ 2 + (Ay - By) ^ 2 + (Az - Bz) ^ 2))
      with (- (mu * ((Ax - Bx) * (Ax - Bx) + (Ay - By) * (Ay - By) + (Az - Bz) * (Az - Bz)))) by ring.
    replace (- (p * u ^ 2 / (p + u ^ 2)) * ((Px - Cx) ^ 2 + (Py - Cy) ^ 2 + (Pz - Cz) ^ 2))
      with (- (p * ((Px - Cx) * (Px - Cx) + (Py - Cy) * (Py - Cy) + (Pz - Cz) * (Pz - Cz)))
            * (u ^ 2 / (p + u ^ 2))) by (field; lra).
    unfold cx, cy, cz. ring.
Qed.

(* Gprod is a polynomial in s: the coefficient list prim_poly of Proofs/OneElecP.v *)
Lemma Gprod_is_poly (s : R) : Gp s = SPoly.peval RK ppoly s.
Proof.
  unfold ppoly.
  rewrite <- peval_RKB, (prim_poly_eval RKB RKB_field Cx Cy Cz Ax Ay Az Bx By Bz al be ca cb s).
  reflexivity.
Qed.

(* the t-integrand of BoysBridge.prim_val_is_t_integral *)
Definition tint (t : R) : R := Gp (t ^ 2) * exp (- (p * pc2) * t ^ 2).

Lemma tint_continuous t : continuous tint t.
Proof.
  unfold tint. set (T := p * pc2).
  apply (continuous_mult (fun t : R => Gp (t ^ 2)) (fun t : R => exp (- T * t ^ 2))).
  - apply (continuous_ext (fun t : R => SPoly.peval RK ppoly (t ^ 2))).
    + intro x. symmetry. apply Gprod_is_poly.
    + apply (continuous_comp (fun t : R => t ^ 2) (SPoly.peval RK _)).
      * apply (ex_derive_continuous (fun t : R => t ^ 2) t). auto_derive. exact I.
      * apply speval_continuous.
  - apply (ex_derive_continuous (fun t : R => exp (- T * t ^ 2)) t). auto_derive. exact I.
Qed.

Theorem prim_val_is_tint_integral : pval = (1 + 1) * PI / p * exp (- (mu * ab2)) * RInt tint 0 1.
Proof. exact (prim_val_is_t_integral Cx Cy Cz Ax Ay Az Bx By Bz al be ca cb). Qed.

Lemma Ju_as_substitution (u : R) : 0 < al -> 0 < be ->
  Jp u = ((1 + 1) * PI / p * exp (- (mu * ab2))) * (dtau p u * tint (tau p u)).
Proof.
  intros Ha Hb. assert (Hp : 0 < p) by (unfold p; lra).
  destruct (sqrt_q p u Hp) as [Hq [Hs Hr]].
  pose proof sqrt_PI_pos as Hpi.
  pose proof (sqrt_sqrt PI (Rlt_le _ _ PI_RGT_0)) as Epi.
  unfold Jp, Ju, tint, Gp, dtau, mu, ab2, pc2, Px, Py, Pz. cbv zeta. fold p. rewrite (tau_sq p u Hp).
  rewrite (sqrt_div_alt PI (p + u ^ 2) Hq).
  set (G := Gprod _ _ _ _ _ _ _ _ _ _ _ _ _ _).
  set (e1 := exp (- (al * be / p * _))). set (e2 := exp (- (p * _) * _)).
  set (r := sqrt (p + u ^ 2)) in *. set (sp := sqrt PI) in *.
  rewrite <- Epi, <- Hr. field. repeat split; lra.
Qed.

Theorem Ju_integral : 0 < al -> 0 < be -> hint Jp pval.
Proof.
  intros Ha Hb. assert (Hp : 0 < p) by (unfold p; lra).
  refine (hint_ext _ _ _ _ _ (eq_sym prim_val_is_tint_integral)
            (hint_scal _ _ _ (hint_subst_tau p tint Hp tint_continuous))).
  intro u. symmetry. exact (Ju_as_substitution u Ha Hb).
Qed.

Theorem coulomb_integrand_is_u_integral (x y z : R) : (x, y, z) <> (Cx, Cy, Cz) ->
  hint (fun u => kernel u x y z) (integrand x y z).
Proof.
  intro Hne. pose proof (dist2_pos Cx Cy Cz x y z Hne) as Hd.
  unfold kernel, integrand, coulomb_kernel, coulomb_integrand.
  set (f := cprim al Ax Ay Az ca x y z * cprim be Bx By Bz cb x y z).
  refine (hint_ext _ _ _ _ _ _ (hint_scal f _ _ (inv_sqrt_laplace _ Hd))).
  - intro u. cbv beta. ring.
  - reflexivity.
Qed.

(* everything of (B2) except the order of integration, with no hypothesis:
     int_0^oo [ iterated integral over R^3 of the kernel at u ] du = prim_val *)
Theorem coulomb_u_then_r_integral_is_prim_val : 0 < al -> 0 < be ->
  exists J : R -> R, (forall u, gint3 (kernel u) (J u)) /\ hint J pval.
Proof.
  intros Ha Hb. exists Jp. split.
  - intro u. now apply gaussian_at_fixed_u.
  - now apply Ju_integral.
Qed.

Lemma exchange_gives_prim_val (F : R -> R -> R -> R) : 0 < al -> 0 < be ->
  exchange_holds kernel F -> gint3 F pval.
Proof.
  intros Ha Hb Hex. apply (Hex Jp).
  - intros u _. now apply gaussian_at_fixed_u.
  - now apply Ju_integral.
Qed.

Lemma exchange_equivalent_to_conclusion : 0 < al -> 0 < be ->
  (exchange_holds kernel integrand <-> gint3 integrand pval).
Proof.
  intros Ha Hb. split.
  - exact (exchange_gives_prim_val _ Ha Hb).
  - intros Hv J L HJ HL.
    assert (EJ : forall u, 0 <= u -> J u = Jp u).
    { intros u Hu. apply (gint3_unique _ _ _ (HJ u Hu)). now apply gaussian_at_fixed_u. }
    assert (EL : L = pval).
    { apply (hint_unique J); [exact HL|].
      apply (hint_ext_nonneg Jp); [|exact (Ju_integral Ha Hb)].
      intros u Hu. symmetry. now apply EJ. }
    rewrite EL. exact Hv.
Qed.
End Pair.

Example inv_r_hypothesis_satisfiable : exists r, 0 < r /\ hint (fun u => exp (- u ^ 2 * r ^ 2)) (sqrt PI / (2 * r)).
Proof. exists 1. split; [lra|]. apply inv_r_gaussian_representation. lra. Qed.

Example three_gauss_hypotheses_satisfiable : exists al be w : R, 0 < al /\ 0 < be /\ 0 <= w.
Proof. exists 1, 1, 0. repeat split; lra. Qed.

Example hint_subst_tau_hypotheses_satisfiable :
  exists (p : R) (g : R -> R), 0 < p /\ (forall t, continuous g t) /\
    hint (fun u => dtau p u * g (tau p u)) (RInt g 0 1).
Proof.
  exists 1, (fun _ => 1).
  assert (Hc : forall t : R, continuous (fun _ : R => 1) t) by (intro t; apply continuous_const).
  split; [lra|]. split; [exact Hc|]. apply hint_subst_tau; [lra | exact Hc].
Qed.

(* the premises under which [exchange_holds] is applied are satisfied for every Gaussian pair: the hypothesis
   is used at a non-vacuous instance *)
Example exchange_premises_satisfied :
  exists (J : R -> R) (L : R),
    (forall u, 0 <= u -> gint3 (coulomb_kernel 0 0 0 0 0 0 0 0 0 1 1 (0, 0, 0)%nat (0, 0, 0)%nat u) (J u))
    /\ hint J L.
Proof.
  destruct (coulomb_u_then_r_integral_is_prim_val 0 0 0 0 0 0 0 0 0 1 1 (0, 0, 0)%nat (0, 0, 0)%nat Rlt_0_1 Rlt_0_1)
    as [J [H1 H2]].
  exists J, (prim_val RKB 0 0 0 0 0 0 0 0 0 1 1 (0, 0, 0)%nat (0, 0, 0)%nat). split; [|exact H2].
  intros u _. apply H1.
Qed.

(* the predicate [exchange_holds] itself is satisfiable (trivial kernel); for the Gaussian kernel its
   satisfiability is equivalent to the conclusion of the theorem, i.e. it IS the trusted statement *)
Example exchange_holds_satisfiable_abstract : exchange_holds (fun _ _ _ _ => 0) (fun _ _ _ => 0).
Proof.
  intros J L HJ HL.
  pose proof gint3_zero as Hz.
  assert (EJ : forall u, 0 <= u -> J u = 0).
  { intros u Hu. exact (gint3_unique _ _ _ (HJ u Hu) Hz). }
  assert (EL : L = 0).
  { apply (hint_unique J); [exact HL|].
    apply (hint_ext_nonneg (fun _ => 0)); [intros u Hu; symmetry; now apply EJ|].
    refine (hint_ext _ _ _ _ (fun _ => Rmult_0_l _) (Rmult_0_l _) (hint_scal 0 _ _ (half_gaussian 1 Rlt_0_1))). }
  rewrite EL. exact Hz.
Qed.
