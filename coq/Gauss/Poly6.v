(* Gauss/Poly6.v — polynomials in SIX variables (y1 in R^3 for electron 1, y2 in R^3 for electron 2), the
   six-dimensional Gaussian moment functional with covariance  [[s11 I, s12 I], [s12 I, s22 I]]  and means (a1, c1),
   and its behaviour under the SIMULTANEOUS orthogonal substitution (Q + Q).  Any field, no analysis, no axioms.

   A monomial is a pair of exponent triples (Poly3.mon * Poly3.mon); a polynomial is a monomial list seen through
   the functionals  Jsum6 J f = sum over the entries (m, c) of f of  c * J m   (style of Gauss/Poly3.v).
   Six-variable polynomials are built as TENSOR PRODUCTS  tens f g = f(y1) g(y2)  of three-variable ones, so that the
   whole three-variable development of Poly3.v (substitution, chain rule, products of shifted monomials) is reused.

     E6 f       = Jsum6 M6 f,  M6 (m1, m2) = prod over the axes i of  M_i (m1_i, m2_i),  M_i the bivariate Wick moments
                  of Gauss/Wick2D.v with means (a1 i, c1 i) and the SAME covariance s11, s12, s22 on the three axes
     subst6 Q f = f o (Q + Q): y1_i |-> sum_j Q i j y1_j and y2_i |-> sum_j Q i j y2_j

   As in Poly3.v, invariance ([E6_subst6_orth]) comes from uniqueness: the functional f |-> E6 (f o (Q + Q)) obeys
   the six Stein rules with the rotated means, and those rules determine a linear functional up to its value at 1. *)
From Coq Require Import List Arith Lia Field.
From GB Require Import Base.Field Base.FNum Gauss.Moment1D Gauss.Poly3 Gauss.Wick2D.
Import ListNotations.

Definition mon6 := (mon * mon)%type.
Inductive el : Set := E1 | E2.
Definition expo6 (e : el) (i : axis) (m : mon6) : nat :=
  match e with E1 => expo i (fst m) | E2 => expo i (snd m) end.
Definition bump6 (e : el) (i : axis) (m : mon6) : mon6 :=
  match e with E1 => (bump i (fst m), snd m) | E2 => (fst m, bump i (snd m)) end.
Definition mlower6 (e : el) (i : axis) (m : mon6) : mon6 :=
  match e with E1 => (mlower i (fst m), snd m) | E2 => (fst m, mlower i (snd m)) end.
Definition zero6 : mon6 := ((0, 0, 0), (0, 0, 0))%nat.

Section Poly6.
Context {F : Type} (K : Fops F) (Kf : is_field K).
Add Field KFp6 : Kf.
Local Open Scope F_scope.
Notation "0" := (f0 K) : F_scope.
Notation "1" := (f1 K) : F_scope.
Infix "+" := (fadd K) : F_scope.
Infix "*" := (fmul K) : F_scope.
Infix "-" := (fsub K) : F_scope.
Notation "- x" := (fopp K x) : F_scope.
Notation "# n" := (ofnat K n) (at level 5) : F_scope.
Notation poly3 := (poly3 (F:=F)).
Notation Jsum := (Jsum K).

Definition poly6 := list (mon6 * F).
Definition mono6 (m : mon6) : poly6 := [(m, 1)].
Definition one6 : poly6 := mono6 zero6.

Fixpoint Jsum6 (J : mon6 -> F) (f : poly6) : F :=
  match f with [] => 0 | mc :: f' => snd mc * J (fst mc) + Jsum6 J f' end.
Definition peq6 (f g : poly6) : Prop := forall J, Jsum6 J f = Jsum6 J g.

Definition pscale6 (c : F) (f : poly6) : poly6 := map (fun mc => (fst mc, c * snd mc)) f.
Definition mulv6 (e : el) (i : axis) (f : poly6) : poly6 := map (fun mc => (bump6 e i (fst mc), snd mc)) f.
Definition dv6 (e : el) (i : axis) (f : poly6) : poly6 :=
  map (fun mc => (mlower6 e i (fst mc), #(expo6 e i (fst mc)) * snd mc)) f.
Definition lift6 (T : mon6 -> poly6) (f : poly6) : poly6 :=
  flat_map (fun mc => pscale6 (snd mc) (T (fst mc))) f.

Lemma Jsum6_ext J J' : (forall m, J m = J' m) -> forall f, Jsum6 J f = Jsum6 J' f.
Proof. intros H f. induction f as [|mc f IH]; cbn [Jsum6]; [reflexivity|]. now rewrite H, IH. Qed.
Lemma Jsum6_app J f g : Jsum6 J (f ++ g) = Jsum6 J f + Jsum6 J g.
Proof. induction f as [|mc f IH]; cbn [app Jsum6]; [ring|]. rewrite IH. ring. Qed.
Lemma Jsum6_pscale6 J c f : Jsum6 J (pscale6 c f) = c * Jsum6 J f.
Proof. induction f as [|mc f IH]; cbn [pscale6 map Jsum6 fst snd]; [ring|].
  fold (pscale6 c f). rewrite IH. ring. Qed.
Lemma Jsum6_Jadd J J' f : Jsum6 (fun m => J m + J' m) f = Jsum6 J f + Jsum6 J' f.
Proof. induction f as [|mc f IH]; cbn [Jsum6]; [ring|]. rewrite IH. ring. Qed.
Lemma Jsum6_Jscale c J f : Jsum6 (fun m => c * J m) f = c * Jsum6 J f.
Proof. induction f as [|mc f IH]; cbn [Jsum6]; [ring|]. rewrite IH. ring. Qed.

Definition mulv6T (e : el) (i : axis) (J : mon6 -> F) : mon6 -> F := fun m => J (bump6 e i m).
Definition dv6T (e : el) (i : axis) (J : mon6 -> F) : mon6 -> F :=
  fun m => #(expo6 e i m) * J (mlower6 e i m).
Lemma Jsum6_mulv6 e i J f : Jsum6 J (mulv6 e i f) = Jsum6 (mulv6T e i J) f.
Proof. induction f as [|mc f IH]; cbn [mulv6 map Jsum6 fst snd]; [reflexivity|].
  fold (mulv6 e i f). rewrite IH. reflexivity. Qed.
Lemma Jsum6_dv6 e i J f : Jsum6 J (dv6 e i f) = Jsum6 (dv6T e i J) f.
Proof. induction f as [|mc f IH]; cbn [dv6 map Jsum6 fst snd]; [reflexivity|].
  fold (dv6 e i f). rewrite IH. unfold dv6T. ring. Qed.
Lemma Jsum6_lift6 T J f : Jsum6 J (lift6 T f) = Jsum6 (fun m => Jsum6 J (T m)) f.
Proof. induction f as [|mc f IH]; cbn [lift6 flat_map Jsum6]; [reflexivity|].
  fold (lift6 T f). rewrite Jsum6_app, Jsum6_pscale6, IH. reflexivity. Qed.
Lemma Jsum6_mono6 J m : Jsum6 J (mono6 m) = J m.
Proof. unfold mono6. cbn [Jsum6 fst snd]. ring. Qed.

Definition tens (f g : poly3) : poly6 :=
  flat_map (fun mc1 => map (fun mc2 => ((fst mc1, fst mc2), snd mc1 * snd mc2)) g) f.

Lemma Jsum6_tens J f g : Jsum6 J (tens f g) = Jsum (fun m1 => Jsum (fun m2 => J (m1, m2)) g) f.
Proof.
  induction f as [|[m1 k1] f IH]; cbn [tens flat_map Poly3.Jsum fst snd]; [reflexivity|].
  fold (tens f g). rewrite Jsum6_app, IH. f_equal. clear IH.
  induction g as [|[m2 k2] g IHg]; cbn [map Jsum6 Poly3.Jsum fst snd]; [ring|]. rewrite IHg. ring.
Qed.
Lemma Jsum6_tens' J f g : Jsum6 J (tens f g) = Jsum (fun m2 => Jsum (fun m1 => J (m1, m2)) f) g.
Proof. rewrite Jsum6_tens. apply (Jsum_swap K Kf). Qed.
Lemma tens_cong f f' g g' : peq K f f' -> peq K g g' -> peq6 (tens f g) (tens f' g').
Proof.
  intros Hf Hg J. rewrite !Jsum6_tens, Hf. apply Jsum_ext. intro m1. apply Hg.
Qed.
Lemma tens_one : peq6 (tens (one3 K) (one3 K)) one6.
Proof. intro J. rewrite Jsum6_tens. unfold one3, mono3, one6, mono6, zero6. cbn [Poly3.Jsum Jsum6 fst snd].
  unfold mon. ring. Qed.

Lemma tens_mulv1 J i f g : Jsum6 J (tens (mulv i f) g) = Jsum6 J (mulv6 E1 i (tens f g)).
Proof. rewrite Jsum6_mulv6, !Jsum6_tens, (Jsum_mulv K). reflexivity. Qed.
Lemma tens_mulv2 J i f g : Jsum6 J (tens f (mulv i g)) = Jsum6 J (mulv6 E2 i (tens f g)).
Proof. rewrite Jsum6_mulv6, !Jsum6_tens. apply Jsum_ext. intro m1. rewrite (Jsum_mulv K). reflexivity. Qed.
Lemma tens_dv1 J i f g : Jsum6 J (tens (dv K i f) g) = Jsum6 J (dv6 E1 i (tens f g)).
Proof.
  rewrite Jsum6_dv6, !Jsum6_tens, (Jsum_dv K Kf). apply Jsum_ext. intro m1.
  unfold dvT, dv6T. cbn [expo6 mlower6 fst snd]. now rewrite (Jsum_Jscale K Kf).
Qed.
Lemma tens_dv2 J i f g : Jsum6 J (tens f (dv K i g)) = Jsum6 J (dv6 E2 i (tens f g)).
Proof. rewrite Jsum6_dv6, !Jsum6_tens. apply Jsum_ext. intro m1. rewrite (Jsum_dv K Kf). reflexivity. Qed.
Lemma tens_mullin1 J l f g :
  Jsum6 J (tens (mullin K l f) g) = sum3 K (fun j => l j * Jsum6 J (mulv6 E1 j (tens f g))).
Proof. rewrite Jsum6_tens, (Jsum_mullin_exp K Kf), <- !(Jsum6_tens J), !tens_mulv1. reflexivity. Qed.
Lemma tens_mullin2 J l f g :
  Jsum6 J (tens f (mullin K l g)) = sum3 K (fun j => l j * Jsum6 J (mulv6 E2 j (tens f g))).
Proof. rewrite Jsum6_tens', (Jsum_mullin_exp K Kf), <- !(Jsum6_tens' J), !tens_mulv2. reflexivity. Qed.

Definition subst6_mon (Q : mat (F:=F)) (m : mon6) : poly6 := tens (subst_mon K Q (fst m)) (subst_mon K Q (snd m)).
Definition subst6 (Q : mat (F:=F)) (f : poly6) : poly6 := lift6 (subst6_mon Q) f.

Lemma subst6_app Q f g : subst6 Q (f ++ g) = subst6 Q f ++ subst6 Q g.
Proof. unfold subst6, lift6. apply flat_map_app. Qed.
Lemma subst6_pscale6 Q c f : peq6 (subst6 Q (pscale6 c f)) (pscale6 c (subst6 Q f)).
Proof. intro J. unfold subst6. rewrite Jsum6_lift6, !Jsum6_pscale6, Jsum6_lift6. reflexivity. Qed.
Lemma subst6_one6 Q : peq6 (subst6 Q one6) one6.
Proof.
  intro J. unfold subst6. rewrite Jsum6_lift6. unfold one6 at 1. rewrite Jsum6_mono6.
  unfold subst6_mon, zero6. cbn [fst snd]. rewrite Jsum6_tens.
  unfold subst_mon. cbn [expo fst snd powop]. unfold one3, mono3, one6, mono6, zero6.
  cbn [Poly3.Jsum Jsum6 fst snd]. unfold mon. ring.
Qed.
Theorem subst6_tens Q f g : peq6 (subst6 Q (tens f g)) (tens (subst K Q f) (subst K Q g)).
Proof.
  intro J. unfold subst6, subst. rewrite Jsum6_lift6, !Jsum6_tens, (Jsum_lift K Kf).
  apply Jsum_ext. intro m1. unfold liftT.
  transitivity (Jsum (fun n2 => Jsum (fun n1 => J (n1, n2)) (subst_mon K Q m1)) (lift K (subst_mon K Q) g)).
  - rewrite (Jsum_lift K Kf). apply Jsum_ext. intro m2. unfold liftT, subst6_mon. cbn [fst snd]. apply Jsum6_tens'.
  - apply (Jsum_swap K Kf (fun n2 n1 => J (n1, n2))).
Qed.

Lemma subst6_mon_bump Q e i m J :
  Jsum6 J (subst6_mon Q (bump6 e i m)) = sum3 K (fun j => Q i j * Jsum6 J (mulv6 e j (subst6_mon Q m))).
Proof.
  unfold subst6_mon. destruct e; cbn [bump6 fst snd].
  - rewrite (tens_cong _ _ _ _ (subst_mon_bump K Kf Q i (fst m)) (peq_refl K _)). apply tens_mullin1.
  - rewrite (tens_cong _ _ _ _ (peq_refl K _) (subst_mon_bump K Kf Q i (snd m))). apply tens_mullin2.
Qed.
Lemma dv6_subst6_mon Q e j m J :
  Jsum6 J (dv6 e j (subst6_mon Q m))
  = sum3 K (fun k => Q k j * (#(expo6 e k m) * Jsum6 J (subst6_mon Q (mlower6 e k m)))).
Proof.
  unfold subst6_mon. destruct e; cbn [mlower6 expo6 fst snd].
  - rewrite <- tens_dv1, Jsum6_tens, (dv_subst_mon K Kf). apply sum3_ext. intro k. now rewrite Jsum6_tens.
  - rewrite <- tens_dv2, Jsum6_tens', (dv_subst_mon K Kf). apply sum3_ext. intro k. now rewrite Jsum6_tens'.
Qed.

Lemma lo_pred' n (f : nat -> F) : lo K n f = #n * f (Nat.pred n).
Proof. destruct n as [|n]; cbn [lo Nat.pred ofnat]; ring. Qed.

Section Moments.
Variables (a1 c1 : axis -> F) (s11 s12 s22 : F).
Definition Mw (i : axis) : nat -> nat -> F := Wick2D.M K (a1 i) (c1 i) s11 s12 s22.
Definition M6 (m : mon6) : F :=
  Mw AX (expo AX (fst m)) (expo AX (snd m)) * Mw AY (expo AY (fst m)) (expo AY (snd m))
  * Mw AZ (expo AZ (fst m)) (expo AZ (snd m)).
Definition E6 (f : poly6) : F := Jsum6 M6 f.

Lemma E6_one : E6 one6 = 1.
Proof. unfold E6, one6. rewrite Jsum6_mono6. unfold M6, zero6, Mw. cbn [expo fst snd]. rewrite !M_00. ring. Qed.
Lemma E6_app f g : E6 (f ++ g) = E6 f + E6 g.
Proof. apply Jsum6_app. Qed.
Lemma E6_pscale6 c f : E6 (pscale6 c f) = c * E6 f.
Proof. apply Jsum6_pscale6. Qed.

Definition mean (e : el) : axis -> F := match e with E1 => a1 | E2 => c1 end.
Definition cov (e e' : el) : F := match e, e' with E1, E1 => s11 | E2, E2 => s22 | _, _ => s12 end.

Lemma M6_rule e i m :
  M6 (bump6 e i m) = mean e i * M6 m + cov e E1 * (#(expo6 E1 i m) * M6 (mlower6 E1 i m))
                     + cov e E2 * (#(expo6 E2 i m) * M6 (mlower6 E2 i m)).
Proof.
  destruct m as [[[x1 y1] z1] [[x2 y2] z2]]. unfold M6, Mw.
  destruct e; [pose proof (wick_first_rule K Kf) as W | pose proof (wick_second_rule K Kf) as W];
    destruct i; cbn [mean cov bump6 mlower6 expo6 bump mlower expo fst snd]; rewrite W, !lo_pred'; ring.
Qed.

Theorem stein6 e i f :
  E6 (mulv6 e i f) = mean e i * E6 f + cov e E1 * E6 (dv6 E1 i f) + cov e E2 * E6 (dv6 E2 i f).
Proof.
  unfold E6. rewrite Jsum6_mulv6, !Jsum6_dv6, <- !Jsum6_Jscale, <- !Jsum6_Jadd. apply Jsum6_ext.
  intro m. apply M6_rule.
Qed.
Theorem stein6_1 i f :
  E6 (mulv6 E1 i f) = a1 i * E6 f + s11 * E6 (dv6 E1 i f) + s12 * E6 (dv6 E2 i f).
Proof. exact (stein6 E1 i f). Qed.
Theorem stein6_2 i f :
  E6 (mulv6 E2 i f) = c1 i * E6 f + s12 * E6 (dv6 E1 i f) + s22 * E6 (dv6 E2 i f).
Proof. exact (stein6 E2 i f). Qed.

Lemma Mw_unique i (N : nat -> nat -> F) :
  (forall x k, N (S x) k = a1 i * N x k + s11 * (#x * N (Nat.pred x) k) + s12 * (#k * N x (Nat.pred k))) ->
  (forall x k, N x (S k) = c1 i * N x k + s12 * (#x * N (Nat.pred x) k) + s22 * (#k * N x (Nat.pred k))) ->
  forall x k, N x k = N 0%nat 0%nat * Mw i x k.
Proof.
  intros L1 L2. unfold Mw. apply (M_determined K Kf).
  - intro k. rewrite L2, lo_pred'. cbn [ofnat]. ring.
  - intros x k. rewrite L1, !lo_pred'. ring.
Qed.

Definition stein6_laws (c0 : F) (J : mon6 -> F) : Prop :=
  J zero6 = c0
  /\ (forall i m, J (bump6 E1 i m) = a1 i * J m + s11 * (#(expo6 E1 i m) * J (mlower6 E1 i m))
                                     + s12 * (#(expo6 E2 i m) * J (mlower6 E2 i m)))
  /\ (forall i m, J (bump6 E2 i m) = c1 i * J m + s12 * (#(expo6 E1 i m) * J (mlower6 E1 i m))
                                     + s22 * (#(expo6 E2 i m) * J (mlower6 E2 i m))).

Lemma M6_stein6_laws c0 : stein6_laws c0 (fun m => c0 * M6 m).
Proof.
  split; [|split].
  - unfold M6, zero6, Mw. cbn [expo fst snd]. rewrite !M_00. ring.
  - intros i m. rewrite (M6_rule E1). cbn [mean cov]. ring.
  - intros i m. rewrite (M6_rule E2). cbn [mean cov]. ring.
Qed.

Theorem moments6_unique (J : mon6 -> F) c0 : stein6_laws c0 J -> forall m, J m = c0 * M6 m.
Proof.
  intros [H0 [L1 L2]] [[[x1 y1] z1] [[x2 y2] z2]].
  pose proof (Mw_unique AX (fun x k => J ((x, y1, z1), (k, y2, z2)))
                (fun x k => L1 AX ((x, y1, z1), (k, y2, z2)))
                (fun x k => L2 AX ((x, y1, z1), (k, y2, z2))) x1 x2) as EX.
  pose proof (Mw_unique AY (fun y k => J ((0, y, z1), (0, k, z2))%nat)
                (fun y k => L1 AY ((0, y, z1), (0, k, z2))%nat)
                (fun y k => L2 AY ((0, y, z1), (0, k, z2))%nat) y1 y2) as EY.
  pose proof (Mw_unique AZ (fun z k => J ((0, 0, z), (0, 0, k))%nat)
                (fun z k => L1 AZ ((0, 0, z), (0, 0, k))%nat)
                (fun z k => L2 AZ ((0, 0, z), (0, 0, k))%nat) z1 z2) as EZ.
  cbv beta in EX, EY, EZ. fold zero6 in EZ. unfold mon. rewrite EX, EY, EZ, H0. unfold M6. cbn [expo fst snd]. ring.
Qed.

Definition plinear6 (I : poly6 -> F) : Prop :=
  (forall f g, I (f ++ g) = I f + I g) /\ (forall c f, I (pscale6 c f) = c * I f).
Lemma linear_determined6 (I : poly6 -> F) : plinear6 I -> forall f, I f = Jsum6 (fun m => I (mono6 m)) f.
Proof.
  intros [Hadd Hsc]. induction f as [|[m c] f IH].
  - cbn [Jsum6]. pose proof (Hsc 0 []) as E. cbn [pscale6 map] in E.
    transitivity (0 * I []); [exact E|ring].
  - change ((m, c) :: f) with ([(m, c)] ++ f). rewrite Hadd, IH. cbn [Jsum6 app fst snd]. f_equal.
    replace [(m, c)] with (pscale6 c (mono6 m)); [apply Hsc|].
    unfold mono6. cbn [pscale6 map fst snd]. do 2 f_equal. ring.
Qed.
Definition stein6_on_monomials (I : poly6 -> F) : Prop :=
  (forall i m, I (mulv6 E1 i (mono6 m))
               = a1 i * I (mono6 m) + s11 * I (dv6 E1 i (mono6 m)) + s12 * I (dv6 E2 i (mono6 m)))
  /\ (forall i m, I (mulv6 E2 i (mono6 m))
               = c1 i * I (mono6 m) + s12 * I (dv6 E1 i (mono6 m)) + s22 * I (dv6 E2 i (mono6 m))).

Theorem gauss6_uniqueness (I : poly6 -> F) :
  plinear6 I -> stein6_on_monomials I -> forall f, I f = I one6 * E6 f.
Proof.
  intros HL [S1 S2] f. rewrite (linear_determined6 I HL). unfold E6.
  rewrite <- Jsum6_Jscale. apply Jsum6_ext. apply moments6_unique.
  assert (D : forall e i m, I (dv6 e i (mono6 m)) = #(expo6 e i m) * I (mono6 (mlower6 e i m))).
  { intros e i m. exact (proj2 HL #(expo6 e i m) (mono6 (mlower6 e i m))). }
  split; [reflexivity|split]; intros i m; rewrite <- !D.
  - exact (S1 i m).
  - exact (S2 i m).
Qed.
End Moments.

Section Invariance.
Variables (Q : mat (F:=F)) (a1 c1 : axis -> F) (s11 s12 s22 : F).
Hypothesis HQ : orth_rows K Q.
Notation E6o := (E6 a1 c1 s11 s12 s22).
Notation M6o := (M6 a1 c1 s11 s12 s22).

Definition JQ (m : mon6) : F := E6o (subst6_mon Q m).

(* the rotated Stein rule: the mean is contracted with one row of Q, the two chain-rule sums with two *)
Lemma stein_contract i (mu : axis -> F) T k1 k2 X1 X2 :
  sum3 K (fun j => Q i j * (mu j * T + k1 * sum3 K (fun k => Q k j * X1 k) + k2 * sum3 K (fun k => Q k j * X2 k)))
  = dot K (Q i) mu * T + k1 * X1 i + k2 * X2 i.
Proof.
  rewrite <- (orth_contract K Kf (transpose Q) X1 i HQ), <- (orth_contract K Kf (transpose Q) X2 i HQ).
  unfold dot, sum3, transpose. ring.
Qed.

Lemma JQ_rule e i m :
  JQ (bump6 e i m)
  = dot K (Q i) (mean a1 c1 e) * JQ m + cov s11 s12 s22 e E1 * (#(expo6 E1 i m) * JQ (mlower6 E1 i m))
    + cov s11 s12 s22 e E2 * (#(expo6 E2 i m) * JQ (mlower6 E2 i m)).
Proof.
  unfold JQ, E6 at 1. rewrite subst6_mon_bump.
  etransitivity;
    [|apply (stein_contract i _ _ _ _ (fun k => #(expo6 E1 k m) * JQ (mlower6 E1 k m))
                                      (fun k => #(expo6 E2 k m) * JQ (mlower6 E2 k m)))].
  apply sum3_ext. intro j.
  fold (E6o (mulv6 e j (subst6_mon Q m))). rewrite stein6. unfold E6. now rewrite !dv6_subst6_mon.
Qed.

Lemma JQ_laws :
  stein6_laws (fun i => dot K (Q i) a1) (fun i => dot K (Q i) c1) s11 s12 s22 1 JQ.
Proof.
  split; [|split].
  - unfold JQ, subst6_mon, zero6. cbn [fst snd]. unfold subst_mon. cbn [expo fst snd powop].
    unfold E6. rewrite tens_one. fold (E6o one6). apply E6_one.
  - exact (JQ_rule E1).
  - exact (JQ_rule E2).
Qed.

(* the functional with means (a1, c1) of f o (Q + Q) is the functional with means (Q a1, Q c1) of f,
   for proper and improper Q *)
Theorem E6_subst6_orth f :
  E6o (subst6 Q f) = E6 (fun i => dot K (Q i) a1) (fun i => dot K (Q i) c1) s11 s12 s22 f.
Proof.
  unfold E6 at 1. unfold subst6. rewrite Jsum6_lift6. unfold E6. apply Jsum6_ext. intro m.
  fold (E6o (subst6_mon Q m)). fold (JQ m).
  rewrite (moments6_unique _ _ _ _ _ JQ 1 JQ_laws m). ring.
Qed.
End Invariance.

Lemma E6_means_ext a1 c1 a1' c1' s11 s12 s22 f :
  (forall i, a1 i = a1' i) -> (forall i, c1 i = c1' i) -> E6 a1 c1 s11 s12 s22 f = E6 a1' c1' s11 s12 s22 f.
Proof.
  intros Ha Hc. unfold E6. apply Jsum6_ext. intro m. unfold M6, Mw.
  now rewrite (Ha AX), (Ha AY), (Ha AZ), (Hc AX), (Hc AY), (Hc AZ).
Qed.

(* the horizontal recursion  H[b+1][a] = H[b][a+1] + c H[b][a]  (the [Hf] of Proofs/TwoElecP.v) *)
Fixpoint shf (c : F) (T : nat -> F) (b a : nat) : F :=
  match b with O => T a | S b' => shf c T b' (S a) + c * shf c T b' a end.
Lemma shf_shift c T : forall b a, shf c (fun n => T (S n)) b a = shf c T b (S a).
Proof. induction b as [|b IH]; intro a; cbn [shf]; [reflexivity|]. now rewrite !IH. Qed.

Definition pj (jx jy jz : nat -> F) : mon -> F := fun m => jx (expo AX m) * jy (expo AY m) * jz (expo AZ m).

Lemma pj_powop_plin3 i c n g : forall jx jy jz,
  Jsum (pj jx jy jz) (powop (plin3 K i c) n g)
  = Jsum (pj (match i with AX => (fun a => shf c jx n a) | _ => jx end)
             (match i with AY => (fun a => shf c jy n a) | _ => jy end)
             (match i with AZ => (fun a => shf c jz n a) | _ => jz end)) g.
Proof.
  induction n as [|n IH]; intros jx jy jz; cbn [powop].
  - apply Jsum_ext. intro m. unfold pj. destruct i; reflexivity.
  - rewrite (Jsum_plin3_exp K Kf), (Jsum_mulv K), IH.
    rewrite (Jsum_ext K (mulvT i (pj jx jy jz))
               (pj (match i with AX => (fun a => jx (S a)) | _ => jx end)
                   (match i with AY => (fun a => jy (S a)) | _ => jy end)
                   (match i with AZ => (fun a => jz (S a)) | _ => jz end))).
    2:{ intros [[x y] z]. unfold mulvT, pj. destruct i; reflexivity. }
    rewrite IH, <- (Jsum_Jscale K Kf), <- (Jsum_Jadd K Kf). apply Jsum_ext. intro m. unfold pj.
    destruct i; cbn [shf]; rewrite shf_shift; ring.
Qed.

Lemma pj_smono c b g jx jy jz :
  Jsum (pj jx jy jz) (smono K c b g)
  = Jsum (pj (fun a => shf (c AX) jx (expo AX b) a) (fun a => shf (c AY) jy (expo AY b) a)
             (fun a => shf (c AZ) jz (expo AZ b) a)) g.
Proof. unfold smono. rewrite (pj_powop_plin3 AX), (pj_powop_plin3 AY), (pj_powop_plin3 AZ). reflexivity. Qed.

Lemma pj_smono_mono3 c b a jx jy jz :
  Jsum (pj jx jy jz) (smono K c b (mono3 K a))
  = shf (c AX) jx (expo AX b) (expo AX a) * shf (c AY) jy (expo AY b) (expo AY a)
    * shf (c AZ) jz (expo AZ b) (expo AZ a).
Proof. rewrite pj_smono. unfold mono3, pj. cbn [Poly3.Jsum fst snd]. ring. Qed.

(* ((y1 + cB)^b y1^a) (x) ((y2 + cD)^d y2^c) under E6: the product over the axes of the four-index quantities *)
Theorem E6_tens_smono a1 c1 s11 s12 s22 (cB cD : axis -> F) (a b c d : mon) :
  E6 a1 c1 s11 s12 s22 (tens (smono K cB b (mono3 K a)) (smono K cD d (mono3 K c)))
  = shf (cB AX) (fun a' => shf (cD AX) (Mw a1 c1 s11 s12 s22 AX a') (expo AX d) (expo AX c)) (expo AX b) (expo AX a)
    * shf (cB AY) (fun a' => shf (cD AY) (Mw a1 c1 s11 s12 s22 AY a') (expo AY d) (expo AY c)) (expo AY b) (expo AY a)
    * shf (cB AZ) (fun a' => shf (cD AZ) (Mw a1 c1 s11 s12 s22 AZ a') (expo AZ d) (expo AZ c)) (expo AZ b) (expo AZ a).
Proof.
  unfold E6. rewrite Jsum6_tens, <- pj_smono_mono3. apply Jsum_ext. intro m1.
  apply (pj_smono_mono3 cD d c (Mw a1 c1 s11 s12 s22 AX (expo AX m1)) (Mw a1 c1 s11 s12 s22 AY (expo AY m1))
                         (Mw a1 c1 s11 s12 s22 AZ (expo AZ m1))).
Qed.

End Poly6.
