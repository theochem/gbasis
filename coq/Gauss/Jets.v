(* Gauss/Jets.v — formal linear combinations of derivatives of the one-electron
   reduced density matrix (DESIGN.md 2.5).

   A symbol G(o1,o2), o1 o2 : nat^3, stands for

        sum_ab P_ab (d^o1 phi_a)(r) (d^o2 phi_b)(r)

   i.e. what [evaluate_deriv_reduced_density_matrix(o1, o2, ...)] of
   gbasis/evals/density.py:113-200 returns.  A *combination* is a list of
   (coefficient, o1, o2); coefficients are affine forms c1 + ca*alpha + cb*beta
   with canonical rational c1 ca cb (the two parameters of the stress tensor stay
   symbolic), so that equivalence of two combinations under G(o1,o2) = G(o2,o1)
   is decided by computation ([equivb], sound by [equivb_sound]).

   Semantics.  Level 1 (section [Eval]): any commutative ring R, any ring
   homomorphism inj : Qc -> R, any alpha beta : R, any symmetric G.  Level 2
   (section [Deriv]): R additionally carries three derivations D AX, D AY, D AZ
   (additive + Leibniz, killing the constants), phi o a are elements with
   D k (phi o a) = phi (o + e_k) a and P a b are constants; then G is *defined*
   as the double sum and [eval (dk k c) = D k (eval c)]: the formal total
   derivative [dk] (product rule on symbols) is the derivative.
   Everything assumed is a section hypothesis; nothing is an axiom. *)
From Coq Require Import ZArith QArith Qcanon Ring List Arith Lia Bool.
From GB Require Import Base.Field Base.Tables.
Import ListNotations.
Local Close Scope Qc_scope.
Local Close Scope Q_scope.
Local Close Scope Z_scope.
Local Open Scope nat_scope.

Inductive axis := AX | AY | AZ.
Definition axes : list axis := [AX; AY; AZ].

Definition order := (nat * nat * nat)%type.
Definition o0 : order := (0, 0, 0).
Definition oadd (a b : order) : order :=
  let '(a1, a2, a3) := a in let '(b1, b2, b3) := b in (a1 + b1, a2 + b2, a3 + b3).
Definition e_ (k : axis) : order :=
  match k with AX => (1, 0, 0) | AY => (0, 1, 0) | AZ => (0, 0, 1) end.
Definition osucc (k : axis) (o : order) : order :=
  let '(a1, a2, a3) := o in
  match k with AX => (S a1, a2, a3) | AY => (a1, S a2, a3) | AZ => (a1, a2, S a3) end.

Definition oeqb (a b : order) : bool :=
  let '(a1, a2, a3) := a in let '(b1, b2, b3) := b in
  Nat.eqb a1 b1 && Nat.eqb a2 b2 && Nat.eqb a3 b3.
Lemma oeqb_eq a b : oeqb a b = true -> a = b.
Proof.
  destruct a as [[a1 a2] a3], b as [[b1 b2] b3]. cbn [oeqb].
  rewrite !andb_true_iff, !Nat.eqb_eq. intros [[-> ->] ->]. reflexivity.
Qed.
(* lexicographic "a <= b", used only to choose a representative of {o1,o2} *)
Definition oleb (a b : order) : bool :=
  let '(a1, a2, a3) := a in let '(b1, b2, b3) := b in
  if Nat.ltb a1 b1 then true else if Nat.ltb b1 a1 then false else
  if Nat.ltb a2 b2 then true else if Nat.ltb b2 a2 then false else Nat.leb a3 b3.

Definition key := (order * order)%type.
Definition keqb (a b : key) : bool := oeqb (fst a) (fst b) && oeqb (snd a) (snd b).
Lemma keqb_eq a b : keqb a b = true -> a = b.
Proof.
  destruct a, b. unfold keqb. cbn [fst snd]. rewrite andb_true_iff.
  intros [H1 H2]. apply oeqb_eq in H1, H2. now subst.
Qed.
(* representative under G(o1,o2) = G(o2,o1) *)
Definition kcanon (k : key) : key := let '(a, b) := k in if oleb a b then (a, b) else (b, a).

(* coefficients c1 + ca*alpha + cb*beta over Qc *)
Definition coef := (Qc * Qc * Qc)%type.
Definition czero : coef := (0, 0, 0)%Qc.
Definition cone : coef := (1, 0, 0)%Qc.
Definition cplus (x y : coef) : coef :=
  let '(x1, xa, xb) := x in let '(y1, ya, yb) := y in (x1 + y1, xa + ya, xb + yb)%Qc.
Definition csmul (q : Qc) (x : coef) : coef :=
  let '(x1, xa, xb) := x in (q * x1, q * xa, q * xb)%Qc.
Definition copp (x : coef) : coef := csmul (- (1))%Qc x.
Definition ceqb (x y : coef) : bool :=
  let '(x1, xa, xb) := x in let '(y1, ya, yb) := y in
  Qc_eq_bool x1 y1 && Qc_eq_bool xa ya && Qc_eq_bool xb yb.
Lemma ceqb_eq x y : ceqb x y = true -> x = y.
Proof.
  destruct x as [[x1 xa] xb], y as [[y1 ya] yb]. cbn [ceqb].
  rewrite !andb_true_iff. intros [[H1 H2] H3].
  apply Qc_eq_bool_correct in H1, H2, H3. now subst.
Qed.
(* substitute a rational value for alpha and/or beta *)
Definition csubst (a b : option Qc) (x : coef) : coef :=
  let '(x1, xa, xb) := x in
  let '(x1, xa) := match a with Some v => (x1 + xa * v, 0)%Qc | None => (x1, xa) end in
  match b with Some v => (x1 + xb * v, xa, 0)%Qc | None => (x1, xa, xb) end.

Definition comb := list (coef * key).      (* coefficients affine in alpha, beta *)
Definition qcomb := list (Qc * key).       (* rational coefficients (derivatives of rho) *)

Definition lscale (q : Qc) (l : comb) : comb := map (fun t => (csmul q (fst t), snd t)) l.
Definition lopp (l : comb) : comb := lscale (- (1))%Qc l.
Definition lsubst (a b : option Qc) (l : comb) : comb := map (fun t => (csubst a b (fst t), snd t)) l.
(* affine coefficient times a rational combination *)
Definition scal (c : coef) (l : qcomb) : comb := map (fun t => (csmul (fst t) c, snd t)) l.
Definition lsum {A B} (f : A -> list B) (l : list A) : list B := flat_map f l.

(* formal total derivative: product rule on every symbol *)
Definition dkey (k : axis) (x : key) : list key :=
  let '(a, b) := x in [(osucc k a, b); (a, osucc k b)].
Definition dk (k : axis) (l : comb) : comb :=
  flat_map (fun t => map (fun x => (fst t, x)) (dkey k (snd t))) l.
Definition dkq (k : axis) (l : qcomb) : qcomb :=
  flat_map (fun t => map (fun x => (fst t, x)) (dkey k (snd t))) l.
(* d^L applied to a rational combination: z first, then y, then x (they commute) *)
Fixpoint iterq (n : nat) (k : axis) (l : qcomb) : qcomb :=
  match n with O => l | S m => dkq k (iterq m k l) end.
Definition dordq (L : order) (l : qcomb) : qcomb :=
  let '(lx, ly, lz) := L in iterq lx AX (iterq ly AY (iterq lz AZ l)).

(* merging equal symbols *)
Fixpoint add_term (c : coef) (k : key) (l : comb) : comb :=
  match l with
  | [] => [(c, k)]
  | t :: r => if keqb k (snd t) then (cplus c (fst t), snd t) :: r else t :: add_term c k r
  end.
Definition merge (l : comb) : comb :=
  fold_right (fun t acc => add_term (fst t) (kcanon (snd t)) acc) [] l.
Definition nonzero (l : comb) : comb := filter (fun t => negb (ceqb (fst t) czero)) l.
(* normal form up to the order of the terms (used for display / diagnostics) *)
Definition norm (l : comb) : comb := nonzero (merge l).
Definition zerob (l : comb) : bool := forallb (fun t => ceqb (fst t) czero) (merge l).
(* the decision procedure: a - b merges to zero coefficients only *)
Definition equivb (a b : comb) : bool := zerob (a ++ lopp b).

Definition is_qhom {R} (K : Fops R) (inj : Qc -> R) : Prop :=
  inj 1%Qc = f1 K
  /\ (forall a b, inj (a + b)%Qc = fadd K (inj a) (inj b))
  /\ (forall a b, inj (a * b)%Qc = fmul K (inj a) (inj b)).

Section Eval.
Context {R : Type} (K : Fops R) (Kr : is_ring K).
Add Ring KR : Kr.
Local Open Scope F_scope.
Notation "0" := (f0 K) : F_scope.
Notation "1" := (f1 K) : F_scope.
Infix "+" := (fadd K) : F_scope.
Infix "*" := (fmul K) : F_scope.
Infix "-" := (fsub K) : F_scope.
Notation "- x" := (fopp K x) : F_scope.

Variable inj : Qc -> R.
Hypothesis Hinj : is_qhom K inj.
Variables (alpha beta : R) (G : order -> order -> R).

Definition cev (c : coef) : R :=
  let '(c1, ca, cb) := c in inj c1 + inj ca * alpha + inj cb * beta.
Definition kev (k : key) : R := G (fst k) (snd k).
Fixpoint eval (l : comb) : R :=
  match l with [] => 0 | t :: r => cev (fst t) * kev (snd t) + eval r end.
Fixpoint evalq (l : qcomb) : R :=
  match l with [] => 0 | t :: r => inj (fst t) * kev (snd t) + evalq r end.

Lemma inj_1 : inj 1%Qc = 1. Proof. apply Hinj. Qed.
Lemma inj_add a b : inj (a + b)%Qc = inj a + inj b. Proof. apply Hinj. Qed.
Lemma inj_mul a b : inj (a * b)%Qc = inj a * inj b. Proof. apply Hinj. Qed.
Lemma additive_0 {A} (h : A -> R) (op : A -> A -> A) (z : A) :
  op z z = z -> (forall x y, h (op x y) = h x + h y) -> h z = 0.
Proof.
  intros Hz Hadd. assert (E : h z + h z = h z) by now rewrite <- Hadd, Hz.
  assert (E2 : h z = (h z + h z) - h z) by ring. rewrite E in E2. rewrite E2. ring.
Qed.
Lemma inj_0 : inj 0%Qc = 0.
Proof. apply (additive_0 inj Qcplus); [ring | exact inj_add]. Qed.
Lemma inj_opp a : inj (- a)%Qc = - inj a.
Proof.
  assert (E : inj (- a)%Qc + inj a = 0) by (rewrite <- inj_add, <- inj_0; f_equal; ring).
  assert (E2 : inj (- a)%Qc = (inj (- a)%Qc + inj a) - inj a) by ring.
  rewrite E2, E. ring.
Qed.

Lemma cev_zero : cev czero = 0.
Proof. unfold cev, czero. rewrite inj_0. ring. Qed.
Lemma cev_one : cev cone = 1.
Proof. unfold cev, cone. rewrite inj_0, inj_1. ring. Qed.
Lemma cev_plus x y : cev (cplus x y) = cev x + cev y.
Proof. destruct x as [[x1 xa] xb], y as [[y1 ya] yb]. cbn [cev cplus]. rewrite !inj_add. ring. Qed.
Lemma cev_smul q x : cev (csmul q x) = inj q * cev x.
Proof. destruct x as [[x1 xa] xb]. cbn [cev csmul]. rewrite !inj_mul. ring. Qed.
Lemma cev_opp x : cev (copp x) = - cev x.
Proof. unfold copp. rewrite cev_smul, inj_opp, inj_1. ring. Qed.

Lemma eval_app a b : eval (a ++ b) = eval a + eval b.
Proof. induction a as [|t a IH]; cbn [app eval]; [ring|]. rewrite IH. ring. Qed.
Lemma eval_lscale q l : eval (lscale q l) = inj q * eval l.
Proof.
  induction l as [|t l IH]; cbn [lscale map eval fst snd]; [ring|].
  fold (lscale q l). rewrite IH, cev_smul. ring.
Qed.
Lemma evalq_app a b : evalq (a ++ b) = evalq a + evalq b.
Proof. induction a as [|t a IH]; cbn [app evalq]; [ring|]. rewrite IH. ring. Qed.
Lemma eval_lopp l : eval (lopp l) = - eval l.
Proof. unfold lopp. rewrite eval_lscale, inj_opp, inj_1. ring. Qed.
Lemma eval_scal c l : eval (scal c l) = cev c * evalq l.
Proof.
  induction l as [|t l IH]; cbn [scal map eval evalq fst snd]; [ring|].
  fold (scal c l). rewrite IH, cev_smul. ring.
Qed.
Lemma eval_lsum {A} (f : A -> comb) l :
  eval (lsum f l) = fold_right (fun x acc => eval (f x) + acc) 0 l.
Proof. induction l as [|x l IH]; cbn [lsum flat_map fold_right eval]; [reflexivity|].
  rewrite eval_app. fold (lsum f l). now rewrite IH. Qed.

Lemma cev_subst a b x :
  (forall v, a = Some v -> alpha = inj v) -> (forall v, b = Some v -> beta = inj v) ->
  cev (csubst a b x) = cev x.
Proof.
  intros Ha Hb. destruct x as [[x1 xa] xb]. unfold csubst.
  destruct a as [va|], b as [vb|]; cbn [cev];
    rewrite ?(Ha _ eq_refl), ?(Hb _ eq_refl), ?inj_add, ?inj_mul, ?inj_0; ring.
Qed.
Lemma eval_lsubst a b l :
  (forall v, a = Some v -> alpha = inj v) -> (forall v, b = Some v -> beta = inj v) ->
  eval (lsubst a b l) = eval l.
Proof.
  intros Ha Hb. induction l as [|t l IH]; cbn [lsubst map eval fst snd]; [reflexivity|].
  fold (lsubst a b l). now rewrite IH, cev_subst.
Qed.

Hypothesis Gsym : forall a b, G a b = G b a.

Lemma kev_canon k : kev (kcanon k) = kev k.
Proof. destruct k as [a b]. unfold kcanon. destruct (oleb a b); [reflexivity|]. unfold kev. cbn [fst snd]. apply Gsym. Qed.

Lemma eval_add_term c k l : eval (add_term c k l) = cev c * kev k + eval l.
Proof.
  induction l as [|t l IH]; cbn [add_term eval fst snd]; [ring|].
  destruct (keqb k (snd t)) eqn:E.
  - apply keqb_eq in E. subst k. cbn [eval fst snd]. rewrite cev_plus. ring.
  - cbn [eval]. rewrite IH. ring.
Qed.
Lemma eval_merge l : eval (merge l) = eval l.
Proof.
  induction l as [|t l IH]; cbn [merge fold_right eval]; [reflexivity|].
  fold (merge l). now rewrite eval_add_term, IH, kev_canon.
Qed.
Lemma eval_nonzero l : eval (nonzero l) = eval l.
Proof.
  induction l as [|t l IH]; cbn [nonzero filter eval]; [reflexivity|]. fold (nonzero l).
  destruct (ceqb (fst t) czero) eqn:E; cbn [negb eval].
  - apply ceqb_eq in E. rewrite E, cev_zero, IH. ring.
  - now rewrite IH.
Qed.
Lemma eval_norm l : eval (norm l) = eval l.
Proof. unfold norm. now rewrite eval_nonzero, eval_merge. Qed.
Lemma zerob_sound l : zerob l = true -> eval l = 0.
Proof.
  unfold zerob. rewrite <- (eval_merge l). generalize (merge l) as m.
  induction m as [|t m IH]; cbn [forallb eval]; [reflexivity|].
  rewrite andb_true_iff. intros [E Hm]. apply ceqb_eq in E. rewrite E, cev_zero, (IH Hm). ring.
Qed.
Theorem equivb_sound a b : equivb a b = true -> eval a = eval b.
Proof.
  unfold equivb. intros H. apply zerob_sound in H. rewrite eval_app, eval_lopp in H.
  assert (E : eval a = (eval a + - eval b) + eval b) by ring. rewrite E, H. ring.
Qed.
End Eval.

Section Deriv.
Context {R : Type} (K : Fops R) (Kr : is_ring K).
Add Ring KR2 : Kr.
Local Open Scope F_scope.
Notation "0" := (f0 K) : F_scope.
Notation "1" := (f1 K) : F_scope.
Infix "+" := (fadd K) : F_scope.
Infix "*" := (fmul K) : F_scope.
Infix "-" := (fsub K) : F_scope.
Notation "- x" := (fopp K x) : F_scope.

Variable inj : Qc -> R.
Hypothesis Hinj : is_qhom K inj.
Variables (alpha beta : R).
Variable D : axis -> R -> R.
Hypothesis D_add : forall k x y, D k (x + y) = D k x + D k y.
Hypothesis D_mul : forall k x y, D k (x * y) = D k x * y + x * D k y.
Hypothesis D_inj : forall k q, D k (inj q) = 0.
Hypothesis D_alpha : forall k, D k alpha = 0.
Hypothesis D_beta : forall k, D k beta = 0.

Lemma D_0 k : D k 0 = 0.
Proof. apply (additive_0 K Kr (D k) (fadd K)); [ring | apply D_add]. Qed.
Lemma D_cev k c : D k (cev K inj alpha beta c) = 0.
Proof. destruct c as [[c1 ca] cb]. cbn [cev]. rewrite !D_add, !D_mul, !D_inj, D_alpha, D_beta. ring. Qed.

(* (a) abstract symbols obeying the product rule *)
Section Abstract.
Variable G : order -> order -> R.
Hypothesis DG : forall k a b, D k (G a b) = G (osucc k a) b + G a (osucc k b).

Lemma eval_dk k l : eval K inj alpha beta G (dk k l) = D k (eval K inj alpha beta G l).
Proof.
  induction l as [|t l IH]; cbn [dk flat_map eval].
  - now rewrite D_0.
  - fold (dk k l). rewrite (eval_app K Kr), IH, D_add, D_mul, D_cev.
    destruct t as [c [a b]]. cbn [dkey map eval fst snd kev]. unfold kev; cbn [fst snd]. rewrite DG. ring.
Qed.
Lemma evalq_dkq k l : evalq K inj G (dkq k l) = D k (evalq K inj G l).
Proof.
  induction l as [|t l IH]; cbn [dkq flat_map evalq].
  - now rewrite D_0.
  - fold (dkq k l). rewrite (evalq_app K Kr), IH, D_add, D_mul, D_inj.
    destruct t as [c [a b]]. cbn [dkey map evalq fst snd kev]. unfold kev; cbn [fst snd]. rewrite DG. ring.
Qed.
End Abstract.

(* (b) the symbols of the density matrix: G o1 o2 = sum_ab P_ab phi^o1_a phi^o2_b *)
Variable nb : nat.
Variable P : nat -> nat -> R.
Variable phi : order -> nat -> R.
Hypothesis D_P : forall k a b, D k (P a b) = 0.
Hypothesis D_phi : forall k o a, D k (phi o a) = phi (osucc k o) a.

Notation sum := (sumn 0 (fadd K)).
Definition Gphi (o1 o2 : order) : R :=
  sum nb (fun a => sum nb (fun b => P a b * phi o1 a * phi o2 b)).

Lemma sum_add n f g : sum n (fun i => f i + g i) = sum n f + sum n g.
Proof. induction n as [|n IH]; cbn [sumn]; [ring|]. rewrite IH. ring. Qed.
Lemma D_sum k n f : D k (sum n f) = sum n (fun i => D k (f i)).
Proof. induction n as [|n IH]; cbn [sumn]; [apply D_0|]. now rewrite D_add, IH. Qed.
Lemma sum_swap n m (f : nat -> nat -> R) :
  sum n (fun a => sum m (fun b => f a b)) = sum m (fun b => sum n (fun a => f a b)).
Proof.
  induction n as [|n IH]; cbn [sumn].
  - induction m as [|m IHm]; cbn [sumn]; [reflexivity|]. rewrite <- IHm. ring.
  - rewrite IH, <- sum_add. reflexivity.
Qed.

Lemma Gphi_deriv k a b : D k (Gphi a b) = Gphi (osucc k a) b + Gphi a (osucc k b).
Proof.
  unfold Gphi. rewrite D_sum, <- sum_add. apply sumn_ext. intros i _.
  rewrite D_sum, <- sum_add. apply sumn_ext. intros j _.
  rewrite !D_mul, D_P, !D_phi. ring.
Qed.
Lemma Gphi_sym : (forall a b, P a b = P b a) -> forall o1 o2, Gphi o1 o2 = Gphi o2 o1.
Proof.
  intros Ps o1 o2. unfold Gphi. rewrite sum_swap. apply sumn_ext. intros i _.
  apply sumn_ext. intros j _. rewrite (Ps j i). ring.
Qed.
Theorem eval_dk_phi k l : eval K inj alpha beta Gphi (dk k l) = D k (eval K inj alpha beta Gphi l).
Proof. apply eval_dk. apply Gphi_deriv. Qed.
End Deriv.

(* the hypotheses of level 2, packaged (used to state Props/C15.v) *)
Record dmodel {R : Type} (K : Fops R) := mkdmodel {
  m_inj : Qc -> R;                 (* the rationals inside the ring *)
  m_alpha : R; m_beta : R;         (* the two parameters *)
  m_D : axis -> R -> R;            (* d/dx, d/dy, d/dz *)
  m_nb : nat;                      (* number of basis functions *)
  m_P : nat -> nat -> R;           (* density matrix *)
  m_phi : order -> nat -> R        (* phi o a = d^o phi_a *)
}.
Arguments m_inj {R K}. Arguments m_alpha {R K}. Arguments m_beta {R K}. Arguments m_D {R K}.
Arguments m_nb {R K}. Arguments m_P {R K}. Arguments m_phi {R K}.

Record dmodel_ok {R : Type} (K : Fops R) (M : dmodel K) : Prop := mkdmodel_ok {
  ok_inj : is_qhom K (m_inj M);
  ok_add : forall k x y, m_D M k (fadd K x y) = fadd K (m_D M k x) (m_D M k y);
  ok_mul : forall k x y, m_D M k (fmul K x y) = fadd K (fmul K (m_D M k x) y) (fmul K x (m_D M k y));
  ok_cinj : forall k q, m_D M k (m_inj M q) = f0 K;
  ok_alpha : forall k, m_D M k (m_alpha M) = f0 K;
  ok_beta : forall k, m_D M k (m_beta M) = f0 K;
  ok_P : forall k a b, m_D M k (m_P M a b) = f0 K;
  ok_phi : forall k o a, m_D M k (m_phi M o a) = m_phi M (osucc k o) a;
  ok_Psym : forall a b, m_P M a b = m_P M b a
}.
Definition m_G {R} (K : Fops R) (M : dmodel K) : order -> order -> R :=
  Gphi K (m_nb M) (m_P M) (m_phi M).
Definition m_eval {R} (K : Fops R) (M : dmodel K) : comb -> R :=
  eval K (m_inj M) (m_alpha M) (m_beta M) (m_G K M).
Definition m_evalq {R} (K : Fops R) (M : dmodel K) : qcomb -> R :=
  evalq K (m_inj M) (m_G K M).
