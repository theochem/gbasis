(* Gauss/Moment1D.v — the one-dimensional Gaussian moment functional and the
   Obara–Saika recurrences, over any commutative ring (here: any [Fops] with
   a field theory).

   y = x - P.  Polynomials in y are coefficient lists (low degree first).
     m_0 = 1, m_1 = 0, m_{n+2} = (n+1) v m_n            (v = 1/(2p))
     Eaux n f = sum_k f_k m_{n+k}        E f = Eaux 0 f
   E f is the normalised Gaussian integral of f(x-P) exp(-p (x-P)^2)
   (analytic bridge B1 of DESIGN.md 2.6); everything below is algebra.

   S3 n k i j = Eaux n ((y+c)^k (y+a)^i (y+b)^j): three linear factors are what
   the multipole-moment code needs (a = P-A, b = P-B, c = P-C); k = 0 gives
   the overlap case. *)
From Coq Require Import List Arith Lia Field.
From GB Require Import Base.Field.
Import ListNotations.

Lemma nat_ind2 (P : nat -> Prop) :
  P 0%nat -> P 1%nat -> (forall n, P n -> P (S n) -> P (S (S n))) -> forall n, P n.
Proof.
  intros H0 H1 HS n. enough (H : P n /\ P (S n)) by apply H.
  induction n as [|n [A B]]; split; auto.
Qed.

Section Moment1D.
Context {F : Type} (K : Fops F) (Kf : is_field K).
Add Field KF : Kf.
Local Open Scope F_scope.
Notation "0" := (f0 K) : F_scope.
Notation "1" := (f1 K) : F_scope.
Infix "+" := (fadd K) : F_scope.
Infix "*" := (fmul K) : F_scope.
Infix "-" := (fsub K) : F_scope.
Notation "- x" := (fopp K x) : F_scope.
Notation "# n" := (ofnat K n) (at level 5) : F_scope.

Variable v : F.

Fixpoint mom2 (n : nat) : F * F :=   (* (m_n, m_{n+1}) *)
  match n with
  | O => (1, 0)
  | S k => let '(a, b) := mom2 k in (b, #(S k) * v * a)
  end.
Definition mom n := fst (mom2 n).
Lemma mom_0 : mom 0 = 1. Proof. reflexivity. Qed.
Lemma mom_1 : mom 1 = 0. Proof. reflexivity. Qed.
Lemma mom_SS n : mom (S (S n)) = #(S n) * v * mom n.
Proof. unfold mom. cbn [mom2]. destruct (mom2 n) as [x y]. reflexivity. Qed.

Lemma mom_unique (N : nat -> F) :
  N 1%nat = 0 -> (forall n, N (S (S n)) = #(S n) * v * N n) -> forall n, N n = N 0%nat * mom n.
Proof.
  intros H1 HS. induction n as [| |n IH _] using nat_ind2.
  - rewrite mom_0. ring.
  - rewrite mom_1, H1. ring.
  - rewrite HS, mom_SS, IH. ring.
Qed.

Definition poly := list F.

Fixpoint Eaux (n : nat) (f : poly) : F :=
  match f with [] => 0 | c :: f' => c * mom n + Eaux (S n) f' end.
Definition E (f : poly) := Eaux 0%nat f.

Fixpoint padd (f g : poly) : poly :=
  match f, g with
  | [], _ => g | _, [] => f
  | a :: f', b :: g' => (a + b) :: padd f' g'
  end.
Definition pscale (c : F) (f : poly) : poly := map (fun x => c * x) f.
Definition pshift (f : poly) : poly := 0 :: f.     (* y * f *)
Definition plin (c : F) (f : poly) : poly := padd (pscale c f) (pshift f).  (* (y + c) f *)

(* sum_k f_k w(n+k): [Eaux] is the instance w = mom, [SPoly.Phi] the instance w = beta *)
Section Weighted.
Variable w : nat -> F.
Fixpoint Lsum (n : nat) (f : poly) : F :=
  match f with [] => 0 | c :: f' => c * w n + Lsum (S n) f' end.
Lemma Lsum_padd n f g : Lsum n (padd f g) = Lsum n f + Lsum n g.
Proof. revert n g; induction f as [|a f IH]; intros n g; cbn [padd Lsum]; [ring|].
  destruct g as [|b g]; cbn [padd Lsum]; [ring|]. rewrite IH. ring. Qed.
Lemma Lsum_pscale n c f : Lsum n (pscale c f) = c * Lsum n f.
Proof. revert n; induction f as [|a f IH]; intros n; cbn [pscale map Lsum]; [ring|].
  fold (pscale c f). rewrite IH. ring. Qed.
Lemma Lsum_pshift n f : Lsum n (pshift f) = Lsum (S n) f.
Proof. cbn [pshift Lsum]. ring. Qed.
End Weighted.

Lemma Eaux_Lsum n f : Eaux n f = Lsum mom n f.
Proof. reflexivity. Qed.
Lemma Lsum_ext w w' : (forall n, w n = w' n) -> forall f n, Lsum w n f = Lsum w' n f.
Proof. intros H. induction f as [|c f IH]; intro n; cbn [Lsum]; [reflexivity|]. now rewrite H, IH. Qed.
Lemma Lsum_wscale c0 w f : forall n, Lsum (fun k => c0 * w k) n f = c0 * Lsum w n f.
Proof. induction f as [|c f IH]; intro n; cbn [Lsum]; [ring|]. rewrite IH. ring. Qed.

Lemma Eaux_padd n f g : Eaux n (padd f g) = Eaux n f + Eaux n g.
Proof. exact (Lsum_padd mom n f g). Qed.
Lemma Eaux_pscale n c f : Eaux n (pscale c f) = c * Eaux n f.
Proof. exact (Lsum_pscale mom n c f). Qed.
Lemma Eaux_pshift n f : Eaux n (pshift f) = Eaux (S n) f.
Proof. exact (Lsum_pshift mom n f). Qed.
Lemma Eaux_plin n c f : Eaux n (plin c f) = c * Eaux n f + Eaux (S n) f.
Proof. unfold plin. rewrite Eaux_padd, Eaux_pscale, Eaux_pshift. reflexivity. Qed.

Fixpoint pderiv_aux (k : nat) (f : poly) : poly :=
  match f with [] => [] | c :: f' => (#k * c) :: pderiv_aux (S k) f' end.
Definition pderiv (f : poly) : poly := match f with [] => [] | _ :: f' => pderiv_aux 1 f' end.

Lemma stein_gen k f : Eaux (S (S k)) f = v * Eaux k (pderiv_aux (S k) f).
Proof. revert k; induction f as [|c f IH]; intros k; cbn [Eaux pderiv_aux]; [ring|].
  rewrite IH. rewrite mom_SS. ring. Qed.

(* Stein's lemma: E (y f) = v E (f') *)
Lemma stein f : E (pshift f) = v * E (pderiv f).
Proof. unfold E, pshift, pderiv. cbn [Eaux].
  destruct f as [|c f]; cbn [Eaux pderiv_aux]; [ring|].
  rewrite stein_gen. rewrite mom_1. ring. Qed.

Lemma pderiv_aux_padd k f g : pderiv_aux k (padd f g) = padd (pderiv_aux k f) (pderiv_aux k g).
Proof. revert k g; induction f as [|a f IH]; intros k g; cbn [padd pderiv_aux]; [reflexivity|].
  destruct g as [|b g]; cbn [padd pderiv_aux]; [reflexivity|]. rewrite IH. f_equal. ring. Qed.
Lemma pderiv_aux_pscale k c f : pderiv_aux k (pscale c f) = pscale c (pderiv_aux k f).
Proof. revert k; induction f as [|a f IH]; intros k; cbn [pscale map pderiv_aux]; [reflexivity|].
  fold (pscale c f). fold (pscale c (pderiv_aux (S k) f)). rewrite IH. f_equal. ring. Qed.

Lemma Eaux_pderiv_aux_shift n k f :
  Eaux n (pderiv_aux (S k) f) = Eaux n f + Eaux n (pderiv_aux k f).
Proof. revert n k; induction f as [|a f IH]; intros n k; cbn [Eaux pderiv_aux]; [ring|].
  rewrite (IH (S n) (S k)). cbn [ofnat]. ring. Qed.

Lemma Eaux_pderiv_pshift n f :
  Eaux n (pderiv (pshift f)) = Eaux n f + Eaux (S n) (pderiv f).
Proof. unfold pderiv, pshift. destruct f as [|a f]; cbn [Eaux pderiv_aux]; [ring|].
  rewrite Eaux_pderiv_aux_shift. cbn [ofnat]. ring. Qed.

Fixpoint plin_pow (c : F) (e : nat) (f : poly) : poly :=
  match e with O => f | S e' => plin c (plin_pow c e' f) end.

Lemma padd_nil_r f : padd f [] = f. Proof. destruct f; reflexivity. Qed.
Lemma pderiv_padd f g : pderiv (padd f g) = padd (pderiv f) (pderiv g).
Proof. destruct f as [|a f]; [reflexivity|]. destruct g as [|b g]; cbn [padd pderiv].
  - rewrite padd_nil_r. reflexivity.
  - apply pderiv_aux_padd. Qed.
Lemma pderiv_pscale c f : pderiv (pscale c f) = pscale c (pderiv f).
Proof. destruct f as [|a f]; [reflexivity|]. cbn [pscale map pderiv]. apply pderiv_aux_pscale. Qed.

(* Leibniz rule for a linear factor, seen through every E_n *)
Lemma Eaux_pderiv_plin n c f :
  Eaux n (pderiv (plin c f)) = Eaux n f + (c * Eaux n (pderiv f) + Eaux (S n) (pderiv f)).
Proof. unfold plin. rewrite pderiv_padd, Eaux_padd, pderiv_pscale, Eaux_pscale, Eaux_pderiv_pshift. ring. Qed.

Variables a b c : F.
Definition g3 (k i j : nat) : poly := plin_pow c k (plin_pow a i (plin_pow b j [1])).
Definition S3 (n k i j : nat) : F := Eaux n (g3 k i j).
Definition R3 (n k i j : nat) : F := Eaux n (pderiv (g3 k i j)).

(* e * S(.., e-1, ..) with the boundary convention 0 * (anything) = 0 *)
Definition dn (e : nat) (f : nat -> F) : F :=
  match e with O => 0 | S e' => #e * f e' end.

Definition lower (n k i j : nat) : F :=
  dn k (fun k' => S3 n k' i j) + dn i (fun i' => S3 n k i' j) + dn j (fun j' => S3 n k i j').

Lemma S3_Sk n k i j : S3 n (S k) i j = c * S3 n k i j + S3 (S n) k i j.
Proof. unfold S3, g3. cbn [plin_pow]. apply Eaux_plin. Qed.

Lemma S3_Si n k i j : S3 n k (S i) j = a * S3 n k i j + S3 (S n) k i j.
Proof. revert n; induction k as [|k IH]; intros n.
  - unfold S3, g3. cbn [plin_pow]. apply Eaux_plin.
  - rewrite !S3_Sk, (IH n), (IH (S n)). ring. Qed.

Lemma S3_Sj n k i j : S3 n k i (S j) = b * S3 n k i j + S3 (S n) k i j.
Proof. revert n; induction k as [|k IHk]; intros n.
  - revert n; induction i as [|i IHi]; intros n.
    + unfold S3, g3. cbn [plin_pow]. apply Eaux_plin.
    + rewrite !S3_Si, (IHi n), (IHi (S n)). ring.
  - rewrite !S3_Sk, (IHk n), (IHk (S n)). ring. Qed.

Lemma dn_pred e f : dn e f = #e * f (pred e).
Proof. destruct e; cbn [dn pred ofnat]; ring. Qed.

Lemma R3_Sk n k i j : R3 n (S k) i j = S3 n k i j + (c * R3 n k i j + R3 (S n) k i j).
Proof. apply Eaux_pderiv_plin. Qed.
Lemma R3_Si n i j : R3 n 0 (S i) j = S3 n 0 i j + (a * R3 n 0 i j + R3 (S n) 0 i j).
Proof. apply Eaux_pderiv_plin. Qed.
Lemma R3_Sj n j : R3 n 0 0 (S j) = S3 n 0 0 j + (b * R3 n 0 0 j + R3 (S n) 0 0 j).
Proof. apply Eaux_pderiv_plin. Qed.

Lemma lower_Sk n k i j : lower n (S k) i j = S3 n k i j + (c * lower n k i j + lower (S n) k i j).
Proof.
  unfold lower. rewrite !(dn_pred i), !(dn_pred j), !S3_Sk.
  destruct k; cbn [dn]; rewrite ?S3_Sk; cbn [ofnat]; ring.
Qed.
Lemma lower_Si n k i j : lower n k (S i) j = S3 n k i j + (a * lower n k i j + lower (S n) k i j).
Proof.
  unfold lower. rewrite !(dn_pred k), !(dn_pred j), !S3_Si.
  destruct i; cbn [dn]; rewrite ?S3_Si; cbn [ofnat]; ring.
Qed.
Lemma lower_Sj n k i j : lower n k i (S j) = S3 n k i j + (b * lower n k i j + lower (S n) k i j).
Proof.
  unfold lower. rewrite !(dn_pred k), !(dn_pred i), !S3_Sj.
  destruct j; cbn [dn]; rewrite ?S3_Sj; cbn [ofnat]; ring.
Qed.

Lemma R3_kij n k i j : R3 n k i j = lower n k i j.
Proof.
  revert n. induction k as [|k IHk]; [induction i as [|i IHi]; [induction j as [|j IHj]|]|]; intro n.
  - unfold R3, lower, g3, dn. cbn. ring.
  - now rewrite R3_Sj, lower_Sj, !IHj.
  - now rewrite R3_Si, lower_Si, !IHi.
  - now rewrite R3_Sk, lower_Sk, !IHk.
Qed.

(* Obara–Saika: raising any of the three exponents *)
Theorem OS3_c k i j : S3 0 (S k) i j = c * S3 0 k i j + v * lower 0 k i j.
Proof. rewrite S3_Sk, <- R3_kij. unfold S3, R3. rewrite <- Eaux_pshift. f_equal. apply stein. Qed.
Theorem OS3_a k i j : S3 0 k (S i) j = a * S3 0 k i j + v * lower 0 k i j.
Proof. rewrite S3_Si, <- R3_kij. unfold S3, R3. rewrite <- Eaux_pshift. f_equal. apply stein. Qed.
Theorem OS3_b k i j : S3 0 k i (S j) = b * S3 0 k i j + v * lower 0 k i j.
Proof. rewrite S3_Sj, <- R3_kij. unfold S3, R3. rewrite <- Eaux_pshift. f_equal. apply stein. Qed.

Lemma S3_000 : S3 0 0 0 0 = 1.
Proof. unfold S3, g3. cbn. ring. Qed.

(* the integral seen by the code: T k i j := S3 0 k i j *)
Definition T3 (k i j : nat) : F := S3 0 k i j.

(* moment order 0 does not see the moment centre *)
Lemma S3_0_indep_c n i j : S3 n 0 i j = Eaux n (plin_pow a i (plin_pow b j [1])).
Proof. reflexivity. Qed.

End Moment1D.

(* exchanging the roles of the two functions (a <-> b, i <-> j) leaves every moment unchanged *)
Section Swap.
Context {F : Type} (K : Fops F) (Kf : is_field K).
Add Field KFs : Kf.
Variables v a b c : F.
Lemma S3_swap n k i j : S3 K v a b c n k i j = S3 K v b a c n k j i.
Proof.
  revert n j. induction i as [|i IHi]; intros n j.
  - revert n. induction j as [|j IHj]; intros n; [reflexivity|].
    rewrite (S3_Sj K Kf), (S3_Si K Kf), (IHj n), (IHj (S n)). reflexivity.
  - rewrite (S3_Si K Kf), (S3_Sj K Kf), (IHi n j), (IHi (S n) j). reflexivity.
Qed.
Lemma T3_swap k i j : T3 K v a b c k i j = T3 K v b a c k j i.
Proof. apply S3_swap. Qed.
End Swap.
