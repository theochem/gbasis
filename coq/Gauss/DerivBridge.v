(* Gauss/DerivBridge.v — analytic bridge for C05 (Coquelicot, over R): the polynomial [u] of
   Model/Eval.v, instantiated at the real numbers, times exp(-a x^2) IS the n-th derivative of
   x^l exp(-a x^2), for every n, l, a, x.  Axioms: those of the classical real numbers of the
   standard library (reported by Print Assumptions in Props/C05.v); none declared here. *)
From Coq Require Import Reals Lra List Arith Lia.
From Coquelicot Require Import Coquelicot.
From GB Require Import Base.Field Base.FNum Model.Eval.
Open Scope R_scope.

(* the real numbers as an instance of the number interface; only the arithmetic fields are
   used below (u is built from + * - and ofnat); fboys is a placeholder *)
Definition RKd : Fops R :=
  mkFops R 0 1 Rplus Rmult Rminus Ropp Rdiv Rinv
    (fun x y => if Rle_dec x y then true else false)
    (fun x y => if Req_EM_T x y then true else false)
    PI sqrt exp ln (fun _ _ => 0) (fun x => x).

Lemma RKd_field : is_field RKd.
Proof. exact RealField.Rfield. Qed.

Lemma fpow_pow (x : R) (l : nat) : FNum.fpow RKd x l = x ^ l.
Proof. induction l as [|l IH]; [reflexivity|]. cbn [FNum.fpow pow fmul RKd]. now rewrite IH. Qed.

Lemma ofnat_INR (n : nat) : ofnat RKd n = INR n.
Proof.
  induction n as [|n IH]; [reflexivity|].
  rewrite S_INR. cbn [ofnat fadd f1 RKd]. rewrite IH. ring.
Qed.

Lemma uR_S a l n x : u RKd a l (S n) x =
  (match l with O => 0 | S l' => ofnat RKd l * u RKd a l' n x end)
  - (1 + 1) * a * u RKd a (S l) n x.
Proof. reflexivity. Qed.

Lemma uR_S_pred a l n x :
  u RKd a l (S n) x = INR l * u RKd a (pred l) n x - 2 * a * u RKd a (S l) n x.
Proof. rewrite uR_S. destruct l; [|rewrite ofnat_INR]; cbn [INR pred]; ring. Qed.

Lemma uR_0 a l x : u RKd a l 0 x = x ^ l.
Proof. apply fpow_pow. Qed.

Lemma is_derive_pow_l (l : nat) (x : R) :
  is_derive (fun t => t ^ l) x (match l with O => 0 | S l' => INR l * x ^ l' end).
Proof.
  destruct l as [|l'].
  - cbn [pow]. apply (is_derive_const (1 : R)).
  - auto_derive; [exact I|]. cbn [Nat.pred]. change (match l' with O => 1 | S _ => INR l' + 1 end) with (INR (S l')). ring.
Qed.

Lemma du a : forall n l x,
  is_derive (fun t => u RKd a l n t) x (u RKd a l (S n) x + 2 * a * x * u RKd a l n x).
Proof.
  induction n as [|n IH]; intros l x.
  - apply (is_derive_ext (fun t => t ^ l)); [intros t; symmetry; apply uR_0|].
    replace (u RKd a l 1 x + 2 * a * x * u RKd a l 0 x)
      with (match l with O => 0 | S l' => INR l * x ^ l' end).
    + apply is_derive_pow_l.
    + destruct l as [|l']; rewrite uR_S, !uR_0; [|rewrite ofnat_INR]; cbn [pow]; ring.
  - assert (D : is_derive (fun t => INR l * u RKd a (pred l) n t - 2 * a * u RKd a (S l) n t) x
                  (INR l * (u RKd a (pred l) (S n) x + 2 * a * x * u RKd a (pred l) n x)
                   - 2 * a * (u RKd a (S l) (S n) x + 2 * a * x * u RKd a (S l) n x))).
    { apply (is_derive_minus (fun t => INR l * u RKd a (pred l) n t)
                             (fun t => 2 * a * u RKd a (S l) n t)); apply is_derive_scal, IH. }
    apply (is_derive_ext _ _ _ _ (fun t => eq_sym (uR_S_pred a l n t))).
    rewrite (uR_S_pred a l (S n)), (uR_S_pred a l n).
    refine (eq_rect _ (is_derive _ x) D _ (_ : @eq R _ _)). ring.
Qed.

Lemma gauss_derive (a x : R) :
  is_derive (fun t => exp (- a * t ^ 2)) x (- (2 * a * x) * exp (- a * x ^ 2)).
Proof. auto_derive; [exact I|]. cbn [pow]. ring. Qed.

Lemma deriv_step a l n x :
  is_derive (fun t => u RKd a l n t * exp (- a * t ^ 2)) x
            (u RKd a l (S n) x * exp (- a * x ^ 2)).
Proof.
  pose proof (is_derive_mult (fun t => u RKd a l n t) (fun t => exp (- a * t ^ 2)) x _ _
                (du a n l x) (gauss_derive a x) Rmult_comm) as D.
  replace (u RKd a l (S n) x * exp (- a * x ^ 2))
    with ((u RKd a l (S n) x + 2 * a * x * u RKd a l n x) * exp (- a * x ^ 2)
          + u RKd a l n x * (- (2 * a * x) * exp (- a * x ^ 2))) by ring.
  exact D.
Qed.

Lemma first_rule (a : R) (l : nat) (x : R) :
  is_derive (fun t => t ^ l * exp (- a * t ^ 2)) x
    ((match l with O => 0 | S l' => INR l * x ^ l' end - 2 * a * x ^ (S l)) * exp (- a * x ^ 2)).
Proof.
  apply (is_derive_ext (fun t => u RKd a l 0 t * exp (- a * t ^ 2)));
    [intros t; now rewrite uR_0|].
  replace (match l with O => 0 | S l' => INR l * x ^ l' end - 2 * a * x ^ S l)
    with (u RKd a l 1 x); [apply deriv_step|].
  destruct l as [|l']; rewrite uR_S, !uR_0; [|rewrite ofnat_INR]; cbn [pow]; ring.
Qed.

Lemma Derive_n_gauss a l : forall n x,
  Derive_n (fun t => t ^ l * exp (- a * t ^ 2)) n x = u RKd a l n x * exp (- a * x ^ 2).
Proof.
  induction n as [|n IH]; intros x.
  - cbn [Derive_n]. now rewrite uR_0.
  - cbn [Derive_n]. rewrite (Derive_ext _ _ x IH). apply is_derive_unique. apply deriv_step.
Qed.

Lemma nth_derivative a l n x :
  is_derive_n (fun t => t ^ l * exp (- a * t ^ 2)) n x (u RKd a l n x * exp (- a * x ^ 2)).
Proof.
  destruct n as [|n].
  - cbn [is_derive_n]. now rewrite uR_0.
  - cbn [is_derive_n].
    apply (is_derive_ext (fun t => u RKd a l n t * exp (- a * t ^ 2)));
      [intros t; symmetry; apply Derive_n_gauss|].
    apply deriv_step.
Qed.
