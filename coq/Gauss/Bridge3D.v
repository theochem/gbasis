(* Gauss/Bridge3D.v — the analytic bridge (B1) of DESIGN.md 2.6 carried from one dimension
   (Gauss/BridgeR.v, Gauss/GaussInt.v) to the three-dimensional PRIMITIVE integrals the block
   theorems of Proofs/CoreBlockP.v and Proofs/CoreDiffP.v speak about.

   MEANING OF "INTEGRAL OVER R^3" IN THIS FILE.  [gint3 F l] is the ITERATED improper Riemann
   integral: for every (x, y) the improper integral over z of F x y z exists (value Iz x y), for
   every x the improper integral over y of Iz x y exists (value Iyz x), and the improper integral over
   x of Iyz is l; each one-dimensional integral is [gint] of Gauss/BridgeR.v (spelled out by
   BRIDGE_gint_meaning).  That this iterated integral is THE (Lebesgue / absolutely convergent
   Riemann) integral over R^3 — Fubini-Tonelli for these continuous, absolutely integrable
   functions (polynomial x Gaussian) — is not proved here and is the residual trusted step for
   (B1) in three dimensions.  [gint3_unique]: the value is determined by F alone.

   Proved (all exponents > 0, all centres, all Cartesian powers):
     gint3_prod                   F = f(x) g(y) h(z)  ->  gint3 F (If * Ig * Ih)
     gint3_scal/plus/minus/ext/unique/fsum_map/sum2    linearity, uniqueness of the value
   PRIMITIVES  phi_a(x,y,z) = (x-A_x)^{a_x} (y-A_y)^{a_y} (z-A_z)^{a_z} exp(-alpha |r-A|^2)   ([cprim], [gprim]):
     mom_prim_3d_integral         iterated integral of (r-C)^o phi_a phi_b = mom_prim RK ... (CoreBlockP.v)
     overlap_prim_3d_integral     iterated integral of phi_a phi_b          = ovl_prim RK ... (CoreBlockP.v)
     deriv_1d_integral            int phi_a(x) d^k/dx^k phi_b(x) dx         = D1 RK ... k i j   (EVERY k)
                                  (D1 = iterop (Bop beta) k Sfun, the spec of C02_diffop_is_derivative_of_right)
     moment1_1d_integral          int phi_a x phi_b dx                      = M1o RK ...
     dprim_3d_integral            iterated integral of phi_a d^o phi_b      = dprim RK o ...     (EVERY order o)
     kinetic_prim_3d_integral     iterated integral of phi_a (-1/2 Laplacian phi_b) = kin_prim RK ...
     momentum_prim_3d_integral    iterated integral of phi_a d/dx_i phi_b   = mom_{x,y,z}_prim RK ...
     angmom_prim_3d_integral      iterated integral of phi_a (r x grad)_i phi_b = ang_{x,y,z}_prim RK ...
   BLOCK ENTRIES OF THE MODELS  chi = contracted Cartesian function [cfun] = sum_k d_k N_k phi_k  (N_k = norm_prim,
   the primitive norm; the contraction norm of the assembled level is a constant factor applied afterwards):
     overlap_block_is_integral    overlap_block RK sa sb [ma][ia][mb][ib]  = iterated integral of chi_a chi_b
     mm_block_is_integral         mm_block ... [d][ma][ia][mb][ib]         = ... of (r-C)^{o_d} chi_a chi_b
     diffop_block_is_integral     diffop_block ... [d][..]                 = ... of chi_a d^{o_d} chi_b   (every order)
     kinetic_block_is_integral    kinetic_block RK sa sb [..]              = ... of chi_a (-1/2 Laplacian) chi_b
     momentum_block_is_integral   momentum_block_re [..][i]                = ... of chi_a d/dx_i chi_b
     angmom_block_is_integral     angmom_block_re [..][i]                  = ... of chi_a (r x grad)_i chi_b
     (pd3_fsum: pd3 is linear over finite sums of functions whose mixed partials are all differentiable;
      pd3_cfun: every mixed partial derivative of chi is the contraction of those of the primitives)
   The derivatives are Coquelicot's [Derive_n] of the honest functions ([pd3], [lap3]); RK is the
   instance of the number interface at the real numbers (Proofs/ScreeningP.v: real sqrt, exp, PI)
   used by Proofs/CoreNormP.v.  The right-hand sides are literally the Gallina definitions of the
   block theorems (mm_block_correct, overlap_block_correct, kinetic_block_correct, ...) and the model
   functions themselves, at F := R.  With KAB_closed_form and norm_prim_self_overlap of CoreNormP.v
   ([normalised_primitive] below) the normalisation is the textbook one.
   Assumptions: the classical real numbers of the standard library only. *)
From Coq Require Import Reals Lra Lia List.
From Coquelicot Require Import Coquelicot.
From GB Require Import Base.Field Base.FNum Base.Tables Gauss.Moment1D Gauss.Bridge Gauss.DerivBridge
  Gauss.BridgeR Gauss.GaussInt Model.Eval Model.Shell Model.MomentInt Model.Overlap Model.DiffOp Proofs.DiffOpP
  Proofs.CoreSumP Proofs.CoreBlockP Proofs.CoreDiffP Proofs.ScreeningP Proofs.CoreNormP.
Import ListNotations.
Open Scope R_scope.

Definition gint3 (F : R -> R -> R -> R) (l : R) : Prop :=
  exists (Iz : R -> R -> R) (Iyz : R -> R),
    (forall x y, gint (fun z => F x y z) (Iz x y)) /\
    (forall x, gint (fun y => Iz x y) (Iyz x)) /\
    gint Iyz l.

Lemma gint3_ext (F G : R -> R -> R -> R) (l l' : R) :
  (forall x y z, F x y z = G x y z) -> l = l' -> gint3 F l -> gint3 G l'.
Proof.
  intros HFG <- [Iz [Iyz [H1 [H2 H3]]]]. exists Iz, Iyz. split; [|split; assumption].
  intros x y. apply (gint_ext (fun z => F x y z) _ (Iz x y) _); [intro z; apply HFG | reflexivity | apply H1].
Qed.

Lemma gint3_unique (F : R -> R -> R -> R) (l l' : R) : gint3 F l -> gint3 F l' -> l = l'.
Proof.
  intros [Iz [Iyz [H1 [H2 H3]]]] [Iz' [Iyz' [H1' [H2' H3']]]].
  assert (E1 : forall x y, Iz x y = Iz' x y) by (intros x y; exact (gint_unique _ _ _ (H1 x y) (H1' x y))).
  assert (E2 : forall x, Iyz x = Iyz' x).
  { intro x. apply (gint_unique (fun y => Iz x y)); [apply H2|].
    apply (gint_ext (fun y => Iz' x y) _ (Iyz' x) _); [intro y; symmetry; apply E1 | reflexivity | apply H2']. }
  apply (gint_unique Iyz); [exact H3|].
  apply (gint_ext Iyz' _ l' _); [intro x; symmetry; apply E2 | reflexivity | exact H3'].
Qed.

Lemma gint3_scal (k : R) (F : R -> R -> R -> R) (l : R) :
  gint3 F l -> gint3 (fun x y z => k * F x y z) (k * l).
Proof.
  intros [Iz [Iyz [H1 [H2 H3]]]]. exists (fun x y => k * Iz x y), (fun x => k * Iyz x).
  split; [|split].
  - intros x y. exact (gint_scal k _ _ (H1 x y)).
  - intro x. exact (gint_scal k _ _ (H2 x)).
  - exact (gint_scal k _ _ H3).
Qed.

Lemma gint3_map2 (op : R -> R -> R) :
  (forall f g lf lg, gint f lf -> gint g lg -> gint (fun x => op (f x) (g x)) (op lf lg)) ->
  forall (F G : R -> R -> R -> R) (lf lg : R),
  gint3 F lf -> gint3 G lg -> gint3 (fun x y z => op (F x y z) (G x y z)) (op lf lg).
Proof.
  intros Hop F G lf lg [Iz [Iyz [H1 [H2 H3]]]] [Jz [Jyz [K1 [K2 K3]]]].
  exists (fun x y => op (Iz x y) (Jz x y)), (fun x => op (Iyz x) (Jyz x)). split; [|split].
  - intros x y. exact (Hop _ _ _ _ (H1 x y) (K1 x y)).
  - intro x. exact (Hop _ _ _ _ (H2 x) (K2 x)).
  - exact (Hop _ _ _ _ H3 K3).
Qed.

Lemma gint3_plus (F G : R -> R -> R -> R) (lf lg : R) :
  gint3 F lf -> gint3 G lg -> gint3 (fun x y z => F x y z + G x y z) (lf + lg).
Proof. exact (gint3_map2 Rplus gint_plus F G lf lg). Qed.

Lemma gint3_minus (F G : R -> R -> R -> R) (lf lg : R) :
  gint3 F lf -> gint3 G lg -> gint3 (fun x y z => F x y z - G x y z) (lf - lg).
Proof. exact (gint3_map2 Rminus gint_minus F G lf lg). Qed.

Theorem gint3_prod (f g h : R -> R) (If Ig Ih : R) :
  gint f If -> gint g Ig -> gint h Ih ->
  gint3 (fun x y z => f x * g y * h z) (If * Ig * Ih).
Proof.
  intros Hf Hg Hh.
  exists (fun x y => f x * g y * Ih), (fun x => f x * Ig * Ih). split; [|split].
  - intros x y. exact (gint_scal (f x * g y) h Ih Hh).
  - intro x.
    apply (gint_ext (fun y => (f x * Ih) * g y) _ ((f x * Ih) * Ig) _);
      [intro y; ring | ring | exact (gint_scal (f x * Ih) g Ig Hg)].
  - apply (gint_ext (fun x => (Ig * Ih) * f x) _ ((Ig * Ih) * If) _);
      [intro x; ring | ring | exact (gint_scal (Ig * Ih) f If Hf)].
Qed.

Lemma gint3_as_Gint (F : R -> R -> R -> R) (l : R) : gint3 F l ->
  Gint (fun x => Gint (fun y => Gint (fun z => F x y z))) = l.
Proof.
  intros [Iz [Iyz [H1 [H2 H3]]]]. apply Gint_correct.
  apply (gint_ext Iyz _ l l); [|reflexivity|exact H3].
  intro x. symmetry. apply Gint_correct.
  apply (gint_ext (fun y => Iz x y) _ (Iyz x) _); [|reflexivity|apply H2].
  intro y. symmetry. apply Gint_correct. apply H1.
Qed.

Notation fsumR := (FNum.fsum RK).

Lemma fsumR_ext_in {A} (f g : A -> R) l : (forall x, In x l -> f x = g x) -> fsumR (map f l) = fsumR (map g l).
Proof. exact (fsum_map_ext_in RK f g l). Qed.
Lemma fsumR_scale {A} c (f : A -> R) l : fsumR (map (fun x => c * f x) l) = c * fsumR (map f l).
Proof. exact (fsum_map_scale RK RK_field c f l). Qed.
Lemma fsumR_add {A} (f g : A -> R) l :
  fsumR (map (fun x => f x + g x) l) = fsumR (map f l) + fsumR (map g l).
Proof. exact (fsum_map_add RK RK_field f g l). Qed.
Lemma fsumR_mul {A B} (f : A -> R) (g : B -> R) la lb :
  fsumR (map f la) * fsumR (map g lb) = fsumR (map (fun a => fsumR (map (fun b => f a * g b) lb)) la).
Proof.
  transitivity (fsumR (map (fun a => f a * fsumR (map g lb)) la)).
  - symmetry. exact (fsum_map_scale_r RK RK_field (fsumR (map g lb)) f la).
  - apply fsumR_ext_in. intros a _. symmetry. apply fsumR_scale.
Qed.

Lemma gint3_zero : gint3 (fun _ _ _ => 0) 0.
Proof. exists (fun _ _ => 0), (fun _ => 0). repeat split; intros; exact gint_zero. Qed.

Lemma gint3_fsum_map {A} (l : list A) (G : A -> R -> R -> R -> R) (v : A -> R) :
  (forall a, In a l -> gint3 (G a) (v a)) ->
  gint3 (fun x y z => fsumR (map (fun a => G a x y z) l)) (fsumR (map v l)).
Proof.
  induction l as [|a l IH]; intro H.
  - exact gint3_zero.
  - exact (gint3_plus _ _ _ _ (H a (or_introl eq_refl)) (IH (fun b Hb => H b (or_intror Hb)))).
Qed.

Lemma gint3_sum2 {A B} (la : list A) (lb : list B) (w : A -> B -> R)
      (G : A -> B -> R -> R -> R -> R) (v : A -> B -> R) :
  (forall a b, In a la -> In b lb -> gint3 (G a b) (v a b)) ->
  gint3 (fun x y z => fsumR (map (fun a => fsumR (map (fun b => w a b * G a b x y z) lb)) la))
        (fsumR (map (fun a => fsumR (map (fun b => w a b * v a b) lb)) la)).
Proof.
  intro H. apply gint3_fsum_map. intros a Ha. apply gint3_fsum_map. intros b Hb.
  exact (gint3_scal (w a b) _ _ (H a b Ha Hb)).
Qed.

(* RK and RKd differ only in slots the moment functional does not use *)
Lemma S3_RK_RKd v a b c n k i j : S3 RK v a b c n k i j = S3 RKd v a b c n k i j.
Proof. reflexivity. Qed.

Definition cg1 (al A : R) (a : nat) (x : R) : R := (x - A) ^ a * exp (- al * (x - A) ^ 2).

(* the Cartesian primitive (not normalised) of exponent al, centre (Ax, Ay, Az), powers c *)
Definition cprim (al Ax Ay Az : R) (c : Shell.comp) (x y z : R) : R :=
  (x - Ax) ^ cx c * (y - Ay) ^ cy c * (z - Az) ^ cz c
  * exp (- al * ((x - Ax) ^ 2 + (y - Ay) ^ 2 + (z - Az) ^ 2)).

Lemma exp_sum3 k a b c : exp (k * (a + b + c)) = exp (k * a) * exp (k * b) * exp (k * c).
Proof. rewrite <- !exp_plus. f_equal. ring. Qed.

Lemma cprim_split al Ax Ay Az c x y z :
  cprim al Ax Ay Az c x y z = cg1 al Ax (cx c) x * cg1 al Ay (cy c) y * cg1 al Az (cz c) z.
Proof. unfold cprim, cg1. rewrite exp_sum3. ring. Qed.

Definition gprim (s : shell R) (al : R) (c : Shell.comp) : R -> R -> R -> R :=
  cprim al (s_x s) (s_y s) (s_z s) c.

(* one axis of the spec: prefactor x T1, as the honest one-dimensional integral *)
Lemma base_T1_integral (al be A B C : R) (k i j : nat) : 0 < al -> 0 < be ->
  gint (fun x => (x - C) ^ k * cg1 al A i x * cg1 be B j x)
       (base RK A B al be * T1 RK A B C al be k i j).
Proof.
  intros Ha Hb. pose proof (overlap_1d_integral al be A B C k i j Ha Hb) as H. cbv zeta in H.
  refine (gint_ext _ _ _ _ _ _ H); [intro x|].
  - unfold cg1. ring.
  - unfold base, T1, T3, hmean, psum, twop, PA, PB, PC, Pw, psum, vR.
    cbn [fmul fdiv fsqrt fadd fsub fopp fexp fpi f1 RK]. change (@S3 R RK) with (@S3 R RKd).
    replace (1 / ((1 + 1) * (al + be))) with (/ (2 * (al + be))) by (field; lra).
    replace (- (al * be / (al + be) * ((A - B) * (A - B)))) with (- (al * be / (al + be)) * (A - B) ^ 2)
      by (field; lra).
    ring.
Qed.

(* the 1-D overlap spec Sfun of Proofs/DiffOpP.v (moment order 0) *)
Lemma Sfun_integral (al be A B : R) (i j : nat) : 0 < al -> 0 < be ->
  gint (fun x => cg1 al A i x * cg1 be B j x) (Sfun RK A B al be i j).
Proof.
  intros Ha Hb.
  apply (gint_ext (fun x => (x - 0) ^ 0 * cg1 al A i x * cg1 be B j x) _
                  (base RK A B al be * T1 RK A B 0 al be 0 i j) _);
    [intro x; cbn [pow]; ring | reflexivity | now apply base_T1_integral].
Qed.

(* multipole moments: iterated integral of (r - C)^o phi_a phi_b = mom_prim of Proofs/CoreBlockP.v *)
Theorem mom_prim_3d_integral (Cx Cy Cz : R) (o : Shell.comp) (sa sb : shell R) (ca cb : Shell.comp)
        (al be : R) : 0 < al -> 0 < be ->
  gint3 (fun x y z => (x - Cx) ^ cx o * (y - Cy) ^ cy o * (z - Cz) ^ cz o
                      * gprim sa al ca x y z * gprim sb be cb x y z)
        (mom_prim RK Cx Cy Cz o sa sb ca cb al be).
Proof.
  intros Ha Hb.
  pose proof (base_T1_integral al be (s_x sa) (s_x sb) Cx (cx o) (cx ca) (cx cb) Ha Hb) as Hx.
  pose proof (base_T1_integral al be (s_y sa) (s_y sb) Cy (cy o) (cy ca) (cy cb) Ha Hb) as Hy.
  pose proof (base_T1_integral al be (s_z sa) (s_z sb) Cz (cz o) (cz ca) (cz cb) Ha Hb) as Hz.
  refine (gint3_ext _ _ _ _ _ _ (gint3_prod _ _ _ _ _ _ Hx Hy Hz)); [intros x y z|].
  - unfold gprim. rewrite !cprim_split. ring.
  - unfold mom_prim, KAB. cbn [fmul RK]. ring.
Qed.

Theorem overlap_prim_3d_integral (sa sb : shell R) (ca cb : Shell.comp) (al be : R) :
  0 < al -> 0 < be ->
  gint3 (fun x y z => gprim sa al ca x y z * gprim sb be cb x y z) (ovl_prim RK sa sb ca cb al be).
Proof.
  intros Ha Hb.
  refine (gint3_ext _ _ _ _ _ eq_refl
           (mom_prim_3d_integral 0 0 0 (0, 0, 0)%nat sa sb ca cb al be Ha Hb)). intros x y z.
  change (cx (0, 0, 0)%nat) with 0%nat. change (cy (0, 0, 0)%nat) with 0%nat.
  change (cz (0, 0, 0)%nat) with 0%nat. cbn [pow]. ring.
Qed.

(* the k-th derivative of (x-B)^j e^{-be (x-B)^2}: polynomial [u] of Model/Eval.v times the Gaussian
   (Gauss/DerivBridge.v, translated to the centre B) *)
Lemma cg1_is_derive_n be B j k x :
  is_derive_n (cg1 be B j) k x (u RKd be j k (x - B) * exp (- be * (x - B) ^ 2)).
Proof.
  apply (is_derive_n_comp_trans (fun t => t ^ j * exp (- be * t ^ 2)) k x (- B)).
  apply nth_derivative.
Qed.

Lemma cg1_Derive_n be B j k x :
  Derive_n (cg1 be B j) k x = u RKd be j k (x - B) * exp (- be * (x - B) ^ 2).
Proof. apply is_derive_n_unique. apply cg1_is_derive_n. Qed.

Definition smooth (a : R -> R) : Prop :=
  forall j x, is_derive (Derive_n a j) x (Derive_n a (S j) x).

Lemma smooth_cg1 be B j : smooth (cg1 be B j).
Proof.
  intros k x. pose proof (cg1_is_derive_n be B j (S k) x) as H. cbn [is_derive_n] in H.
  rewrite (cg1_Derive_n be B j (S k) x). exact H.
Qed.

Lemma smooth_ext a b : (forall t, a t = b t) -> smooth a -> smooth b.
Proof.
  intros E Ha k x. rewrite <- (Derive_n_ext a b (S k) x E).
  apply (is_derive_ext (Derive_n a k)); [intro t; apply Derive_n_ext, E | apply Ha].
Qed.

Lemma D1_0 A B al be i j : D1 RK A B al be 0 i j = Sfun RK A B al be i j.
Proof. reflexivity. Qed.
Lemma D1_S A B al be k i j :
  D1 RK A B al be (S k) i j
  = INR j * D1 RK A B al be k i (j - 1) - 2 * be * D1 RK A B al be k i (S j).
Proof.
  unfold D1. cbn [iterop]. unfold Bop at 1. rewrite ofnat_R. cbn [fmul fadd fsub f1 RK]. ring.
Qed.

Lemma u_integral (al be A B : R) (i : nat) : 0 < al -> 0 < be -> forall k j,
  gint (fun x => cg1 al A i x * (u RKd be j k (x - B) * exp (- be * (x - B) ^ 2)))
       (D1 RK A B al be k i j).
Proof.
  intros Ha Hb. induction k as [|k IH]; intro j.
  - refine (gint_ext _ _ _ _ _ (eq_sym (D1_0 A B al be i j)) (Sfun_integral al be A B i j Ha Hb)).
    intro x. rewrite uR_0. reflexivity.
  - rewrite D1_S.
    refine (gint_ext _ _ _ _ _ eq_refl
              (gint_minus _ _ _ _ (gint_scal (INR j) _ _ (IH (j - 1)%nat))
                                  (gint_scal (2 * be) _ _ (IH (S j))))).
    intro x. cbv beta. rewrite (uR_S be j k). destruct j as [|j'].
    + cbn [INR]. ring.
    + rewrite ofnat_INR. replace (S j' - 1)%nat with j' by lia. ring.
Qed.

(* int phi_a(x) d^k/dx^k phi_b(x) dx = (Bop beta)^k Sfun (i, j): the spec of the differential-operator
   tables (C02_diffop_is_derivative_of_right), for EVERY order k *)
Theorem deriv_1d_integral (al be A B : R) (k i j : nat) : 0 < al -> 0 < be ->
  gint (fun x => cg1 al A i x * Derive_n (cg1 be B j) k x) (D1 RK A B al be k i j).
Proof.
  intros Ha Hb.
  refine (gint_ext _ _ _ _ _ eq_refl (u_integral al be A B i Ha Hb k j)).
  intro x. now rewrite cg1_Derive_n.
Qed.

(* first moment about the coordinate origin (used by the angular momentum) *)
Theorem moment1_1d_integral (al be A B : R) (i j : nat) : 0 < al -> 0 < be ->
  gint (fun x => cg1 al A i x * (x * cg1 be B j x)) (M1o RK A B al be i j).
Proof.
  intros Ha Hb.
  refine (gint_ext _ _ _ _ _ eq_refl (base_T1_integral al be A B 0 1 i j Ha Hb)).
  intro x. cbn [pow]. ring.
Qed.

Definition pd3 (ox oy oz : nat) (G : R -> R -> R -> R) (x y z : R) : R :=
  Derive_n (fun x' => Derive_n (fun y' => Derive_n (fun z' => G x' y' z') oz z) oy y) ox x.

Lemma pd3_ext ox oy oz (G H : R -> R -> R -> R) x y z :
  (forall x y z, G x y z = H x y z) -> pd3 ox oy oz G x y z = pd3 ox oy oz H x y z.
Proof.
  intro E. unfold pd3. apply Derive_n_ext. intro x'. apply Derive_n_ext. intro y'.
  apply Derive_n_ext. intro z'. apply E.
Qed.

Lemma is_derive_fsum {A} (l : list A) (c : A -> R) (h : A -> R -> R) (d : A -> R) x :
  (forall a, In a l -> is_derive (h a) x (d a)) ->
  is_derive (fun t => fsumR (map (fun a => c a * h a t) l)) x (fsumR (map (fun a => c a * d a) l)).
Proof.
  intro H. induction l as [|a l IH].
  - apply (is_derive_const (0 : R)).
  - apply (is_derive_plus (fun t => c a * h a t) (fun t => fsumR (map (fun b => c b * h b t) l))).
    + apply (is_derive_scal (h a) x (c a)), H. now left.
    + apply IH. intros b Hb. apply H. now right.
Qed.

Lemma Derive_n_S_inner (f : R -> R) n x : Derive_n f (S n) x = Derive_n (Derive f) n x.
Proof. rewrite <- (Nat.add_1_r n), <- (Derive_n_comp f n 1 x). reflexivity. Qed.

Lemma Derive_n_tower (g : nat -> R -> R) :
  (forall n t, is_derive (g n) t (g (S n) t)) -> forall n t, Derive_n (g 0%nat) n t = g n t.
Proof.
  intros T n. revert g T. induction n as [|n IH]; intros g T t; [reflexivity|].
  rewrite Derive_n_S_inner, (Derive_n_ext _ (g 1%nat)) by (intro s; apply is_derive_unique, T).
  apply (IH (fun n => g (S n))). intros m s. apply T.
Qed.

(* a tower K(o) of functions on R^3, each differentiable along each axis to the next one *)
Definition tower3 (K : nat -> nat -> nat -> R -> R -> R -> R) : Prop :=
  forall ox oy oz x y z,
    is_derive (fun t => K ox oy oz t y z) x (K (S ox) oy oz x y z)
    /\ is_derive (fun t => K ox oy oz x t z) y (K ox (S oy) oz x y z)
    /\ is_derive (fun t => K ox oy oz x y t) z (K ox oy (S oz) x y z).

Lemma pd3_tower K : tower3 K ->
  forall ox oy oz x y z, pd3 ox oy oz (K 0 0 0)%nat x y z = K ox oy oz x y z.
Proof.
  intros T ox oy oz x y z. unfold pd3.
  rewrite (Derive_n_ext _ (fun x' => K 0%nat oy oz x' y z)).
  - apply (Derive_n_tower (fun n t => K n oy oz t y z)). intros n t. apply T.
  - intro x'. rewrite (Derive_n_ext _ (fun y' => K 0%nat 0%nat oz x' y' z)).
    + apply (Derive_n_tower (fun n t => K 0%nat n oz x' t z)). intros n t. apply T.
    + intro y'. apply (Derive_n_tower (fun n t => K 0%nat 0%nat n x' y' t)). intros n t. apply T.
Qed.

Lemma tower3_ext K K' :
  (forall ox oy oz x y z, K ox oy oz x y z = K' ox oy oz x y z) -> tower3 K -> tower3 K'.
Proof.
  intros E T ox oy oz x y z. rewrite <- !E.
  split; [|split]; (eapply is_derive_ext; [intro t; apply E|]); apply T.
Qed.

Lemma tower3_fsum {A} (l : list A) (c : A -> R) (K : A -> nat -> nat -> nat -> R -> R -> R -> R) :
  (forall a, In a l -> tower3 (K a)) ->
  tower3 (fun ox oy oz x y z => fsumR (map (fun a => c a * K a ox oy oz x y z) l)).
Proof.
  intros H ox oy oz x y z. split; [|split]; apply is_derive_fsum; intros a Ha; apply (H a Ha).
Qed.

Definition smooth_pd3 (F : R -> R -> R -> R) : Prop := tower3 (fun ox oy oz => pd3 ox oy oz F).

(* pd3 is linear over finite sums of such functions: the termwise derivatives form a tower *)
Theorem pd3_fsum {A} (l : list A) (c : A -> R) (h : A -> R -> R -> R -> R) :
  (forall a, In a l -> smooth_pd3 (h a)) -> forall ox oy oz x y z,
  pd3 ox oy oz (fun x y z => fsumR (map (fun a => c a * h a x y z) l)) x y z
  = fsumR (map (fun a => c a * pd3 ox oy oz (h a) x y z) l).
Proof.
  intro H. apply (pd3_tower (fun ox oy oz x y z => fsumR (map (fun a => c a * pd3 ox oy oz (h a) x y z) l))).
  exact (tower3_fsum l c (fun a ox oy oz => pd3 ox oy oz (h a)) H).
Qed.

Lemma smooth_pd3_fsum {A} (l : list A) (c : A -> R) (h : A -> R -> R -> R -> R) :
  (forall a, In a l -> smooth_pd3 (h a)) -> smooth_pd3 (fun x y z => fsumR (map (fun a => c a * h a x y z) l)).
Proof.
  intro H. apply (tower3_ext (fun ox oy oz x y z => fsumR (map (fun a => c a * pd3 ox oy oz (h a) x y z) l))).
  - intros. symmetry. now apply pd3_fsum.
  - exact (tower3_fsum l c (fun a ox oy oz => pd3 ox oy oz (h a)) H).
Qed.

Lemma pd3_cprim ox oy oz be Bx By Bz cb x y z :
  pd3 ox oy oz (cprim be Bx By Bz cb) x y z
  = Derive_n (cg1 be Bx (cx cb)) ox x * Derive_n (cg1 be By (cy cb)) oy y
    * Derive_n (cg1 be Bz (cz cb)) oz z.
Proof.
  unfold pd3.
  set (gx := cg1 be Bx (cx cb)). set (gy := cg1 be By (cy cb)). set (gz := cg1 be Bz (cz cb)).
  transitivity (Derive_n (fun x' => gx x' * (Derive_n gy oy y * Derive_n gz oz z)) ox x).
  - apply Derive_n_ext. intro x'.
    transitivity (Derive_n (fun y' => gy y' * (gx x' * Derive_n gz oz z)) oy y).
    + apply Derive_n_ext. intro y'.
      transitivity (Derive_n (fun z' => (gx x' * gy y') * gz z') oz z).
      * apply Derive_n_ext. intro z'. apply cprim_split.
      * rewrite Derive_n_scal_l. ring.
    + rewrite Derive_n_scal_r. ring.
  - rewrite Derive_n_scal_r. ring.
Qed.

Lemma is_derive_lin (c : R) (u v : R -> R) (x du dv : R) :
  is_derive u x du -> (forall t, v t = c * u t) -> dv = c * du -> is_derive v x dv.
Proof.
  intros Hu Ev ->. apply (is_derive_ext (fun t => c * u t)); [intro t; now rewrite Ev|].
  exact (is_derive_scal u x c du Hu).
Qed.

(* along each axis a mixed partial of the primitive is its own factor times constants (pd3_cprim) *)
Lemma smooth_pd3_cprim al Ax Ay Az c : smooth_pd3 (cprim al Ax Ay Az c).
Proof.
  intros ox oy oz x y z.
  pose proof (smooth_cg1 al Ax (cx c) ox x) as X.
  pose proof (smooth_cg1 al Ay (cy c) oy y) as Y.
  pose proof (smooth_cg1 al Az (cz c) oz z) as Z.
  split; [|split].
  - apply (is_derive_lin (Derive_n (cg1 al Ay (cy c)) oy y * Derive_n (cg1 al Az (cz c)) oz z) _ _ _ _ _ X);
      [intro t|]; rewrite !pd3_cprim; ring.
  - apply (is_derive_lin (Derive_n (cg1 al Ax (cx c)) ox x * Derive_n (cg1 al Az (cz c)) oz z) _ _ _ _ _ Y);
      [intro t|]; rewrite !pd3_cprim; ring.
  - apply (is_derive_lin (Derive_n (cg1 al Ax (cx c)) ox x * Derive_n (cg1 al Ay (cy c)) oy y) _ _ _ _ _ Z);
      [intro t|]; rewrite !pd3_cprim; ring.
Qed.

(* every differential-operator primitive: iterated integral of phi_a d^o phi_b = dprim of CoreDiffP.v *)
Theorem dprim_3d_integral (o : Shell.comp) (sa sb : shell R) (ca cb : Shell.comp) (al be : R) :
  0 < al -> 0 < be ->
  gint3 (fun x y z => gprim sa al ca x y z * pd3 (cx o) (cy o) (cz o) (gprim sb be cb) x y z)
        (dprim RK o sa sb ca cb al be).
Proof.
  intros Ha Hb.
  pose proof (deriv_1d_integral al be (s_x sa) (s_x sb) (cx o) (cx ca) (cx cb) Ha Hb) as Hx.
  pose proof (deriv_1d_integral al be (s_y sa) (s_y sb) (cy o) (cy ca) (cy cb) Ha Hb) as Hy.
  pose proof (deriv_1d_integral al be (s_z sa) (s_z sb) (cz o) (cz ca) (cz cb) Ha Hb) as Hz.
  refine (gint3_ext _ _ _ _ _ eq_refl (gint3_prod _ _ _ _ _ _ Hx Hy Hz)).
  intros x y z. unfold gprim. rewrite pd3_cprim, cprim_split. ring.
Qed.

Definition lap3 (G : R -> R -> R -> R) (x y z : R) : R :=
  pd3 2 0 0 G x y z + pd3 0 2 0 G x y z + pd3 0 0 2 G x y z.

(* kinetic energy: iterated integral of phi_a (-1/2 Laplacian) phi_b = kin_prim of CoreDiffP.v *)
Theorem kinetic_prim_3d_integral (sa sb : shell R) (ca cb : Shell.comp) (al be : R) :
  0 < al -> 0 < be ->
  gint3 (fun x y z => gprim sa al ca x y z * (- (1 / 2) * lap3 (gprim sb be cb) x y z))
        (kin_prim RK sa sb ca cb al be).
Proof.
  intros Ha Hb.
  pose proof (dprim_3d_integral (2, 0, 0)%nat sa sb ca cb al be Ha Hb) as Hx.
  pose proof (dprim_3d_integral (0, 2, 0)%nat sa sb ca cb al be Ha Hb) as Hy.
  pose proof (dprim_3d_integral (0, 0, 2)%nat sa sb ca cb al be Ha Hb) as Hz.
  refine (gint3_ext _ _ _ _ _ _
            (gint3_scal (- (1 / 2)) _ _ (gint3_plus _ _ _ _ (gint3_plus _ _ _ _ Hx Hy) Hz))).
  - intros x y z. cbv beta. unfold lap3, cx, cy, cz. cbn [fst snd]. ring.
  - unfold kin_prim, dprim, S1, cx, cy, cz. cbn [fst snd].
    rewrite !D1_0. cbn [fmul fadd fdiv fopp f1 RK]. field.
Qed.

(* momentum (the real matrix R of the value -i R): iterated integral of phi_a d/dx_i phi_b *)
Theorem momentum_prim_3d_integral (sa sb : shell R) (ca cb : Shell.comp) (al be : R) :
  0 < al -> 0 < be ->
  gint3 (fun x y z => gprim sa al ca x y z * pd3 1 0 0 (gprim sb be cb) x y z)
        (mom_x_prim RK sa sb ca cb al be) /\
  gint3 (fun x y z => gprim sa al ca x y z * pd3 0 1 0 (gprim sb be cb) x y z)
        (mom_y_prim RK sa sb ca cb al be) /\
  gint3 (fun x y z => gprim sa al ca x y z * pd3 0 0 1 (gprim sb be cb) x y z)
        (mom_z_prim RK sa sb ca cb al be).
Proof.
  intros Ha Hb. split; [|split].
  - exact (dprim_3d_integral (1, 0, 0)%nat sa sb ca cb al be Ha Hb).
  - exact (dprim_3d_integral (0, 1, 0)%nat sa sb ca cb al be Ha Hb).
  - exact (dprim_3d_integral (0, 0, 1)%nat sa sb ca cb al be Ha Hb).
Qed.

(* angular momentum about the coordinate origin (the real matrix R of the value -i R):
   iterated integral of phi_a (r x grad)_i phi_b = ang_{x,y,z}_prim of CoreDiffP.v *)
Theorem angmom_prim_3d_integral (sa sb : shell R) (ca cb : Shell.comp) (al be : R) :
  0 < al -> 0 < be ->
  gint3 (fun x y z => gprim sa al ca x y z
                      * (y * pd3 0 0 1 (gprim sb be cb) x y z - z * pd3 0 1 0 (gprim sb be cb) x y z))
        (ang_x_prim RK sa sb ca cb al be) /\
  gint3 (fun x y z => gprim sa al ca x y z
                      * (z * pd3 1 0 0 (gprim sb be cb) x y z - x * pd3 0 0 1 (gprim sb be cb) x y z))
        (ang_y_prim RK sa sb ca cb al be) /\
  gint3 (fun x y z => gprim sa al ca x y z
                      * (x * pd3 0 1 0 (gprim sb be cb) x y z - y * pd3 1 0 0 (gprim sb be cb) x y z))
        (ang_z_prim RK sa sb ca cb al be).
Proof.
  intros Ha Hb.
  (* per axis: overlap S, first derivative D, first moment M *)
  pose proof (deriv_1d_integral al be (s_x sa) (s_x sb) 0 (cx ca) (cx cb) Ha Hb) as Sx.
  pose proof (deriv_1d_integral al be (s_y sa) (s_y sb) 0 (cy ca) (cy cb) Ha Hb) as Sy.
  pose proof (deriv_1d_integral al be (s_z sa) (s_z sb) 0 (cz ca) (cz cb) Ha Hb) as Sz.
  pose proof (deriv_1d_integral al be (s_x sa) (s_x sb) 1 (cx ca) (cx cb) Ha Hb) as Dx.
  pose proof (deriv_1d_integral al be (s_y sa) (s_y sb) 1 (cy ca) (cy cb) Ha Hb) as Dy.
  pose proof (deriv_1d_integral al be (s_z sa) (s_z sb) 1 (cz ca) (cz cb) Ha Hb) as Dz.
  pose proof (moment1_1d_integral al be (s_x sa) (s_x sb) (cx ca) (cx cb) Ha Hb) as Mx.
  pose proof (moment1_1d_integral al be (s_y sa) (s_y sb) (cy ca) (cy cb) Ha Hb) as My.
  pose proof (moment1_1d_integral al be (s_z sa) (s_z sb) (cz ca) (cz cb) Ha Hb) as Mz.
  split; [|split].
  - refine (gint3_ext _ _ _ _ _ _ (gint3_minus _ _ _ _ (gint3_prod _ _ _ _ _ _ Sx My Dz)
                                                      (gint3_prod _ _ _ _ _ _ Sx Dy Mz))).
    + intros x y z. cbv beta. unfold gprim. rewrite !pd3_cprim, !cprim_split. cbn [Derive_n]. ring.
    + unfold ang_x_prim, S1. rewrite !D1_0. cbn [fmul fsub RK]. ring.
  - refine (gint3_ext _ _ _ _ _ _ (gint3_minus _ _ _ _ (gint3_prod _ _ _ _ _ _ Dx Sy Mz)
                                                      (gint3_prod _ _ _ _ _ _ Mx Sy Dz))).
    + intros x y z. cbv beta. unfold gprim. rewrite !pd3_cprim, !cprim_split. cbn [Derive_n]. ring.
    + unfold ang_y_prim, S1. rewrite !D1_0. cbn [fmul fsub RK]. ring.
  - refine (gint3_ext _ _ _ _ _ _ (gint3_minus _ _ _ _ (gint3_prod _ _ _ _ _ _ Mx Dy Sz)
                                                      (gint3_prod _ _ _ _ _ _ Dx My Sz))).
    + intros x y z. cbv beta. unfold gprim. rewrite !pd3_cprim, !cprim_split. cbn [Derive_n]. ring.
    + unfold ang_z_prim, S1. rewrite !D1_0. cbn [fmul fsub RK]. ring.
Qed.

(* coefficient x primitive norm of primitive k of segment m, component c *)
Definition cw (s : shell R) (m : nat) (c : Shell.comp) (k : nat) : R :=
  nth m (nth k (s_coeffs s) []) 0 * norm_prim RK (s_l s) c (nth k (s_exps s) 0).

(* the contracted, normalised Cartesian basis function: segment m, component c of shell s *)
Definition cfun (s : shell R) (m : nat) (c : Shell.comp) (x y z : R) : R :=
  fsumR (Tables.mk (length (s_exps s)) (fun k => cw s m c k * gprim s (nth k (s_exps s) 0) c x y z)).

Definition pos_exps3 (s : shell R) : Prop := forall a, In a (s_exps s) -> 0 < a.

(* any primitive-pair integrand G al be, contracted *)
Theorem contracted_integral (sa sb : shell R) (ca cb : Shell.comp) (ma mb : nat)
        (G : R -> R -> R -> R -> R -> R) (prim : R -> R -> R) :
  (forall al be, In al (s_exps sa) -> In be (s_exps sb) -> gint3 (G al be) (prim al be)) ->
  gint3 (fun x y z =>
           fsumR (Tables.mk (length (s_exps sa)) (fun ka =>
             fsumR (Tables.mk (length (s_exps sb)) (fun kb =>
               cw sa ma ca ka * cw sb mb cb kb * G (nth ka (s_exps sa) 0) (nth kb (s_exps sb) 0) x y z)))))
        (contracted RK sa sb ca cb ma mb prim).
Proof.
  intro H.
  refine (gint3_ext _ _ _ _ (fun _ _ _ => eq_refl) _
            (gint3_sum2 (seq 0 (length (s_exps sa))) (seq 0 (length (s_exps sb)))
               (fun ka kb => cw sa ma ca ka * cw sb mb cb kb)
               (fun ka kb => G (nth ka (s_exps sa) 0) (nth kb (s_exps sb) 0))
               (fun ka kb => prim (nth ka (s_exps sa) 0) (nth kb (s_exps sb) 0)) _)).
  - apply fsumR_ext_in. intros ka _. apply fsumR_ext_in. intros kb _. unfold cw. cbn [fmul f0 RK]. ring.
  - intros ka kb Ha Hb. apply in_seq in Ha, Hb. apply H; apply nth_In; lia.
Qed.

Lemma cfun_product (sa sb : shell R) (ca cb : Shell.comp) (ma mb : nat) (w : R) (x y z : R) :
  w * cfun sa ma ca x y z * cfun sb mb cb x y z
  = fsumR (Tables.mk (length (s_exps sa)) (fun ka =>
      fsumR (Tables.mk (length (s_exps sb)) (fun kb =>
        cw sa ma ca ka * cw sb mb cb kb
        * (w * gprim sa (nth ka (s_exps sa) 0) ca x y z * gprim sb (nth kb (s_exps sb) 0) cb x y z))))).
Proof.
  unfold cfun, Tables.mk. rewrite Rmult_assoc, fsumR_mul, <- fsumR_scale. apply fsumR_ext_in. intros ka _.
  rewrite <- fsumR_scale. apply fsumR_ext_in. intros kb _. ring.
Qed.

Theorem pd3_cfun (s : shell R) (m : nat) (c : Shell.comp) (ox oy oz : nat) (x y z : R) :
  pd3 ox oy oz (cfun s m c) x y z
  = fsumR (Tables.mk (length (s_exps s)) (fun k =>
      cw s m c k * pd3 ox oy oz (gprim s (nth k (s_exps s) 0) c) x y z)).
Proof.
  exact (pd3_fsum (seq 0 (length (s_exps s))) (cw s m c) (fun k => gprim s (nth k (s_exps s) 0) c)
           (fun k _ => smooth_pd3_cprim _ _ _ _ c) ox oy oz x y z).
Qed.

Lemma smooth_pd3_cfun (s : shell R) (m : nat) (c : Shell.comp) : smooth_pd3 (cfun s m c).
Proof.
  apply (smooth_pd3_fsum (seq 0 (length (s_exps s))) (cw s m c) (fun k => gprim s (nth k (s_exps s) 0) c)).
  intros k _. apply smooth_pd3_cprim.
Qed.

(* any operator that is linear over the contraction sum of the right function *)
Theorem contracted_op_integral (sa sb : shell R) (ca cb : Shell.comp) (ma mb : nat)
        (Lop : (R -> R -> R -> R) -> R -> R -> R -> R) (prim : R -> R -> R) :
  (forall x y z, Lop (cfun sb mb cb) x y z
                 = fsumR (Tables.mk (length (s_exps sb)) (fun kb =>
                     cw sb mb cb kb * Lop (gprim sb (nth kb (s_exps sb) 0) cb) x y z))) ->
  (forall al be, In al (s_exps sa) -> In be (s_exps sb) ->
     gint3 (fun x y z => gprim sa al ca x y z * Lop (gprim sb be cb) x y z) (prim al be)) ->
  gint3 (fun x y z => cfun sa ma ca x y z * Lop (cfun sb mb cb) x y z)
        (contracted RK sa sb ca cb ma mb prim).
Proof.
  intros Hlin H.
  refine (gint3_ext _ _ _ _ _ eq_refl
            (contracted_integral sa sb ca cb ma mb
               (fun al be x y z => gprim sa al ca x y z * Lop (gprim sb be cb) x y z) prim H)).
  intros x y z. cbv beta. rewrite Hlin. unfold cfun at 1, Tables.mk. rewrite fsumR_mul.
  apply fsumR_ext_in. intros ka _. apply fsumR_ext_in. intros kb _. ring.
Qed.

Section Blocks.
Variables (sa sb : shell R) (ma ia mb ib : nat).
Hypothesis Wa : wf_shell sa.
Hypothesis Wb : wf_shell sb.
Hypothesis Pa : pos_exps3 sa.
Hypothesis Pb : pos_exps3 sb.
Hypothesis Hma : (ma < nseg sa)%nat.
Hypothesis Hia : (ia < length (comps_of sa))%nat.
Hypothesis Hmb : (mb < nseg sb)%nat.
Hypothesis Hib : (ib < length (comps_of sb))%nat.
Let ca := nth ia (comps_of sa) (0, 0, 0)%nat.
Let cb := nth ib (comps_of sb) (0, 0, 0)%nat.

(* the entry of the model's overlap block IS the iterated integral of the product of the two
   contracted, normalised basis functions *)
Theorem overlap_block_is_integral :
  gint3 (fun x y z => cfun sa ma ca x y z * cfun sb mb cb x y z)
        (Overlap.nth4 RK ma ia mb ib (overlap_block RK sa sb)).
Proof.
  rewrite (overlap_block_correct RK RK_field fapx_id_R two_neq_0_R sa sb ma ia mb ib Wa Wb
             (exps_ok_pos_R sa sb Pa Pb) Hma Hia Hmb Hib).
  fold ca cb.
  refine (gint3_ext _ _ _ _ _ eq_refl
            (contracted_integral sa sb ca cb ma mb
               (fun al be x y z => 1 * gprim sa al ca x y z * gprim sb be cb x y z) _ _)).
  - intros x y z. cbv beta. rewrite <- cfun_product. ring.
  - intros al be Ha Hb.
    refine (gint3_ext _ _ _ _ _ eq_refl (overlap_prim_3d_integral sa sb ca cb al be (Pa _ Ha) (Pb _ Hb))).
    intros x y z. ring.
Qed.

(* every slice of the multipole-moment block: iterated integral of (r-C)^o chi_a chi_b *)
Theorem mm_block_is_integral (Cx Cy Cz : R) (orders : list Shell.comp) (d : nat) :
  (d < length orders)%nat ->
  let o := nth d orders (0, 0, 0)%nat in
  gint3 (fun x y z => (x - Cx) ^ cx o * (y - Cy) ^ cy o * (z - Cz) ^ cz o
                      * cfun sa ma ca x y z * cfun sb mb cb x y z)
        (Overlap.nth4 RK ma ia mb ib (nth d (mm_block RK Cx Cy Cz orders sa sb) [])).
Proof.
  intros Hd o.
  rewrite (mm_block_correct RK RK_field fapx_id_R two_neq_0_R Cx Cy Cz orders sa sb Wa Wb
             (exps_ok_pos_R sa sb Pa Pb) d ma ia mb ib Hd Hma Hia Hmb Hib).
  fold ca cb o.
  refine (gint3_ext _ _ _ _ _ eq_refl
            (contracted_integral sa sb ca cb ma mb
               (fun al be x y z => ((x - Cx) ^ cx o * (y - Cy) ^ cy o * (z - Cz) ^ cz o)
                                   * gprim sa al ca x y z * gprim sb be cb x y z) _ _)).
  - intros x y z. cbv beta. now rewrite <- cfun_product.
  - intros al be Ha Hb.
    exact (mom_prim_3d_integral Cx Cy Cz o sa sb ca cb al be (Pa _ Ha) (Pb _ Hb)).
Qed.

Lemma contracted_pd3_integral (o : Shell.comp) :
  gint3 (fun x y z => cfun sa ma ca x y z * pd3 (cx o) (cy o) (cz o) (cfun sb mb cb) x y z)
        (contracted RK sa sb ca cb ma mb (dprim RK o sa sb ca cb)).
Proof.
  apply (contracted_op_integral sa sb ca cb ma mb (pd3 (cx o) (cy o) (cz o))).
  - intros x y z. apply pd3_cfun.
  - intros al be Ha Hb. exact (dprim_3d_integral o sa sb ca cb al be (Pa _ Ha) (Pb _ Hb)).
Qed.

(* _compute_differential_operator_integrals, every order: the entry IS the iterated integral of
   chi_a times the mixed partial derivative of chi_b *)
Theorem diffop_block_is_integral (orders : list Shell.comp) (d : nat) : (d < length orders)%nat ->
  let o := nth d orders (0, 0, 0)%nat in
  gint3 (fun x y z => cfun sa ma ca x y z * pd3 (cx o) (cy o) (cz o) (cfun sb mb cb) x y z)
        (Overlap.nth4 RK ma ia mb ib (nth d (diffop_block RK orders sa sb) [])).
Proof.
  intros Hd o.
  rewrite (diffop_block_correct RK RK_field fapx_id_R two_neq_0_R orders sa sb Wa Wb
             (exps_ok_pos_R sa sb Pa Pb) d ma ia mb ib Hd Hma Hia Hmb Hib).
  fold ca cb o. apply contracted_pd3_integral.
Qed.

(* kinetic energy: the entry IS the iterated integral of chi_a (-1/2 Laplacian) chi_b *)
Theorem kinetic_block_is_integral :
  gint3 (fun x y z => cfun sa ma ca x y z * (- (1 / 2) * lap3 (cfun sb mb cb) x y z))
        (Overlap.nth4 RK ma ia mb ib (kinetic_block RK sa sb)).
Proof.
  rewrite (kinetic_block_correct RK RK_field fapx_id_R two_neq_0_R sa sb ma ia mb ib Wa Wb
             (exps_ok_pos_R sa sb Pa Pb) Hma Hia Hmb Hib).
  fold ca cb.
  apply (contracted_op_integral sa sb ca cb ma mb (fun G x y z => - (1 / 2) * lap3 G x y z)).
  - intros x y z. unfold lap3. rewrite !pd3_cfun. unfold Tables.mk. rewrite <- !fsumR_add, <- fsumR_scale.
    apply fsumR_ext_in. intros k _. ring.
  - intros al be Ha Hb. exact (kinetic_prim_3d_integral sa sb ca cb al be (Pa _ Ha) (Pb _ Hb)).
Qed.

(* momentum: the three components of the real matrix R (value -i R) *)
Theorem momentum_block_is_integral :
  let e := get4 [] ma ia mb ib (momentum_block_re RK sa sb) in
  gint3 (fun x y z => cfun sa ma ca x y z * pd3 1 0 0 (cfun sb mb cb) x y z) (nth 0 e 0) /\
  gint3 (fun x y z => cfun sa ma ca x y z * pd3 0 1 0 (cfun sb mb cb) x y z) (nth 1 e 0) /\
  gint3 (fun x y z => cfun sa ma ca x y z * pd3 0 0 1 (cfun sb mb cb) x y z) (nth 2 e 0).
Proof.
  cbv zeta.
  rewrite (momentum_block_correct RK RK_field fapx_id_R two_neq_0_R sa sb ma ia mb ib Wa Wb
             (exps_ok_pos_R sa sb Pa Pb) Hma Hia Hmb Hib).
  cbv zeta. fold ca cb. cbn [nth].
  repeat split.
  - exact (contracted_pd3_integral (1, 0, 0)%nat).
  - exact (contracted_pd3_integral (0, 1, 0)%nat).
  - exact (contracted_pd3_integral (0, 0, 1)%nat).
Qed.

Lemma angop_linear (w1 w2 : R -> R -> R -> R) (o1 o2 : Shell.comp) (x y z : R) :
  w1 x y z * pd3 (cx o1) (cy o1) (cz o1) (cfun sb mb cb) x y z
  - w2 x y z * pd3 (cx o2) (cy o2) (cz o2) (cfun sb mb cb) x y z
  = fsumR (Tables.mk (length (s_exps sb)) (fun kb => cw sb mb cb kb *
      (w1 x y z * pd3 (cx o1) (cy o1) (cz o1) (gprim sb (nth kb (s_exps sb) 0) cb) x y z
       - w2 x y z * pd3 (cx o2) (cy o2) (cz o2) (gprim sb (nth kb (s_exps sb) 0) cb) x y z))).
Proof.
  rewrite !pd3_cfun. unfold Rminus, Tables.mk. rewrite Ropp_mult_distr_l, <- !fsumR_scale, <- fsumR_add.
  apply fsumR_ext_in. intros k _. ring.
Qed.

(* angular momentum about the origin: the three components of the real matrix R (value -i R) *)
Theorem angmom_block_is_integral :
  let e := get4 [] ma ia mb ib (angmom_block_re RK sa sb) in
  gint3 (fun x y z => cfun sa ma ca x y z
           * (y * pd3 0 0 1 (cfun sb mb cb) x y z - z * pd3 0 1 0 (cfun sb mb cb) x y z)) (nth 0 e 0) /\
  gint3 (fun x y z => cfun sa ma ca x y z
           * (z * pd3 1 0 0 (cfun sb mb cb) x y z - x * pd3 0 0 1 (cfun sb mb cb) x y z)) (nth 1 e 0) /\
  gint3 (fun x y z => cfun sa ma ca x y z
           * (x * pd3 0 1 0 (cfun sb mb cb) x y z - y * pd3 1 0 0 (cfun sb mb cb) x y z)) (nth 2 e 0).
Proof.
  cbv zeta.
  rewrite (angmom_block_correct RK RK_field fapx_id_R two_neq_0_R sa sb ma ia mb ib Wa Wb
             (exps_ok_pos_R sa sb Pa Pb) Hma Hia Hmb Hib).
  cbv zeta. fold ca cb. cbn [nth].
  repeat split.
  - apply (contracted_op_integral sa sb ca cb ma mb
             (fun G x y z => y * pd3 0 0 1 G x y z - z * pd3 0 1 0 G x y z)).
    + intros x y z. exact (angop_linear (fun _ y _ => y) (fun _ _ z => z) (0, 0, 1)%nat (0, 1, 0)%nat x y z).
    + intros al be Ha Hb. exact (proj1 (angmom_prim_3d_integral sa sb ca cb al be (Pa _ Ha) (Pb _ Hb))).
  - apply (contracted_op_integral sa sb ca cb ma mb
             (fun G x y z => z * pd3 1 0 0 G x y z - x * pd3 0 0 1 G x y z)).
    + intros x y z. exact (angop_linear (fun _ _ z => z) (fun x _ _ => x) (1, 0, 0)%nat (0, 0, 1)%nat x y z).
    + intros al be Ha Hb. exact (proj1 (proj2 (angmom_prim_3d_integral sa sb ca cb al be (Pa _ Ha) (Pb _ Hb)))).
  - apply (contracted_op_integral sa sb ca cb ma mb
             (fun G x y z => x * pd3 0 1 0 G x y z - y * pd3 1 0 0 G x y z)).
    + intros x y z. exact (angop_linear (fun x _ _ => x) (fun _ y _ => y) (0, 1, 0)%nat (1, 0, 0)%nat x y z).
    + intros al be Ha Hb. exact (proj2 (proj2 (angmom_prim_3d_integral sa sb ca cb al be (Pa _ Ha) (Pb _ Hb)))).
Qed.
End Blocks.

Definition ex_shell_d : shell R := mkShell R 2 0 0 0 [3 / 2; 1 / 4] [[1; 2]; [3; 4]] false [] [].
Definition ex_shell_p : shell R := mkShell R 1 1 (-1) (1 / 2) [2] [[1]] false [] [].

Example block_hypotheses_satisfiable :
  wf_shell ex_shell_d /\ wf_shell ex_shell_p /\ pos_exps3 ex_shell_d /\ pos_exps3 ex_shell_p /\
  (1 < nseg ex_shell_d)%nat /\ (4 < length (comps_of ex_shell_d))%nat /\
  (0 < nseg ex_shell_p)%nat /\ (2 < length (comps_of ex_shell_p))%nat.
Proof.
  split; [apply wf_shell_default; reflexivity|].
  split; [apply wf_shell_default; reflexivity|].
  split; [intros a [<-|[<-|[]]]; lra|].
  split; [intros a [<-|[]]; lra|].
  cbn. lia.
Qed.

(* ... so e.g. this entry of the kinetic block of a (d, p) pair of shells is the iterated integral *)
Example kinetic_block_instance :
  gint3 (fun x y z => cfun ex_shell_d 1 (0, 1, 1)%nat x y z
                      * (- (1 / 2) * lap3 (cfun ex_shell_p 0 (0, 0, 1)%nat) x y z))
        (Overlap.nth4 RK 1 4 0 2 (kinetic_block RK ex_shell_d ex_shell_p)).
Proof.
  destruct block_hypotheses_satisfiable as [W1 [W2 [P1 [P2 [H1 [H2 [H3 H4]]]]]]].
  exact (kinetic_block_is_integral ex_shell_d ex_shell_p 1 4 0 2 W1 W2 P1 P2 H1 H2 H3 H4).
Qed.

(* the iterated integral of a normalised primitive squared is 1 (with Proofs/CoreNormP.v) *)
Example normalised_primitive (s : shell R) (c : Shell.comp) (al : R) :
  0 < al -> (cx c + cy c + cz c)%nat = s_l s ->
  gint3 (fun x y z => (norm_prim RK (s_l s) c al * gprim s al c x y z)
                      * (norm_prim RK (s_l s) c al * gprim s al c x y z)) 1.
Proof.
  intros Ha Hl.
  refine (gint3_ext _ _ _ _ _ (norm_prim_self_overlap s c al Ha Hl)
            (gint3_scal (norm_prim RK (s_l s) c al * norm_prim RK (s_l s) c al) _ _
               (overlap_prim_3d_integral s s c c al al Ha Ha))).
  intros x y z. ring.
Qed.
