(* Gauss/GaussInt.v — the value of the Gaussian integral,  int_R e^{-x^2} dx = sqrt PI,
   by the classical one-variable argument (no double integral):
       A(t) = int_0^t e^{-x^2} dx,     G(t) = int_0^1 e^{-t^2 (1+x^2)} / (1+x^2) dx,
       d/dt [A(t)^2 + G(t)] = 0,       A(0)^2 + G(0) = atan 1 = PI/4,      0 <= G(t) <= e^{-t^2} -> 0,
   so (2 A(t))^2 -> PI; and 2 A(t) = int_{-t}^{t} -> the improper integral, which exists by
   BridgeR.gaussian_integral_exists and is positive.  Differentiation under the integral sign is
   Coquelicot's [is_derive_RInt_param].  With this, bridge (B1) of DESIGN.md 2.6 holds without any
   hypothesis ([bridge_B1_closed]). *)
From Coq Require Import Reals Lra Lia List.
From Coquelicot Require Import Coquelicot.
From GB Require Import Base.Field Gauss.Moment1D Gauss.Bridge Gauss.DerivBridge Gauss.BridgeR.
Import ListNotations.
Open Scope R_scope.

Definition ug (x : R) : R := exp (- x ^ 2).
Definition uA (t : R) : R := RInt ug 0 t.
Definition uh (t x : R) : R := exp (- t ^ 2 * (1 + x ^ 2)) / (1 + x ^ 2).
Definition uk (t x : R) : R := - 2 * t * exp (- t ^ 2 * (1 + x ^ 2)).
Definition uG (t : R) : R := RInt (uh t) 0 1.

Lemma one_plus_sq_pos x : 0 < 1 + x ^ 2.
Proof. cbn [pow]. nra. Qed.

Lemma ug_continuous x : continuous ug x.
Proof. apply (ex_derive_continuous ug x). unfold ug. auto_derive. exact I. Qed.

Lemma ug_ex a b : ex_RInt ug a b.
Proof. apply (ex_RInt_continuous ug a b). intros z _. apply ug_continuous. Qed.

Lemma uA_derive t : is_derive uA t (ug t).
Proof.
  apply (is_derive_RInt ug uA 0 t).
  - apply filter_forall. intro b. apply (RInt_correct ug 0 b). apply ug_ex.
  - apply ug_continuous.
Qed.

Lemma uh_derive_t t x : is_derive (fun z => uh z x) t (uk t x).
Proof.
  unfold uh, uk. auto_derive.
  - pose proof (one_plus_sq_pos x). lra.
  - pose proof (one_plus_sq_pos x). cbn [pow] in *. field. lra.
Qed.

Lemma uh_continuous_x t x : continuous (uh t) x.
Proof.
  apply (ex_derive_continuous (uh t) x). unfold uh. auto_derive.
  pose proof (one_plus_sq_pos x). repeat split; try exact I. lra.
Qed.

Lemma uk_continuous_x t x : continuous (uk t) x.
Proof. apply (ex_derive_continuous (uk t) x). unfold uk. auto_derive. exact I. Qed.

Lemma uk_continuity_2d t x : continuity_2d_pt uk t x.
Proof.
  unfold uk.
  apply (continuity_2d_pt_mult (fun u _ => - 2 * u) (fun u v => exp (- u ^ 2 * (1 + v ^ 2)))).
  - apply (continuity_2d_pt_mult (fun _ _ => - 2) (fun u _ => u)).
    + apply continuity_2d_pt_const.
    + apply continuity_2d_pt_id1.
  - apply (continuity_1d_2d_pt_comp exp (fun u v => - u ^ 2 * (1 + v ^ 2))).
    + apply derivable_continuous_pt. apply derivable_pt_exp.
    + apply (continuity_2d_pt_mult (fun u _ => - u ^ 2) (fun _ v => 1 + v ^ 2)).
      * apply (continuity_2d_pt_opp (fun u _ => u ^ 2)).
        apply (continuity_2d_pt_ext (fun u _ => u * u)); [intros; ring|].
        apply (continuity_2d_pt_mult (fun u _ => u) (fun u _ => u)); apply continuity_2d_pt_id1.
      * apply (continuity_2d_pt_plus (fun _ _ => 1) (fun _ v => v ^ 2)).
        -- apply continuity_2d_pt_const.
        -- apply (continuity_2d_pt_ext (fun _ v => v * v)); [intros; ring|].
           apply (continuity_2d_pt_mult (fun _ v => v) (fun _ v => v)); apply continuity_2d_pt_id2.
Qed.

Lemma uG_derive t : is_derive uG t (RInt (uk t) 0 1).
Proof.
  replace (RInt (uk t) 0 1) with (RInt (fun x => Derive (fun u => uh u x) t) 0 1).
  - apply (is_derive_RInt_param uh 0 1 t).
    + apply filter_forall. intros u x _. exists (uk u x). apply uh_derive_t.
    + intros x _. apply (continuity_2d_pt_ext uk); [|apply uk_continuity_2d].
      intros u v. symmetry. apply is_derive_unique. apply uh_derive_t.
    + apply filter_forall. intro u. apply (ex_RInt_continuous (uh u) 0 1).
      intros z _. apply uh_continuous_x.
  - apply RInt_ext. intros x _. apply is_derive_unique. apply uh_derive_t.
Qed.

(* int_0^1 uk t x dx = - 2 e^{-t^2} A(t)   (substitution u = t x) *)
Lemma uk_int t : RInt (uk t) 0 1 = - 2 * exp (- t ^ 2) * uA t.
Proof.
  assert (Heq : forall x : R, (- 2 * exp (- t ^ 2)) * (t * ug (t * x + 0)) = uk t x).
  { intro x. unfold uk, ug.
    replace (- t ^ 2 * (1 + x ^ 2)) with (- t ^ 2 + - (t * x + 0) ^ 2) by ring.
    rewrite exp_plus. ring. }
  apply is_RInt_unique.
  apply (is_RInt_ext (fun x => scal (- 2 * exp (- t ^ 2)) (scal t (ug (t * x + 0))))).
  - intros x _. rewrite !scal_R. apply Heq.
  - apply (is_RInt_scal (fun x => scal t (ug (t * x + 0))) 0 1 (- 2 * exp (- t ^ 2)) (uA t)).
    apply (is_RInt_comp_lin ug t 0 0 1 (uA t)).
    replace (t * 0 + 0) with 0 by ring. replace (t * 1 + 0) with t by ring.
    apply (RInt_correct ug 0 t). apply ug_ex.
Qed.

Definition uH (t : R) : R := uA t * uA t + uG t.

Lemma uH_derive t : is_derive uH t 0.
Proof.
  unfold uH.
  replace 0 with ((ug t * uA t + uA t * ug t) + RInt (uk t) 0 1)
    by (rewrite uk_int; unfold ug; ring).
  apply (is_derive_plus (fun t => uA t * uA t) uG t).
  - apply (is_derive_mult uA uA t (ug t) (ug t)); [apply uA_derive | apply uA_derive | exact Rmult_comm].
  - apply uG_derive.
Qed.

Lemma uH_0 : uH 0 = PI / 4.
Proof.
  assert (H00 : RInt ug 0 0 = 0) by exact (RInt_point 0 ug).
  assert (Heq : forall x : R, / (1 + x²) = uh 0 x).
  { intro x. unfold uh, Rsqr.
    replace (- 0 ^ 2 * (1 + x ^ 2)) with 0 by ring. rewrite exp_0.
    pose proof (one_plus_sq_pos x). field. lra. }
  unfold uH, uA, uG. rewrite H00.
  replace (RInt (uh 0) 0 1) with (atan 1 - atan 0).
  - rewrite atan_1, atan_0. ring.
  - symmetry. apply is_RInt_unique.
    apply (is_RInt_ext (fun x => / (1 + x²))).
    + intros x _. apply Heq.
    + apply (is_RInt_derive atan (fun x => / (1 + x²)) 0 1).
      * intros x _. apply is_derive_atan.
      * intros x _. apply (ex_derive_continuous (fun x => / (1 + x²)) x). unfold Rsqr. auto_derive.
        pose proof (one_plus_sq_pos x). lra.
Qed.

Lemma uH_const t : uH t = PI / 4.
Proof.
  rewrite <- uH_0.
  assert (Hi : is_RInt (fun _ : R => 0) 0 t (uH t - uH 0)).
  { apply (is_RInt_derive uH (fun _ => 0) 0 t).
    - intros x _. apply uH_derive.
    - intros x _. apply continuous_const. }
  pose proof (is_RInt_const 0 t (0 : R)) as Hc.
  pose proof (is_RInt_unique _ _ _ _ Hi) as E1. pose proof (is_RInt_unique _ _ _ _ Hc) as E2.
  rewrite E1, scal_R in E2. lra.
Qed.

Lemma uG_bound t : 0 <= uG t <= exp (- t ^ 2).
Proof.
  assert (Hex : ex_RInt (uh t) 0 1)
    by (apply (ex_RInt_continuous (uh t) 0 1); intros z _; apply uh_continuous_x).
  split.
  - apply (RInt_ge_0 (uh t) 0 1); [lra | exact Hex |]. intros x _. unfold uh.
    apply Rlt_le, Rdiv_lt_0_compat; [apply exp_pos | apply one_plus_sq_pos].
  - assert (Hc : RInt (fun _ : R => exp (- t ^ 2)) 0 1 = exp (- t ^ 2)) by (apply RInt_constR; ring).
    rewrite <- Hc.
    apply (RInt_le (uh t) (fun _ => exp (- t ^ 2)) 0 1); [lra | exact Hex | apply ex_RInt_const |].
    intros x _. unfold uh.
    pose proof (one_plus_sq_pos x) as Hx.
    assert (H1 : exp (- t ^ 2 * (1 + x ^ 2)) <= exp (- t ^ 2)).
    { apply exp_le_compat. assert (0 <= t ^ 2) by (cbn [pow]; nra).
      assert (0 <= x ^ 2) by (cbn [pow]; nra). nra. }
    pose proof (exp_pos (- t ^ 2 * (1 + x ^ 2))) as H2.
    apply Rle_trans with (exp (- t ^ 2 * (1 + x ^ 2)) / 1); [|lra].
    unfold Rdiv. apply Rmult_le_compat_l; [lra|]. apply Rinv_le_contravar; [lra|].
    assert (0 <= x ^ 2) by (cbn [pow]; nra). lra.
Qed.

Lemma ug_symmetric t : RInt ug (- t) t = 2 * uA t.
Proof.
  pose proof (RInt_correct ug 0 t (ug_ex 0 t)) as H0. fold (uA t) in H0.
  assert (Hneg : is_RInt ug (- t) 0 (uA t))
    by (apply even_RInt_neg; [intro x; unfold ug; f_equal; ring | exact H0]).
  rewrite (is_RInt_unique _ _ _ _ (is_RInt_Chasles ug (- t) 0 t _ _ Hneg H0)).
  change (uA t + uA t = 2 * uA t). ring.
Qed.

Lemma uA_sq t : (2 * uA t) * (2 * uA t) = PI - 4 * uG t.
Proof. pose proof (uH_const t) as H. unfold uH in H. lra. Qed.

Lemma two_uA_lim (J0 : R) : gint ug J0 ->
  filterlim (fun t => 2 * uA t) (Rbar_locally p_infty) (locally J0).
Proof.
  intros Hg P [eps HP]. destruct (proj1 (gint_spelled_out ug J0) Hg eps) as [M HM].
  exists (Rabs M). intros t Ht. apply HP. pose proof (Rle_abs M).
  destruct (HM (- t) t) as [y [Hy Hd]]; [lra | lra |].
  change (Rabs (2 * uA t - J0) < eps).
  rewrite <- ug_symmetric, (is_RInt_unique _ _ _ _ Hy). exact Hd.
Qed.

Lemma uA_sq_lim : filterlim (fun t => (2 * uA t) * (2 * uA t)) (Rbar_locally p_infty) (locally PI).
Proof.
  intros P [eps HP].
  assert (He : 0 < eps / 4) by (pose proof (cond_pos eps); lra).
  destruct (gw_lim_p 1 0 Rlt_0_1 (fun y => Rabs y < eps / 4)) as [M HM].
  { exists (mkposreal _ He). intros y Hy. change (Rabs (y - 0) < eps / 4) in Hy.
    now rewrite Rminus_0_r in Hy. }
  exists M. intros t Ht. apply HP.
  change (Rabs ((2 * uA t) * (2 * uA t) - PI) < eps). rewrite uA_sq.
  destruct (uG_bound t) as [G0 G1]. specialize (HM t Ht).
  assert (Hgw : gw 1 0 t = exp (- t ^ 2)).
  { rewrite gw_0. f_equal. ring. }
  rewrite Hgw in HM. rewrite Rabs_pos_eq in HM by (left; apply exp_pos).
  replace (PI - 4 * uG t - PI) with (- (4 * uG t)) by ring.
  rewrite Rabs_Ropp, Rabs_pos_eq by lra. lra.
Qed.

Theorem gaussian_integral_unit : gint (fun x => exp (- x ^ 2)) (sqrt PI).
Proof.
  destruct (gaussian_integral_exists 1 Rlt_0_1) as [J0 H1].
  pose proof (gaussian_integral_pos 1 Rlt_0_1 J0 H1) as Hpos.
  assert (Hg : gint ug J0).
  { apply (gint_ext (fun x => exp (- 1 * x ^ 2)) ug J0 J0);
      [intro x; unfold ug; f_equal; ring | reflexivity | exact H1]. }
  pose proof (two_uA_lim J0 Hg) as L1.
  assert (Hsq : J0 * J0 = PI).
  { apply (filterlim_locally_unique (F := Rbar_locally p_infty)
             (fun t => (2 * uA t) * (2 * uA t))); [|exact uA_sq_lim].
    exact (filterlim_comp_2 (F := Rbar_locally p_infty) (fun t => 2 * uA t) (fun t => 2 * uA t)
             Rmult L1 L1 (filterlim_mult J0 J0)). }
  apply (gint_ext ug _ J0 (sqrt PI)); [reflexivity | | exact Hg].
  symmetry. apply sqrt_lem_1; [left; apply PI_RGT_0 | lra | exact Hsq].
Qed.

Theorem gaussian_integral (p : R) : 0 < p -> gint (fun x => exp (- p * x ^ 2)) (sqrt (PI / p)).
Proof. intro Hp. apply gaussian_integral_from_unit; [exact Hp | exact gaussian_integral_unit]. Qed.

(* Bridge (B1) of DESIGN.md 2.6, with no hypothesis: for every p > 0, centre P and coefficient list f,
   the improper integral over R of f(x-P) e^{-p (x-P)^2} exists and equals sqrt(PI/p) * E f *)
Theorem bridge_B1_closed (p P : R) (f : list R) : 0 < p ->
  gint (fun x => peval f (x - P) * exp (- p * (x - P) ^ 2)) (sqrt (PI / p) * E RKd (vR p) f)
  /\ Gint (fun x => peval f (x - P) * exp (- p * (x - P) ^ 2)) / sqrt (PI / p) = E RKd (vR p) f.
Proof. intro Hp. apply bridge_B1; [exact Hp | exact gaussian_integral_unit]. Qed.

(* The one-dimensional factor of the overlap / multipole-moment integrals, as an honest integral:
     int_R (x-C)^k (x-A)^i (x-B)^j e^{-al (x-A)^2} e^{-be (x-B)^2} dx
       = e^{-mu (A-B)^2} sqrt(PI/p) * S3 0 k i j
   with p = al+be, P = (al A + be B)/p, mu = al be/p, and S3 of Gauss/Moment1D.v at v = 1/(2p),
   a = P-A, b = P-B, c = P-C — the quantity all separable-integral theorems (C01, C02, C07, C08) speak about. *)
Lemma peval_plin c f y : peval (plin RKd c f) y = (y + c) * peval f y.
Proof. unfold plin. rewrite peval_padd, peval_pscale, peval_pshift. ring. Qed.

Lemma peval_plin_pow c e f y : peval (plin_pow RKd c e f) y = (y + c) ^ e * peval f y.
Proof. induction e as [|e IH]; cbn [plin_pow pow]; [ring|]. rewrite peval_plin, IH. ring. Qed.

Lemma peval_g3 a b c k i j y :
  peval (g3 RKd a b c k i j) y = (y + c) ^ k * (y + a) ^ i * (y + b) ^ j.
Proof. unfold g3. rewrite !peval_plin_pow. cbn [peval f1 RKd]. ring. Qed.

Lemma g3_gauss_integral (q W A B C c : R) (k i j : nat) : 0 < q ->
  gint (fun x => c * ((x - C) ^ k * (x - A) ^ i * (x - B) ^ j * exp (- q * (x - W) ^ 2)))
       (c * (sqrt (PI / q) * S3 RKd (vR q) (W - A) (W - B) (W - C) 0 k i j)).
Proof.
  intro Hq. destruct (bridge_B1_closed q W (g3 RKd (W - A) (W - B) (W - C) k i j) Hq) as [H _].
  refine (gint_ext _ _ _ _ _ _ (gint_scal c _ _ H)).
  - intro x. rewrite peval_g3.
    replace (x - W + (W - C)) with (x - C) by ring.
    replace (x - W + (W - A)) with (x - A) by ring.
    replace (x - W + (W - B)) with (x - B) by ring.
    reflexivity.
  - reflexivity.
Qed.

Theorem overlap_1d_integral (al be A B C : R) (k i j : nat) : 0 < al -> 0 < be ->
  let p := al + be in let P := (al * A + be * B) / p in let mu := al * be / p in
  gint (fun x => (x - C) ^ k * (x - A) ^ i * (x - B) ^ j
                 * exp (- al * (x - A) ^ 2) * exp (- be * (x - B) ^ 2))
       (exp (- mu * (A - B) ^ 2) * sqrt (PI / p) * S3 RKd (vR p) (P - A) (P - B) (P - C) 0 k i j).
Proof.
  intros Hal Hbe p P mu. assert (Hp : 0 < p) by (unfold p; lra).
  refine (gint_ext _ _ _ _ _ _ (g3_gauss_integral p P A B C (exp (- mu * (A - B) ^ 2)) k i j Hp)).
  - intro x.
    assert (Hexp : exp (- al * (x - A) ^ 2) * exp (- be * (x - B) ^ 2)
                   = exp (- mu * (A - B) ^ 2) * exp (- p * (x - P) ^ 2)).
    { rewrite <- !exp_plus. f_equal. unfold mu, P, p. field. lra. }
    rewrite (Rmult_assoc _ (exp (- al * (x - A) ^ 2))), Hexp. ring.
  - ring.
Qed.
