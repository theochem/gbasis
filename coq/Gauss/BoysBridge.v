(* Gauss/BoysBridge.v — analytic bridge (B2) of DESIGN.md 2.4/2.6, narrowed: the Boys functional.

   The one-electron Coulomb models (point charge, nuclear attraction; Proofs/OneElecP.v) are specified
   as   Phi beta 0 (prim_poly ...)  :  the linear map  s^k |-> beta_k  applied to a polynomial in s whose
   value at every s is the product over the axes of exact Gaussian moments (prim_poly_eval), with
   beta_k = pref * F_k(T) the Boys values.  Here, with the HONEST Boys function
        Fboys m T := RInt (fun t => t^(2m) exp(-T t^2)) 0 1        (Coquelicot's Riemann integral)
   it is proved that
     Phi_boys        Phi (fun k => c * Fboys k T) m f = c * int_0^1 f(t^2) t^(2m) exp(-T t^2) dt
                     for every coefficient list f, every m, c, T  (no sign condition on T is needed)
     prim_val_is_t_integral
                     prim_val RKB ... (the spec of one primitive pair of OneElecP.v, at the reals with
                     fboys := Fboys) = (2 PI/p) exp(-mu |A-B|^2) *
                       int_0^1 [prod_axes S3(v (1-t^2); PA - t^2 PC, PB - t^2 PC; 0, a_i, b_i)] exp(-p |PC|^2 t^2) dt
   and the facts that make the Boys oracle meaningful:
     Fboys_0         F_m(0) = 1/(2m+1)
     Fboys_rec       (2m+1) F_m(T) = 2 T F_{m+1}(T) + exp(-T)      (integration by parts; every T)
     Fboys_pos, Fboys_le   0 < F_m(T),  F_m(T) <= 1/(2m+1) for T >= 0
     Fboys_decr      F_{m+1}(T) <= F_m(T)

   WHAT REMAINS TRUSTED FOR (B2) AFTER THIS FILE — one analytic identity, for Cartesian Gaussian
   primitives phi_a, phi_b (centres A, B, exponents al, be > 0, powers a, b), a point C,
   p = al+be, P = (al A + be B)/p, mu = al be/p, v = 1/(2p):
        int_{R^3} phi_a(r) phi_b(r) / |r - C| d^3r
          = (2 PI / p) exp(-mu |A-B|^2)
            * int_0^1 [prod_{i in x,y,z} S3 RK (v (1-t^2)) (P_i-A_i - t^2 (P_i-C_i)) (P_i-B_i - t^2 (P_i-C_i)) 0 0 0 a_i b_i]
                      * exp(-p |P-C|^2 t^2) dt
   i.e. (i) the Laplace representation 1/r = (2/sqrt PI) int_0^oo exp(-u^2 r^2) du, (ii) exchange of
   the u-integral with the integral over R^3, (iii) at fixed u the three one-dimensional Gaussian
   integrals — which ARE bridge (B1) (overlap_1d_integral with a third Gaussian factor, combined
   exponent p+u^2) — and (iv) the substitution t^2 = u^2/(p+u^2).  (i), (iii), (iv) and their composition
   are proved in Gauss/CoulombBridge.v; only the exchange (ii) remains trusted.  The right-hand side of
   that identity is exactly the right-hand side of [prim_val_is_t_integral].
   Assumptions: the classical real numbers of the standard library only. *)
From Coq Require Import Reals Lra Lia List.
From Coquelicot Require Import Coquelicot.
From GB Require Import Base.Field Gauss.Moment1D Gauss.SPoly Gauss.DerivBridge Gauss.BridgeR
  Model.Shell Proofs.ScreeningP Proofs.OneElecP.
Import ListNotations.
Open Scope R_scope.

Definition boys_fn (T : R) (m : nat) (t : R) : R := t ^ (2 * m) * exp (- T * t ^ 2).
Definition Fboys (m : nat) (T : R) : R := RInt (boys_fn T m) 0 1.

Lemma boys_fn_gw T m t : boys_fn T m t = gw T (2 * m) t.
Proof. reflexivity. Qed.

Lemma boys_fn_continuous T m t : continuous (boys_fn T m) t.
Proof. apply (gw_continuous T (2 * m) t). Qed.

Lemma boys_fn_ex T m a b : ex_RInt (boys_fn T m) a b.
Proof. apply (ex_RInt_continuous (boys_fn T m) a b). intros z _. apply boys_fn_continuous. Qed.

Lemma Fboys_correct m T : is_RInt (boys_fn T m) 0 1 (Fboys m T).
Proof. apply (RInt_correct (boys_fn T m) 0 1). apply boys_fn_ex. Qed.

(* linear combinations of Riemann integrals, in R notation *)
Lemma is_RInt_lin (f g : R -> R) (a b k lf lg : R) :
  is_RInt f a b lf -> is_RInt g a b lg -> is_RInt (fun x => k * f x + g x) a b (k * lf + lg).
Proof.
  intros Hf Hg.
  exact (is_RInt_plus (fun x => k * f x) g a b (k * lf) lg (is_RInt_scal f a b k lf Hf) Hg).
Qed.

Lemma RInt_extR (f g : R -> R) (a b : R) : (forall x : R, f x = g x) -> RInt f a b = RInt g a b.
Proof. intro H. apply RInt_ext. intros x _. apply H. Qed.

Lemma is_RInt_zero (a b : R) : is_RInt (fun _ : R => 0) a b 0.
Proof.
  refine (eq_rect _ (fun l : R => is_RInt (fun _ : R => 0) a b l) (is_RInt_const a b (0 : R)) 0 _).
  rewrite scal_R. ring.
Qed.

Lemma Phi_boys_is_RInt (T : R) (f : list R) : forall m,
  is_RInt (fun t => SPoly.peval RK f (t ^ 2) * t ^ (2 * m) * exp (- T * t ^ 2)) 0 1
          (Phi RK (fun k => Fboys k T) m f).
Proof.
  induction f as [|a f IH]; intro m.
  - cbn [Phi SPoly.peval f0 RK].
    apply (is_RInt_extR (fun _ : R => 0)); [intros t; ring | apply is_RInt_zero].
  - cbn [Phi SPoly.peval fadd fmul RK].
    apply (is_RInt_extR (fun t => a * boys_fn T m t
                                 + SPoly.peval RK f (t ^ 2) * t ^ (2 * S m) * exp (- T * t ^ 2))).
    + intros t. unfold boys_fn. replace (2 * S m)%nat with (S (S (2 * m))) by lia. cbn [pow]. ring.
    + apply (is_RInt_lin (boys_fn T m) _ 0 1 a); [apply Fboys_correct | apply (IH (S m))].
Qed.

Lemma Phi_scal (c : R) (beta : nat -> R) (f : list R) : forall m,
  Phi RK (fun k => c * beta k) m f = c * Phi RK beta m f.
Proof. exact (Lsum_wscale RK RK_field c beta f). Qed.

Theorem Phi_boys (c T : R) (m : nat) (f : list R) :
  Phi RK (fun k => c * Fboys k T) m f
  = c * RInt (fun t => SPoly.peval RK f (t ^ 2) * t ^ (2 * m) * exp (- T * t ^ 2)) 0 1.
Proof.
  rewrite Phi_scal. f_equal. symmetry. apply is_RInt_unique. apply Phi_boys_is_RInt.
Qed.

Theorem Fboys_0 (m : nat) : Fboys m 0 = / INR (2 * m + 1).
Proof.
  assert (Hn : INR (2 * m + 1) <> 0) by (apply not_0_INR; lia).
  apply is_RInt_unique.
  apply (is_RInt_extR (fun t => t ^ (2 * m))).
  - intros t. unfold boys_fn. replace (- 0 * t ^ 2) with 0 by ring. rewrite exp_0. ring.
  - replace (/ INR (2 * m + 1))
      with (minus (/ INR (2 * m + 1) * 1 ^ (2 * m + 1)) (/ INR (2 * m + 1) * 0 ^ (2 * m + 1))).
    + apply (is_RInt_derive (fun t => / INR (2 * m + 1) * t ^ (2 * m + 1)) (fun t => t ^ (2 * m)) 0 1).
      * intros x _.
        replace (x ^ (2 * m)) with (/ INR (2 * m + 1) * (INR (2 * m + 1) * x ^ (2 * m))) by (field; exact Hn).
        apply (is_derive_scal (fun t => t ^ (2 * m + 1)) x (/ INR (2 * m + 1))).
        replace (2 * m + 1)%nat with (S (2 * m)) by lia.
        apply (is_derive_pow_l (S (2 * m)) x).
      * intros x _. apply (ex_derive_continuous (fun t => t ^ (2 * m)) x).
        eexists. apply is_derive_pow_l.
    + unfold minus, plus, opp; cbn. rewrite pow1, pow_i by lia. ring.
Qed.

(* integration by parts: d/dt [t^(2m+1) e^{-T t^2}] = (2m+1) t^(2m) e^{-T t^2} - 2T t^(2m+2) e^{-T t^2} *)
Theorem Fboys_rec (m : nat) (T : R) :
  INR (2 * m + 1) * Fboys m T = 2 * T * Fboys (S m) T + exp (- T).
Proof.
  pose proof (is_RInt_derive (gw T (S (2 * m))) (dgw T (S (2 * m))) 0 1
                (fun x _ => gw_derive T (S (2 * m)) x) (fun x _ => dgw_continuous T (S (2 * m)) x)) as H1.
  assert (H2 : is_RInt (dgw T (S (2 * m))) 0 1 (INR (S (2 * m)) * Fboys m T + - (2 * T) * Fboys (S m) T)).
  { apply (is_RInt_extR (fun t => INR (S (2 * m)) * boys_fn T m t + - (2 * T) * boys_fn T (S m) t)).
    - intros t. rewrite dgw_gw. unfold boys_fn, gw.
      replace (2 * S m)%nat with (S (S (2 * m))) by lia. ring.
    - apply (is_RInt_lin (boys_fn T m) (fun t => - (2 * T) * boys_fn T (S m) t) 0 1); [apply Fboys_correct|].
      exact (is_RInt_scal (boys_fn T (S m)) 0 1 (- (2 * T)) _ (Fboys_correct (S m) T)). }
  pose proof (is_RInt_unique _ _ _ _ H1) as E1. pose proof (is_RInt_unique _ _ _ _ H2) as E2.
  assert (Hv : RInt (dgw T (S (2 * m))) 0 1 = exp (- T)).
  { rewrite E1. change (gw T (S (2 * m)) 1 + - gw T (S (2 * m)) 0 = exp (- T)).
    unfold gw. rewrite pow1, pow_i by lia.
    replace (- T * 1 ^ 2) with (- T) by ring. ring. }
  rewrite Hv in E2. replace (2 * m + 1)%nat with (S (2 * m)) by lia. lra.
Qed.

Theorem Fboys_pos (m : nat) (T : R) : 0 < Fboys m T.
Proof.
  (* on [1/2, 1] the integrand is >= (1/2)^(2m) e^{-|T|} > 0 *)
  set (c := (/ 2) ^ (2 * m) * exp (- Rabs T)).
  assert (Hc : 0 < c) by (unfold c; apply Rmult_lt_0_compat; [apply pow_lt; lra | apply exp_pos]).
  pose proof (RInt_Chasles (boys_fn T m) 0 (/ 2) 1 (boys_fn_ex _ _ _ _) (boys_fn_ex _ _ _ _)) as C.
  change (RInt (boys_fn T m) 0 (/ 2) + RInt (boys_fn T m) (/ 2) 1 = Fboys m T) in C.
  assert (P1 : 0 <= RInt (boys_fn T m) 0 (/ 2)).
  { apply RInt_ge_0; [lra | apply boys_fn_ex |]. intros x Hx. unfold boys_fn.
    apply Rmult_le_pos; [apply pow_le; lra | left; apply exp_pos]. }
  assert (P2 : c * / 2 <= RInt (boys_fn T m) (/ 2) 1).
  { replace (c * / 2) with (RInt (fun _ => c) (/ 2) 1).
    - apply RInt_le; [lra | apply ex_RInt_const | apply boys_fn_ex |].
      intros x Hx. unfold boys_fn, c.
      apply Rmult_le_compat; [apply pow_le; lra | left; apply exp_pos | apply pow_incr; lra |].
      apply exp_le_compat. pose proof (Rle_abs (- T)) as Ha. rewrite Rabs_Ropp in Ha.
      assert (0 <= x ^ 2 <= 1) by (cbn [pow]; nra). pose proof (Rabs_pos T).
      destruct (Rle_dec 0 T) as [HT|HT].
      + rewrite (Rabs_pos_eq T HT). nra.
      + rewrite (Rabs_left T) by lra. nra.
    - apply RInt_constR. field. }
  nra.
Qed.

Theorem Fboys_le (m : nat) (T : R) : 0 <= T -> Fboys m T <= / INR (2 * m + 1).
Proof.
  intro HT. rewrite <- Fboys_0. unfold Fboys.
  apply RInt_le; [lra | apply boys_fn_ex | apply boys_fn_ex |].
  intros x Hx. unfold boys_fn. apply Rmult_le_compat_l; [apply pow_le; lra|].
  apply exp_le_compat. assert (H2 : 0 <= x ^ 2) by apply pow2_ge_0.
  revert H2. generalize (x ^ 2). intros y Hy. pose proof (Rmult_le_pos T y HT Hy). lra.
Qed.

Theorem Fboys_decr (m : nat) (T : R) : Fboys (S m) T <= Fboys m T.
Proof.
  unfold Fboys. apply RInt_le; [lra | apply boys_fn_ex | apply boys_fn_ex |].
  intros x Hx. unfold boys_fn. apply Rmult_le_compat_r; [left; apply exp_pos|].
  replace (2 * S m)%nat with (S (S (2 * m))) by lia. cbn [pow].
  assert (Hw : 0 <= x ^ (2 * m)) by (apply pow_le; lra).
  assert (Hxx : 0 <= 1 - x * x) by nra.
  pose proof (Rmult_le_pos _ _ Hxx Hw). lra.
Qed.

(* the number interface at R with the honest Boys function in the oracle slot *)
Definition RKB : Fops R :=
  mkFops R 0 1 Rplus Rmult Rminus Ropp Rdiv Rinv Rleb Reqb PI sqrt exp ln Fboys (fun x => x).

Lemma RKB_field : is_field RKB.
Proof. exact RealField.Rfield. Qed.

Lemma Phi_RKB beta m f : Phi RKB beta m f = Phi RK beta m f.
Proof. reflexivity. Qed.
Lemma peval_RKB f s : SPoly.peval RKB f s = SPoly.peval RK f s.
Proof. reflexivity. Qed.

(* the spec of one primitive pair of the one-electron Coulomb models (Proofs/OneElecP.v: prim_val,
   the summand of one_elec_spec), at the reals with the honest Boys function, IS the t-integral *)
Theorem prim_val_is_t_integral (Cx Cy Cz Ax Ay Az Bx By Bz al be : R) (ca cb : Shell.comp) :
  let p := al + be in
  let Px := (al * Ax + be * Bx) / p in let Py := (al * Ay + be * By) / p in
  let Pz := (al * Az + be * Bz) / p in
  let mu := al * be / p in
  let ab2 := (Ax - Bx) * (Ax - Bx) + (Ay - By) * (Ay - By) + (Az - Bz) * (Az - Bz) in
  let pc2 := (Px - Cx) * (Px - Cx) + (Py - Cy) * (Py - Cy) + (Pz - Cz) * (Pz - Cz) in
  let v := 1 / ((1 + 1) * p) in
  prim_val RKB Cx Cy Cz Ax Ay Az Bx By Bz al be ca cb
  = (1 + 1) * PI / p * exp (- (mu * ab2))
    * RInt (fun t =>
              S3 RKB (v * (1 - t ^ 2)) (Px - Ax - t ^ 2 * (Px - Cx)) (Px - Bx - t ^ 2 * (Px - Cx)) 0 0 0
                 (fst (fst ca)) (fst (fst cb))
              * S3 RKB (v * (1 - t ^ 2)) (Py - Ay - t ^ 2 * (Py - Cy)) (Py - By - t ^ 2 * (Py - Cy)) 0 0 0
                   (snd (fst ca)) (snd (fst cb))
              * S3 RKB (v * (1 - t ^ 2)) (Pz - Az - t ^ 2 * (Pz - Cz)) (Pz - Bz - t ^ 2 * (Pz - Cz)) 0 0 0
                   (snd ca) (snd cb)
              * exp (- (p * pc2) * t ^ 2)) 0 1.
Proof.
  cbv zeta. unfold prim_val.
  set (f := prim_poly RKB Cx Cy Cz Ax Ay Az Bx By Bz al be ca cb).
  etransitivity; [exact (Phi_boys _ _ 0 f)|]. cbv zeta.
  f_equal. apply RInt_extR. intro t.
  rewrite <- peval_RKB. unfold f.
  rewrite (prim_poly_eval RKB RKB_field Cx Cy Cz Ax Ay Az Bx By Bz al be ca cb (t ^ 2)).
  cbv zeta. cbn [fmul fadd fsub fdiv f1 f0 RKB].
  change (2 * 0)%nat with 0%nat. ring.
Qed.

(* sanity: the integrand of the trusted identity at t = 0 is the overlap moment, at t = 1 the
   variance vanishes — visible on the s-s case, where the integral is the Boys function itself *)
Example prim_val_ss (Cx Cy Cz Ax Ay Az Bx By Bz al be : R) :
  let p := al + be in
  let Px := (al * Ax + be * Bx) / p in let Py := (al * Ay + be * By) / p in
  let Pz := (al * Az + be * Bz) / p in
  let mu := al * be / p in
  let ab2 := (Ax - Bx) * (Ax - Bx) + (Ay - By) * (Ay - By) + (Az - Bz) * (Az - Bz) in
  let pc2 := (Px - Cx) * (Px - Cx) + (Py - Cy) * (Py - Cy) + (Pz - Cz) * (Pz - Cz) in
  prim_val RKB Cx Cy Cz Ax Ay Az Bx By Bz al be (0, 0, 0)%nat (0, 0, 0)%nat
  = (1 + 1) * PI / p * exp (- (mu * ab2)) * Fboys 0 (p * pc2).
Proof.
  cbv zeta. rewrite prim_val_is_t_integral. cbv zeta. f_equal.
  apply RInt_extR. intro t. cbn [fst snd]. rewrite !(S3_000 RKB RKB_field).
  unfold boys_fn. change (f1 RKB) with 1. change (2 * 0)%nat with 0%nat. ring.
Qed.
