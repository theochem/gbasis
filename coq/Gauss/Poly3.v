(* Gauss/Poly3.v — polynomials in three variables, the ISOTROPIC three-dimensional Gaussian moment
   functional, and its invariance under every orthogonal linear substitution.  Any field (in fact any
   commutative ring: no division occurs in this file), no analysis, no axioms.

   y = r - P.  A polynomial in (y_x, y_y, y_z) is a MONOMIAL LIST  [(exponent triple, coefficient); ...];
   repeated monomials, zero coefficients and any order are allowed.  No setoid: every fact about
   polynomials is stated "seen through" the family of all linear functionals
        Jsum J f = sum over the entries (m, c) of f of  c * J m            (J : mon -> F arbitrary)
   ([peq f g] := forall J, Jsum J f = Jsum J g); every operator used here has an ADJOINT on J
   ([Jsum J (op f) = Jsum (opT J) f]), which makes congruence automatic.

     E3 v f      = Jsum (fun (a,b,c) => m_a m_b m_c) f        m_n the 1-D Gaussian moments of Moment1D.v with
                   the SAME variance v along the three axes (v = 1/(2p)); on a product of three one-variable
                   polynomials it is the product of the three 1-D functionals E ([factors_smono]).
     mulv i f    = y_i * f            dv i f = d f / d y_i           plin3 i c f = (y_i + c) f
     mullin l f  = (l_x y_x + l_y y_y + l_z y_z) f                   mulaff l c f = (l.y + c) f
     subst R f   = f o R : y_i is replaced by sum_j R i j * y_j      (on a monomial: multiplied out)

   Invariance under orthogonal substitution ([E3_subst_orth]) comes from uniqueness: f |-> E3 (f o R) is linear and
   obeys Stein's rule  I (y_i f) = v I (d_i f), and these determine a functional up to its value at 1
   ([gauss3_uniqueness], the 3-D version of Bridge.bridge_uniqueness).  The second half of the file applies this to
   products of shifted monomials under a rotation of the centres (used by Proofs/RotationP.v) and to the second-order
   operators of the kinetic-energy integrals. *)
From Coq Require Import List Arith Lia Field.
From GB Require Import Base.Field Base.FNum Gauss.Moment1D.
Import ListNotations.

Inductive axis : Set := AX | AY | AZ.
Definition mon := (nat * nat * nat)%type.

Definition expo (i : axis) (m : mon) : nat :=
  match i with AX => fst (fst m) | AY => snd (fst m) | AZ => snd m end.
Definition bump (i : axis) (m : mon) : mon :=
  match i with
  | AX => (S (fst (fst m)), snd (fst m), snd m)
  | AY => (fst (fst m), S (snd (fst m)), snd m)
  | AZ => (fst (fst m), snd (fst m), S (snd m))
  end.
Definition mlower (i : axis) (m : mon) : mon :=
  match i with
  | AX => (Nat.pred (fst (fst m)), snd (fst m), snd m)
  | AY => (fst (fst m), Nat.pred (snd (fst m)), snd m)
  | AZ => (fst (fst m), snd (fst m), Nat.pred (snd m))
  end.
Definition axis_eqb (i j : axis) : bool :=
  match i, j with AX, AX | AY, AY | AZ, AZ => true | _, _ => false end.

Section Poly3.
Context {F : Type} (K : Fops F) (Kf : is_field K).
Add Field KFp3 : Kf.
Local Open Scope F_scope.
Notation "0" := (f0 K) : F_scope.
Notation "1" := (f1 K) : F_scope.
Infix "+" := (fadd K) : F_scope.
Infix "*" := (fmul K) : F_scope.
Infix "-" := (fsub K) : F_scope.
Notation "- x" := (fopp K x) : F_scope.
Notation "# n" := (ofnat K n) (at level 5) : F_scope.

Definition poly3 := list (mon * F).
Definition mono3 (m : mon) : poly3 := [(m, 1)].
Definition one3 : poly3 := mono3 (0, 0, 0)%nat.

Fixpoint Jsum (J : mon -> F) (f : poly3) : F :=
  match f with [] => 0 | mc :: f' => snd mc * J (fst mc) + Jsum J f' end.

Definition peq (f g : poly3) : Prop := forall J, Jsum J f = Jsum J g.

Definition sum3 (g : axis -> F) : F := g AX + g AY + g AZ.
Definition delta3 (i j : axis) : F := if axis_eqb i j then 1 else 0.

Definition pscale3 (c : F) (f : poly3) : poly3 := map (fun mc => (fst mc, c * snd mc)) f.
Definition mulv (i : axis) (f : poly3) : poly3 := map (fun mc => (bump i (fst mc), snd mc)) f.
Definition dv (i : axis) (f : poly3) : poly3 :=
  map (fun mc => (mlower i (fst mc), #(expo i (fst mc)) * snd mc)) f.
Definition mullin (l : axis -> F) (f : poly3) : poly3 :=
  pscale3 (l AX) (mulv AX f) ++ pscale3 (l AY) (mulv AY f) ++ pscale3 (l AZ) (mulv AZ f).
Definition mulaff (l : axis -> F) (c : F) (f : poly3) : poly3 := pscale3 c f ++ mullin l f.
Definition plin3 (i : axis) (c : F) (f : poly3) : poly3 := pscale3 c f ++ mulv i f.
Fixpoint powop (op : poly3 -> poly3) (n : nat) (f : poly3) : poly3 :=
  match n with O => f | S k => op (powop op k f) end.
(* the linear extension of an operator given on monomials *)
Definition lift (T : mon -> poly3) (f : poly3) : poly3 :=
  flat_map (fun mc => pscale3 (snd mc) (T (fst mc))) f.

Lemma peq_refl f : peq f f. Proof. intro J. reflexivity. Qed.
Lemma peq_sym f g : peq f g -> peq g f. Proof. intros H J. symmetry. apply H. Qed.
Lemma peq_trans f g h : peq f g -> peq g h -> peq f h.
Proof. intros H1 H2 J. rewrite H1. apply H2. Qed.

Lemma Jsum_ext J J' : (forall m, J m = J' m) -> forall f, Jsum J f = Jsum J' f.
Proof. intros H f. induction f as [|mc f IH]; cbn [Jsum]; [reflexivity|]. now rewrite H, IH. Qed.
Lemma Jsum_app J f g : Jsum J (f ++ g) = Jsum J f + Jsum J g.
Proof. induction f as [|mc f IH]; cbn [app Jsum]; [ring|]. rewrite IH. ring. Qed.
Lemma Jsum_pscale3 J c f : Jsum J (pscale3 c f) = c * Jsum J f.
Proof. induction f as [|mc f IH]; cbn [pscale3 map Jsum fst snd]; [ring|].
  fold (pscale3 c f). rewrite IH. ring. Qed.
Lemma Jsum_Jadd J J' f : Jsum (fun m => J m + J' m) f = Jsum J f + Jsum J' f.
Proof. induction f as [|mc f IH]; cbn [Jsum]; [ring|]. rewrite IH. ring. Qed.
Lemma Jsum_Jscale c J f : Jsum (fun m => c * J m) f = c * Jsum J f.
Proof. induction f as [|mc f IH]; cbn [Jsum]; [ring|]. rewrite IH. ring. Qed.
Lemma Jsum_J0 f : Jsum (fun _ => 0) f = 0.
Proof. induction f as [|mc f IH]; cbn [Jsum]; [ring|]. rewrite IH. ring. Qed.

Lemma sum3_ext g h : (forall i, g i = h i) -> sum3 g = sum3 h.
Proof. intro H. unfold sum3. now rewrite !H. Qed.
Lemma sum3_delta i X : sum3 (fun k => delta3 i k * X k) = X i.
Proof. unfold sum3, delta3. destruct i; cbn [axis_eqb]; ring. Qed.

Definition mulvT (i : axis) (J : mon -> F) : mon -> F := fun m => J (bump i m).
Definition dvT (i : axis) (J : mon -> F) : mon -> F := fun m => #(expo i m) * J (mlower i m).
Definition mullinT (l : axis -> F) (J : mon -> F) : mon -> F :=
  fun m => l AX * J (bump AX m) + l AY * J (bump AY m) + l AZ * J (bump AZ m).
Definition affT (l : axis -> F) (c : F) (J : mon -> F) : mon -> F := fun m => c * J m + mullinT l J m.
Definition plin3T (i : axis) (c : F) (J : mon -> F) : mon -> F := fun m => c * J m + J (bump i m).
Definition liftT (T : mon -> poly3) (J : mon -> F) : mon -> F := fun m => Jsum J (T m).
Fixpoint powT (opT : (mon -> F) -> (mon -> F)) (n : nat) (J : mon -> F) : mon -> F :=
  match n with O => J | S k => powT opT k (opT J) end.

Definition adjoint (op : poly3 -> poly3) (opT : (mon -> F) -> (mon -> F)) : Prop :=
  forall J f, Jsum J (op f) = Jsum (opT J) f.

Lemma Jsum_mulv i : adjoint (mulv i) (mulvT i).
Proof. intros J f. induction f as [|mc f IH]; cbn [mulv map Jsum fst snd]; [reflexivity|].
  fold (mulv i f). rewrite IH. reflexivity. Qed.
Lemma Jsum_dv i : adjoint (dv i) (dvT i).
Proof. intros J f. induction f as [|mc f IH]; cbn [dv map Jsum fst snd]; [reflexivity|].
  fold (dv i f). rewrite IH. unfold dvT. ring. Qed.
Lemma Jsum_mullin l : adjoint (mullin l) (mullinT l).
Proof.
  intros J f. unfold mullin. rewrite !Jsum_app, !Jsum_pscale3, !Jsum_mulv.
  induction f as [|mc f IH]; cbn [Jsum]; [ring|].
  rewrite <- IH. unfold mullinT, mulvT. ring.
Qed.
Lemma Jsum_mulaff l c : adjoint (mulaff l c) (affT l c).
Proof.
  intros J f. unfold mulaff. rewrite Jsum_app, Jsum_pscale3, Jsum_mullin.
  unfold affT. rewrite Jsum_Jadd, Jsum_Jscale. reflexivity.
Qed.
Lemma Jsum_plin3 i c : adjoint (plin3 i c) (plin3T i c).
Proof.
  intros J f. unfold plin3. rewrite Jsum_app, Jsum_pscale3, Jsum_mulv.
  unfold plin3T. rewrite Jsum_Jadd, Jsum_Jscale. reflexivity.
Qed.
Lemma Jsum_lift T : adjoint (lift T) (liftT T).
Proof. intros J f. induction f as [|mc f IH]; cbn [lift flat_map Jsum]; [reflexivity|].
  fold (lift T f). rewrite Jsum_app, Jsum_pscale3, IH. reflexivity. Qed.
Lemma Jsum_powop op opT : adjoint op opT -> forall n, adjoint (powop op n) (powT opT n).
Proof. intros H n. induction n as [|n IH]; intros J f; cbn [powop powT]; [reflexivity|].
  rewrite H. apply IH. Qed.

Lemma adjoint_cong op opT : adjoint op opT -> forall f g, peq f g -> peq (op f) (op g).
Proof. intros H f g Hfg J. rewrite !H. apply Hfg. Qed.
Lemma adjoint_zero op opT : adjoint op opT ->
  forall f, (forall J, Jsum J f = 0) -> forall J, Jsum J (op f) = 0.
Proof. intros A f H J. rewrite A. apply H. Qed.
Lemma Jsum_monomials op opT : adjoint op opT ->
  forall J f, Jsum J (op f) = Jsum (fun b => Jsum J (op (mono3 b))) f.
Proof.
  intros A J f. rewrite A. apply Jsum_ext. intro b. rewrite A. unfold mono3. cbn [Jsum fst snd]. ring.
Qed.
Lemma adjoint_id : adjoint (fun f => f) (fun J => J).
Proof. intros J f. reflexivity. Qed.
Lemma adjoint_app2 op1 opT1 op2 opT2 : adjoint op1 opT1 -> adjoint op2 opT2 ->
  adjoint (fun f => op1 f ++ op2 f) (fun J m => opT1 J m + opT2 J m).
Proof. intros A1 A2 J f. now rewrite Jsum_app, A1, A2, Jsum_Jadd. Qed.
Lemma adjoint_scale c op opT : adjoint op opT ->
  adjoint (fun f => pscale3 c (op f)) (fun J m => c * opT J m).
Proof. intros A J f. now rewrite Jsum_pscale3, A, Jsum_Jscale. Qed.
Lemma adjoint_comp op1 opT1 op2 opT2 : adjoint op1 opT1 -> adjoint op2 opT2 ->
  adjoint (fun f => op1 (op2 f)) (fun J => opT2 (opT1 J)).
Proof. intros A1 A2 J f. now rewrite A1, A2. Qed.
Lemma powop_S_comm op n f : powop op n (op f) = op (powop op n f).
Proof. induction n as [|n IH]; cbn [powop]; [reflexivity|]. now rewrite IH. Qed.

Lemma lift_app T f g : lift T (f ++ g) = lift T f ++ lift T g.
Proof. unfold lift. apply flat_map_app. Qed.

Lemma mulaff_comm l c l' c' f : peq (mulaff l c (mulaff l' c' f)) (mulaff l' c' (mulaff l c f)).
Proof.
  intro J. rewrite !Jsum_mulaff. apply Jsum_ext. intros [[a b] d].
  unfold affT, mullinT. cbn [bump fst snd]. ring.
Qed.
Lemma mullin_is_mulaff l f : peq (mullin l f) (mulaff l 0 f).
Proof. intro J. rewrite Jsum_mulaff, Jsum_mullin. apply Jsum_ext. intro m. unfold affT. ring. Qed.
Lemma plin3_is_mulaff i c f : peq (plin3 i c f) (mulaff (delta3 i) c f).
Proof.
  intro J. rewrite Jsum_mulaff, Jsum_plin3. apply Jsum_ext. intro m.
  unfold affT, plin3T, mullinT, delta3. destruct i; cbn [axis_eqb]; ring.
Qed.
Lemma mulv_is_mullin i f : peq (mulv i f) (mullin (delta3 i) f).
Proof.
  intro J. rewrite Jsum_mulv, Jsum_mullin. apply Jsum_ext. intro m.
  unfold mulvT, mullinT, delta3. destruct i; cbn [axis_eqb]; ring.
Qed.

Lemma powop_comm op opT op' opT' : adjoint op opT -> adjoint op' opT' ->
  (forall f, peq (op (op' f)) (op' (op f))) ->
  forall n f, peq (powop op n (op' f)) (op' (powop op n f)).
Proof.
  intros A A' C n. induction n as [|n IH]; intro f; cbn [powop]; [apply peq_refl|].
  eapply peq_trans; [apply (adjoint_cong op opT A), IH|]. apply C.
Qed.

(* prod_i (op i)^(m_i) g: the shape of [subst_mon], [smono] and [affpow] below *)
Definition pow3 (op : axis -> poly3 -> poly3) (m : mon) (g : poly3) : poly3 :=
  powop (op AX) (expo AX m) (powop (op AY) (expo AY m) (powop (op AZ) (expo AZ m) g)).
Definition pow3T (opT : axis -> (mon -> F) -> mon -> F) (m : mon) (J : mon -> F) : mon -> F :=
  powT (opT AZ) (expo AZ m) (powT (opT AY) (expo AY m) (powT (opT AX) (expo AX m) J)).

Lemma pow3_adjoint op opT : (forall i, adjoint (op i) (opT i)) -> forall m, adjoint (pow3 op m) (pow3T opT m).
Proof.
  intros A m J g. unfold pow3.
  rewrite (Jsum_powop _ _ (A AX)), (Jsum_powop _ _ (A AY)), (Jsum_powop _ _ (A AZ)). reflexivity.
Qed.

Lemma pow3_bump op opT : (forall i, adjoint (op i) (opT i)) ->
  (forall i j f, peq (op i (op j f)) (op j (op i f))) ->
  forall i m g, peq (pow3 op (bump i m) g) (op i (pow3 op m g)).
Proof.
  intros A C i [[a b] c] g. unfold pow3. destruct i; cbn [bump expo fst snd powop].
  - apply peq_refl.
  - apply (powop_comm _ _ _ _ (A AX) (A AY)). intro f. apply C.
  - eapply peq_trans.
    + apply (adjoint_cong _ _ (Jsum_powop _ _ (A AX) a)).
      apply (powop_comm _ _ _ _ (A AY) (A AZ)). intro f. apply C.
    + apply (powop_comm _ _ _ _ (A AX) (A AZ)). intro f. apply C.
Qed.

(* a relation that every factor carries along is carried along by the product *)
Lemma pow3_map (Rel : poly3 -> poly3 -> Prop) op op' :
  (forall i f f', Rel f f' -> Rel (op i f) (op' i f')) ->
  forall m f f', Rel f f' -> Rel (pow3 op m f) (pow3 op' m f').
Proof.
  intros S m f f' H.
  assert (P : forall i n g g', Rel g g' -> Rel (powop (op i) n g) (powop (op' i) n g')).
  { intros i n g g' Hg. induction n as [|n IH]; cbn [powop]; [exact Hg|]. apply S, IH. }
  unfold pow3. apply P, P, P, H.
Qed.

Variable v : F.
Notation mom := (mom K v).

Definition M3 (m : mon) : F := mom (fst (fst m)) * mom (snd (fst m)) * mom (snd m).
Definition M3n (n m : mon) : F :=
  mom (fst (fst n) + fst (fst m)) * mom (snd (fst n) + snd (fst m)) * mom (snd n + snd m).
Definition E3 (f : poly3) : F := Jsum M3 f.
Definition E3aux (n : mon) (f : poly3) : F := Jsum (M3n n) f.

Lemma E3_is_E3aux f : E3 f = E3aux (0, 0, 0)%nat f.
Proof. reflexivity. Qed.
Lemma E3_one : E3 one3 = 1.
Proof. unfold E3, one3, mono3, M3. cbn [Jsum fst snd]. rewrite (mom_0 K). ring. Qed.
Lemma E3_app f g : E3 (f ++ g) = E3 f + E3 g.
Proof. apply Jsum_app. Qed.
Lemma E3_pscale3 c f : E3 (pscale3 c f) = c * E3 f.
Proof. apply Jsum_pscale3. Qed.
Lemma E3_peq f g : peq f g -> E3 f = E3 g.
Proof. intro H. apply H. Qed.

Lemma mom_S_pred a : mom (S a) = v * (#a * mom (Nat.pred a)).
Proof. destruct a as [|a]; cbn [Nat.pred].
  - rewrite (mom_1 K). cbn [ofnat]. ring.
  - rewrite (mom_SS K). ring. Qed.

Lemma M3_rule i m : M3 (bump i m) = v * (#(expo i m) * M3 (mlower i m)).
Proof.
  destruct m as [[a b] c]. unfold M3. destruct i; cbn [bump mlower expo fst snd]; rewrite mom_S_pred; ring.
Qed.

Theorem stein3 i f : E3 (mulv i f) = v * E3 (dv i f).
Proof. unfold E3. rewrite Jsum_mulv, Jsum_dv, <- Jsum_Jscale. apply Jsum_ext. exact (M3_rule i). Qed.

(* the moment sequence is the only solution of the three Stein recurrences *)
Definition stein_laws (c0 : F) (J : mon -> F) : Prop :=
  J (0, 0, 0)%nat = c0 /\ forall i m, J (bump i m) = v * (#(expo i m) * J (mlower i m)).

Lemma M3_stein_laws c0 : stein_laws c0 (fun m => c0 * M3 m).
Proof.
  split.
  - unfold M3. cbn [fst snd]. rewrite (mom_0 K). ring.
  - intros i m. rewrite M3_rule. ring.
Qed.

Lemma mom_unique_pred (N : nat -> F) :
  (forall n, N (S n) = v * (#n * N (Nat.pred n))) -> forall n, N n = N 0%nat * mom n.
Proof.
  intro H. apply (mom_unique K Kf); [|intro n]; rewrite H; cbn [Nat.pred ofnat]; ring.
Qed.

Theorem moments3_unique (J : mon -> F) c0 : stein_laws c0 J -> forall m, J m = c0 * M3 m.
Proof.
  intros [H0 H] [[a b] c].
  pose proof (mom_unique_pred (fun a => J (a, b, c)) (fun n => H AX (n, b, c)) a) as EX.
  pose proof (mom_unique_pred (fun b => J (0, b, c)%nat) (fun n => H AY (0, n, c)%nat) b) as EY.
  pose proof (mom_unique_pred (fun c => J (0, 0, c)%nat) (fun n => H AZ (0, 0, n)%nat) c) as EZ.
  cbv beta in EX, EY, EZ. rewrite EX, EY, EZ, H0. unfold M3. cbn [fst snd]. ring.
Qed.

Definition plinear3 (I : poly3 -> F) : Prop :=
  (forall f g, I (f ++ g) = I f + I g) /\ (forall c f, I (pscale3 c f) = c * I f).

Lemma linear_determined3 (I : poly3 -> F) : plinear3 I ->
  forall f, I f = Jsum (fun m => I (mono3 m)) f.
Proof.
  intros [Hadd Hsc]. induction f as [|[m c] f IH].
  - cbn [Jsum]. pose proof (Hsc 0 []) as E. cbn [pscale3 map] in E.
    transitivity (0 * I []); [exact E|ring].
  - change ((m, c) :: f) with ([(m, c)] ++ f). rewrite Hadd, IH. cbn [Jsum app fst snd]. f_equal.
    replace [(m, c)] with (pscale3 c (mono3 m)); [apply Hsc|].
    unfold mono3. cbn [pscale3 map fst snd]. do 2 f_equal. ring.
Qed.

Definition stein_on_monomials (I : poly3 -> F) : Prop :=
  forall i m, I (mulv i (mono3 m)) = v * I (dv i (mono3 m)).
Definition stein_everywhere (I : poly3 -> F) : Prop :=
  forall i f, I (mulv i f) = v * I (dv i f).

Theorem gauss3_uniqueness (I : poly3 -> F) :
  plinear3 I -> stein_on_monomials I -> forall f, I f = I one3 * E3 f.
Proof.
  intros HL HS f. rewrite (linear_determined3 I HL). unfold E3.
  rewrite <- Jsum_Jscale. apply Jsum_ext. apply moments3_unique. split; [reflexivity|].
  intros i m. pose proof (HS i m) as E.
  change (mulv i (mono3 m)) with (mono3 (bump i m)) in E.
  change (dv i (mono3 m)) with (pscale3 #(expo i m) (mono3 (mlower i m))) in E.
  destruct HL as [_ Hsc]. rewrite Hsc in E. exact E.
Qed.

Corollary gauss3_uniqueness_all (I : poly3 -> F) :
  plinear3 I -> stein_everywhere I -> forall f, I f = I one3 * E3 f.
Proof. intros HL HS. apply gauss3_uniqueness; [exact HL|]. intros i m. apply HS. Qed.

Lemma E3_plinear3 : plinear3 E3.
Proof. split; [apply E3_app | apply E3_pscale3]. Qed.
Lemma E3_stein_everywhere : stein_everywhere E3.
Proof. intros i f. apply stein3. Qed.

Definition mat := axis -> axis -> F.
Definition dot (l c : axis -> F) : F := sum3 (fun j => l j * c j).

Definition subst_mon (R : mat) (m : mon) : poly3 :=
  powop (mullin (R AX)) (expo AX m) (powop (mullin (R AY)) (expo AY m)
    (powop (mullin (R AZ)) (expo AZ m) one3)).
Definition subst (R : mat) (f : poly3) : poly3 := lift (subst_mon R) f.

Lemma subst_app R f g : subst R (f ++ g) = subst R f ++ subst R g.
Proof. apply lift_app. Qed.
Lemma subst_pscale3 R c f : peq (subst R (pscale3 c f)) (pscale3 c (subst R f)).
Proof. intro J. unfold subst. rewrite Jsum_lift, !Jsum_pscale3, Jsum_lift. reflexivity. Qed.
Lemma subst_one3 R : peq (subst R one3) one3.
Proof. intro J. unfold subst, one3, mono3, lift, subst_mon. cbn [flat_map expo fst snd powop].
  rewrite Jsum_app, Jsum_pscale3. unfold one3, mono3. cbn [Jsum fst snd]. ring. Qed.
Lemma subst_cong R f g : peq f g -> peq (subst R f) (subst R g).
Proof. apply (adjoint_cong _ _ (Jsum_lift (subst_mon R))). Qed.

Lemma mullin_comm l l' f : peq (mullin l (mullin l' f)) (mullin l' (mullin l f)).
Proof. intro J. rewrite !Jsum_mullin. apply Jsum_ext. intros [[a b] d].
  unfold mullinT. cbn [bump fst snd]. ring. Qed.

Lemma subst_mon_bump R i m : peq (subst_mon R (bump i m)) (mullin (R i) (subst_mon R m)).
Proof.
  apply (pow3_bump (fun i => mullin (R i)) _ (fun i => Jsum_mullin (R i))). intros j k f. apply mullin_comm.
Qed.

Theorem subst_mulv R i f : peq (subst R (mulv i f)) (mullin (R i) (subst R f)).
Proof.
  intro J. unfold subst. rewrite Jsum_lift, Jsum_mulv, Jsum_mullin, Jsum_lift.
  apply Jsum_ext. intro m. unfold mulvT, liftT. rewrite subst_mon_bump, Jsum_mullin. reflexivity.
Qed.

Lemma Jsum_plin3_exp J i c f : Jsum J (plin3 i c f) = c * Jsum J f + Jsum J (mulv i f).
Proof. unfold plin3. now rewrite Jsum_app, Jsum_pscale3. Qed.
Lemma Jsum_mullin_exp J l f :
  Jsum J (mullin l f) = l AX * Jsum J (mulv AX f) + l AY * Jsum J (mulv AY f) + l AZ * Jsum J (mulv AZ f).
Proof. unfold mullin. rewrite !Jsum_app, !Jsum_pscale3. ring. Qed.
Lemma Jsum_mulaff_exp J l c f : Jsum J (mulaff l c f) = c * Jsum J f + Jsum J (mullin l f).
Proof. unfold mulaff. now rewrite Jsum_app, Jsum_pscale3. Qed.

Theorem subst_plin3 R i c f : peq (subst R (plin3 i c f)) (mulaff (R i) c (subst R f)).
Proof.
  intro J. unfold plin3. rewrite subst_app, Jsum_app, subst_pscale3, Jsum_pscale3, subst_mulv.
  rewrite Jsum_mulaff_exp. reflexivity.
Qed.

Lemma dv_mullin k l f J : Jsum J (dv k (mullin l f)) = l k * Jsum J f + Jsum J (mullin l (dv k f)).
Proof.
  rewrite Jsum_dv, !Jsum_mullin, Jsum_dv. rewrite <- Jsum_Jscale, <- Jsum_Jadd.
  apply Jsum_ext. intros [[a b] c]. unfold dvT, mullinT.
  destruct k; cbn [bump mlower expo fst snd Nat.pred]; [destruct a | destruct b | destruct c];
    cbn [Nat.pred ofnat]; ring.
Qed.

Lemma dv_powop_mullin k l n f J :
  Jsum J (dv k (powop (mullin l) n f))
  = #n * l k * Jsum J (powop (mullin l) (Nat.pred n) f) + Jsum J (powop (mullin l) n (dv k f)).
Proof.
  revert J. induction n as [|n IH]; intro J; cbn [powop Nat.pred].
  - cbn [ofnat]. ring.
  - rewrite dv_mullin, Jsum_mullin, IH, <- !Jsum_mullin.
    destruct n as [|n]; cbn [powop Nat.pred ofnat]; ring.
Qed.

Lemma dv_one3 k J : Jsum J (dv k one3) = 0.
Proof. unfold one3, mono3. destruct k; cbn [dv map Jsum expo fst snd ofnat]; ring. Qed.

Lemma dv_pow3 (R : mat) k m g J :
  Jsum J (dv k (pow3 (fun i => mullin (R i)) m g))
  = sum3 (fun i => #(expo i m) * R i k * Jsum J (pow3 (fun i => mullin (R i)) (mlower i m) g))
    + Jsum J (pow3 (fun i => mullin (R i)) m (dv k g)).
Proof.
  destruct m as [[a b] c]. unfold pow3, sum3. cbn [expo mlower fst snd].
  rewrite dv_powop_mullin.
  rewrite (Jsum_powop _ _ (Jsum_mullin (R AX)) a J (dv k _)).
  rewrite dv_powop_mullin.
  rewrite (Jsum_powop _ _ (Jsum_mullin (R AY)) b _ (dv k _)).
  rewrite dv_powop_mullin.
  rewrite <- !(Jsum_powop _ _ (Jsum_mullin (R AY)) b).
  rewrite <- !(Jsum_powop _ _ (Jsum_mullin (R AX)) a).
  ring.
Qed.

(* chain rule  d_k (f o R) = sum_i R i k ((d_i f) o R), on a monomial and on every polynomial *)
Lemma dv_subst_mon R k m J :
  Jsum J (dv k (subst_mon R m))
  = sum3 (fun i => R i k * (#(expo i m) * Jsum J (subst_mon R (mlower i m)))).
Proof.
  etransitivity; [apply (dv_pow3 R k m one3 J)|].
  rewrite (adjoint_zero _ _ (pow3_adjoint _ _ (fun i => Jsum_mullin (R i)) m) _ (dv_one3 k)).
  unfold subst_mon, pow3, sum3. ring.
Qed.

Theorem dv_subst R k f J :
  Jsum J (dv k (subst R f)) = sum3 (fun i => R i k * Jsum J (subst R (dv i f))).
Proof.
  unfold subst, sum3. rewrite Jsum_dv, !Jsum_lift, !Jsum_dv.
  rewrite <- !Jsum_Jscale, <- !Jsum_Jadd. apply Jsum_ext. intro m.
  unfold liftT at 1. rewrite <- Jsum_dv, dv_subst_mon. unfold sum3, dvT, liftT. ring.
Qed.

(* R R^T = 1 (rows orthonormal); nothing is assumed about det R *)
Definition orth_rows (R : mat) : Prop := forall i k, sum3 (fun j => R i j * R k j) = delta3 i k.
Definition transpose (R : mat) : mat := fun i j => R j i.

Lemma subst_plinear3 R : plinear3 (fun f => E3 (subst R f)).
Proof. split; intros.
  - rewrite subst_app. apply E3_app.
  - rewrite (E3_peq _ _ (subst_pscale3 R c f)). apply E3_pscale3. Qed.

(* R^T (R w) = w when the columns of M are orthonormal *)
Lemma orth_contract (M : axis -> axis -> F) (w : axis -> F) k : orth_rows (transpose M) ->
  sum3 (fun l => M l k * dot (M l) w) = w k.
Proof.
  intro HC. transitivity (sum3 (fun j => sum3 (fun l => transpose M k l * transpose M j l) * w j)).
  - unfold dot, sum3, transpose. ring.
  - rewrite (sum3_ext _ (fun j => delta3 k j * w j)); [apply sum3_delta|]. intro j. now rewrite HC.
Qed.
Lemma orth_contract2 R : orth_rows R ->
  forall X, sum3 (fun k => sum3 (fun i => sum3 (fun j => R i k * R j k * X i j))) = sum3 (fun i => X i i).
Proof.
  intros HO X. transitivity (sum3 (fun i => sum3 (fun k => transpose R k i * dot (transpose R k) (X i)))).
  - unfold dot, sum3, transpose. ring.
  - apply sum3_ext. intro i. apply (orth_contract (transpose R) (X i) i HO).
Qed.

Lemma subst_stein R : orth_rows R -> stein_everywhere (fun f => E3 (subst R f)).
Proof.
  intros HO i g. cbv beta. rewrite (E3_peq _ _ (subst_mulv R i g)).
  unfold E3 at 1. rewrite Jsum_mullin_exp. fold (E3 (mulv AX (subst R g))).
  fold (E3 (mulv AY (subst R g))). fold (E3 (mulv AZ (subst R g))).
  rewrite !stein3. unfold E3. rewrite !dv_subst.
  rewrite <- (orth_contract (transpose R) (fun k => Jsum M3 (subst R (dv k g))) i HO). unfold dot, sum3, transpose. ring.
Qed.

Theorem E3_subst_orth R : orth_rows R -> forall f, E3 (subst R f) = E3 f.
Proof.
  intros HO f.
  rewrite (gauss3_uniqueness_all (fun f => E3 (subst R f)) (subst_plinear3 R) (subst_stein R HO) f).
  rewrite (E3_peq _ _ (subst_one3 R)), E3_one. ring.
Qed.

(* products of shifted monomials: (y + c)^m g and h(y + c) g *)
Definition smono (c : axis -> F) (m : mon) (g : poly3) : poly3 :=
  powop (plin3 AX (c AX)) (expo AX m) (powop (plin3 AY (c AY)) (expo AY m)
    (powop (plin3 AZ (c AZ)) (expo AZ m) g)).
Definition shiftmul (h : poly3) (c : axis -> F) (g : poly3) : poly3 := lift (fun m => smono c m g) h.

Lemma plin3_comm i c j d f : peq (plin3 i c (plin3 j d f)) (plin3 j d (plin3 i c f)).
Proof. intro J. rewrite !Jsum_plin3. apply Jsum_ext. intros [[a b] e].
  unfold plin3T. destruct i, j; cbn [bump fst snd]; ring. Qed.

Lemma smono_bump c i m g : peq (smono c (bump i m) g) (plin3 i (c i) (smono c m g)).
Proof.
  apply (pow3_bump (fun i => plin3 i (c i)) _ (fun i => Jsum_plin3 i (c i))). intros j k f. apply plin3_comm.
Qed.

Lemma smono_adjoint c m : exists opT, adjoint (smono c m) opT.
Proof. eexists. apply (pow3_adjoint (fun i => plin3 i (c i)) _ (fun i => Jsum_plin3 i (c i))). Qed.
Lemma smono_cong c m g g' : peq g g' -> peq (smono c m g) (smono c m g').
Proof. destruct (smono_adjoint c m) as [opT A]. apply (adjoint_cong _ _ A). Qed.
Lemma shiftmul_cong_g h c g g' : peq g g' -> peq (shiftmul h c g) (shiftmul h c g').
Proof.
  intros H J. unfold shiftmul. rewrite !Jsum_lift. apply Jsum_ext. intro m. unfold liftT.
  now apply smono_cong.
Qed.
(* Jsum against the entries of h: the "D-matrix" reading of h *)
Lemma Jsum_shiftmul J h c g : Jsum J (shiftmul h c g) = Jsum (fun m => Jsum J (smono c m g)) h.
Proof. unfold shiftmul. now rewrite Jsum_lift. Qed.
Lemma shiftmul_mono3 m c g : peq (shiftmul (mono3 m) c g) (smono c m g).
Proof. intro J. rewrite Jsum_shiftmul. unfold mono3. cbn [Jsum fst snd]. ring. Qed.

(* (l.u) h(u) at u = y + c  is  (l.y + l.c) h(y + c) *)
Lemma shiftmul_mullin l h c g :
  peq (shiftmul (mullin l h) c g) (mulaff l (dot l c) (shiftmul h c g)).
Proof.
  intro J. rewrite Jsum_shiftmul, Jsum_mullin, Jsum_mulaff, Jsum_shiftmul.
  apply Jsum_ext. intro m. unfold mullinT. rewrite <- Jsum_mulaff.
  rewrite !smono_bump, !Jsum_plin3_exp, Jsum_mulaff_exp, Jsum_mullin_exp. unfold dot, sum3. ring.
Qed.

(* prod_i (Q_i . y + d_i)^(m_i) g *)
Definition affpow (Q : mat) (d : axis -> F) : mon -> poly3 -> poly3 := pow3 (fun i => mulaff (Q i) (d i)).

Lemma affpow_cong Q d m g g' : peq g g' -> peq (affpow Q d m g) (affpow Q d m g').
Proof. apply (adjoint_cong _ _ (pow3_adjoint _ _ (fun i => Jsum_mulaff (Q i) (d i)) m)). Qed.
Lemma affpow_ext Q d d' m g : (forall i, d i = d' i) -> affpow Q d m g = affpow Q d' m g.
Proof. intro H. unfold affpow, pow3. now rewrite (H AX), (H AY), (H AZ). Qed.

(* (Q (y + c))^a g = prod_i (Q_i . y + Q_i . c)^(a_i) g, for ANY matrix Q *)
Theorem shiftmul_subst_mon (Q : mat) c a g :
  peq (shiftmul (subst_mon Q a) c g) (affpow Q (fun i => dot (Q i) c) a g).
Proof.
  apply (pow3_map (fun h f' => peq (shiftmul h c g) f') (fun i => mullin (Q i))
                  (fun i => mulaff (Q i) (dot (Q i) c))).
  - intros i h f' H. eapply peq_trans; [apply shiftmul_mullin|]. apply (adjoint_cong _ _ (Jsum_mulaff _ _)), H.
  - exact (shiftmul_mono3 (0, 0, 0)%nat c g).
Qed.

(* (f o R) for f = (y + c)^m g :  prod_i (R_i . y + c_i)^(m_i) (g o R) *)
Theorem subst_smono R c m g : peq (subst R (smono c m g)) (affpow R c m (subst R g)).
Proof.
  apply (pow3_map (fun f f' => peq (subst R f) f') (fun i => plin3 i (c i)) (fun i => mulaff (R i) (c i)));
    [|apply peq_refl].
  intros i f f' H. eapply peq_trans; [apply subst_plin3|]. apply (adjoint_cong _ _ (Jsum_mulaff _ _)), H.
Qed.

(* E3 of a product of three one-variable polynomials is the product of the three 1-D functionals *)
Notation Eaux := (Eaux K v).
Definition factors (f : poly3) (gx gy gz : list F) : Prop :=
  forall n1 n2 n3, E3aux (n1, n2, n3) f = Eaux n1 gx * Eaux n2 gy * Eaux n3 gz.

Lemma factors_one3 : factors one3 [1] [1] [1].
Proof. intros n1 n2 n3. unfold E3aux, one3, mono3, M3n. cbn [Jsum Moment1D.Eaux fst snd].
  rewrite !Nat.add_0_r. ring. Qed.

Lemma M3n_bump i n m : M3n n (bump i m) = M3n (bump i n) m.
Proof. unfold M3n. destruct i; cbn [bump fst snd]; now rewrite Nat.add_succ_r. Qed.

Lemma factors_plin3 i c f gx gy gz : factors f gx gy gz ->
  factors (plin3 i c f)
    (match i with AX => plin K c gx | _ => gx end)
    (match i with AY => plin K c gy | _ => gy end)
    (match i with AZ => plin K c gz | _ => gz end).
Proof.
  intros H n1 n2 n3. unfold E3aux.
  rewrite Jsum_plin3_exp, Jsum_mulv, (Jsum_ext _ _ (M3n_bump i (n1, n2, n3))).
  fold (E3aux (n1, n2, n3) f) (E3aux (bump i (n1, n2, n3)) f). rewrite (H n1 n2 n3).
  destruct i; cbn [bump fst snd]; rewrite H, (Eaux_plin K Kf); ring.
Qed.

Lemma factors_powop_plin3 i c n f gx gy gz : factors f gx gy gz ->
  factors (powop (plin3 i c) n f)
    (match i with AX => plin_pow K c n gx | _ => gx end)
    (match i with AY => plin_pow K c n gy | _ => gy end)
    (match i with AZ => plin_pow K c n gz | _ => gz end).
Proof.
  intro H. induction n as [|n IH]; cbn [powop plin_pow]; [destruct i; exact H|].
  pose proof (factors_plin3 i c _ _ _ _ IH) as P. destruct i; exact P.
Qed.

Lemma factors_smono c m f gx gy gz : factors f gx gy gz ->
  factors (smono c m f) (plin_pow K (c AX) (expo AX m) gx) (plin_pow K (c AY) (expo AY m) gy)
          (plin_pow K (c AZ) (expo AZ m) gz).
Proof.
  intro H. unfold smono.
  apply (factors_powop_plin3 AX), (factors_powop_plin3 AY), (factors_powop_plin3 AZ), H.
Qed.

Lemma factors_E3 f gx gy gz : factors f gx gy gz -> E3 f = E K v gx * E K v gy * E K v gz.
Proof. intro H. exact (H 0%nat 0%nat 0%nat). Qed.

(* Two- and three-centre products under a rotation of the centres.
      cA, cB (, cC) are the displacements P - A, P - B (, P - C) of the original system, cA' = R cA ... those of
      the rotated one; Q = R^T.  [subst_mon Q a] is (R^T u)^a multiplied out in monomials of u: summing against
      its entries is the contraction with the representation matrix of R on the monomials of degree |a|.
      Needs the COLUMNS of R orthonormal (R^T R = 1). *)
Lemma dot_transpose_rot (R : mat) (c c' : axis -> F) :
  orth_rows (transpose R) -> (forall i, c' i = dot (R i) c) ->
  forall i, dot (transpose R i) c' = c i.
Proof.
  intros HO Hc i. rewrite <- (orth_contract R c i HO). apply sum3_ext. intro l. unfold transpose. now rewrite Hc.
Qed.

(* one more shifted factor, summed against the entries of (R^T u)^a *)
Lemma rotated_factor (R : mat) (c c' : axis -> F) a g g' :
  orth_rows (transpose R) -> (forall i, c' i = dot (R i) c) ->
  peq g' (subst (transpose R) g) ->
  peq (shiftmul (subst_mon (transpose R) a) c' g') (subst (transpose R) (smono c a g)).
Proof.
  intros HO Hc Hg.
  eapply peq_trans; [apply shiftmul_subst_mon|].
  rewrite (affpow_ext _ _ c a g' (dot_transpose_rot R c c' HO Hc)).
  eapply peq_trans; [apply affpow_cong, Hg|]. apply peq_sym, subst_smono.
Qed.

(* the same under any operator that has an adjoint, read as a sum against the entries of (R^T u)^a *)
Lemma rotated_step (R : mat) (c c' : axis -> F) a op opT J g g' :
  orth_rows (transpose R) -> (forall i, c' i = dot (R i) c) -> adjoint op opT ->
  peq g' (subst (transpose R) g) ->
  Jsum (fun a' => Jsum J (op (smono c' a' g'))) (subst_mon (transpose R) a)
  = Jsum J (op (subst (transpose R) (smono c a g))).
Proof.
  intros HO Hc A Hg.
  rewrite <- (adjoint_cong _ _ A _ _ (rotated_factor R c c' a g g' HO Hc Hg)), A, Jsum_shiftmul.
  apply Jsum_ext. intro a'. now rewrite A.
Qed.

Theorem rotated_product2_E3 (R : mat) (cA cB cA' cB' : axis -> F) (a b : mon) :
  orth_rows (transpose R) ->
  (forall i, cA' i = dot (R i) cA) -> (forall i, cB' i = dot (R i) cB) ->
  Jsum (fun a' => Jsum (fun b' => E3 (smono cA' a' (smono cB' b' one3)))
                       (subst_mon (transpose R) b)) (subst_mon (transpose R) a)
  = E3 (smono cA a (smono cB b one3)).
Proof.
  intros HO HA HB. rewrite <- (E3_subst_orth (transpose R) HO). unfold E3.
  etransitivity;
    [|apply (rotated_step R cA cA' a (fun g => g) _ M3 (smono cB b one3) _ HO HA adjoint_id (peq_refl _))].
  apply Jsum_ext. intro a'. destruct (smono_adjoint cA' a') as [TA AA].
  apply (rotated_step R cB cB' b _ _ M3 one3 one3 HO HB AA (peq_sym _ _ (subst_one3 _))).
Qed.

Theorem rotated_product3_E3 (R : mat) (cC cA cB cC' cA' cB' : axis -> F) (k a b : mon) :
  orth_rows (transpose R) ->
  (forall i, cC' i = dot (R i) cC) -> (forall i, cA' i = dot (R i) cA) -> (forall i, cB' i = dot (R i) cB) ->
  Jsum (fun k' => Jsum (fun a' => Jsum (fun b' => E3 (smono cC' k' (smono cA' a' (smono cB' b' one3))))
                       (subst_mon (transpose R) b)) (subst_mon (transpose R) a)) (subst_mon (transpose R) k)
  = E3 (smono cC k (smono cA a (smono cB b one3))).
Proof.
  intros HO HC HA HB. rewrite <- (E3_subst_orth (transpose R) HO). unfold E3.
  etransitivity;
    [|apply (rotated_step R cC cC' k (fun g => g) _ M3 (smono cA a (smono cB b one3)) _ HO HC adjoint_id (peq_refl _))].
  apply Jsum_ext. intro k'. destruct (smono_adjoint cC' k') as [TC AC].
  etransitivity; [|apply (rotated_step R cA cA' a _ _ M3 (smono cB b one3) _ HO HA AC (peq_refl _))].
  apply Jsum_ext. intro a'. destruct (smono_adjoint cA' a') as [TA AA].
  apply (rotated_step R cB cB' b _ _ M3 one3 one3 HO HB (adjoint_comp _ _ _ _ AC AA) (peq_sym _ _ (subst_one3 _))).
Qed.

(* evaluation at a point: [subst] really is substitution (pins the meaning of [subst_mon]) *)
Notation fpow := (FNum.fpow K).
Definition monoval (u : axis -> F) (m : mon) : F :=
  fpow (u AX) (fst (fst m)) * fpow (u AY) (snd (fst m)) * fpow (u AZ) (snd m).
Definition peval (u : axis -> F) (f : poly3) : F := Jsum (monoval u) f.

Lemma peval_mullin u l f : peval u (mullin l f) = dot l u * peval u f.
Proof.
  unfold peval. rewrite Jsum_mullin, <- Jsum_Jscale. apply Jsum_ext. intros [[a b] c].
  unfold mullinT, monoval, dot, sum3. cbn [bump fst snd FNum.fpow]. ring.
Qed.
Lemma peval_powop_mullin u l n f : peval u (powop (mullin l) n f) = fpow (dot l u) n * peval u f.
Proof. induction n as [|n IH]; cbn [powop FNum.fpow]; [ring|]. rewrite peval_mullin, IH. ring. Qed.
Lemma peval_subst_mon u R m : peval u (subst_mon R m) = monoval (fun i => dot (R i) u) m.
Proof.
  unfold subst_mon. rewrite !peval_powop_mullin. unfold peval, one3, mono3, monoval.
  cbn [Jsum fst snd FNum.fpow expo]. ring.
Qed.
Theorem peval_subst u R f : peval u (subst R f) = peval (fun i => dot (R i) u) f.
Proof.
  unfold peval, subst. rewrite Jsum_lift. apply Jsum_ext. intro m. apply peval_subst_mon.
Qed.

(* The rotation-invariant second-order operators: Laplacian, Euler operator y.grad, multiplication by |y|^2;
      each commutes with an orthogonal substitution.  [kinop h beta] is
        -h (Lap - 4 beta y.grad - 6 beta + 4 beta^2 |y|^2) = -h e^{beta y^2} Lap (. e^{-beta y^2}),
      the polynomial part of the kinetic-energy operator applied to polynomial x Gaussian (h = 1/2). *)
Definition lap (f : poly3) : poly3 := dv AX (dv AX f) ++ dv AY (dv AY f) ++ dv AZ (dv AZ f).
Definition euler (f : poly3) : poly3 := mulv AX (dv AX f) ++ mulv AY (dv AY f) ++ mulv AZ (dv AZ f).
Definition rsq (f : poly3) : poly3 := mulv AX (mulv AX f) ++ mulv AY (mulv AY f) ++ mulv AZ (mulv AZ f).
Definition kinop (h beta : F) (f : poly3) : poly3 :=
  pscale3 (- h) (lap f ++ pscale3 (- ((1 + 1 + 1 + 1) * beta)) (euler f)
                 ++ pscale3 (- ((1 + 1 + 1 + 1 + 1 + 1) * beta)) f
                 ++ pscale3 ((1 + 1 + 1 + 1) * beta * beta) (rsq f)).

Lemma dv_dv_subst R k f J :
  Jsum J (dv k (dv k (subst R f)))
  = sum3 (fun i => sum3 (fun j => R i k * R j k * Jsum J (subst R (dv j (dv i f))))).
Proof.
  rewrite Jsum_dv, dv_subst. unfold sum3. rewrite <- !Jsum_dv, !dv_subst. unfold sum3. ring.
Qed.

Theorem lap_subst R f : orth_rows R -> peq (lap (subst R f)) (subst R (lap f)).
Proof.
  intros HO J. transitivity (sum3 (fun k => Jsum J (dv k (dv k (subst R f))))).
  { unfold lap, sum3. rewrite !Jsum_app. ring. }
  rewrite (sum3_ext _ _ (fun k => dv_dv_subst R k f J)), (orth_contract2 R HO).
  unfold lap, sum3. rewrite !subst_app, !Jsum_app. ring.
Qed.

Theorem euler_subst R f : peq (euler (subst R f)) (subst R (euler f)).
Proof.
  intro J. unfold euler. rewrite !subst_app, !Jsum_app.
  rewrite !subst_mulv, !Jsum_mullin_exp.
  rewrite !(Jsum_mulv _ J (dv _ (subst R f))), !dv_subst. unfold sum3.
  rewrite <- !(Jsum_mulv _ J). ring.
Qed.

Lemma mullin_mullin_exp J l l' g :
  Jsum J (mullin l (mullin l' g))
  = sum3 (fun k => sum3 (fun m => l k * l' m * Jsum J (mulv k (mulv m g)))).
Proof.
  rewrite Jsum_mullin_exp, !(Jsum_mulv _ J), !Jsum_mullin_exp, <- !(Jsum_mulv _ J). unfold sum3. ring.
Qed.

Theorem rsq_subst R f : orth_rows (transpose R) -> peq (rsq (subst R f)) (subst R (rsq f)).
Proof.
  intros HO J. symmetry.
  assert (E : forall i, Jsum J (subst R (mulv i (mulv i f)))
              = sum3 (fun k => sum3 (fun m => transpose R k i * transpose R m i
                                               * Jsum J (mulv k (mulv m (subst R f)))))).
  { intro i. rewrite subst_mulv, (adjoint_cong _ _ (Jsum_mullin (R i)) _ _ (subst_mulv R i f)).
    apply mullin_mullin_exp. }
  transitivity (sum3 (fun i => Jsum J (subst R (mulv i (mulv i f))))).
  { unfold rsq, sum3. rewrite !subst_app, !Jsum_app. ring. }
  rewrite (sum3_ext _ _ E), (orth_contract2 (transpose R) HO).
  unfold rsq, sum3. rewrite !Jsum_app. ring.
Qed.

Theorem kinop_subst R h beta f : orth_rows R -> orth_rows (transpose R) ->
  peq (kinop h beta (subst R f)) (subst R (kinop h beta f)).
Proof.
  intros HR HC J. unfold kinop.
  rewrite subst_pscale3, !Jsum_pscale3, !subst_app, !Jsum_app, !subst_pscale3, !Jsum_pscale3.
  rewrite (lap_subst R f HR), (euler_subst R f), (rsq_subst R f HC). reflexivity.
Qed.

Lemma adjoint_app3 (op : axis -> poly3 -> poly3) opT : (forall i, adjoint (op i) (opT i)) ->
  adjoint (fun f => op AX f ++ op AY f ++ op AZ f) (fun J m => opT AX J m + (opT AY J m + opT AZ J m)).
Proof. intro A. apply (adjoint_app2 _ _ _ _ (A AX) (adjoint_app2 _ _ _ _ (A AY) (A AZ))). Qed.

Lemma kinop_adjoint h beta : exists opT, adjoint (kinop h beta) opT.
Proof.
  eexists. unfold kinop. apply adjoint_scale.
  eapply (adjoint_app2 lap _ _ _ (adjoint_app3 (fun i f => dv i (dv i f)) _
           (fun i => adjoint_comp _ _ _ _ (Jsum_dv i) (Jsum_dv i)))).
  eapply (adjoint_app2 (fun f => pscale3 _ (euler f)) _ _ _ (adjoint_scale _ _ _
           (adjoint_app3 (fun i f => mulv i (dv i f)) _ (fun i => adjoint_comp _ _ _ _ (Jsum_mulv i) (Jsum_dv i))))).
  eapply (adjoint_app2 (fun f => pscale3 _ f) _ _ _ (adjoint_scale _ _ _ adjoint_id)).
  apply (adjoint_scale _ _ _
           (adjoint_app3 (fun i f => mulv i (mulv i f)) _ (fun i => adjoint_comp _ _ _ _ (Jsum_mulv i) (Jsum_mulv i)))).
Qed.
(* the action on index functionals: (kinT J)(b) = J applied to kinop (y^b) *)
Definition kinT (h beta : F) (J : mon -> F) : mon -> F := fun b => Jsum J (kinop h beta (mono3 b)).
Lemma subst_mono3 R m : peq (subst R (mono3 m)) (subst_mon R m).
Proof. intro J. unfold subst, mono3, lift. cbn [flat_map fst snd]. rewrite Jsum_app, Jsum_pscale3.
  cbn [Jsum]. ring. Qed.

Lemma Jsum_swap (G : mon -> mon -> F) f g :
  Jsum (fun x => Jsum (fun y => G x y) g) f = Jsum (fun y => Jsum (fun x => G x y) f) g.
Proof.
  induction f as [|mc f IH]; cbn [Jsum].
  - now rewrite Jsum_J0.
  - rewrite IH, <- Jsum_Jscale, <- Jsum_Jadd. reflexivity.
Qed.

(* An operator op' with an adjoint which, after the substitution Q, is the combination sum_l c l * (ops l) of operators
   before the substitution: when it acts on the second index of a covariant bilinear form B (seen through the monomials,
   b |-> J (op' u^b)) the result is covariant on the indices and transforms with the coefficients c. *)
Theorem operator_covariant (Q : mat) (op' : poly3 -> poly3) opT' (ops : axis -> poly3 -> poly3) (c : axis -> F)
    (B B' : mon -> mon -> F) :
  adjoint op' opT' ->
  (forall f J, Jsum J (op' (subst Q f)) = sum3 (fun l => c l * Jsum J (subst Q (ops l f)))) ->
  (forall a b, Jsum (fun a' => Jsum (fun b' => B' a' b') (subst_mon Q b)) (subst_mon Q a) = B a b) ->
  forall a b,
    Jsum (fun a' => Jsum (fun b' => Jsum (B' a') (op' (mono3 b'))) (subst_mon Q b)) (subst_mon Q a)
    = sum3 (fun l => c l * Jsum (B a) (ops l (mono3 b))).
Proof.
  intros A Hsub Hcov a b.
  set (T := fun l a' => Jsum (fun m => Jsum (B' a') (subst_mon Q m)) (ops l (mono3 b))).
  rewrite (Jsum_ext _ (fun a' => c AX * T AX a' + c AY * T AY a' + c AZ * T AZ a')).
  2:{ intro a'. rewrite <- (Jsum_monomials op' opT' A).
      rewrite (adjoint_cong _ _ A _ _ (peq_sym _ _ (subst_mono3 Q b))).
      rewrite Hsub. unfold sum3, T, subst. now rewrite !Jsum_lift. }
  rewrite !Jsum_Jadd, !Jsum_Jscale. unfold sum3.
  assert (E : forall l, Jsum (T l) (subst_mon Q a) = Jsum (B a) (ops l (mono3 b))).
  { intro l. unfold T. rewrite Jsum_swap. apply Jsum_ext. intro m. apply Hcov. }
  now rewrite !E.
Qed.

(* the one-term combination: kinop commutes with the substitution *)
Theorem kinT_covariant (R : mat) h beta (B B' : mon -> mon -> F) :
  orth_rows R -> orth_rows (transpose R) ->
  (forall a b, Jsum (fun a' => Jsum (fun b' => B' a' b') (subst_mon R b)) (subst_mon R a) = B a b) ->
  forall a b, Jsum (fun a' => Jsum (fun b' => kinT h beta (B' a') b') (subst_mon R b)) (subst_mon R a)
              = kinT h beta (B a) b.
Proof.
  intros HR HC Hcov a b. destruct (kinop_adjoint h beta) as [opT A]. unfold kinT.
  rewrite (operator_covariant R (kinop h beta) opT (fun _ => kinop h beta) (delta3 AX) B B' A).
  - apply (sum3_delta AX (fun _ => Jsum (B a) (kinop h beta (mono3 b)))).
  - intros f J. rewrite (sum3_delta AX (fun _ => Jsum J (subst R (kinop h beta f)))).
    apply (kinop_subst R h beta f HR HC).
  - exact Hcov.
Qed.

End Poly3.
