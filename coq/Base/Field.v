(* Base/Field.v — the number interface shared by every model.

   A model is a Gallina function over an arbitrary type [F] carrying the
   operations of [Fops]; theorems assume [field_theory] for them (a section
   hypothesis, never an axiom).  Execution uses the instance [QcK] at the
   canonical rationals [Qc]; its arithmetic normalises with [Z.gcd] and
   [Z.div] (proved equal to the standard [Qred]) so that the extracted code
   only uses big-integer operations: those mapped by ExtrOcamlZBigInt plus
   the single directive  Extract Constant Z.gcd => Big_int_Z.gcd_big_int
   of Extract/Extract.v (the library file maps no gcd, and a gcd written in
   Gallina is quadratic: 0.5 ms per operation on 1000-bit numbers).

   Transcendental functions (pi, sqrt, exp, ln, Boys) are fields of [Fops]:
   in theorems they are arbitrary (hypotheses state what is needed of them),
   in execution they are closures supplied by the driver (exact dyadic
   approximations computed by mpmath), see DESIGN.md 2.2. *)
From Coq Require Import ZArith QArith Qcanon Field Lia List.
Import ListNotations.

Declare Scope F_scope.
Delimit Scope F_scope with F.

Record Fops (F : Type) := mkFops {
  f0 : F; f1 : F;
  fadd : F -> F -> F; fmul : F -> F -> F; fsub : F -> F -> F; fopp : F -> F;
  fdiv : F -> F -> F; finv : F -> F;
  fleb : F -> F -> bool;            (* x <= y, used only by threshold / screening models *)
  feqb : F -> F -> bool;
  fpi : F;
  fsqrt : F -> F; fexp : F -> F; fln : F -> F;
  fboys : nat -> F -> F;
  fapx : F -> F                     (* identity in theorems (hypothesis); in fast execution a rounding
                                       to a dyadic grid applied to individual terms of long sums *)
}.
Arguments f0 {F}. Arguments f1 {F}. Arguments fadd {F}. Arguments fmul {F}.
Arguments fsub {F}. Arguments fopp {F}. Arguments fdiv {F}. Arguments finv {F}.
Arguments fleb {F}. Arguments feqb {F}. Arguments fpi {F}. Arguments fsqrt {F}.
Arguments fexp {F}. Arguments fln {F}. Arguments fboys {F}. Arguments fapx {F}.

Notation is_field K :=
  (field_theory (f0 K) (f1 K) (fadd K) (fmul K) (fsub K) (fopp K) (fdiv K) (finv K) eq).
Notation is_ring K :=
  (ring_theory (f0 K) (f1 K) (fadd K) (fmul K) (fsub K) (fopp K) eq).

Fixpoint ofnat {F} (K : Fops F) (n : nat) : F :=
  match n with O => f0 K | S k => fadd K (f1 K) (ofnat K k) end.

Definition Qred_fast (q : Q) : Q :=
  let n := Qnum q in let d := Zpos (Qden q) in
  let g := Z.gcd n d in
  Qmake (Z.div n g) (Z.to_pos (Z.div d g)).

Lemma Qred_fast_eq q : Qred_fast q = Qred q.
Proof.
  destruct q as [n d]. unfold Qred_fast, Qred. cbn [Qnum Qden].
  pose proof (Z.ggcd_gcd n (Zpos d)) as Hg.
  pose proof (Z.ggcd_correct_divisors n (Zpos d)) as Hd.
  destruct (Z.ggcd n (Zpos d)) as [g [aa bb]]. cbn [fst snd] in *.
  destruct Hd as [Hn Hdd]. subst g.
  assert (Hpos : (0 < Z.gcd n (Zpos d))%Z).
  { pose proof (Z.gcd_nonneg n (Zpos d)).
    assert (Z.gcd n (Zpos d) <> 0%Z) by (intro H0; apply Z.gcd_eq_0_r in H0; discriminate).
    lia. }
  set (g := Z.gcd n (Zpos d)) in *.
  assert (E1 : (n / g = aa)%Z).
  { rewrite Hn at 1. rewrite Z.mul_comm. apply Z.div_mul. lia. }
  assert (E2 : (Zpos d / g = bb)%Z).
  { rewrite Hdd at 1. rewrite Z.mul_comm. apply Z.div_mul. lia. }
  now rewrite E1, E2.
Qed.

Lemma Qred_fast_canon q : Qred (Qred_fast q) = Qred_fast q.
Proof. rewrite Qred_fast_eq. apply Qred_involutive. Qed.

Definition Q2Qcf (q : Q) : Qc := Qcmake (Qred_fast q) (Qred_fast_canon q).

Lemma Q2Qcf_eq q : Q2Qcf q = Q2Qc q.
Proof. apply Qc_is_canon. unfold Q2Qcf, Q2Qc. cbn [this]. now rewrite Qred_fast_eq. Qed.

Definition qc_add (x y : Qc) : Qc := Q2Qcf (Qplus x y).
Definition qc_mul (x y : Qc) : Qc := Q2Qcf (Qmult x y).
Definition qc_opp (x : Qc) : Qc := Q2Qcf (Qopp x).
Definition qc_sub (x y : Qc) : Qc := Q2Qcf (Qminus x y).
Definition qc_inv (x : Qc) : Qc := Q2Qcf (Qinv x).
Definition qc_div (x y : Qc) : Qc := Q2Qcf (Qdiv x y).
Definition qc_leb (x y : Qc) : bool := Qle_bool x y.
Definition qc_eqb (x y : Qc) : bool := Qeq_bool x y.

Lemma qc_add_eq x y : qc_add x y = Qcplus x y.
Proof. unfold qc_add. now rewrite Q2Qcf_eq. Qed.
Lemma qc_mul_eq x y : qc_mul x y = Qcmult x y.
Proof. unfold qc_mul. now rewrite Q2Qcf_eq. Qed.
Lemma qc_opp_eq x : qc_opp x = Qcopp x.
Proof. unfold qc_opp. now rewrite Q2Qcf_eq. Qed.
Lemma qc_sub_eq x y : qc_sub x y = Qcminus x y.
Proof.
  unfold qc_sub, Qcminus, Qcplus, Qcopp. rewrite Q2Qcf_eq.
  apply Qc_is_canon. unfold Q2Qc; cbn [this]. rewrite !Qred_correct. reflexivity.
Qed.
Lemma qc_inv_eq x : qc_inv x = Qcinv x.
Proof. unfold qc_inv. now rewrite Q2Qcf_eq. Qed.
Lemma qc_div_eq x y : qc_div x y = Qcdiv x y.
Proof.
  unfold qc_div, Qcdiv, Qcmult, Qcinv. rewrite Q2Qcf_eq.
  apply Qc_is_canon. unfold Q2Qc; cbn [this]. rewrite !Qred_correct. reflexivity.
Qed.

(* rounding (towards -infinity) to a multiple of 2^-s: all in mapped big-integer operations *)
Definition qc_round (s : Z) (x : Qc) : Qc :=
  let sc := Z.shiftl 1 s in
  Q2Qcf (Qmake (Z.div (Z.mul (Qnum x) sc) (Zpos (Qden x))) (Z.to_pos sc)).

(* The executable instance: exact rationals, transcendental closures given.
   exact = true: fapx is the identity (the instance the theorems' hypothesis on fapx holds for);
   exact = false: individual terms of long sums are rounded to multiples of 2^-400. *)
Definition QcK (exact : bool) (opi : Qc) (osqrt oexp oln : Qc -> Qc) (oboys : nat -> Qc -> Qc)
  : Fops Qc :=
  mkFops Qc (Q2Qc 0) (Q2Qc 1) qc_add qc_mul qc_sub qc_opp qc_div qc_inv qc_leb qc_eqb
         opi osqrt oexp oln oboys (if exact then (fun x => x) else qc_round 400).

(* qc_add ... agree with Qcplus ... only pointwise (no functional extensionality): Qcft is carried over law by law *)
Lemma QcK_field ex opi osqrt oexp oln oboys : is_field (QcK ex opi osqrt oexp oln oboys).
Proof.
  cbn [QcK f0 f1 fadd fmul fsub fopp fdiv finv].
  pose proof Qcft as [[A0 A1 A2 A3 A4 A5 A6 A7 A8] B C D].
  constructor; [constructor|..]; intros;
    rewrite ?qc_add_eq, ?qc_mul_eq, ?qc_sub_eq, ?qc_opp_eq, ?qc_div_eq, ?qc_inv_eq; auto.
Qed.

Lemma qc_neq (x y : Qc) : Qeq_bool x y = false -> x <> y.
Proof. intros H E. subst y. rewrite Qeq_bool_refl in H. discriminate. Qed.

(* conversion helpers used by the runner *)
Definition qc_of (n : Z) (d : positive) : Qc := Q2Qcf (Qmake n d).
Definition qc_num (x : Qc) : Z := Qnum x.
Definition qc_den (x : Qc) : positive := Qden x.

Lemma QcK_exact_apx opi osqrt oexp oln oboys x : fapx (QcK true opi osqrt oexp oln oboys) x = x.
Proof. reflexivity. Qed.
