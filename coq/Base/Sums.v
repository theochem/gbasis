(* Base/Sums.v — finite sums [fsum] in a field: over a list, over the image [map f l] of a list,
   over a table [mk n f], also written as the counted sum [Tables.sumn]; the images of natural numbers, powers
   and factorials. *)
From Coq Require Import List Arith Lia Field Permutation.
From GB Require Import Base.Field Base.FNum Base.Tables.
Import ListNotations.

Section Sums.
Context {F : Type} (K : Fops F) (Kf : is_field K).
Add Field KFsums : Kf.
Local Open Scope F_scope.
Notation "0" := (f0 K) : F_scope.
Notation "1" := (f1 K) : F_scope.
Infix "+" := (fadd K) : F_scope.
Infix "*" := (fmul K) : F_scope.
Notation "- x" := (fopp K x) : F_scope.
Notation "# n" := (ofnat K n) (at level 5) : F_scope.
Notation fsum := (FNum.fsum K).
Notation fpow := (FNum.fpow K).

Lemma fsum_nil : fsum [] = 0.
Proof. reflexivity. Qed.

Lemma fsum_cons x l : fsum (x :: l) = x + fsum l.
Proof. reflexivity. Qed.

Lemma fsum_app l1 l2 : fsum (l1 ++ l2) = fsum l1 + fsum l2.
Proof.
  induction l1 as [|x l1 IH]; cbn [app]; rewrite ?fsum_cons, ?fsum_nil; [ring|].
  rewrite IH. ring.
Qed.

Lemma fsum_perm l l' : Permutation l l' -> fsum l = fsum l'.
Proof.
  induction 1 as [|x l l' _ IH|x y l|l l' l'' _ IH1 _ IH2]; rewrite ?fsum_cons.
  - reflexivity.
  - now rewrite IH.
  - ring.
  - now rewrite IH1.
Qed.

Lemma fsum_concat (ll : list (list F)) : fsum (concat ll) = fsum (map fsum ll).
Proof. induction ll as [|l ll IH]; cbn [concat map]; [reflexivity|]. now rewrite fsum_app, fsum_cons, IH. Qed.

Lemma fsum_map_ext_in {A} (f g : A -> F) l : (forall x, In x l -> f x = g x) -> fsum (map f l) = fsum (map g l).
Proof. intros H. f_equal. now apply map_ext_in. Qed.

Lemma fsum_map_zero {A} (l : list A) : fsum (map (fun _ => 0) l) = 0.
Proof. induction l as [|x l IH]; cbn [map]; rewrite ?fsum_cons, ?IH, ?fsum_nil; ring. Qed.

Lemma fsum_map_add {A} (f g : A -> F) l :
  fsum (map (fun x => f x + g x) l) = fsum (map f l) + fsum (map g l).
Proof. induction l as [|x l IH]; cbn [map]; rewrite ?fsum_cons, ?IH, ?fsum_nil; ring. Qed.

Lemma fsum_map_scale {A} k (f : A -> F) l : fsum (map (fun x => k * f x) l) = k * fsum (map f l).
Proof. induction l as [|x l IH]; cbn [map]; rewrite ?fsum_cons, ?IH, ?fsum_nil; ring. Qed.

Lemma fsum_map_scale_r {A} k (f : A -> F) l : fsum (map (fun x => f x * k) l) = fsum (map f l) * k.
Proof. induction l as [|x l IH]; cbn [map]; rewrite ?fsum_cons, ?IH, ?fsum_nil; ring. Qed.

Lemma fsum_map_opp {A} (f : A -> F) l : fsum (map (fun x => - f x) l) = - fsum (map f l).
Proof. induction l as [|x l IH]; cbn [map]; rewrite ?fsum_cons, ?IH, ?fsum_nil; ring. Qed.

Lemma fsum_flat_map {A B} (h : A -> list B) (f : B -> F) l :
  fsum (map f (flat_map h l)) = fsum (map (fun a => fsum (map f (h a))) l).
Proof. rewrite flat_map_concat_map, concat_map, fsum_concat, !map_map. reflexivity. Qed.

Lemma fsum_swap {A B} (g : A -> B -> F) la lb :
  fsum (map (fun a => fsum (map (fun b => g a b) lb)) la)
  = fsum (map (fun b => fsum (map (fun a => g a b) la)) lb).
Proof.
  induction la as [|a la IH]; cbn [map]; [now rewrite fsum_map_zero|].
  rewrite fsum_cons, IH, <- fsum_map_add. reflexivity.
Qed.

Lemma fsum_mk_0 f : fsum (mk 0 f) = 0.
Proof. reflexivity. Qed.

Lemma fsum_mk_S n f : fsum (mk (S n) f) = fsum (mk n f) + f n.
Proof. rewrite mk_S, fsum_app, fsum_cons, fsum_nil. ring. Qed.

Lemma fsum_mk_S_front n f : fsum (mk (S n) f) = f 0%nat + fsum (mk n (fun m => f (S m))).
Proof. now rewrite mk_cons. Qed.

Lemma fsum_mk_ext n f g : (forall i, i < n -> f i = g i) -> fsum (mk n f) = fsum (mk n g).
Proof. intros H. f_equal. now apply mk_ext. Qed.

Lemma fsum_mk_add n f g : fsum (mk n f) + fsum (mk n g) = fsum (mk n (fun i => f i + g i)).
Proof. symmetry. apply fsum_map_add. Qed.

Lemma fsum_mk_scale_r n f c : fsum (mk n f) * c = fsum (mk n (fun i => f i * c)).
Proof. symmetry. apply fsum_map_scale_r. Qed.

Lemma fsum_mk_scale_l n f c : c * fsum (mk n f) = fsum (mk n (fun i => c * f i)).
Proof. symmetry. apply fsum_map_scale. Qed.

Lemma fsum_mk_opp n f : - fsum (mk n f) = fsum (mk n (fun i => - f i)).
Proof. symmetry. apply fsum_map_opp. Qed.

Lemma fsum_mk_zero n : fsum (mk n (fun _ => 0)) = 0.
Proof. apply fsum_map_zero. Qed.

Lemma fsum_mk_swap n m (f : nat -> nat -> F) :
  fsum (mk n (fun i => fsum (mk m (fun j => f i j))))
  = fsum (mk m (fun j => fsum (mk n (fun i => f i j)))).
Proof. apply fsum_swap. Qed.

Notation sumn := (Tables.sumn 0 (fadd K)).

Lemma sumn_fsum n f : sumn n f = fsum (mk n f).
Proof. induction n as [|n IH]; [reflexivity|]. now rewrite fsum_mk_S, <- IH. Qed.

Lemma sumn_zero n f : (forall k, k < n -> f k = 0) -> sumn n f = 0.
Proof. intros H. rewrite sumn_fsum, (fsum_mk_ext n f (fun _ => 0) H). apply fsum_mk_zero. Qed.

Lemma sumn_trunc n m f : n <= m -> (forall k, n <= k < m -> f k = 0) -> sumn m f = sumn n f.
Proof.
  intros Hnm. induction Hnm as [|m Hm IH]; intros H; [reflexivity|].
  cbn [Tables.sumn]. rewrite IH by (intros; apply H; lia). rewrite H by lia. ring.
Qed.

Lemma sumn_add n f g : sumn n (fun k => f k + g k) = sumn n f + sumn n g.
Proof. rewrite !sumn_fsum. symmetry. apply fsum_mk_add. Qed.

Lemma sumn_scale n c f : sumn n (fun k => c * f k) = c * sumn n f.
Proof. rewrite !sumn_fsum. symmetry. apply fsum_mk_scale_l. Qed.

Lemma sumn_scale_r n c f : sumn n (fun k => f k * c) = sumn n f * c.
Proof. rewrite !sumn_fsum. symmetry. apply fsum_mk_scale_r. Qed.

Lemma sumn_shift n g : sumn (S n) g = g 0%nat + sumn n (fun k => g (S k)).
Proof. rewrite !sumn_fsum. apply fsum_mk_S_front. Qed.

Lemma sumn_swap n m (f : nat -> nat -> F) :
  sumn n (fun i => sumn m (fun j => f i j)) = sumn m (fun j => sumn n (fun i => f i j)).
Proof.
  induction n as [|n IH]; cbn [Tables.sumn].
  - symmetry. now apply sumn_zero.
  - now rewrite IH, <- sumn_add.
Qed.

Lemma fsum_as_sumn (l : list F) : fsum l = sumn (length l) (fun k => nth k l 0).
Proof. now rewrite sumn_fsum, mk_nth_id. Qed.

Lemma fsum_combine {A B} (f : A * B -> F) (xs : list A) (ys : list B) da db :
  fsum (map f (combine xs ys))
  = sumn (Nat.min (length xs) (length ys)) (fun k => f (nth k xs da, nth k ys db)).
Proof.
  rewrite fsum_as_sumn, map_length, combine_length. apply Tables.sumn_ext. intros k Hk.
  rewrite (nth_map_lt f (combine xs ys) k (da, db) 0) by (now rewrite combine_length).
  now rewrite combine_nth_lt.
Qed.

Lemma ofnat_add x y : #(x + y) = #x + #y.
Proof. induction x as [|x IH]; cbn [Nat.add ofnat]; [ring|]. rewrite IH. ring. Qed.

Lemma ofnat_mul x y : #(x * y) = #x * #y.
Proof. induction x as [|x IH]; cbn [Nat.mul ofnat]; [ring|]. rewrite ofnat_add, IH. ring. Qed.

Lemma fpow_add x a b : fpow x (a + b) = fpow x a * fpow x b.
Proof. induction a as [|a IH]; cbn [Nat.add FNum.fpow]; [ring|]. rewrite IH. ring. Qed.

Lemma fmul_nz x y : x <> 0 -> y <> 0 -> x * y <> 0.
Proof.
  intros Hx Hy H. apply Hx.
  transitivity (x * y * fdiv K 1 y); [field; exact Hy|]. rewrite H. field. exact Hy.
Qed.

Lemma fpow_nz x n : x <> 0 -> fpow x n <> 0.
Proof.
  intro Hx. induction n as [|n IH]; cbn [FNum.fpow]; [exact (F_1_neq_0 Kf)|]. now apply fmul_nz.
Qed.

Lemma ffact_nz : (forall n, #(S n) <> 0) -> forall n, ffact K n <> 0.
Proof.
  intros char0 n. induction n as [|n IH]; cbn [ffact]; [exact (F_1_neq_0 Kf)|].
  apply fmul_nz; [apply char0|exact IH].
Qed.

End Sums.
