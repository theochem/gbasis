(* Base/Blocks.v — linear maps on lists of module elements and block-diagonal
   matrices: the operations the assembly models (Model/Assembly14.v) are built
   from, with their shape lemmas.

   [X] is any "module" over the scalars [F]: a zero, an addition, a scaling.
   Its laws ([module_laws]) are stated in Proofs/AssemblyP.v, where [lin_bdiag]
   (a block-diagonal matrix acts block by block) is proved from them. *)
From Coq Require Import List Lia Permutation.
From GB Require Import Base.Field Base.Tables.
Import ListNotations.

Fixpoint map2 {A B C} (f : A -> B -> C) (a : list A) (b : list B) : list C :=
  match a, b with
  | x :: a', y :: b' => f x y :: map2 f a' b'
  | _, _ => []
  end.

Lemma map2_length {A B C} (f : A -> B -> C) a b :
  length a = length b -> length (map2 f a b) = length a.
Proof. revert b; induction a as [|x a IH]; intros [|y b] H; cbn in *; try lia. now rewrite IH by lia. Qed.

Lemma map2_app {A B C} (f : A -> B -> C) a1 a2 b1 b2 :
  length a1 = length b1 -> map2 f (a1 ++ a2) (b1 ++ b2) = map2 f a1 b1 ++ map2 f a2 b2.
Proof. revert b1; induction a1 as [|x a IH]; intros [|y b] H; cbn in *; try lia; [reflexivity|].
  now rewrite IH by lia. Qed.

Lemma nth_map2 {A B C} (f : A -> B -> C) a b da db dc i :
  i < length a -> i < length b -> nth i (map2 f a b) dc = f (nth i a da) (nth i b db).
Proof. revert b i; induction a as [|x a IH]; intros [|y b] [|i] Ha Hb; cbn in *; try lia; [reflexivity|].
  apply IH; lia. Qed.

Lemma map2_map_same {A B C D} (f : B -> C -> D) (g : A -> B) (h : A -> C) l :
  map2 f (map g l) (map h l) = map (fun x => f (g x) (h x)) l.
Proof. induction l as [|x l IH]; cbn; [reflexivity|]. now rewrite IH. Qed.

Lemma map2_repeat {A B C} (f : A -> B -> C) x (l : list B) :
  map2 f (repeat x (length l)) l = map (f x) l.
Proof. induction l as [|y l IH]; cbn; [reflexivity|]. now rewrite IH. Qed.

Section Lin.
Context {F : Type} (K : Fops F).
Context {X : Type} (xzero : X) (xadd : X -> X -> X) (xscale : F -> X -> X).

(* sum_k t_k * v_k over the common length (what tensordot does along one axis) *)
Fixpoint dot (t : list F) (v : list X) : X :=
  match t, v with
  | a :: t', x :: v' => xadd (xscale a x) (dot t' v')
  | _, _ => xzero
  end.

Definition lin (T : list (list F)) (v : list X) : list X := map (fun t => dot t v) T.

Definition zeros (n : nat) : list F := repeat (f0 K) n.
Definition ncols (T : list (list F)) : nat := length (hd [] T).

Fixpoint bdiag (Us : list (list (list F))) : list (list F) :=
  match Us with
  | [] => []
  | U :: r => let B := bdiag r in
      map (fun row => row ++ zeros (ncols B)) U ++ map (fun row => zeros (ncols U) ++ row) B
  end.

Fixpoint ident (n : nat) : list (list F) :=
  match n with
  | O => []
  | S n' => (f1 K :: zeros n') :: map (cons (f0 K)) (ident n')
  end.

Definition radd (x y : list X) : list X := map2 xadd x y.
Definition rscale (t : F) (x : list X) : list X := map (xscale t) x.
Definition rzero (w : nat) : list X := repeat xzero w.

Definition rect (U : list (list F)) : Prop := Forall (fun row => length row = ncols U) U.

Lemma zeros_length n : length (zeros n) = n.
Proof. apply repeat_length. Qed.

Lemma bdiag_repeat_shape T M : T <> [] -> rect T ->
  ncols (bdiag (repeat T M)) = M * ncols T /\
  Forall (fun row => length row = M * ncols T) (bdiag (repeat T M)).
Proof.
  intros Hne HT. induction M as [|M [IH1 IH2]]; [split; [reflexivity|constructor]|].
  cbn [repeat bdiag]. split.
  - destruct T as [|r0 T']; [congruence|]. unfold ncols at 1. cbn [map app hd].
    rewrite app_length, zeros_length, IH1. reflexivity.
  - apply Forall_app. split; apply Forall_forall; intros row Hin; apply in_map_iff in Hin;
      destruct Hin as [r [<- Hr]]; rewrite app_length, zeros_length.
    + unfold rect in HT. rewrite Forall_forall in HT. rewrite (HT _ Hr), IH1. lia.
    + rewrite Forall_forall in IH2. rewrite (IH2 _ Hr). lia.
Qed.

Lemma ident_shape n : ncols (ident n) = n /\ Forall (fun row => length row = n) (ident n).
Proof.
  induction n as [|n [IH1 IH2]]; [split; [reflexivity|constructor]|].
  cbn [ident]. split; [unfold ncols; cbn; now rewrite zeros_length|].
  constructor; [cbn; now rewrite zeros_length|].
  apply Forall_forall. intros row Hin. apply in_map_iff in Hin. destruct Hin as [r [<- Hr]].
  rewrite Forall_forall in IH2. cbn. now rewrite (IH2 _ Hr).
Qed.
End Lin.

(* the elements for which the module of rows of width [w] obeys its laws (AssemblyP.module_laws_rows) *)
Section Rows.
Context {X : Type} (P : X -> Prop).
Definition Prow (w : nat) (x : list X) : Prop := length x = w /\ Forall P x.
End Rows.
