(* Base/Tables.v — list tables used by the array models: [mk] (a row built
   from an index function), [iter2] (a two-term recurrence producing a list
   of rows, the shape of every NumPy "for j in range(1, n): t[j+1] = f(t[j],
   t[j-1])" loop in the code) and finite sums [sumn], with the general
   [nth] / [combine] / [concat] / [Forall2] lemmas the table proofs share. *)
From Coq Require Import List Arith Lia.
Import ListNotations.

Definition mk {A} (n : nat) (f : nat -> A) : list A := map f (seq 0 n).

Lemma mk_length {A} n (f : nat -> A) : length (mk n f) = n.
Proof. unfold mk. now rewrite map_length, seq_length. Qed.

Lemma nth_mk {A} n (f : nat -> A) d i : i < n -> nth i (mk n f) d = f i.
Proof.
  intros Hi. unfold mk.
  rewrite (nth_indep _ d (f 0)) by (now rewrite map_length, seq_length).
  rewrite map_nth. now rewrite seq_nth.
Qed.

Lemma nth_mk_or {A} n (f : nat -> A) d i : nth i (mk n f) d = if i <? n then f i else d.
Proof.
  destruct (Nat.ltb_spec i n) as [H|H]; [now apply nth_mk|].
  apply nth_overflow. now rewrite mk_length.
Qed.

Lemma mk_ext {A} n (f g : nat -> A) : (forall i, i < n -> f i = g i) -> mk n f = mk n g.
Proof. intros H. unfold mk. apply map_ext_in. intros i Hi. apply in_seq in Hi. apply H. lia. Qed.

Lemma mk_S {A} n (f : nat -> A) : mk (S n) f = mk n f ++ [f n].
Proof. unfold mk. rewrite seq_S, map_app. reflexivity. Qed.

Lemma mk_cons {A} n (f : nat -> A) : mk (S n) f = f 0 :: mk n (fun i => f (S i)).
Proof. unfold mk. cbn [seq map]. now rewrite <- seq_shift, map_map. Qed.

Lemma mk_app {A} n m (f : nat -> A) : mk (n + m) f = mk n f ++ mk m (fun i => f (n + i)).
Proof.
  induction m as [|m IH]; [now rewrite Nat.add_0_r, app_nil_r|].
  now rewrite Nat.add_succ_r, !mk_S, IH, app_assoc.
Qed.

Lemma hd_mk {A} n (f : nat -> A) d : 0 < n -> hd d (mk n f) = f 0.
Proof. destruct n; [lia|]. now rewrite mk_cons. Qed.

Lemma mk_nonempty {A} n (f : nat -> A) : 0 < n -> mk n f <> [].
Proof. intros H. destruct n; [lia|]. now rewrite mk_cons. Qed.

Lemma in_mk {A} n (f : nat -> A) x : In x (mk n f) <-> exists i, i < n /\ f i = x.
Proof.
  unfold mk. rewrite in_map_iff. split; intros [i [H1 H2]]; exists i.
  - apply in_seq in H2. split; [lia|exact H1].
  - split; [exact H2|]. apply in_seq. lia.
Qed.

Lemma Forall_mk {A} (P : A -> Prop) n (f : nat -> A) : Forall P (mk n f) <-> forall i, i < n -> P (f i).
Proof.
  rewrite Forall_forall. split.
  - intros H i Hi. apply H, in_mk. now exists i.
  - intros H x Hx. apply in_mk in Hx as [i [Hi <-]]. now apply H.
Qed.

Lemma map_mk {A B} (g : A -> B) n (f : nat -> A) : map g (mk n f) = mk n (fun i => g (f i)).
Proof. unfold mk. now rewrite map_map. Qed.

Lemma combine_mk {A B} n (f : nat -> A) (g : nat -> B) :
  combine (mk n f) (mk n g) = mk n (fun i => (f i, g i)).
Proof. unfold mk. induction (seq 0 n) as [|i l IH]; cbn [map combine]; [reflexivity|]. now rewrite IH. Qed.

Lemma flat_map_single {A B} (g : A -> B) l : flat_map (fun x => [g x]) l = map g l.
Proof. induction l as [|x l IH]; cbn [flat_map map app]; [reflexivity|]. now rewrite IH. Qed.

Lemma concat_mk_single {A} n (f : nat -> A) : concat (mk n (fun i => [f i])) = mk n f.
Proof. unfold mk. rewrite <- flat_map_concat_map. apply flat_map_single. Qed.

Lemma list_as_mk {A} (l : list A) d : l = mk (length l) (fun k => nth k l d).
Proof.
  apply (nth_ext _ _ d d); [now rewrite mk_length|].
  intros k Hk. now rewrite nth_mk.
Qed.

Lemma mk_nth_id {A} (l : list A) d : mk (length l) (fun k => nth k l d) = l.
Proof. symmetry. apply list_as_mk. Qed.

Lemma map_as_mk {A B} (f : A -> B) (l : list A) d : map f l = mk (length l) (fun k => f (nth k l d)).
Proof. rewrite (list_as_mk l d) at 1. apply map_mk. Qed.

Lemma combine_as_mk {A B} (l1 : list A) (l2 : list B) d1 d2 :
  length l2 = length l1 -> combine l1 l2 = mk (length l1) (fun k => (nth k l1 d1, nth k l2 d2)).
Proof.
  intros Hl. rewrite (list_as_mk l1 d1), (list_as_mk l2 d2) at 1. rewrite Hl. apply combine_mk.
Qed.

Lemma nth_nil {A} i (d : A) : nth i [] d = d.
Proof. now destruct i. Qed.

Lemma hd_nth0 {A} (l : list A) d : hd d l = nth 0 l d.
Proof. now destruct l. Qed.

Lemma nth_map_lt {A B} (f : A -> B) (l : list A) i d d' :
  i < length l -> nth i (map f l) d' = f (nth i l d).
Proof. intros Hi. rewrite (nth_indep _ d' (f d)) by (now rewrite map_length). apply map_nth. Qed.

Lemma nth_firstn {A} (l : list A) n i d : i < n -> nth i (firstn n l) d = nth i l d.
Proof. revert n i; induction l as [|x l IH]; intros n i Hi.
  - now rewrite firstn_nil.
  - destruct n; [lia|]. destruct i; cbn; [reflexivity|]. apply IH. lia. Qed.

Lemma combine_nth_lt {A B} (xs : list A) (ys : list B) k da db :
  k < Nat.min (length xs) (length ys) ->
  nth k (combine xs ys) (da, db) = (nth k xs da, nth k ys db).
Proof.
  revert ys k. induction xs as [|x xs IH]; intros [|y ys] k Hk; cbn [length] in Hk; try lia.
  destruct k as [|k]; cbn [combine nth]; [reflexivity|]. apply IH. cbn [Nat.min] in Hk. lia.
Qed.

Lemma combine_map_r {A B C} (f : B -> C) (l : list A) (l' : list B) :
  combine l (map f l') = map (fun ab => (fst ab, f (snd ab))) (combine l l').
Proof. revert l'; induction l as [|a l IH]; intros [|b l']; cbn; [reflexivity..|]. now rewrite IH. Qed.

Lemma combine_map_both {A B C D} (f : A -> C) (g : B -> D) (l : list A) (l' : list B) :
  combine (map f l) (map g l') = map (fun ab => (f (fst ab), g (snd ab))) (combine l l').
Proof. revert l'; induction l as [|a l IH]; intros [|b l']; cbn; [reflexivity..|]. now rewrite IH. Qed.

Lemma combine_map_same {A B C} (f : A -> B) (g : A -> C) (l : list A) :
  combine (map f l) (map g l) = map (fun x => (f x, g x)) l.
Proof. induction l as [|x l IH]; cbn [map combine]; [reflexivity|]. now rewrite IH. Qed.

Lemma combine_map_map3 {A B C D} (f : A -> C) (g : A -> D) (l : list A) (l2 : list B) :
  combine (map f l) (combine (map g l) l2)
  = map (fun xc : A * B => (f (fst xc), (g (fst xc), snd xc))) (combine l l2).
Proof. revert l2; induction l as [|a l IH]; intros [|b l2]; cbn [map combine fst snd]; [reflexivity..|]. now rewrite IH. Qed.

Lemma map_fst_combine {A B} (la : list A) (lb : list B) :
  length la = length lb -> map fst (combine la lb) = la.
Proof.
  revert lb; induction la as [|a la IH]; intros [|b lb] H; cbn in *; try congruence. f_equal. apply IH. lia.
Qed.

Lemma map_snd_combine {A B} (la : list A) (lb : list B) :
  length la = length lb -> map snd (combine la lb) = lb.
Proof.
  revert lb; induction la as [|a la IH]; intros [|b lb] H; cbn in *; try congruence. f_equal. apply IH. lia.
Qed.

Lemma Forall2_nth' {A B} (R : A -> B -> Prop) l l' da db i :
  Forall2 R l l' -> i < length l -> R (nth i l da) (nth i l' db).
Proof.
  intros H. revert i. induction H as [|x y l l' Hxy _ IH]; intros [|i] Hi; cbn in *; try lia; [exact Hxy|].
  apply IH. lia.
Qed.

Lemma Forall2_length' {A B} (R : A -> B -> Prop) l l' : Forall2 R l l' -> length l' = length l.
Proof. induction 1; cbn; congruence. Qed.

Lemma concat_length_const {A} (ll : list (list A)) n :
  Forall (fun l => length l = n) ll -> length (concat ll) = length ll * n.
Proof.
  induction 1 as [|l ll Hl _ IH]; cbn [concat length]; [reflexivity|].
  now rewrite app_length, Hl, IH.
Qed.

Lemma nth_concat_uniform {A} (w : nat) (ll : list (list A)) (d : A) i j :
  Forall (fun r => length r = w) ll -> j < w -> nth (i * w + j) (concat ll) d = nth j (nth i ll []) d.
Proof.
  intros Hl Hj. revert i. induction Hl as [|r ll Hr _ IH]; intros i; cbn [concat].
  - now rewrite !nth_nil.
  - destruct i as [|i]; cbn [Nat.mul Nat.add nth]; [apply app_nth1; lia|].
    rewrite app_nth2 by lia. rewrite <- IH. f_equal. lia.
Qed.

(* rows j..j+n, where row (j+1) = step j (row j) (row (j-1)) *)
Fixpoint iter2 {A} (step : nat -> A -> A -> A) (n j : nat) (cur prev : A) : list A :=
  match n with
  | O => [cur]
  | S n' => cur :: iter2 step n' (S j) (step j cur prev) cur
  end.

Lemma iter2_length {A} (step : nat -> A -> A -> A) n j cur prev :
  length (iter2 step n j cur prev) = S n.
Proof. revert j cur prev; induction n as [|n IH]; intros; cbn [iter2 length]; [reflexivity|].
  now rewrite IH. Qed.

Lemma iter2_spec {A} (step : nat -> A -> A -> A) (P : nat -> A -> Prop) d :
  (forall j x y, P j x -> (0 < j -> P (j - 1) y) -> P (S j) (step j x y)) ->
  forall n j cur prev, P j cur -> (0 < j -> P (j - 1) prev) ->
  forall m, m <= n -> P (j + m) (nth m (iter2 step n j cur prev) d).
Proof.
  intros Hstep. induction n as [|n IH]; intros j cur prev Hc Hp m Hm.
  - assert (m = 0) by lia. subst m. cbn [iter2 nth]. now rewrite Nat.add_0_r.
  - destruct m as [|m]; cbn [iter2 nth].
    + now rewrite Nat.add_0_r.
    + replace (j + S m) with (S j + m) by lia. apply IH; [| |lia].
      * apply Hstep; assumption.
      * intros _. now replace (S j - 1) with j by lia.
Qed.

Section Sum.
Context {A : Type} (zero : A) (add : A -> A -> A).
Fixpoint sumn (n : nat) (f : nat -> A) : A :=
  match n with O => zero | S n' => add (sumn n' f) (f n') end.
Definition suml (l : list A) : A := fold_right add zero l.
Lemma sumn_ext n f g : (forall i, i < n -> f i = g i) -> sumn n f = sumn n g.
Proof. induction n as [|n IH]; intros H; cbn [sumn]; [reflexivity|].
  rewrite IH by (intros; apply H; lia). now rewrite H by lia. Qed.
End Sum.
