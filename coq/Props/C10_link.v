(* Props/C10_link.v — property C10, the LINK between the two models of the Cartesian->spherical transformation.

   Props/C10.v verifies the EXACT model Model/SphExact.v (entries are pairs (r, q) of canonical rationals meaning
   r * sqrt q).  Every integral / evaluation model of the other properties uses Model/Spherical.sph_transform
   (generic field K, square-root oracle [fsqrt K]; runner command 4; [shell_transform] inside the assemblies).
   The theorems below say that the two denote the same numbers, so what Props/C10.v proves (harmonic, homogeneous,
   orthonormal, phase, order) is a statement about the transformation the other properties use:

     for every l <= 10, EVERY Cartesian order [carts] made of components of degree l and EVERY label list
     [labels] of admissible labels (any order, any signs), entry (i, j) of  sph_transform K l carts labels
     equals   ofQc K r * fsqrt K (ofQc K q)   for the entry (r, q) of  left_form l carts labels.

   [ofQc K] is the canonical embedding Qc -> F (numerator / denominator), a field homomorphism in characteristic 0.
   Model/Spherical multiplies three square roots per entry where the exact model carries one radicand, so the
   oracle is assumed multiplicative on images of POSITIVE rationals ([sqrt_mul_pos], [sqrt_div_pos], spelled out
   in C10_link_unfold); nothing else is assumed of it.  The real numbers satisfy every hypothesis (RK).
   The finite domain l <= 10 is enumerated completely by vm_compute over Qc (the coefficients in
   Proofs/DiagSphCheckP.check_rows_all, the radicands in Proofs/SphLinkP.link_check_all).
   Statements closed by [exact] of a lemma of Proofs/SphLinkP.v, the matrix statements over R in two lines from
   the generic ones; each followed by Print Assumptions. *)
From Coq Require Import List Arith ZArith QArith Qcanon Reals.
From GB Require Import Base.Field Model.Shell Model.Spherical Model.SphExact Proofs.SphExactP
  Proofs.DiagSphCheckP Proofs.ScreeningP Proofs.SphLinkP.
Import ListNotations.
Local Open Scope nat_scope.

(* what the symbols stand for (by definition) *)
Theorem C10_link_unfold :
  forall (F : Type) (K : Fops F) (q : Qc) (s : surd) (l : nat) (lb : label),
  ofQc K q = fdiv K (ofZ K (Qnum (this q))) (ofZ K (Zpos (Qden (this q))))
  /\ (forall p, ofZ K (Zpos p) = ofnat K (Pos.to_nat p) /\ ofZ K (Zneg p) = fopp K (ofnat K (Pos.to_nat p)))
  /\ ofZ K 0%Z = f0 K
  /\ sden K s = fmul K (ofQc K (fst s)) (fsqrt K (ofQc K (snd s)))
  /\ (sqrt_mul_pos K <-> forall a b : Qc, (0 < a)%Qc -> (0 < b)%Qc ->
        fsqrt K (fmul K (ofQc K a) (ofQc K b)) = fmul K (fsqrt K (ofQc K a)) (fsqrt K (ofQc K b)))
  /\ (sqrt_div_pos K <-> forall a b : Qc, (0 < a)%Qc -> (0 < b)%Qc ->
        fsqrt K (fdiv K (ofQc K a) (ofQc K b)) = fdiv K (fsqrt K (ofQc K a)) (fsqrt K (ofQc K b)))
  /\ (adm_label l lb <-> (snd lb <= l /\ (snd (fst lb) = true -> 1 <= snd lb))).
Proof.
  exact (fun F K q s l lb => conj eq_refl (conj (fun p => conj eq_refl eq_refl) (conj eq_refl (conj eq_refl
    (conj (conj (fun H => H) (fun H => H)) (conj (conj (fun H => H) (fun H => H)) (conj (fun H => H) (fun H => H)))))))).
Qed.
Print Assumptions C10_link_unfold.

(* the embedding of the canonical rationals is a field homomorphism (characteristic 0) *)
Theorem C10_link_embedding_hom :
  forall (F : Type) (K : Fops F), is_field K -> (forall n, ofnat K (S n) <> f0 K) ->
  ofQc K 0%Qc = f0 K /\ ofQc K 1%Qc = f1 K
  /\ (forall a b, ofQc K (a + b)%Qc = fadd K (ofQc K a) (ofQc K b))
  /\ (forall a b, ofQc K (a * b)%Qc = fmul K (ofQc K a) (ofQc K b))
  /\ (forall a, ofQc K (- a)%Qc = fopp K (ofQc K a))
  /\ (forall a b, ofQc K (a - b)%Qc = fsub K (ofQc K a) (ofQc K b))
  /\ (forall a b, b <> 0%Qc -> ofQc K (a / b)%Qc = fdiv K (ofQc K a) (ofQc K b))
  /\ (forall b, b <> 0%Qc -> ofQc K b <> f0 K).
Proof.
  exact (fun F K Kf c0 => conj (ofQc_0 K Kf c0) (conj (ofQc_1 K Kf c0) (conj (ofQc_plus K Kf c0)
    (conj (ofQc_mult K Kf c0) (conj (ofQc_opp K Kf c0) (conj (ofQc_minus K Kf c0)
    (conj (ofQc_div K Kf c0) (ofQc_nz K Kf c0)))))))).
Qed.
Print Assumptions C10_link_embedding_hom.

(* the rational core of Model/Spherical (Proofs/DiagSphP.v: hcoef, hrad, dfp) evaluated at Qc IS the
   (rational, radicand) data of the exact model; complete enumeration l <= 10 *)
Theorem C10_link_tables :
  forall l sine m c, l <= 10 -> valid_sm l sine m -> In c (default_comps l) ->
  DiagSphP.hcoef QK l m sine c = coef (real_solid_harmonic l m sine) c
  /\ DiagSphP.hrad QK l m = harmonic_radicand l m /\ (0 < harmonic_radicand l m)%Qc
  /\ DiagSphP.dfp QK c = zq (cart_df c) /\ (0 < zq (cart_df c))%Qc
  /\ FNum.fdf_odd QK l = zq (zdf_odd l) /\ (0 < zq (zdf_odd l))%Qc.
Proof. exact link_tables. Qed.
Print Assumptions C10_link_tables.

(* THE LINK, entry by entry: every l <= 10, every convention *)
Theorem C10_link_entry :
  forall (F : Type) (K : Fops F), is_field K -> (forall n, ofnat K (S n) <> f0 K) ->
  sqrt_mul_pos K -> sqrt_div_pos K ->
  forall (l : nat) (carts : list comp) (labels : list label) (i j : nat),
  l <= 10 ->
  (forall c, In c carts -> In c (default_comps l)) ->
  (forall lb, In lb labels -> adm_label l lb) ->
  i < length labels -> j < length carts ->
  nth j (nth i (sph_transform K l carts labels) []) (f0 K)
  = sden K (nth j (nth i (left_form l carts labels) []) szero).
Proof. exact (fun F K => sph_transform_entry_link K). Qed.
Print Assumptions C10_link_entry.

Theorem C10_link_matrix :
  forall (F : Type) (K : Fops F), is_field K -> (forall n, ofnat K (S n) <> f0 K) ->
  sqrt_mul_pos K -> sqrt_div_pos K ->
  forall (l : nat) (carts : list comp) (labels : list label),
  l <= 10 ->
  (forall c, In c carts -> In c (default_comps l)) ->
  (forall lb, In lb labels -> adm_label l lb) ->
  sph_transform K l carts labels = map (map (sden K)) (left_form l carts labels).
Proof. exact (fun F K => sph_transform_is_exact K). Qed.
Print Assumptions C10_link_matrix.

(* ... on the default conventions: the matrix [C10_all] (Props/C10.v) is about *)
Theorem C10_link_default :
  forall (F : Type) (K : Fops F), is_field K -> (forall n, ofnat K (S n) <> f0 K) ->
  sqrt_mul_pos K -> sqrt_div_pos K ->
  forall l, l <= 10 ->
  sph_transform K l (default_comps l) (default_labels l)
  = map (map (sden K)) (left_form l (default_comps l) (default_labels l)).
Proof.
  intros F K Kf Hc Hm Hd l Hl. apply (sph_transform_is_exact K Kf Hc Hm Hd); [exact Hl|auto|].
  intros lb H. now apply default_labels_adm.
Qed.
Print Assumptions C10_link_default.

(* ... and for the matrix the assemblies of every integral model apply to a spherical shell *)
Theorem C10_link_shell_transform :
  forall (F : Type) (K : Fops F), is_field K -> (forall n, ofnat K (S n) <> f0 K) ->
  sqrt_mul_pos K -> sqrt_div_pos K ->
  forall s : shell F,
  (forall x, fapx K x = x) -> s_l s <= 10 ->
  (forall c, In c (comps_of s) -> In c (default_comps (s_l s))) ->
  (forall lb, In lb (labels_of s) -> adm_label (s_l s) lb) ->
  shell_transform K s = map (map (sden K)) (left_form (s_l s) (comps_of s) (labels_of s)).
Proof. exact (fun F K => shell_transform_is_exact K). Qed.
Print Assumptions C10_link_shell_transform.

(* the default label list is admissible, the default component list is itself: the premises are met by a
   shell with default conventions *)
Theorem C10_link_default_labels_admissible :
  forall l lb, In lb (default_labels l) -> adm_label l lb.
Proof. exact default_labels_adm. Qed.
Print Assumptions C10_link_default_labels_admissible.

(* the real numbers: no hypothesis on the square root left *)
Theorem C10_link_embedding_R : forall q : Qc, ofQc RK q = Q2R (this q).
Proof. exact ofQc_R. Qed.
Print Assumptions C10_link_embedding_R.

Theorem C10_link_entry_R :
  forall (l : nat) (carts : list comp) (labels : list label) (i j : nat),
  l <= 10 ->
  (forall c, In c carts -> In c (default_comps l)) ->
  (forall lb, In lb labels -> adm_label l lb) ->
  i < length labels -> j < length carts ->
  nth j (nth i (sph_transform RK l carts labels) []) 0%R
  = (let s := nth j (nth i (left_form l carts labels) []) szero in
     Q2R (this (fst s)) * sqrt (Q2R (this (snd s))))%R.
Proof. exact sph_transform_entry_link_R. Qed.
Print Assumptions C10_link_entry_R.

Theorem C10_link_matrix_R :
  forall (l : nat) (carts : list comp) (labels : list label),
  l <= 10 ->
  (forall c, In c carts -> In c (default_comps l)) ->
  (forall lb, In lb labels -> adm_label l lb) ->
  sph_transform RK l carts labels
  = map (map (fun s : surd => (Q2R (this (fst s)) * sqrt (Q2R (this (snd s))))%R)) (left_form l carts labels).
Proof.
  intros l carts labels Hl Hc Hlb.
  rewrite (sph_transform_is_exact RK RK_field char0_R sqrt_mul_pos_R sqrt_div_pos_R l carts labels Hl Hc Hlb).
  exact (sden_R_map _).
Qed.
Print Assumptions C10_link_matrix_R.

Theorem C10_link_shell_transform_R :
  forall s : shell R,
  s_l s <= 10 ->
  (forall c, In c (comps_of s) -> In c (default_comps (s_l s))) ->
  (forall lb, In lb (labels_of s) -> adm_label (s_l s) lb) ->
  shell_transform RK s
  = map (map (fun p : surd => (Q2R (this (fst p)) * sqrt (Q2R (this (snd p))))%R))
        (left_form (s_l s) (comps_of s) (labels_of s)).
Proof.
  intros s Hl Hc Hlb.
  rewrite (shell_transform_is_exact RK RK_field char0_R sqrt_mul_pos_R sqrt_div_pos_R s CoreNormP.fapx_id_R Hl Hc Hlb).
  exact (sden_R_map _).
Qed.
Print Assumptions C10_link_shell_transform_R.

Example C10_link_hypotheses_R :
  is_field RK /\ (forall n, ofnat RK (S n) <> f0 RK) /\ sqrt_mul_pos RK /\ sqrt_div_pos RK
  /\ (forall x, fapx RK x = x).
Proof. exact link_hypotheses_R. Qed.
Print Assumptions C10_link_hypotheses_R.

(* d shell, default conventions, function c0, component zz: the exact model's (1/2, 4) is the real number 1 *)
Example C10_link_d_c0_zz_R :
  nth 5 (nth 2 (sph_transform RK 2 (default_comps 2) (default_labels 2)) []) 0%R = 1%R.
Proof. exact link_d_c0_zz_R. Qed.
Print Assumptions C10_link_d_c0_zz_R.
