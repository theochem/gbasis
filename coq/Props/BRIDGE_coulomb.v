(* Props/BRIDGE_coulomb.v — bridge (B2) reduced to the exchange of integrals.  Only statements closed by [exact] of,
   or in a step or two from, lemmas proved in Gauss/CoulombBridge.v, each followed by Print Assumptions.

   gint g l   : improper Riemann integral of g over R is l                       (Gauss/BridgeR.v)
   gint3 F l  : iterated improper integral of F over R^3 is l                    (Gauss/Bridge3D.v)
   hint g l   : improper Riemann integral of g over [0, +oo) is l
                (is_RInt_gen g (at_point 0) (Rbar_locally p_infty) l; BRIDGE_B2_hint_meaning)
   HInt g     : its value (RInt_gen)
   cprim al A c : Cartesian Gaussian primitive (x-Ax)^cx (y-Ay)^cy (z-Az)^cz exp(-al |r-A|^2)   (Gauss/Bridge3D.v)
   coulomb_kernel C A B al be ca cb u x y z = (2/sqrt PI) phi_a(r) phi_b(r) exp(-u^2 |r-C|^2)
   coulomb_integrand C A B al be ca cb x y z = phi_a(r) phi_b(r) / sqrt(|r-C|^2)
   Ju ... u   : the closed form of the iterated integral over R^3 of the kernel at fixed u (model variables)
   prim_val RKB ... : the spec of one primitive pair of the one-electron Coulomb models (Proofs/OneElecP.v) at the
                reals with the honest Boys function (Gauss/BoysBridge.v)
   exchange_holds K F := forall J L, (forall u, 0 <= u -> gint3 (K u) (J u)) -> hint J L -> gint3 F L

   What remains trusted for (B2) after this file: ONLY the exchange of the u-integral with the integral over R^3
   (Fubini-Tonelli) for the explicit continuous kernel [coulomb_kernel], i.e. the hypothesis [exchange_holds] of
   BRIDGE_B2_coulomb_prim_is_prim_val_modulo_exchange, which by BRIDGE_B2_exchange_equivalent_to_conclusion is
   exactly as strong as the conclusion.  The Laplace representation of 1/r (i), the Gaussian integration at fixed u
   (iii) and the substitution t^2 = u^2/(p+u^2) (iv) are theorems below. *)
From Coq Require Import List Reals.
From Coquelicot Require Import Coquelicot.
From GB Require Import Base.Field Base.FNum Gauss.Moment1D Gauss.SPoly Gauss.DerivBridge Gauss.BridgeR
  Gauss.Bridge3D Model.Shell Proofs.CoreBlockP Proofs.ScreeningP Proofs.OneElecP Gauss.BoysBridge
  Gauss.CoulombBridge.
Import ListNotations.
Open Scope R_scope.

Theorem BRIDGE_B2_hint_meaning :
  forall (g : R -> R) (l : R),
  hint g l <->
  (forall eps : posreal, exists M : R, forall b : R, M < b ->
     exists y : R, is_RInt g 0 b y /\ Rabs (y - l) < eps).
Proof. exact hint_spelled_out. Qed.
Print Assumptions BRIDGE_B2_hint_meaning.

Theorem BRIDGE_B2_even_half :
  forall (g : R -> R) (l : R), (forall x, g (- x) = g x) -> gint g l -> hint g (l / 2).
Proof. exact gint_even_half. Qed.
Print Assumptions BRIDGE_B2_even_half.

Theorem BRIDGE_B2_inv_r_gaussian_representation :
  forall r : R, 0 < r -> hint (fun u => exp (- u ^ 2 * r ^ 2)) (sqrt PI / (2 * r)).
Proof. exact inv_r_gaussian_representation. Qed.
Print Assumptions BRIDGE_B2_inv_r_gaussian_representation.

Theorem BRIDGE_B2_inv_r_laplace :
  forall r : R, 0 < r -> / r = 2 / sqrt PI * HInt (fun u => exp (- u ^ 2 * r ^ 2)).
Proof.
  intros r Hr. rewrite (HInt_correct _ _ (inv_r_gaussian_representation r Hr)). field.
  split; apply Rgt_not_eq; [exact Hr | exact sqrt_PI_pos].
Qed.
Print Assumptions BRIDGE_B2_inv_r_laplace.

Theorem BRIDGE_B2_inv_sqrt_laplace :
  forall d2 : R, 0 < d2 -> hint (fun u => 2 / sqrt PI * exp (- u ^ 2 * d2)) (/ sqrt d2).
Proof. exact inv_sqrt_laplace. Qed.
Print Assumptions BRIDGE_B2_inv_sqrt_laplace.

Theorem BRIDGE_B2_coulomb_integrand_is_u_integral :
  forall (Cx Cy Cz Ax Ay Az Bx By Bz al be : R) (ca cb : Shell.comp) (x y z : R),
  (x, y, z) <> (Cx, Cy, Cz) ->
  hint (fun u => 2 / sqrt PI * (cprim al Ax Ay Az ca x y z * cprim be Bx By Bz cb x y z)
                 * exp (- u ^ 2 * ((x - Cx) ^ 2 + (y - Cy) ^ 2 + (z - Cz) ^ 2)))
       (cprim al Ax Ay Az ca x y z * cprim be Bx By Bz cb x y z
        / sqrt ((x - Cx) ^ 2 + (y - Cy) ^ 2 + (z - Cz) ^ 2)).
Proof. exact coulomb_integrand_is_u_integral. Qed.
Print Assumptions BRIDGE_B2_coulomb_integrand_is_u_integral.

Theorem BRIDGE_B2_three_gauss_1d :
  forall (al be w A B C : R) (i j : nat), 0 < al -> 0 < be -> 0 <= w ->
  let p := al + be in let P := (al * A + be * B) / p in let mu := al * be / p in
  let q := p + w in let W := (p * P + w * C) / q in
  gint (fun x => (x - A) ^ i * (x - B) ^ j
                 * exp (- al * (x - A) ^ 2) * exp (- be * (x - B) ^ 2) * exp (- w * (x - C) ^ 2))
       (exp (- mu * (A - B) ^ 2) * exp (- (p * w / q) * (P - C) ^ 2) * sqrt (PI / q)
        * S3 RKd (vR q) (W - A) (W - B) 0 0 0 i j).
Proof. exact three_gauss_1d. Qed.
Print Assumptions BRIDGE_B2_three_gauss_1d.

Theorem BRIDGE_B2_three_gauss_1d_model :
  forall (al be w A B C : R) (i j : nat), 0 < al -> 0 < be -> 0 <= w ->
  let p := al + be in let P := (al * A + be * B) / p in let mu := al * be / p in
  let q := p + w in let s := w / q in let v := 1 / ((1 + 1) * p) in
  gint (fun x => cg1 al A i x * cg1 be B j x * exp (- w * (x - C) ^ 2))
       (exp (- mu * (A - B) ^ 2) * exp (- (p * s) * (P - C) ^ 2) * sqrt (PI / q)
        * S3 RKB (v * (1 - s)) (P - A - s * (P - C)) (P - B - s * (P - C)) 0 0 0 i j).
Proof. exact three_gauss_1d_model. Qed.
Print Assumptions BRIDGE_B2_three_gauss_1d_model.

Theorem BRIDGE_B2_gaussian_at_fixed_u_raw :
  forall (Cx Cy Cz Ax Ay Az Bx By Bz al be : R) (ca cb : Shell.comp) (u : R),
  0 < al -> 0 < be ->
  let p := al + be in
  let Px := (al * Ax + be * Bx) / p in let Py := (al * Ay + be * By) / p in
  let Pz := (al * Az + be * Bz) / p in
  let mu := al * be / p in
  let q := p + u ^ 2 in
  let Wx := (p * Px + u ^ 2 * Cx) / q in let Wy := (p * Py + u ^ 2 * Cy) / q in
  let Wz := (p * Pz + u ^ 2 * Cz) / q in
  gint3 (fun x y z => cprim al Ax Ay Az ca x y z * cprim be Bx By Bz cb x y z
                      * exp (- u ^ 2 * ((x - Cx) ^ 2 + (y - Cy) ^ 2 + (z - Cz) ^ 2)))
        (PI / q * sqrt (PI / q)
         * exp (- mu * ((Ax - Bx) ^ 2 + (Ay - By) ^ 2 + (Az - Bz) ^ 2))
         * exp (- (p * u ^ 2 / q) * ((Px - Cx) ^ 2 + (Py - Cy) ^ 2 + (Pz - Cz) ^ 2))
         * (S3 RKd (vR q) (Wx - Ax) (Wx - Bx) 0 0 0 (cx ca) (cx cb)
            * S3 RKd (vR q) (Wy - Ay) (Wy - By) 0 0 0 (cy ca) (cy cb)
            * S3 RKd (vR q) (Wz - Az) (Wz - Bz) 0 0 0 (cz ca) (cz cb))).
Proof. exact gaussian_at_fixed_u_raw. Qed.
Print Assumptions BRIDGE_B2_gaussian_at_fixed_u_raw.

Theorem BRIDGE_B2_gaussian_at_fixed_u :
  forall (Cx Cy Cz Ax Ay Az Bx By Bz al be : R) (ca cb : Shell.comp) (u : R),
  0 < al -> 0 < be ->
  let p := al + be in
  let Px := (al * Ax + be * Bx) / p in let Py := (al * Ay + be * By) / p in
  let Pz := (al * Az + be * Bz) / p in
  let mu := al * be / p in
  let ab2 := (Ax - Bx) * (Ax - Bx) + (Ay - By) * (Ay - By) + (Az - Bz) * (Az - Bz) in
  let pc2 := (Px - Cx) * (Px - Cx) + (Py - Cy) * (Py - Cy) + (Pz - Cz) * (Pz - Cz) in
  let v := 1 / ((1 + 1) * p) in
  let q := p + u ^ 2 in let s := u ^ 2 / q in
  gint3 (fun x y z => 2 / sqrt PI * (cprim al Ax Ay Az ca x y z * cprim be Bx By Bz cb x y z)
                      * exp (- u ^ 2 * ((x - Cx) ^ 2 + (y - Cy) ^ 2 + (z - Cz) ^ 2)))
        (2 / sqrt PI * (PI / q * sqrt (PI / q)) * exp (- (mu * ab2)) * exp (- (p * pc2) * s)
         * (S3 RKB (v * (1 - s)) (Px - Ax - s * (Px - Cx)) (Px - Bx - s * (Px - Cx)) 0 0 0
               (fst (fst ca)) (fst (fst cb))
            * S3 RKB (v * (1 - s)) (Py - Ay - s * (Py - Cy)) (Py - By - s * (Py - Cy)) 0 0 0
                 (snd (fst ca)) (snd (fst cb))
            * S3 RKB (v * (1 - s)) (Pz - Az - s * (Pz - Cz)) (Pz - Bz - s * (Pz - Cz)) 0 0 0
                 (snd ca) (snd cb))).
Proof. exact gaussian_at_fixed_u. Qed.
Print Assumptions BRIDGE_B2_gaussian_at_fixed_u.

Theorem BRIDGE_B2_substitution :
  forall (p : R) (g : R -> R), 0 < p -> (forall t, continuous g t) ->
  hint (fun u => p / ((p + u ^ 2) * sqrt (p + u ^ 2)) * g (u / sqrt (p + u ^ 2))) (RInt g 0 1).
Proof. exact hint_subst_tau. Qed.
Print Assumptions BRIDGE_B2_substitution.

Theorem BRIDGE_B2_Ju_integral :
  forall (Cx Cy Cz Ax Ay Az Bx By Bz al be : R) (ca cb : Shell.comp), 0 < al -> 0 < be ->
  hint (Ju Cx Cy Cz Ax Ay Az Bx By Bz al be ca cb) (prim_val RKB Cx Cy Cz Ax Ay Az Bx By Bz al be ca cb).
Proof. exact Ju_integral. Qed.
Print Assumptions BRIDGE_B2_Ju_integral.

Theorem BRIDGE_B2_coulomb_u_then_r_integral_is_prim_val :
  forall (Cx Cy Cz Ax Ay Az Bx By Bz al be : R) (ca cb : Shell.comp), 0 < al -> 0 < be ->
  exists J : R -> R,
    (forall u, gint3 (coulomb_kernel Cx Cy Cz Ax Ay Az Bx By Bz al be ca cb u) (J u)) /\
    hint J (prim_val RKB Cx Cy Cz Ax Ay Az Bx By Bz al be ca cb).
Proof. exact coulomb_u_then_r_integral_is_prim_val. Qed.
Print Assumptions BRIDGE_B2_coulomb_u_then_r_integral_is_prim_val.

Theorem BRIDGE_B2_coulomb_prim_is_prim_val_modulo_exchange :
  forall (Cx Cy Cz Ax Ay Az Bx By Bz al be : R) (ca cb : Shell.comp), 0 < al -> 0 < be ->
  exchange_holds (coulomb_kernel Cx Cy Cz Ax Ay Az Bx By Bz al be ca cb)
                 (coulomb_integrand Cx Cy Cz Ax Ay Az Bx By Bz al be ca cb) ->
  gint3 (fun x y z => cprim al Ax Ay Az ca x y z * cprim be Bx By Bz cb x y z
                      / sqrt ((x - Cx) ^ 2 + (y - Cy) ^ 2 + (z - Cz) ^ 2))
        (prim_val RKB Cx Cy Cz Ax Ay Az Bx By Bz al be ca cb).
Proof. intros. now apply exchange_gives_prim_val. Qed.
Print Assumptions BRIDGE_B2_coulomb_prim_is_prim_val_modulo_exchange.

Theorem BRIDGE_B2_coulomb_prim_is_prim_val_modulo_exchange_HInt :
  forall (Cx Cy Cz Ax Ay Az Bx By Bz al be : R) (ca cb : Shell.comp), 0 < al -> 0 < be ->
  exchange_holds (coulomb_kernel Cx Cy Cz Ax Ay Az Bx By Bz al be ca cb)
                 (fun x y z => HInt (fun u => coulomb_kernel Cx Cy Cz Ax Ay Az Bx By Bz al be ca cb u x y z)) ->
  gint3 (fun x y z =>
           HInt (fun u => 2 / sqrt PI * (cprim al Ax Ay Az ca x y z * cprim be Bx By Bz cb x y z)
                          * exp (- u ^ 2 * ((x - Cx) ^ 2 + (y - Cy) ^ 2 + (z - Cz) ^ 2))))
        (prim_val RKB Cx Cy Cz Ax Ay Az Bx By Bz al be ca cb).
Proof. intros. now apply exchange_gives_prim_val. Qed.
Print Assumptions BRIDGE_B2_coulomb_prim_is_prim_val_modulo_exchange_HInt.

Theorem BRIDGE_B2_coulomb_HInt_integrand_eq :
  forall (Cx Cy Cz Ax Ay Az Bx By Bz al be : R) (ca cb : Shell.comp) (x y z : R),
  (x, y, z) <> (Cx, Cy, Cz) ->
  HInt (fun u => coulomb_kernel Cx Cy Cz Ax Ay Az Bx By Bz al be ca cb u x y z)
  = coulomb_integrand Cx Cy Cz Ax Ay Az Bx By Bz al be ca cb x y z.
Proof. intros. apply HInt_correct. now apply coulomb_integrand_is_u_integral. Qed.
Print Assumptions BRIDGE_B2_coulomb_HInt_integrand_eq.

Theorem BRIDGE_B2_coulomb_value_modulo_exchange :
  forall (Cx Cy Cz Ax Ay Az Bx By Bz al be : R) (ca cb : Shell.comp) (l : R), 0 < al -> 0 < be ->
  exchange_holds (coulomb_kernel Cx Cy Cz Ax Ay Az Bx By Bz al be ca cb)
                 (coulomb_integrand Cx Cy Cz Ax Ay Az Bx By Bz al be ca cb) ->
  gint3 (coulomb_integrand Cx Cy Cz Ax Ay Az Bx By Bz al be ca cb) l ->
  l = prim_val RKB Cx Cy Cz Ax Ay Az Bx By Bz al be ca cb.
Proof.
  intros Cx Cy Cz Ax Ay Az Bx By Bz al be ca cb l Ha Hb Hex Hl.
  exact (gint3_unique _ _ _ Hl (exchange_gives_prim_val _ _ _ _ _ _ _ _ _ _ _ _ _ _ Ha Hb Hex)).
Qed.
Print Assumptions BRIDGE_B2_coulomb_value_modulo_exchange.

(* the hypothesis is exactly as strong as the conclusion: nothing more than the exchange is assumed *)
Theorem BRIDGE_B2_exchange_equivalent_to_conclusion :
  forall (Cx Cy Cz Ax Ay Az Bx By Bz al be : R) (ca cb : Shell.comp), 0 < al -> 0 < be ->
  (exchange_holds (coulomb_kernel Cx Cy Cz Ax Ay Az Bx By Bz al be ca cb)
                  (coulomb_integrand Cx Cy Cz Ax Ay Az Bx By Bz al be ca cb)
   <-> gint3 (coulomb_integrand Cx Cy Cz Ax Ay Az Bx By Bz al be ca cb)
             (prim_val RKB Cx Cy Cz Ax Ay Az Bx By Bz al be ca cb)).
Proof. exact exchange_equivalent_to_conclusion. Qed.
Print Assumptions BRIDGE_B2_exchange_equivalent_to_conclusion.

Example BRIDGE_B2_inv_r_hypothesis_satisfiable :
  exists r, 0 < r /\ hint (fun u => exp (- u ^ 2 * r ^ 2)) (sqrt PI / (2 * r)).
Proof. exact inv_r_hypothesis_satisfiable. Qed.
Print Assumptions BRIDGE_B2_inv_r_hypothesis_satisfiable.

Example BRIDGE_B2_three_gauss_hypotheses_satisfiable : exists al be w : R, 0 < al /\ 0 < be /\ 0 <= w.
Proof. exact three_gauss_hypotheses_satisfiable. Qed.
Print Assumptions BRIDGE_B2_three_gauss_hypotheses_satisfiable.

Example BRIDGE_B2_substitution_hypotheses_satisfiable :
  exists (p : R) (g : R -> R), 0 < p /\ (forall t, continuous g t) /\
    hint (fun u => dtau p u * g (tau p u)) (RInt g 0 1).
Proof. exact hint_subst_tau_hypotheses_satisfiable. Qed.
Print Assumptions BRIDGE_B2_substitution_hypotheses_satisfiable.

Example BRIDGE_B2_exchange_premises_satisfied :
  exists (J : R -> R) (L : R),
    (forall u, 0 <= u -> gint3 (coulomb_kernel 0 0 0 0 0 0 0 0 0 1 1 (0, 0, 0)%nat (0, 0, 0)%nat u) (J u))
    /\ hint J L.
Proof. exact exchange_premises_satisfied. Qed.
Print Assumptions BRIDGE_B2_exchange_premises_satisfied.

Example BRIDGE_B2_exchange_holds_satisfiable_abstract : exchange_holds (fun _ _ _ _ => 0) (fun _ _ _ => 0).
Proof. exact exchange_holds_satisfiable_abstract. Qed.
Print Assumptions BRIDGE_B2_exchange_holds_satisfiable_abstract.
