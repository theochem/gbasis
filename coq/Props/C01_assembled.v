(* Props/C01_assembled.v — theorems about the ASSEMBLED overlap matrix, i.e. about the model
   Model/Overlap.overlap_integral / overlap_integral_asymm that the correspondence check runs against
   gbasis.integrals.overlap.overlap_integral / overlap_asymm.overlap_integral_asymmetric (property C01).
   Bases of Cartesian shells, no final transformation; ANY number of shells, any l, K, M.
   Only statements closed by [exact] of a lemma of Proofs/Assembled*.v, each followed by Print Assumptions.

   Index map (documented order: shell, then segmented contraction, then angular component):
     bdim s = nseg s * ncomp s,  boff bs k = sum_{t<k} bdim s_t,  gidx bs k m c = boff bs k + (m * ncomp s_k + c),
     btotal bs = boff bs (length bs);   ncont s m c = norm_cont[m][c] = 1/sqrt(overlap_block(s,s)[m][c][m][c]).
   Hypotheses on a basis: cart_basis (every shell Cartesian with >= 1 segment), basis_wf (wf_shell for every
   shell), basis_exps (alpha + beta <> 0 for every pair of exponents of every pair of shells), and the
   hypotheses of the block theorems (fapx = identity, 1 + 1 <> 0). *)
From Coq Require Import List Arith Reals.
From GB Require Import Base.Field Base.FNum Base.Tables Model.Shell Model.MomentInt Model.Overlap
  Proofs.CoreSumP Proofs.CoreBlockP Proofs.CoreDiffP Proofs.CoreNormP Proofs.CoreExamplesP Proofs.ScreeningP
  Model.Spherical Proofs.BlockMatP Proofs.AssembledP Proofs.AssembledOverlapP Proofs.AssembledRealP
  Proofs.AssembledSphP Proofs.AssembledSphOverlapP Proofs.AssembledLincombP Proofs.AssembledExamplesP.
Import ListNotations.

(* what the index symbols stand for (by definition) *)
Theorem C01_index_unfold :
  forall (F : Type) (K : Fops F) (bs : list (shell F)) (k m c : nat),
  gidx K bs k m c = boff K bs k + (m * length (comps_of (sh_at K bs k)) + c)
  /\ boff K bs (S k) = boff K bs k + nseg (sh_at K bs k) * length (comps_of (sh_at K bs k))
  /\ boff K bs 0 = 0 /\ btotal K bs = boff K bs (length bs)
  /\ (k < length bs -> sh_at K bs k = nth k bs (sh_at K bs k))
  /\ ncont K (sh_at K bs k) m c = nth c (nth m (norm_cont K (sh_at K bs k)) []) (f0 K).
Proof. exact (fun F K bs k m c => conj eq_refl (conj eq_refl (conj eq_refl (conj eq_refl
         (conj (fun H => nth_indep bs _ _ H) eq_refl))))). Qed.
Print Assumptions C01_index_unfold.

(* the index map is a bijection between positions < btotal and triples (shell, segment, component) *)
Theorem C01_index_surjective :
  forall (F : Type) (K : Fops F) (bs : list (shell F)) (I : nat), I < btotal K bs ->
  exists k m c, k < length bs /\ m < nseg (sh_at K bs k) /\ c < ncomp (sh_at K bs k) /\ I = gidx K bs k m c.
Proof. exact (fun F K => gidx_surj K). Qed.
Print Assumptions C01_index_surjective.

Theorem C01_index_injective :
  forall (F : Type) (K : Fops F) (bs : list (shell F)) (k m c k' m' c' : nat),
  m < nseg (sh_at K bs k) -> c < ncomp (sh_at K bs k) -> m' < nseg (sh_at K bs k') -> c' < ncomp (sh_at K bs k') ->
  gidx K bs k m c = gidx K bs k' m' c' -> k = k' /\ m = m' /\ c = c'.
Proof. exact (fun F K => gidx_inj K). Qed.
Print Assumptions C01_index_injective.

(* overlap_integral_entry: EVERY entry (I, J) of the assembled matrix — upper triangle (evaluated blocks),
   lower triangle (transposed copies) and diagonal blocks alike — is
   norm_cont_i[m][c] * norm_cont_j[m'][c'] * (contracted primitive-overlap spec of Props/C01_block.v) *)
Theorem C01_overlap_integral_entry :
  forall (F : Type) (K : Fops F), is_field K ->
  (forall x : F, fapx K x = x) -> fadd K (f1 K) (f1 K) <> f0 K ->
  forall bs : list (shell F), cart_basis bs -> basis_wf bs -> basis_exps K bs bs ->
  forall i j m c m' c' : nat, i < length bs -> j < length bs ->
  m < nseg (sh_at K bs i) -> c < ncomp (sh_at K bs i) -> m' < nseg (sh_at K bs j) -> c' < ncomp (sh_at K bs j) ->
  let sa := sh_at K bs i in let sb := sh_at K bs j in
  let ca := nth c (comps_of sa) (0, 0, 0) in let cb := nth c' (comps_of sb) (0, 0, 0) in
  nth (gidx K bs j m' c') (nth (gidx K bs i m c) (overlap_integral K bs None) []) (f0 K)
  = fmul K (fmul K (ncont K sa m c) (ncont K sb m' c'))
      (contracted K sa sb ca cb m m' (ovl_prim K sa sb ca cb)).
Proof. exact (fun F K Kf Hapx H2 => overlap_integral_entry K Kf Hapx H2). Qed.
Print Assumptions C01_overlap_integral_entry.

(* the same entry in terms of the block of the ordered pair (row shell, column shell) *)
Theorem C01_overlap_integral_entry_block :
  forall (F : Type) (K : Fops F), is_field K ->
  (forall x : F, fapx K x = x) -> fadd K (f1 K) (f1 K) <> f0 K ->
  forall bs : list (shell F), cart_basis bs -> basis_wf bs -> basis_exps K bs bs ->
  forall i j m c m' c' : nat, i < length bs -> j < length bs ->
  m < nseg (sh_at K bs i) -> c < ncomp (sh_at K bs i) -> m' < nseg (sh_at K bs j) -> c' < ncomp (sh_at K bs j) ->
  nth (gidx K bs j m' c') (nth (gidx K bs i m c) (overlap_integral K bs None) []) (f0 K)
  = fmul K (fmul K (ncont K (sh_at K bs i) m c) (ncont K (sh_at K bs j) m' c'))
      (nth4 K m c m' c' (overlap_block K (sh_at K bs i) (sh_at K bs j))).
Proof. exact (fun F K Kf Hapx H2 => overlap_integral_entry_block K Kf Hapx H2). Qed.
Print Assumptions C01_overlap_integral_entry_block.

(* the matrix is btotal x btotal *)
Theorem C01_overlap_integral_shape :
  forall (F : Type) (K : Fops F) (bs : list (shell F)), cart_basis bs -> 0 < length bs ->
  length (overlap_integral K bs None) = btotal K bs
  /\ forall I, I < btotal K bs -> length (nth I (overlap_integral K bs None) []) = btotal K bs.
Proof.
  exact (fun F K bs C => two_symm_cart_shape K (f0 K) (fadd K) (fmul K) (overlap_block K) bs C
                           (overlap_blocks_shaped K bs bs)).
Qed.
Print Assumptions C01_overlap_integral_shape.

(* ... and symmetric *)
Theorem C01_overlap_integral_sym :
  forall (F : Type) (K : Fops F), is_field K ->
  (forall x : F, fapx K x = x) -> fadd K (f1 K) (f1 K) <> f0 K ->
  forall bs : list (shell F), cart_basis bs -> basis_wf bs -> basis_exps K bs bs ->
  forall I J, I < btotal K bs -> J < btotal K bs ->
  nth I (nth J (overlap_integral K bs None) []) (f0 K) = nth J (nth I (overlap_integral K bs None) []) (f0 K).
Proof. exact (fun F K Kf Hapx H2 => overlap_integral_sym K Kf Hapx H2). Qed.
Print Assumptions C01_overlap_integral_sym.

(* diag_one_cart: with a square-root oracle that is exact and non-zero on the self-overlaps
   x = overlap_block(s,s)[m][c][m][c], the diagonal element is norm_cont^2 * x = 1 *)
Theorem C01_diag_one_cart :
  forall (F : Type) (K : Fops F), is_field K ->
  (forall x : F, fapx K x = x) -> fadd K (f1 K) (f1 K) <> f0 K ->
  forall bs : list (shell F), cart_basis bs -> basis_wf bs -> basis_exps K bs bs ->
  forall i m c : nat, i < length bs -> m < nseg (sh_at K bs i) -> c < ncomp (sh_at K bs i) ->
  let x := nth4 K m c m c (overlap_block K (sh_at K bs i) (sh_at K bs i)) in
  fmul K (fsqrt K x) (fsqrt K x) = x -> x <> f0 K ->
  nth (gidx K bs i m c) (nth (gidx K bs i m c) (overlap_integral K bs None) []) (f0 K) = f1 K.
Proof. exact (fun F K Kf Hapx H2 => diag_one_cart K Kf Hapx H2). Qed.
Print Assumptions C01_diag_one_cart.

Theorem C01_diag_one_cart_all :
  forall (F : Type) (K : Fops F), is_field K ->
  (forall x : F, fapx K x = x) -> fadd K (f1 K) (f1 K) <> f0 K ->
  forall bs : list (shell F), cart_basis bs -> basis_wf bs -> basis_exps K bs bs ->
  (forall i m c, i < length bs -> m < nseg (sh_at K bs i) -> c < ncomp (sh_at K bs i) ->
     let x := nth4 K m c m c (overlap_block K (sh_at K bs i) (sh_at K bs i)) in
     fmul K (fsqrt K x) (fsqrt K x) = x /\ x <> f0 K) ->
  forall I, I < btotal K bs -> nth I (nth I (overlap_integral K bs None) []) (f0 K) = f1 K.
Proof. exact (fun F K Kf Hapx H2 => diag_one_cart_all K Kf Hapx H2). Qed.
Print Assumptions C01_diag_one_cart_all.

(* the premises discharged over the reals (real sqrt): only positivity of the self-overlap remains *)
Theorem C01_diag_one_cart_R :
  forall bs : list (shell R), cart_basis bs -> basis_wf bs ->
  (forall s, In s bs -> forall x, In x (s_exps s) -> (0 < x)%R) ->
  (forall i m c, i < length bs -> m < nseg (sh_at RK bs i) -> c < ncomp (sh_at RK bs i) ->
     (0 < nth4 RK m c m c (overlap_block RK (sh_at RK bs i) (sh_at RK bs i)))%R) ->
  forall I, I < btotal RK bs -> nth I (nth I (overlap_integral RK bs None) []) 0%R = 1%R.
Proof. exact diag_one_cart_R. Qed.
Print Assumptions C01_diag_one_cart_R.

(* one primitive per shell: the self-overlap block entry is d_m^2 (by C01_norm_prim_self_overlap) ... *)
Theorem C01_self_overlap_uncontracted_R :
  forall (s : shell R) (alpha : R) (row : list R) (m c : nat),
  s_exps s = [alpha] /\ s_coeffs s = [row] /\ (0 < alpha)%R
  /\ (forall cc, In cc (comps_of s) -> cx cc + cy cc + cz cc = s_l s) ->
  m < nseg s -> c < ncomp s ->
  nth4 RK m c m c (overlap_block RK s s) = (nth m row 0 * nth m row 0)%R.
Proof. exact self_overlap_uncontracted_R. Qed.
Print Assumptions C01_self_overlap_uncontracted_R.

(* ... so for every basis of uncontracted Cartesian shells with non-zero coefficients the assembled
   diagonal is 1, no premise left *)
Theorem C01_diag_one_uncontracted_R :
  forall bs : list (shell R), cart_basis bs ->
  (forall s, In s bs -> exists alpha row,
     (s_exps s = [alpha] /\ s_coeffs s = [row] /\ (0 < alpha)%R
      /\ (forall cc, In cc (comps_of s) -> cx cc + cy cc + cz cc = s_l s))
     /\ forall d, In d row -> d <> 0%R) ->
  forall I, I < btotal RK bs -> nth I (nth I (overlap_integral RK bs None) []) 0%R = 1%R.
Proof. exact diag_one_uncontracted_R. Qed.
Print Assumptions C01_diag_one_uncontracted_R.

Theorem C01_default_comps_homogeneous :
  forall (F : Type) (s : shell F), s_comps s = [] ->
  forall cc, In cc (comps_of s) -> cx cc + cy cc + cz cc = s_l s.
Proof. exact (fun F s => comps_homog_default s). Qed.
Print Assumptions C01_default_comps_homogeneous.

(* asymm_is_offdiag_block: the overlap between two basis sets is rows [0, |b1|) x columns [|b1|, |b1|+|b2|)
   of the overlap of their union *)
Theorem C01_asymm_is_offdiag_block :
  forall (F : Type) (K : Fops F) (b1 b2 : list (shell F)),
  cart_basis b1 -> cart_basis b2 -> 0 < length b2 ->
  overlap_integral_asymm K b1 b2 None None
  = map (skipn (btotal K b1)) (firstn (btotal K b1) (overlap_integral K (b1 ++ b2) None)).
Proof. exact (fun F K => overlap_asymm_is_offdiag_block K). Qed.
Print Assumptions C01_asymm_is_offdiag_block.

(* every entry of the rectangular overlap is the normalised contracted spec *)
Theorem C01_overlap_asymm_entry :
  forall (F : Type) (K : Fops F), is_field K ->
  (forall x : F, fapx K x = x) -> fadd K (f1 K) (f1 K) <> f0 K ->
  forall (b1 b2 : list (shell F)) (i j m c m' c' : nat),
  cart_basis b1 -> cart_basis b2 -> basis_wf b1 -> basis_wf b2 -> basis_exps K b1 b2 ->
  i < length b1 -> j < length b2 ->
  m < nseg (sh_at K b1 i) -> c < ncomp (sh_at K b1 i) -> m' < nseg (sh_at K b2 j) -> c' < ncomp (sh_at K b2 j) ->
  let sa := sh_at K b1 i in let sb := sh_at K b2 j in
  let ca := nth c (comps_of sa) (0, 0, 0) in let cb := nth c' (comps_of sb) (0, 0, 0) in
  nth (gidx K b2 j m' c') (nth (gidx K b1 i m c) (overlap_integral_asymm K b1 b2 None None) []) (f0 K)
  = fmul K (fmul K (ncont K sa m c) (ncont K sb m' c')) (contracted K sa sb ca cb m m' (ovl_prim K sa sb ca cb)).
Proof. exact (fun F K Kf Hapx H2 => overlap_asymm_entry K Kf Hapx H2). Qed.
Print Assumptions C01_overlap_asymm_entry.

(* ---- the hypotheses are satisfiable ---- *)
(* over Qc (the runner's field, any oracle closures): generalized d shell (K=2, M=2), off-centre p shell,
   contracted s shell: 16 basis functions *)
Example C01_assembled_hypotheses_Qc :
  forall opi osqrt oexp oln oboys,
  let K := KQ opi osqrt oexp oln oboys in
  is_field K /\ (forall x, fapx K x = x) /\ fadd K (f1 K) (f1 K) <> f0 K
  /\ cart_basis ex_basis /\ basis_wf ex_basis /\ basis_exps K ex_basis ex_basis
  /\ btotal K ex_basis = 16 /\ gidx K ex_basis 0 1 4 = 10 /\ gidx K ex_basis 1 0 2 = 14.
Proof. exact assembled_hypotheses_satisfiable. Qed.
Print Assumptions C01_assembled_hypotheses_Qc.

(* the entry theorem at a LOWER-triangle position of that basis (row: p_z of shell 1, column: segment 1,
   d_yz of shell 0) *)
Example C01_overlap_entry_lower_Qc :
  forall opi osqrt oexp oln oboys,
  let K := KQ opi osqrt oexp oln oboys in
  nth 10 (nth 14 (overlap_integral K ex_basis None) []) (f0 K)
  = fmul K (fmul K (ncont K ex_sb 0 2) (ncont K ex_sa 1 4))
      (contracted K ex_sb ex_sa (0, 0, 1) (0, 1, 1) 0 1 (ovl_prim K ex_sb ex_sa (0, 0, 1) (0, 1, 1))).
Proof. exact overlap_entry_lower_ex. Qed.
Print Assumptions C01_overlap_entry_lower_Qc.

(* over R: a concrete basis (s shell at the origin, generalized p shell with M = 2 off centre) meets every
   hypothesis of C01_diag_one_uncontracted_R; its 7 diagonal elements are 1 *)
Example C01_diag_one_example_R :
  forall I, I < 7 -> nth I (nth I (overlap_integral RK ex_basis_R None) []) 0%R = 1%R.
Proof. exact diag_one_example_R. Qed.
Print Assumptions C01_diag_one_example_R.

(* ================= spherical / mixed bases (any assignment of coordinate types) =================
   Output index map: osize s = number of spherical labels (spherical shell) or of Cartesian components
   (Cartesian shell); oidx bs k m q = ooff bs k + (m * osize s_k + q), ooff bs k = sum_{t<k} nseg s_t * osize s_t.
   tco s q c = T_s[q][c] (Model/Spherical.shell_transform = generate_transformation) for a spherical shell,
   delta_{q c} for a Cartesian one;  dsum a b q q' X = sum_{c<ncomp a} sum_{c'<ncomp b} tco a q c * tco b q' c' * X c c';
   to_cart s = s with coord_type Cartesian. *)
Theorem C01_mixed_unfold :
  forall (F : Type) (K : Fops F) (bs : list (shell F)) (a b : shell F) (k m q q' : nat) (X : nat -> nat -> F),
  oidx K bs k m q = ooff K bs k + (m * osize (sh_at K bs k) + q)
  /\ ooff K bs (S k) = ooff K bs k + nseg (sh_at K bs k) * osize (sh_at K bs k) /\ ooff K bs 0 = 0
  /\ ototal K bs = ooff K bs (length bs)
  /\ osize a = (if s_sph a then length (labels_of a) else length (comps_of a))
  /\ tco K a q m = (if s_sph a then nth m (nth q (shell_transform K a) []) (f0 K)
                    else if Nat.eqb q m then f1 K else f0 K)
  /\ dsum K a b q q' X
     = FNum.fsum K (mk (ncomp a) (fun c => FNum.fsum K (mk (ncomp b) (fun c' =>
         fmul K (fmul K (tco K a q c) (tco K b q' c')) (X c c')))))
  /\ to_cart a = mkShell F (s_l a) (s_x a) (s_y a) (s_z a) (s_exps a) (s_coeffs a) false (s_comps a) (s_labels a).
Proof. exact (fun F K bs a b k m q q' X => conj eq_refl (conj eq_refl (conj eq_refl (conj eq_refl
         (conj eq_refl (conj eq_refl (conj eq_refl eq_refl))))))). Qed.
Print Assumptions C01_mixed_unfold.

Theorem C01_mixed_index_surjective :
  forall (F : Type) (K : Fops F) (bs : list (shell F)) (I : nat), I < ototal K bs ->
  exists k m q, k < length bs /\ m < nseg (sh_at K bs k) /\ q < osize (sh_at K bs k) /\ I = oidx K bs k m q.
Proof. exact (fun F K => oidx_surj K). Qed.
Print Assumptions C01_mixed_index_surjective.

(* the assembled overlap matrix of ANY basis (each shell Cartesian or spherical) is (+)_s T_s applied on both
   indices to the assembled matrix of the same basis with every shell Cartesian — at EVERY position, evaluated
   blocks and transposed copies alike *)
Theorem C01_overlap_mixed_is_cart_transformed :
  forall (F : Type) (K : Fops F), is_field K ->
  (forall x : F, fapx K x = x) -> fadd K (f1 K) (f1 K) <> f0 K ->
  forall bs : list (shell F), (forall s, In s bs -> 0 < nseg s) -> basis_wf bs -> basis_exps K bs bs ->
  forall i j m q m' q', i < length bs -> j < length bs ->
  m < nseg (sh_at K bs i) -> q < osize (sh_at K bs i) -> m' < nseg (sh_at K bs j) -> q' < osize (sh_at K bs j) ->
  nth (oidx K bs j m' q') (nth (oidx K bs i m q) (overlap_integral K bs None) []) (f0 K)
  = dsum K (sh_at K bs i) (sh_at K bs j) q q' (fun c c' =>
      nth (gidx K (map to_cart bs) j m' c') (nth (gidx K (map to_cart bs) i m c)
          (overlap_integral K (map to_cart bs) None) []) (f0 K)).
Proof. exact (fun F K Kf Hapx H2 => overlap_mixed_is_cart_transformed K Kf Hapx H2). Qed.
Print Assumptions C01_overlap_mixed_is_cart_transformed.

(* ... i.e. the transformed normalised contracted spec *)
Theorem C01_overlap_integral_mixed_entry :
  forall (F : Type) (K : Fops F), is_field K ->
  (forall x : F, fapx K x = x) -> fadd K (f1 K) (f1 K) <> f0 K ->
  forall bs : list (shell F), (forall s, In s bs -> 0 < nseg s) -> basis_wf bs -> basis_exps K bs bs ->
  forall i j m q m' q', i < length bs -> j < length bs ->
  m < nseg (sh_at K bs i) -> q < osize (sh_at K bs i) -> m' < nseg (sh_at K bs j) -> q' < osize (sh_at K bs j) ->
  let sa := sh_at K bs i in let sb := sh_at K bs j in
  nth (oidx K bs j m' q') (nth (oidx K bs i m q) (overlap_integral K bs None) []) (f0 K)
  = dsum K sa sb q q' (fun c c' =>
      fmul K (fmul K (ncont K sa m c) (ncont K sb m' c'))
        (contracted K sa sb (nth c (comps_of sa) (0,0,0)) (nth c' (comps_of sb) (0,0,0)) m m'
           (ovl_prim K sa sb (nth c (comps_of sa) (0,0,0)) (nth c' (comps_of sb) (0,0,0))))).
Proof. exact (fun F K Kf Hapx H2 => overlap_integral_mixed_entry K Kf Hapx H2). Qed.
Print Assumptions C01_overlap_integral_mixed_entry.

Theorem C01_overlap_integral_mixed_shape :
  forall (F : Type) (K : Fops F) (bs : list (shell F)), (forall s, In s bs -> 0 < nseg s) -> 0 < length bs ->
  length (overlap_integral K bs None) = ototal K bs
  /\ forall I, I < ototal K bs -> length (nth I (overlap_integral K bs None) []) = ototal K bs.
Proof. exact (fun F K bs C => overlap_integral_mixed_shape K bs C). Qed.
Print Assumptions C01_overlap_integral_mixed_shape.

(* asymm_is_offdiag_block for every assignment of coordinate types in the two basis sets *)
Theorem C01_asymm_is_offdiag_block_mixed :
  forall (F : Type) (K : Fops F) (b1 b2 : list (shell F)),
  (forall s, In s b1 -> 0 < nseg s) -> (forall s, In s b2 -> 0 < nseg s) -> 0 < length b2 ->
  overlap_integral_asymm K b1 b2 None None
  = map (skipn (ototal K b1)) (firstn (ototal K b1) (overlap_integral K (b1 ++ b2) None)).
Proof. exact (fun F K => overlap_asymm_is_offdiag_block_mixed K). Qed.
Print Assumptions C01_asymm_is_offdiag_block_mixed.

(* the processed block of one shell pair, any coordinate types, any element module (no algebraic law):
   T_2 on the second index after T_1 on the first index of the normalised Cartesian block *)
Theorem C01_shell_block_spec :
  forall (F : Type) (K : Fops F) (A : Type) (azero : A) (aadd : A -> A -> A) (ascale : F -> A -> A)
         (sph1 sph2 : bool) (T1 T2 n1 n2 : list (list F)) (blk : list (list (list (list A))))
         (M1 L1 M2 L2 : nat),
  shape2 M1 L1 n1 -> shape2 M2 L2 n2 -> shape4 M1 L1 M2 L2 blk -> 0 < L1 ->
  (sph1 = true -> Forall (fun r => length r = L1) T1) -> (sph2 = true -> Forall (fun r => length r = L2) T2) ->
  let O1 := if sph1 then length T1 else L1 in let O2 := if sph2 then length T2 else L2 in
  let B := Model.Assembly.shell_block K azero aadd ascale sph1 sph2 T1 T2 n1 n2 blk in
  (length B = M1 * O1 /\ Forall (fun row => length row = M2 * O2) B) /\
  forall m1 q1 m2 q2, m1 < M1 -> q1 < O1 -> m2 < M2 -> q2 < O2 ->
    nth (m2 * O2 + q2) (nth (m1 * O1 + q1) B []) azero
    = tsum K azero aadd ascale sph2 T2 L2 q2 (fun c2 => tsum K azero aadd ascale sph1 T1 L1 q1 (fun c1 =>
        ascale (fmul K (nth c1 (nth m1 n1 []) (f0 K)) (nth c2 (nth m2 n2 []) (f0 K)))
               (get4 azero m1 c1 m2 c2 blk))).
Proof. exact (fun F K A z a s => shell_block_spec K z a s). Qed.
Print Assumptions C01_shell_block_spec.

(* a mixed basis over Qc meeting every hypothesis: spherical generalized d shell, Cartesian p shell, spherical
   contracted s shell (14 functions), and the transformation theorem at a lower-triangle position *)
Example C01_mixed_hypotheses_Qc :
  forall opi osqrt oexp oln oboys,
  let K := KQ opi osqrt oexp oln oboys in
  (forall s, In s ex_mixed -> 0 < nseg s) /\ basis_wf ex_mixed /\ basis_exps K ex_mixed ex_mixed
  /\ ototal K ex_mixed = 14 /\ osize (sh_at K ex_mixed 0) = 5 /\ ncomp (sh_at K ex_mixed 0) = 6
  /\ oidx K ex_mixed 0 1 3 = 8 /\ oidx K ex_mixed 1 0 2 = 12.
Proof. exact mixed_hypotheses_satisfiable. Qed.
Print Assumptions C01_mixed_hypotheses_Qc.

Example C01_overlap_mixed_lower_Qc :
  forall opi osqrt oexp oln oboys,
  let K := KQ opi osqrt oexp oln oboys in
  nth 8 (nth 12 (overlap_integral K ex_mixed None) []) (f0 K)
  = dsum K ex_sb ex_sa_sph 2 3 (fun c c' =>
      nth (gidx K ex_basis 0 1 c') (nth (gidx K ex_basis 1 0 c) (overlap_integral K ex_basis None) []) (f0 K)).
Proof. exact overlap_mixed_lower_ex. Qed.
Print Assumptions C01_overlap_mixed_lower_Qc.

(* ================= the final transformation (transform = T, lincomb) =================
   mat_shape R C m: m has R rows of C entries. *)
(* entry (a, b) of lincomb2 T1 T2 m = sum_l T2[b][l] . (sum_k T1[a][k] . m[k][l]); any element module, no law *)
Theorem C01_lincomb2_entry :
  forall (F : Type) (K : Fops F) (A : Type) (azero : A) (aadd : A -> A -> A) (ascale : F -> A -> A)
         (T1 T2 : list (list F)) (m : list (list A)) (R C S1 S2 a b : nat),
  (length m = R /\ Forall (fun row => length row = C) m) -> 0 < R -> 0 < C ->
  (length T1 = S1 /\ Forall (fun row => length row = R) T1) ->
  (length T2 = S2 /\ Forall (fun row => length row = C) T2) -> a < S1 -> b < S2 ->
  nth b (nth a (Model.Assembly.lincomb2 azero aadd ascale T1 T2 m) []) azero
  = Model.Assembly.asum azero aadd (mk C (fun l => ascale (nth l (nth b T2 []) (f0 K))
      (Model.Assembly.asum azero aadd (mk R (fun k => ascale (nth k (nth a T1 []) (f0 K)) (nth l (nth k m []) azero)))))).
Proof. exact (fun F K A z a s => lincomb2_entry K z a s). Qed.
Print Assumptions C01_lincomb2_entry.

(* the transformed overlap matrix of any basis (any coordinate types, rectangular T allowed) is symmetric *)
Theorem C01_overlap_integral_sym_T :
  forall (F : Type) (K : Fops F), is_field K ->
  (forall x : F, fapx K x = x) -> fadd K (f1 K) (f1 K) <> f0 K ->
  forall bs : list (shell F), (forall s, In s bs -> 0 < nseg s) -> basis_wf bs -> basis_exps K bs bs ->
  0 < length bs ->
  forall (t : list (list F)) (S : nat),
  (length t = S /\ Forall (fun row => length row = ototal K bs) t) ->
  forall a b, a < S -> b < S ->
  nth a (nth b (overlap_integral K bs (Some t)) []) (f0 K) = nth b (nth a (overlap_integral K bs (Some t)) []) (f0 K).
Proof. exact (fun F K Kf Hapx H2 => overlap_integral_sym_T K Kf Hapx H2). Qed.
Print Assumptions C01_overlap_integral_sym_T.
