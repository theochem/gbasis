(* Props/C07_block.v — block-level theorems backing property C07 (multipole moments exact for every
   order and origin).  Spec (Proofs/CoreBlockP.v), for the moment origin C = (Cx, Cy, Cz) and an order
   triple o:
     mom_prim C o sa sb ca cb alpha beta
       = KAB * T1_x(o_x, a_x, b_x) * T1_y(o_y, a_y, b_y) * T1_z(o_z, a_z, b_z),
     T1 A B C alpha beta k i j = T3 (1/(2p)) (P-A) (P-B) (P-C) k i j
       = normalised 1-D Gaussian integral of (x-C)^k (x-A)^i (x-B)^j,
   contracted over the primitives as in Props/C01_block.v.  Hypotheses as there. *)
From Coq Require Import List Arith.
From GB Require Import Base.Field Base.FNum Base.Tables Gauss.Moment1D Model.Shell Model.MomentInt Model.Overlap
  Model.DiffOp Proofs.CoreSumP Proofs.CoreBlockP Proofs.CoreShiftP Proofs.CoreExamplesP.
Import ListNotations.

Theorem C07_spec_unfold :
  forall (F : Type) (K : Fops F) (Cx Cy Cz : F) (o : comp) (sa sb : shell F) (ca cb : comp) (alpha beta : F),
  mom_prim K Cx Cy Cz o sa sb ca cb alpha beta
  = fmul K (KAB K sa sb alpha beta)
      (fmul K (fmul K
         (T3 K (fdiv K (f1 K) (twop K alpha beta)) (PA K (s_x sa) (s_x sb) alpha beta)
             (PB K (s_x sa) (s_x sb) alpha beta) (PC K (s_x sa) (s_x sb) Cx alpha beta) (cx o) (cx ca) (cx cb))
         (T3 K (fdiv K (f1 K) (twop K alpha beta)) (PA K (s_y sa) (s_y sb) alpha beta)
             (PB K (s_y sa) (s_y sb) alpha beta) (PC K (s_y sa) (s_y sb) Cy alpha beta) (cy o) (cy ca) (cy cb)))
         (T3 K (fdiv K (f1 K) (twop K alpha beta)) (PA K (s_z sa) (s_z sb) alpha beta)
             (PB K (s_z sa) (s_z sb) alpha beta) (PC K (s_z sa) (s_z sb) Cz alpha beta) (cz o) (cz ca) (cz cb))).
Proof. exact (fun F K Cx Cy Cz o sa sb ca cb alpha beta => eq_refl). Qed.
Print Assumptions C07_spec_unfold.

(* moment_correct on _compute_multipole_moment_integrals: slice d of the (D, M_a, L_a, M_b, L_b) array is the
   contracted three-factor moment spec of the d-th requested triple — all orders, l, K, M, origins *)
Theorem C07_mm_block_correct :
  forall (F : Type) (K : Fops F), is_field K ->
  (forall x : F, fapx K x = x) -> fadd K (f1 K) (f1 K) <> f0 K ->
  forall (Cx Cy Cz : F) (orders : list comp) (sa sb : shell F),
  wf_shell sa -> wf_shell sb -> exps_ok K sa sb ->
  forall d ma ia mb ib, d < length orders ->
  ma < nseg sa -> ia < length (comps_of sa) -> mb < nseg sb -> ib < length (comps_of sb) ->
  nth4 K ma ia mb ib (nth d (mm_block K Cx Cy Cz orders sa sb) [])
  = contracted K sa sb (nth ia (comps_of sa) (0,0,0)) (nth ib (comps_of sb) (0,0,0)) ma mb
      (mom_prim K Cx Cy Cz (nth d orders (0,0,0)) sa sb
                (nth ia (comps_of sa) (0,0,0)) (nth ib (comps_of sb) (0,0,0))).
Proof. exact (@mm_block_correct). Qed.
Print Assumptions C07_mm_block_correct.

(* moment_correct + orders_axis_order on Moment.construct_array_contraction ([Ma][La][Mb][Lb][D]): the last
   axis has one entry per requested triple, in the order given (repeats and any sequence allowed), and the
   d-th entry is the contracted moment spec of the d-th triple *)
Theorem C07_moment_block_correct :
  forall (F : Type) (K : Fops F), is_field K ->
  (forall x : F, fapx K x = x) -> fadd K (f1 K) (f1 K) <> f0 K ->
  forall (Cx Cy Cz : F) (orders : list comp) (sa sb : shell F) (ma ia mb ib : nat),
  wf_shell sa -> wf_shell sb -> exps_ok K sa sb -> orders <> [] ->
  ma < nseg sa -> ia < length (comps_of sa) -> mb < nseg sb -> ib < length (comps_of sb) ->
  let e := nth ib (nth mb (nth ia (nth ma (moment_block K Cx Cy Cz orders sa sb) []) []) []) [] in
  length e = length orders /\
  forall d, d < length orders ->
    nth d e (f0 K)
    = contracted K sa sb (nth ia (comps_of sa) (0,0,0)) (nth ib (comps_of sb) (0,0,0)) ma mb
        (mom_prim K Cx Cy Cz (nth d orders (0,0,0)) sa sb
                  (nth ia (comps_of sa) (0,0,0)) (nth ib (comps_of sb) (0,0,0))).
Proof. exact (@moment_block_correct). Qed.
Print Assumptions C07_moment_block_correct.

(* moment_000_is_overlap at block level: wherever (0,0,0) stands in the list, whatever the origin *)
Theorem C07_moment_000_is_overlap :
  forall (F : Type) (K : Fops F), is_field K ->
  (forall x : F, fapx K x = x) -> fadd K (f1 K) (f1 K) <> f0 K ->
  forall (Cx Cy Cz : F) (orders : list comp) (sa sb : shell F) (d ma ia mb ib : nat),
  wf_shell sa -> wf_shell sb -> exps_ok K sa sb ->
  d < length orders -> nth d orders (0,0,0) = (0,0,0) ->
  ma < nseg sa -> ia < length (comps_of sa) -> mb < nseg sb -> ib < length (comps_of sb) ->
  nth4 K ma ia mb ib (nth d (mm_block K Cx Cy Cz orders sa sb) [])
  = nth4 K ma ia mb ib (overlap_block K sa sb).
Proof.
  intros F K Kf Hapx H2 Cx Cy Cz orders sa sb d ma ia mb ib Wa Wb He Hd Ho Hma Hia Hmb Hib.
  rewrite (mm_block_correct K Kf Hapx H2 Cx Cy Cz orders sa sb Wa Wb He) by assumption.
  rewrite (overlap_block_correct K Kf Hapx H2 sa sb) by assumption.
  unfold comp in *. rewrite Ho. reflexivity.
Qed.
Print Assumptions C07_moment_000_is_overlap.

(* every moment slice of the exchanged pair is the transpose (used by C11) *)
Theorem C07_mm_block_sym :
  forall (F : Type) (K : Fops F), is_field K ->
  (forall x : F, fapx K x = x) -> fadd K (f1 K) (f1 K) <> f0 K ->
  forall (Cx Cy Cz : F) (orders : list comp) (sa sb : shell F) (d ma ia mb ib : nat),
  wf_shell sa -> wf_shell sb -> exps_ok K sa sb -> d < length orders ->
  ma < nseg sa -> ia < length (comps_of sa) -> mb < nseg sb -> ib < length (comps_of sb) ->
  nth4 K mb ib ma ia (nth d (mm_block K Cx Cy Cz orders sb sa) [])
  = nth4 K ma ia mb ib (nth d (mm_block K Cx Cy Cz orders sa sb) []).
Proof. exact (@mm_block_sym). Qed.
Print Assumptions C07_mm_block_sym.

(* origin_shift_binomial, on the moment functional (any k, i, j, any ring elements) ... *)
Theorem C07_origin_shift_binomial_T3 :
  forall (F : Type) (K : Fops F), is_field K ->
  forall (delta v a b c : F) (k i j : nat),
  T3 K v a b (fadd K c delta) k i j
  = FNum.fsum K (mk (S k) (fun m =>
      fmul K (fmul K (ofnat K (binom k m)) (FNum.fpow K delta (k - m))) (T3 K v a b c m i j))).
Proof. exact (@T3_origin_shift). Qed.
Print Assumptions C07_origin_shift_binomial_T3.

(* ... and on the 1-D integral of a primitive pair: moments about C' from the moments about C *)
Theorem C07_origin_shift_binomial_T1 :
  forall (F : Type) (K : Fops F), is_field K ->
  forall (A B C C' alpha beta : F) (k i j : nat),
  T1 K A B C' alpha beta k i j
  = FNum.fsum K (mk (S k) (fun m =>
      fmul K (fmul K (ofnat K (binom k m)) (FNum.fpow K (fsub K C C') (k - m))) (T1 K A B C alpha beta m i j))).
Proof. exact (@T1_origin_shift). Qed.
Print Assumptions C07_origin_shift_binomial_T1.

(* [binom] (Pascal's triangle) is the binomial coefficient *)
Theorem C07_binom_is_binomial :
  forall (F : Type) (K : Fops F), is_field K ->
  forall n k, k <= n ->
  fmul K (fmul K (ofnat K (binom n k)) (ffact K k)) (ffact K (n - k)) = ffact K n.
Proof. exact (@binom_fact). Qed.
Print Assumptions C07_binom_is_binomial.

Example C07_block_hypotheses_Qc :
  forall opi osqrt oexp oln oboys,
  let K := KQ opi osqrt oexp oln oboys in
  is_field K /\ (forall x, fapx K x = x) /\ fadd K (f1 K) (f1 K) <> f0 K
  /\ wf_shell ex_sa /\ wf_shell ex_sb /\ exps_ok K ex_sa ex_sb /\ exps_ok K ex_sa ex_sa
  /\ 1 < nseg ex_sa /\ 5 < length (comps_of ex_sa) /\ 0 < nseg ex_sb /\ 2 < length (comps_of ex_sb).
Proof. exact block_hypotheses_satisfiable. Qed.
Print Assumptions C07_block_hypotheses_Qc.

Example C07_orders_hypotheses :
  [(2,0,1); (0,0,0); (2,0,1)] <> [] /\ 1 < length [(2,0,1); (0,0,0); (2,0,1)]
  /\ nth 1 [(2,0,1); (0,0,0); (2,0,1)] (0,0,0) = (0,0,0).
Proof. exact (conj (fun E => @nil_cons _ _ _ (eq_sym E)) (conj (le_S 2 2 (le_n 2)) eq_refl)). Qed.
Print Assumptions C07_orders_hypotheses.
