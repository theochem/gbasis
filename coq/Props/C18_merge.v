(* Props/C18_merge.v — property C18, the Gaussian94 MERGE RULE of parse_gbs (parsers.py:150-164) as a
   theorem: the round trip for files in which the rule fires.  Statements closed by [exact] of a lemma proved
   in Proofs/ParsersMergeP.v or in a few lines from those lemmas, each followed by Print Assumptions.  Model: Model/Parsers.v.

   Specification ([fuse], ParsersMergeP.v, independent of the parser's loop): the expected shells of one
   element are read left to right with one open shell; a shell with the same angular momentum and the same
   exponent list as the open shell adds its coefficient columns to it, any other shell becomes the open
   shell.  [fuse_lit] is the same with Leibniz equality of (l, exponent literals). *)
From Coq Require Import List String.
From GB Require Import Model.Parsers Proofs.ParsersP Proofs.ParsersMergeP.
Import ListNotations.
Open Scope string_scope.
Open Scope list_scope.

(* (2) full generality: EVERY well-formed AST (no [no_fuse]: combined blocks, repeated exponent lists,
   anything), every admissible layout, any reflexive comparison of exponent literals: the parser returns the
   elements in file order and per element the fused expected shells *)
Theorem parse_gbs_print_roundtrip_fused :
  forall (close : string -> string -> bool), (forall s, close s s = true) ->
  forall (L : layout), layout_ok_gbs L ->
  forall (a : ast), wf_ast a = true ->
  parse_gbs_model close (print_gbs a L) = Some (expected_fused close a).
Proof. exact roundtrip_gbs_fused. Qed.
Print Assumptions parse_gbs_print_roundtrip_fused.

(* the instance the model is run with (literal equality of exponent literals), against the literal spec *)
Theorem parse_gbs_print_roundtrip_fused_lit :
  forall (L : layout), layout_ok_gbs L ->
  forall (a : ast), wf_ast a = true ->
  parse_gbs_model close_lit (print_gbs a L) = Some (expected_fused_lit a).
Proof. exact roundtrip_gbs_fused_lit. Qed.
Print Assumptions parse_gbs_print_roundtrip_fused_lit.
Theorem fuse_lit_is_fuse : forall S, fuse close_lit S = fuse_lit S.
Proof. exact fuse_lit_spec. Qed.
Print Assumptions fuse_lit_is_fuse.

(* the theorem of Props/C18.v is the corollary  fuse = id  under no_fuse *)
Theorem fuse_is_id_without_fusing :
  forall (close : string -> string -> bool) (S : list shell), no_fuse close S = true -> fuse close S = S.
Proof. exact fuse_id. Qed.
Print Assumptions fuse_is_id_without_fusing.
Theorem parse_print_roundtrip_gbs_from_fused :
  forall (close : string -> string -> bool), (forall s, close s s = true) ->
  forall (L : layout), layout_ok_gbs L ->
  forall (a : ast), wf_ast_gbs close a = true ->
  parse_gbs_model close (print_gbs a L) = Some (expected a).
Proof.
  intros close close_refl L HL a Hwf. unfold wf_ast_gbs in Hwf. apply Bool.andb_true_iff in Hwf as [Hwf Hnf].
  rewrite (roundtrip_gbs_fused close close_refl L HL a Hwf), expected_fused_id by exact Hnf. reflexivity.
Qed.
Print Assumptions parse_print_roundtrip_gbs_from_fused.

(* the specification is the parser's loop, whatever the input (pure list statement): the left fold of [push]
   (looks at the LAST element of the list built so far) = [fuse] *)
Theorem fuse_is_the_loop :
  forall (close : string -> string -> bool) (S : list shell), fold_left (push close) S [] = fuse close S.
Proof. exact push_fold_fuse. Qed.
Print Assumptions fuse_is_the_loop.

(* what the literal specification keeps: every written (l, exponents, column) triple in file order, nothing
   lost, nothing duplicated; and it fuses as far as possible *)
Theorem fuse_keeps_every_column : forall S, flat (fuse_lit S) = flat S.
Proof. exact fuse_lit_flat. Qed.
Print Assumptions fuse_keeps_every_column.
Theorem fuse_is_maximal : forall S, keys_differ (fuse_lit S).
Proof. exact fuse_lit_maximal. Qed.
Print Assumptions fuse_is_maximal.
Theorem parse_gbs_keeps_every_column :
  forall (L : layout), layout_ok_gbs L ->
  forall (a : ast), wf_ast a = true ->
  exists d, parse_gbs_model close_lit (print_gbs a L) = Some d /\
            keys d = map fst a /\
            map (fun kv => flat (snd kv)) d = map (fun e => flat (expected_shells (snd e))) a /\
            Forall (fun kv => keys_differ (snd kv)) d.
Proof.
  intros L HL a H. exists (expected_fused_lit a). split; [apply roundtrip_gbs_fused_lit; auto|].
  unfold expected_fused_lit, keys. rewrite !map_map. cbn [fst snd]. repeat split.
  - apply map_ext. intros e. apply fuse_lit_flat.
  - apply Forall_forall. intros kv Hkv. apply in_map_iff in Hkv as [e [<- _]]. apply fuse_lit_maximal.
Qed.
Print Assumptions parse_gbs_keeps_every_column.

(* (3) combined blocks.  The comparison partner of every shell — of every letter of a combined block too —
   is the last shell of the result for everything BEFORE it: "the last appended shell" is updated between
   the letters of one block *)
Theorem last_shell_is_updated :
  forall (close : string -> string -> bool) (S : list shell) (u : shell),
  fuse close (S ++ [u])
  = match rev (fuse close S) with
    | last :: init =>
        if same_key close last u
        then rev init ++ [(sh_l u, sh_exps u, sh_cols last ++ sh_cols u)]
        else fuse close S ++ [u]
    | [] => [u]
    end.
Proof. exact fuse_snoc. Qed.
Print Assumptions last_shell_is_updated.
(* hence in a combined block whose adjacent letters differ only the FIRST letter can continue the shell in
   front of the block; the later letters are always appended (loop and specification) *)
Theorem only_first_letter_fuses :
  forall (close : string -> string -> bool) (acc : list shell) (u : shell) (rest : list shell),
  chain_distinct (sh_l u) rest = true ->
  fold_left (push close) (u :: rest) acc = push close acc u ++ rest.
Proof. exact only_first_fuses. Qed.
Print Assumptions only_first_letter_fuses.
Theorem only_first_letter_fuses_spec :
  forall (close : string -> string -> bool) (S : list shell) (u : shell) (rest : list shell),
  chain_distinct (sh_l u) rest = true ->
  fuse close (S ++ u :: rest) = fuse close (S ++ [u]) ++ rest.
Proof.
  intros close S u rest H. rewrite <- !push_fold_fuse_acc. rewrite only_first_fuses by exact H. reflexivity.
Qed.
Print Assumptions only_first_letter_fuses_spec.

(* two consecutive blocks at file level, any literals / primitives / layout: "P then SP" with the same
   exponents is P, S, P (three shells); "S then SP" is S with one more column, P *)
Theorem gbs_P_then_SP_is_P_S_P :
  forall (close : string -> string -> bool), (forall s, close s s = true) ->
  forall (L : layout), layout_ok_gbs L ->
  forall sym l0 l e cs c0 c1,
  let a := [(sym, [ {| b_ls := [l]; b_exps := e; b_cols := cs |};
                    {| b_ls := [l0; l]; b_exps := e; b_cols := [c0; c1] |} ])] in
  wf_ast a = true -> l0 <> l ->
  parse_gbs_model close (print_gbs a L) = Some [(sym, [(l, e, cs); (l0, e, [c0]); (l, e, [c1])])].
Proof. exact gbs_P_then_SP. Qed.
Print Assumptions gbs_P_then_SP_is_P_S_P.
Theorem gbs_S_then_SP_is_S2_P :
  forall (close : string -> string -> bool), (forall s, close s s = true) ->
  forall (L : layout), layout_ok_gbs L ->
  forall sym l l1 e cs c0 c1,
  let a := [(sym, [ {| b_ls := [l]; b_exps := e; b_cols := cs |};
                    {| b_ls := [l; l1]; b_exps := e; b_cols := [c0; c1] |} ])] in
  wf_ast a = true -> l <> l1 ->
  parse_gbs_model close (print_gbs a L) = Some [(sym, [(l, e, cs ++ [c0]); (l1, e, [c1])])].
Proof. exact gbs_S_then_SP. Qed.
Print Assumptions gbs_S_then_SP_is_S2_P.

(* the stale-[prev] rule of seeded/C18-muta agrees with the loop on one-letter blocks ... *)
Theorem stale_rule_same_on_single_letter :
  forall (close : string -> string -> bool) (acc : list shell) (u : shell),
  push_block_stale close acc [u] = push close acc u.
Proof.
  intros close acc u.
  unfold push_block_stale, push. destruct acc as [|cur acc' _] using rev_ind; auto.
  rewrite rev_app_distr. simpl. destruct (fuses close cur u); auto.
  rewrite removelast_last, rev_involutive. reflexivity.
Qed.
Print Assumptions stale_rule_same_on_single_letter.
(* ... and violates [only_first_letter_fuses] and the specification on "P then SP" *)
Example stale_rule_violates :
  let acc := [(1, e3, [cP])] in
  let us := [(0, e3, [sp1]); (1, e3, [sp2])] in
  chain_distinct 0 [(1, e3, [sp2])] = true /\
  push_block_stale close_lit acc us = [(1, e3, [cP]); (1, e3, [cP; sp2])] /\
  fold_left (push close_lit) us acc = [(1, e3, [cP]); (0, e3, [sp1]); (1, e3, [sp2])] /\
  push_block_stale close_lit acc us <> push close_lit acc (0, e3, [sp1]) ++ [(1, e3, [sp2])] /\
  push_block_stale close_lit acc us <> fuse close_lit (acc ++ us).
Proof. repeat apply conj; try (vm_compute; reflexivity); vm_compute; discriminate. Qed.
Print Assumptions stale_rule_violates.

(* concrete files: the hypotheses are satisfiable by ASTs that the no_fuse theorem excludes *)
Example merge_hypotheses_satisfiable :
  wf_ast ast_P_SP = true /\ wf_ast ast_SP_SP = true /\ wf_ast ast_S_SP_P = true /\ wf_ast ast_mixed = true /\
  wf_ast_gbs close_lit ast_S_SP_P = false /\ wf_ast_gbs close_lit ast_mixed = false.
Proof. exact ex_merge_wf. Qed.
Print Assumptions merge_hypotheses_satisfiable.
Example P_then_SP :
  parse_gbs_model close_lit (print_gbs ast_P_SP ex_layout_gbs)
  = Some [("Na", [(1, e3, [cP]); (0, e3, [sp1]); (1, e3, [sp2])])].
Proof.
  apply (gbs_P_then_SP close_lit close_lit_refl ex_layout_gbs (proj1 ex_layout_gbs_ok) "Na" 0 1 e3 [cP] sp1 sp2).
  - exact (proj1 ex_merge_wf).
  - discriminate.
Qed.
Print Assumptions P_then_SP.
Example SP_then_SP :
  parse_gbs_model close_lit (print_gbs ast_SP_SP ex_layout_bare)
  = Some [("Na", [(0, e3, [sp1]); (1, e3, [sp2]); (0, e3, [sp3]); (1, e3, [sp4])])].
Proof.
  rewrite (roundtrip_gbs_fused close_lit close_lit_refl _ (proj2 ex_layout_gbs_ok) ast_SP_SP)
    by exact (proj1 (proj2 ex_merge_wf)).
  change (expected_fused close_lit ast_SP_SP)
    with [("Na", fuse close_lit [(0, e3, [sp1]); (1, e3, [sp2]); (0, e3, [sp3]); (1, e3, [sp4])])].
  rewrite fuse_SP_SP by discriminate. reflexivity.
Qed.
Print Assumptions SP_then_SP.
Example S_then_SP_then_P :
  parse_gbs_model close_lit (print_gbs ast_S_SP_P ex_layout_gbs)
  = Some [("Na", [(0, e3, [cS; sp1]); (1, e3, [sp2; cP])])].
Proof.
  rewrite (roundtrip_gbs_fused_lit _ (proj1 ex_layout_gbs_ok) ast_S_SP_P) by apply ex_merge_wf.
  reflexivity.
Qed.
Print Assumptions S_then_SP_then_P.
Example mixed_file :
  parse_gbs_model close_lit (print_gbs ast_mixed ex_layout_gbs)
  = Some [("Na", [(0, e3, [cS; cS'; sp3; sp1]); (1, e3, [sp2; cP; cP'])]);
          ("H", [(2, e3, [cP]); (2, ["1.5"; "2.5"; "0.3"], [cP']); (2, e3, [cS])])]
  /\ expected_fused_lit ast_mixed
     = [("Na", [(0, e3, [cS; cS'; sp3; sp1]); (1, e3, [sp2; cP; cP'])]);
        ("H", [(2, e3, [cP]); (2, ["1.5"; "2.5"; "0.3"], [cP']); (2, e3, [cS])])].
Proof.
  rewrite (roundtrip_gbs_fused_lit _ (proj1 ex_layout_gbs_ok) ast_mixed) by apply ex_merge_wf.
  split; [apply f_equal|]; vm_compute; reflexivity.
Qed.
Print Assumptions mixed_file.
