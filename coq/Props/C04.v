(* Props/C04.v — structural theorems backing property C04 (electron-repulsion integrals exact in
   both index conventions).  Statements over the lemmas of Proofs/EriStructP.v, each followed by
   Print Assumptions.  They cover the parts of the property that are about the
   SHAPE of the computation: the physicist convention, the axis layout of a quartet block, the
   eight-fold fill of the full tensor and the order of transform / convention.  The statements that
   the numbers in a block are the exact Coulomb integrals (vertical recursion, electron transfer,
   contraction, horizontal recursions) are in Props/C04_core.v.
   All statements are unbounded in the basis, the shells, the transform and the carrier type. *)
From Coq Require Import List Arith Bool.
From GB Require Import Base.Field Base.Tables Base.Blocks Model.Shell Model.Assembly Model.Assembly14
  Model.Overlap Model.TwoElec Model.OneBody Proofs.EriStructP.
Import ListNotations.

(* (a) physicists' convention = chemists' array with the two middle indices exchanged *)
(* for every basis (Cartesian, spherical, mixed) and every transform *)
Theorem C04_physicist_is_middle_swap :
  forall (F : Type) (K : Fops F) (basis : list (shell F)) (T : option (list (list F))),
  eri_integral K basis T true = swapax (f0 K) 1 2 (eri_integral K basis T false).
Proof. exact (fun F K basis T => eri_physicist_is_swap K basis T). Qed.
Print Assumptions C04_physicist_is_middle_swap.

(* what the exchange does to elements: for ANY four-axis array b (even a ragged one), the element
   (i, j, k, l) of the exchanged array is the element (i, k, j, l) of b; the in-range hypotheses are
   those of the exchanged array (j runs over axis 2 of b, k over axis 1) *)
Theorem C04_swap_middle_index :
  forall (A : Type) (azero : A) (b : list (list (list (list A)))) i j k l,
  i < length b -> k < length (hd [] b) -> j < length (hd [] (hd [] b)) ->
  l < length (hd [] (hd [] (hd [] b))) ->
  get4 azero (swapax azero 1 2 b) i j k l = get4 azero b i k j l.
Proof. exact (fun A z b i j k l => get4_swapax_12 z b i j k l). Qed.
Print Assumptions C04_swap_middle_index.

(* the same for any pair of axes (the eight-fold fill uses (0 1), (2 3), (0 2), (1 3), (0 3), (1 2)) *)
Theorem C04_swap_any_axes_index :
  forall (A : Type) (azero : A) (a b : nat) (blk : list (list (list (list A)))) x0 x1 x2 x3,
  let ds := swapl a b (dims4 blk) 0 in
  x0 < nth 0 ds 0 -> x1 < nth 1 ds 0 -> x2 < nth 2 ds 0 -> x3 < nth 3 ds 0 ->
  get4 azero (swapax azero a b blk) x0 x1 x2 x3
  = (let ix := swapl a b [x0; x1; x2; x3] 0 in
     get4 azero blk (nth 0 ix 0) (nth 1 ix 0) (nth 2 ix 0) (nth 3 ix 0)).
Proof. exact (fun A z a b blk x0 x1 x2 x3 => get4_swapax z a b blk x0 x1 x2 x3). Qed.
Print Assumptions C04_swap_any_axes_index.

(* element form for the public function *)
Theorem C04_physicist_entry :
  forall (F : Type) (K : Fops F) (basis : list (shell F)) (T : option (list (list F))) i j k l,
  let chem := eri_integral K basis T false in
  i < length chem -> k < length (hd [] chem) -> j < length (hd [] (hd [] chem)) ->
  l < length (hd [] (hd [] (hd [] chem))) ->
  get4 (f0 K) (eri_integral K basis T true) i j k l = get4 (f0 K) chem i k j l.
Proof.
  intros F K basis T i j k l chem Hi Hk Hj Hl.
  rewrite eri_physicist_is_swap. now apply get4_swapax_12.
Qed.
Print Assumptions C04_physicist_entry.

(* exchanging twice returns every element (physicist of physicist = chemist) ... *)
Theorem C04_swap_middle_twice_entry :
  forall (A : Type) (azero : A) (b : list (list (list (list A)))) i j k l,
  i < length b -> j < length (hd [] b) -> k < length (hd [] (hd [] b)) ->
  l < length (hd [] (hd [] (hd [] b))) ->
  get4 azero (swapax azero 1 2 (swapax azero 1 2 b)) i j k l = get4 azero b i j k l.
Proof. exact (fun A z b i j k l => get4_swapax_12_twice z b i j k l). Qed.
Print Assumptions C04_swap_middle_twice_entry.

(* ... and for rectangular arrays with non-empty axes the exchange is an involution on the array
   itself (an empty axis loses the inner lengths in a nested-list representation, hence 0 < d) *)
Theorem C04_swap_middle_involutive :
  forall (A : Type) (azero : A) d0 d1 d2 d3 (b : list (list (list (list A)))),
  rect4 d0 d1 d2 d3 b -> 0 < d0 -> 0 < d1 -> 0 < d2 ->
  swapax azero 1 2 (swapax azero 1 2 b) = b.
Proof. exact (fun A z d0 d1 d2 d3 b => swapax_12_involutive z d0 d1 d2 d3 b). Qed.
Print Assumptions C04_swap_middle_involutive.

(* dimensions of the exchanged array *)
Theorem C04_swap_middle_dims :
  forall (A : Type) (azero : A) (b : list (list (list (list A)))) d0 d1 d2 d3,
  dims4 b = [d0; d1; d2; d3] -> 0 < d0 -> 0 < d1 -> 0 < d2 ->
  dims4 (swapax azero 1 2 b) = [d0; d2; d1; d3].
Proof. exact (fun A z b d0 d1 d2 d3 => dims4_swapax_12 z b d0 d1 d2 d3). Qed.
Print Assumptions C04_swap_middle_dims.

(* the hypotheses are satisfiable, and the exchange is not the identity: a 1 x 2 x 3 x 1 array *)
Example C04_swap_hypotheses_satisfiable :
  (rect4 1 2 3 1 ex_arr /\ 0 < 1 /\ 0 < 2 /\ 0 < 3) /\
  (0 < length ex_arr /\ 1 < length (hd [] ex_arr) /\ 2 < length (hd [] (hd [] ex_arr)) /\
   0 < length (hd [] (hd [] (hd [] ex_arr))) /\
   get4 0 (swapax 0 1 2 ex_arr) 0 2 1 0 = 6 /\ get4 0 ex_arr 0 1 2 0 = 6 /\
   swapax 0 1 2 ex_arr = [[[[1]; [4]]; [[2]; [5]]; [[3]; [6]]]]).
Proof.
  split.
  - unfold rect4, ex_arr. repeat (split || constructor).
  - cbn. repeat (split || constructor).
Qed.
Print Assumptions C04_swap_hypotheses_satisfiable.

(* (b) axis layout of ElectronRepulsionIntegral.construct_array_contraction *)
(* [M1][L1][M2][L2][M3][L3][M4][L4] for all four shells: M = number of segmented contractions,
   L = number of Cartesian components; every sub-list at every level has the stated length *)
Theorem C04_block_shape :
  forall (F : Type) (K : Fops F) (s1 s2 s3 s4 : shell F),
  shape8 (nseg s1) (length (comps_of s1)) (nseg s2) (length (comps_of s2))
         (nseg s3) (length (comps_of s3)) (nseg s4) (length (comps_of s4))
         (eri_block K s1 s2 s3 s4).
Proof. exact (fun F K s1 s2 s3 s4 => eri_block_shape K s1 s2 s3 s4). Qed.
Print Assumptions C04_block_shape.

(* with the default component order L = (l+1)(l+2)/2, every l *)
Theorem C04_default_component_count :
  forall l, 2 * length (default_comps l) = (l + 1) * (l + 2).
Proof. exact length_default_comps. Qed.
Print Assumptions C04_default_component_count.

(* (c) assembly of the four-index array (base_four_symm.py) *)
(* without a transform the chemists' array is the nested concatenation of the cells of the store
   the eight-fold fill writes into *)
Theorem C04_array_is_concatenation_of_cells :
  forall (F : Type) (K : Fops F) (basis : list (shell F)),
  eri_integral K basis None false = four_concat (length basis) (eri_cell K basis).
Proof.
  intros F K basis.
  unfold eri_integral, four_symm, eri_cell. cbv zeta. rewrite !map_length.
  rewrite (all_writes_ext (f0 K) (length basis) _ (eri_pblock K basis)); [reflexivity|].
  intros i j k l Hi Hj Hk Hl. unfold eri_pblock. cbv zeta.
  rewrite !(nth_map_lt _ (map (prep K) basis) _ (dummy_p K)) by (now rewrite map_length).
  reflexivity.
Qed.
Print Assumptions C04_array_is_concatenation_of_cells.

(* every cell (a, b, c, d) of that store, for shells of the basis, is one of the eight permuted
   images of the processed block evaluated for a canonical quartet i <= j, k <= l of the basis:
   no cell is left unwritten and none holds anything else ("last write wins" included) *)
Theorem C04_cell_is_image_of_computed_block :
  forall (F : Type) (K : Fops F) (basis : list (shell F)) a b c d,
  let n := length basis in
  a < n -> b < n -> c < n -> d < n ->
  exists i j k l, i <= j < n /\ k <= l < n /\
    In ((a, b, c, d), eri_cell K basis a b c d) (writes8 (f0 K) i j k l (eri_pblock K basis i j k l)).
Proof. intros F K basis a b c d n. unfold eri_cell. apply lookup_all_writes. Qed.
Print Assumptions C04_cell_is_image_of_computed_block.

Example C04_cell_hypotheses_satisfiable :
  forall (F : Type) (s : shell F), let n := length [s] in 0 < n /\ 0 < n /\ 0 < n /\ 0 < n.
Proof. intros F s n. repeat split; constructor. Qed.
Print Assumptions C04_cell_hypotheses_satisfiable.

(* the eight images spelled out: key = permuted quartet, value = block with the matching axes
   exchanged ((ij|kl) = (ij|lk) = (ji|kl) = (ji|lk) = (kl|ij) = (lk|ij) = (kl|ji) = (lk|ji)) *)
Theorem C04_eight_images :
  forall (A : Type) (azero : A) i j k l (blk : list (list (list (list A)))) x v,
  In (x, v) (writes8 azero i j k l blk) ->
  (x = (i, j, k, l) /\ v = blk) \/
  (x = (i, j, l, k) /\ v = swapax azero 2 3 blk) \/
  (x = (j, i, k, l) /\ v = swapax azero 0 1 blk) \/
  (x = (j, i, l, k) /\ v = swapax azero 0 1 (swapax azero 2 3 blk)) \/
  (x = (k, l, i, j) /\ v = swapax azero 0 2 (swapax azero 1 3 blk)) \/
  (x = (l, k, i, j) /\ v = swapax azero 0 1 (swapax azero 0 2 (swapax azero 1 3 blk))) \/
  (x = (k, l, j, i) /\ v = swapax azero 2 3 (swapax azero 0 2 (swapax azero 1 3 blk))) \/
  (x = (l, k, j, i) /\ v = swapax azero 0 3 (swapax azero 1 2 blk)).
Proof. exact (fun A z i j k l blk x v => writes8_images z i j k l blk x v). Qed.
Print Assumptions C04_eight_images.

(* the fill in general (any block function): soundness and completeness of the store *)
Theorem C04_fill_sound_and_complete :
  forall (A : Type) (azero : A) n (bf : nat -> nat -> nat -> nat -> list (list (list (list A)))),
  (forall x v, In (x, v) (all_writes azero n bf) ->
     exists i j k l, i <= j < n /\ k <= l < n /\ In (x, v) (writes8 azero i j k l (bf i j k l))) /\
  (forall a b c d, a < n -> b < n -> c < n -> d < n ->
     exists v, In ((a, b, c, d), v) (all_writes azero n bf)).
Proof. exact (fun A z n bf => conj (all_writes_in z n bf) (all_writes_complete z n bf)). Qed.
Print Assumptions C04_fill_sound_and_complete.

(* (d) order of transform and convention *)
(* the transform acts on each of the four indices of the untransformed chemists' array; the
   physicist exchange is applied last (theorem (a) with T = Some t) *)
Theorem C04_transform_then_convention :
  forall (F : Type) (K : Fops F) (basis : list (shell F)) (t : list (list F)),
  eri_integral K basis (Some t) false
  = lincomb4 (f0 K) (fadd K) (fmul K) t (eri_integral K basis None false).
Proof. reflexivity. Qed.
Print Assumptions C04_transform_then_convention.
