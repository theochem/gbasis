(* Props/C13_assembled.v — property C13, "generalized_is_segmented" for the ASSEMBLED symmetric two-index class with
   SEVERAL shells per basis (Props/C13.v has it for one pair of shells: the four
   C13_generalized_is_segmented_assembled_.._partial theorems): replacing a generalized shell by its single-column
   shells, listed at the position of the shell, leaves overlap_integral UNCHANGED as a matrix (same function order,
   segment-major), for every basis of well-formed shells with any assignment of coordinate types, with or
   without transform=; hence so does replacing every shell (ContractionP.segmented_basis).
   Only statements closed by [exact] of a lemma of Proofs/ContractionAsmP.v, each followed by Print Assumptions.

   col_shell K s m        s with column m of its coefficient matrix only
   segments K s           [col_shell K s 0; ..; col_shell K s (M-1)],  M = nseg s
   segmented_basis K b    every shell of b replaced by its segments (flat_map)
   basis_ok K b           every shell has a segment, is well-formed (one coefficient row per exponent, components
                          bounded by l); the exponents of every pair of shells have a non-zero sum

   Why the hypotheses: below the diagonal the assembled matrix holds transposed copies (base_two_symm.py:171-181);
   two segments of one original shell are different shells after the replacement, so the block between them
   below the diagonal becomes a transposed copy where it was evaluated directly: the statement holds because the
   overlap block is symmetric, which is a theorem for well-formed shells over a field.

   The same for kinetic_energy_integral (second instance of the generic theorem).
   STILL PARTIAL in C13 (Props/C13.v): the same assembled statement for the remaining two-index functions (the
   generic theorem C13_one_shell_segmented_generic reduces it to a uniform entry formula obeying the column law;
   overlap_integral and kinetic_energy_integral are instantiated), the four-index assembly, and column_scale
   assembled for negative factors. *)
From Coq Require Import List Arith QArith Qcanon.
From GB Require Import Base.Field Base.FNum Base.Tables Model.Shell Model.MomentInt Model.Spherical Model.Assembly
  Model.Overlap Model.OneBody Proofs.ContractionP Proofs.CoreSumP Proofs.CoreBlockP Proofs.CoreExamplesP Proofs.AssembledP
  Proofs.AssembledOverlapP Proofs.AssembledSphP Proofs.AssembledSphOverlapP Proofs.AssembledExamplesP
  Proofs.ContractionAsmP.
Import ListNotations.
Local Open Scope nat_scope.

Theorem C13_assembled_unfold :
  forall (F : Type) (K : Fops F) (s : shell F) (m : nat) (b : list (shell F)),
  col_shell K s m = mkShell F (s_l s) (s_x s) (s_y s) (s_z s) (s_exps s)
                      (map (fun row => [nth m row (f0 K)]) (s_coeffs s)) (s_sph s) (s_comps s) (s_labels s)
  /\ segments K s = map (col_shell K s) (seq 0 (nseg s))
  /\ segmented_basis K b = flat_map (segments K) b
  /\ (basis_ok K b <-> (forall s, In s b -> 0 < nseg s) /\ (forall s, In s b -> CoreBlockP.wf_shell s)
                       /\ (forall sa sb, In sa b -> In sb b -> exps_ok K sa sb)).
Proof. exact (fun F K s m b => conj eq_refl (conj eq_refl (conj eq_refl (iff_refl _)))). Qed.
Print Assumptions C13_assembled_unfold.

(* the replacement does not change the number of basis functions, and every (shell, segment) of the original
   basis sits at a (shell, segment) of the new one with the same positions: the function order is the same *)
Theorem C13_segmented_same_function_order :
  forall (F : Type) (K : Fops F) (pre post : list (shell F)) (s : shell F), 0 < nseg s ->
  let bs := pre ++ s :: post in let bs' := pre ++ segments K s ++ post in
  ototal K bs' = ototal K bs /\
  forall i m, i < length bs -> m < nseg (sh_at K bs i) ->
  exists i' m', i' < length bs' /\ m' < nseg (sh_at K bs' i') /\
    osize (sh_at K bs' i') = osize (sh_at K bs i) /\
    (forall q, oidx K bs' i' m' q = oidx K bs i m q) /\
    ((sh_at K bs' i' = sh_at K bs i /\ m' = m) \/ (sh_at K bs' i' = col_shell K (sh_at K bs i) m /\ m' = 0)).
Proof. exact (fun F K pre post s Hs => conj (ototal_seg K pre post s Hs) (seg_locate K pre post s Hs)). Qed.
Print Assumptions C13_segmented_same_function_order.

(* ONE generalized shell replaced by its single-column shells: the same overlap matrix *)
Theorem C13_generalized_is_segmented_assembled_overlap_one_shell :
  forall (F : Type) (K : Fops F), is_field K ->
  (forall x : F, fapx K x = x) -> fadd K (f1 K) (f1 K) <> f0 K ->
  forall (pre post : list (shell F)) (s : shell F) (T : option (list (list F))),
  basis_ok K (pre ++ s :: post) ->
  overlap_integral K (pre ++ segments K s ++ post) T = overlap_integral K (pre ++ s :: post) T.
Proof. exact (fun F K Kf => overlap_one_shell_segmented K Kf). Qed.
Print Assumptions C13_generalized_is_segmented_assembled_overlap_one_shell.

(* EVERY shell replaced: the statement of the property for overlap_integral *)
Theorem C13_generalized_is_segmented_assembled_overlap :
  forall (F : Type) (K : Fops F), is_field K ->
  (forall x : F, fapx K x = x) -> fadd K (f1 K) (f1 K) <> f0 K ->
  forall (basis : list (shell F)) (T : option (list (list F))),
  basis_ok K basis ->
  overlap_integral K (segmented_basis K basis) T = overlap_integral K basis T.
Proof. exact (fun F K Kf => overlap_segmented_basis K Kf). Qed.
Print Assumptions C13_generalized_is_segmented_assembled_overlap.

(* kinetic_energy_integral: one shell / every shell replaced *)
Theorem C13_generalized_is_segmented_assembled_kinetic_one_shell :
  forall (F : Type) (K : Fops F), is_field K ->
  (forall x : F, fapx K x = x) -> fadd K (f1 K) (f1 K) <> f0 K ->
  forall (pre post : list (shell F)) (s : shell F) (T : option (list (list F))),
  basis_ok K (pre ++ s :: post) ->
  kinetic_integral K (pre ++ segments K s ++ post) T = kinetic_integral K (pre ++ s :: post) T.
Proof. exact (fun F K Kf => kinetic_one_shell_segmented K Kf). Qed.
Print Assumptions C13_generalized_is_segmented_assembled_kinetic_one_shell.

Theorem C13_generalized_is_segmented_assembled_kinetic :
  forall (F : Type) (K : Fops F), is_field K ->
  (forall x : F, fapx K x = x) -> fadd K (f1 K) (f1 K) <> f0 K ->
  forall (basis : list (shell F)) (T : option (list (list F))),
  basis_ok K basis ->
  kinetic_integral K (segmented_basis K basis) T = kinetic_integral K basis T.
Proof. exact (fun F K Kf => kinetic_segmented_basis K Kf). Qed.
Print Assumptions C13_generalized_is_segmented_assembled_kinetic.

(* generic: any matrix-valued function of a basis whose entries are, through the index map oidx, a function
   Ent a b m q m' q' of the two shells and the positions that obeys the column law on both sides *)
Theorem C13_one_shell_segmented_generic :
  forall (F : Type) (K : Fops F) (Mat : list (shell F) -> list (list F))
         (Ent : shell F -> shell F -> nat -> nat -> nat -> nat -> F),
  (forall a b m q m' q', m < nseg a -> Ent (col_shell K a m) b 0 q m' q' = Ent a b m q m' q') ->
  (forall a b m q m' q', m' < nseg b -> Ent a (col_shell K b m') m q 0 q' = Ent a b m q m' q') ->
  forall pre post s, 0 < nseg s ->
  mat_ok K Mat Ent (pre ++ s :: post) -> mat_ok K Mat Ent (pre ++ segments K s ++ post) ->
  Mat (pre ++ segments K s ++ post) = Mat (pre ++ s :: post).
Proof. exact (fun F K Mat Ent => one_shell_segmented K Mat Ent). Qed.
Print Assumptions C13_one_shell_segmented_generic.

(* the entry formula of the overlap matrix that the instance uses (both triangles), and its column law *)
Theorem C13_overlap_entry_obeys_column_law :
  forall (F : Type) (K : Fops F), is_field K ->
  (forall x : F, fapx K x = x) -> fadd K (f1 K) (f1 K) <> f0 K ->
  (forall X, basis_ok K X -> mat_ok K (fun Y => overlap_integral K Y None) (ovE K) X) /\
  (forall a b m q m' q', m < nseg a -> ovE K (col_shell K a m) b 0 q m' q' = ovE K a b m q m' q') /\
  (forall a b m q m' q', m' < nseg b -> ovE K a (col_shell K b m') m q 0 q' = ovE K a b m q m' q').
Proof.
  exact (fun F K Kf Hapx H2 => conj (overlap_mat_ok K Kf Hapx H2) (conj (entP_col_l K (ovl_prim K) (fun _ _ _ => eq_refl)) (entP_col_r K (ovl_prim K) (fun _ _ _ => eq_refl)))).
Qed.
Print Assumptions C13_overlap_entry_obeys_column_law.

(* the hypotheses are satisfiable; the theorems instantiated *)
(* generalized spherical d shell (two segments), Cartesian p shell, contracted spherical s shell over Qc, any
   oracle closures: 14 functions before and after *)
Example C13_assembled_hypotheses_satisfiable :
  forall (opi : Qc) (osqrt oexp oln : Qc -> Qc) (oboys : nat -> Qc -> Qc),
  let K := KQ opi osqrt oexp oln oboys in
  is_field K /\ (forall x : Qc, fapx K x = x) /\ fadd K (f1 K) (f1 K) <> f0 K /\
  basis_ok K ex_mixed /\
  length (segments K ex_sa_sph) = 2 /\ length (segmented_basis K ex_mixed) = 4 /\
  ototal K (segmented_basis K ex_mixed) = 14 /\ ototal K ex_mixed = 14.
Proof.
  exact (fun opi osqrt oexp oln oboys =>
    conj (KQ_field _ _ _ _ _) (conj (KQ_apx _ _ _ _ _) (conj (KQ_two _ _ _ _ _)
      (conj (ex_basis_ok opi osqrt oexp oln oboys) (ex_segmented_shape opi osqrt oexp oln oboys))))).
Qed.
Print Assumptions C13_assembled_hypotheses_satisfiable.

Example C13_assembled_instance :
  forall (opi : Qc) (osqrt oexp oln : Qc -> Qc) (oboys : nat -> Qc -> Qc) T,
  let K := KQ opi osqrt oexp oln oboys in
  overlap_integral K (segments K ex_sa_sph ++ [ex_sb; ex_sc_sph]) T = overlap_integral K ex_mixed T
  /\ overlap_integral K (segmented_basis K ex_mixed) T = overlap_integral K ex_mixed T.
Proof. exact ex_overlap_segmented. Qed.
Print Assumptions C13_assembled_instance.
