(* Props/C15.v — theorems backing property C15 (stress tensor, Ehrenfest force and
   Ehrenfest Hessian obey their definitions).  Statements closed by [exact] of a lemma proved
   elsewhere, or in a step or two, each followed by Print Assumptions.

   Reading guide.  [dmodel K] packages: a commutative ring R (of functions of r) with
   operations K, the rationals inside it (m_inj), the parameters alpha beta, three
   derivations m_D AX/AY/AZ, nb basis functions with all their derivatives
   phi o a (D k (phi o a) = phi (o+e_k) a) and a constant symmetric matrix P;
   [dmodel_ok] are exactly those hypotheses.  m_G K M o1 o2 is the double sum
   sum_ab P_ab phi^o1_a phi^o2_b, i.e. what evaluate_deriv_reduced_density_matrix(o1,o2)
   returns; [m_eval K M c] is the value of the formal combination c.
   stress_doc / force_doc / hess_doc / hess_symm are the documented formulas
   (Model/Stress.v); trace_table is what the current source computes (Gen/StressTrace.v). *)
From Coq Require Import QArith Qcanon List Bool.
From GB Require Import Base.Field Base.Tables Gauss.Jets Model.Stress Proofs.StressP
  Gen.StressTrace Proofs.StressTraceP.
Import ListNotations.
Local Close Scope Qc_scope.
Local Close Scope Q_scope.
Local Open Scope nat_scope.

(* the symbols are the derivatives of the reduced density matrix and obey the product rule *)
Theorem C15_symbols_meaning :
  forall (R : Type) (K : Fops R), is_ring K -> forall M : dmodel K, dmodel_ok K M ->
  forall k o1 o2,
    m_G K M o1 o2 = sumn (f0 K) (fadd K) (m_nb M) (fun a => sumn (f0 K) (fadd K) (m_nb M)
                      (fun b => fmul K (fmul K (m_P M a b) (m_phi M o1 a)) (m_phi M o2 b)))
    /\ m_D M k (m_G K M o1 o2) = fadd K (m_G K M (osucc k o1) o2) (m_G K M o1 (osucc k o2))
    /\ m_G K M o1 o2 = m_G K M o2 o1.
Proof.
  exact (fun R K Kr M Mok k o1 o2 =>
    conj eq_refl
      (conj (G_product_rule K Kr M Mok k o1 o2)
            (Gphi_sym K Kr (m_nb M) (m_P M) (m_phi M) (ok_Psym K M Mok) o1 o2))).
Qed.
Print Assumptions C15_symbols_meaning.

(* sigma_ij = -alpha G(e_i,e_j) + (1-alpha) G(e_i+e_j,0) - delta_ij beta/2 lap(rho), rho = G(0,0) *)
Theorem C15_stress_formula :
  forall (R : Type) (K : Fops R), is_ring K -> forall M : dmodel K, dmodel_ok K M ->
  forall i j,
  m_eval K M (stress_doc i j)
  = fsub K (fadd K (fmul K (fopp K (m_alpha M)) (m_G K M (e_ i) (e_ j)))
                   (fmul K (fsub K (f1 K) (m_alpha M)) (m_G K M (oadd (e_ i) (e_ j)) o0)))
      (if aeqb i j then
         fmul K (fmul K (m_inj M qhalf) (m_beta M))
           (fadd K (fadd K (m_D M AX (m_D M AX (m_G K M o0 o0))) (m_D M AY (m_D M AY (m_G K M o0 o0))))
                   (m_D M AZ (m_D M AZ (m_G K M o0 o0))))
       else f0 K).
Proof. exact (fun R K Kr M Mok => stress_tensor_formula K Kr M Mok). Qed.
Print Assumptions C15_stress_formula.

(* the two displayed forms of the docstring agree (symmetric G) *)
Theorem C15_stress_forms_agree :
  forall (R : Type) (K : Fops R), is_ring K -> forall inj, is_qhom K inj ->
  forall (alpha beta : R) (G : order -> order -> R), (forall a b, G a b = G b a) ->
  forall i j, eval K inj alpha beta G (stress_doc1 i j) = eval K inj alpha beta G (stress_doc i j).
Proof.
  intros R K Kr inj Hinj alpha beta G Gs i j.
  apply (equivb_sound K Kr inj Hinj alpha beta G Gs), stress_forms_equiv.
Qed.
Print Assumptions C15_stress_forms_agree.

Theorem C15_stress_symmetric :
  forall (R : Type) (K : Fops R), is_ring K -> forall M : dmodel K, dmodel_ok K M ->
  forall i j, m_eval K M (stress_doc i j) = m_eval K M (stress_doc j i).
Proof. exact (fun R K Kr M Mok => stress_symmetric K Kr M Mok). Qed.
Print Assumptions C15_stress_symmetric.

(* F_j (documented expanded formula) = - sum_i d/dr_i sigma_ij *)
Theorem C15_force_is_minus_div_stress :
  forall (R : Type) (K : Fops R), is_ring K -> forall M : dmodel K, dmodel_ok K M ->
  forall j,
  m_eval K M (force_doc j)
  = fopp K (fadd K (fadd K (m_D M AX (m_eval K M (stress_doc AX j))) (m_D M AY (m_eval K M (stress_doc AY j))))
                   (m_D M AZ (m_eval K M (stress_doc AZ j)))).
Proof. exact (fun R K Kr M Mok => force_is_minus_div_stress K Kr M Mok). Qed.
Print Assumptions C15_force_is_minus_div_stress.

(* H_jk (documented expanded formula) = d/dr_k F_j *)
Theorem C15_hessian_is_jacobian_of_force :
  forall (R : Type) (K : Fops R), is_ring K -> forall M : dmodel K, dmodel_ok K M ->
  forall j k, m_eval K M (hess_doc j k) = m_D M k (m_eval K M (force_doc j)).
Proof. exact (fun R K Kr M Mok => hessian_is_jacobian_of_force K Kr M Mok). Qed.
Print Assumptions C15_hessian_is_jacobian_of_force.

(* symmetric=True: half the sum with the transpose (1/2 + 1/2 = 1), and the result is symmetric *)
Theorem C15_hessian_symmetrised :
  forall (R : Type) (K : Fops R), is_ring K -> forall M : dmodel K, dmodel_ok K M ->
  forall j k,
  m_eval K M (hess_symm j k)
    = fmul K (m_inj M qhalf) (fadd K (m_eval K M (hess_doc j k)) (m_eval K M (hess_doc k j)))
  /\ fadd K (m_inj M qhalf) (m_inj M qhalf) = f1 K
  /\ m_eval K M (hess_symm j k) = m_eval K M (hess_symm k j).
Proof. exact (fun R K Kr M Mok => hessian_symmetrised_avg K Kr M Mok). Qed.
Print Assumptions C15_hessian_symmetrised.

(* at a special-cased parameter value the term the code skips has coefficient zero *)
Theorem C15_special_values :
  (forall b, csubst (Some (Q2Qc 0)) b c_al = czero)
  /\ (forall b, csubst (Some (Q2Qc 1)) b c_1mal = czero)
  /\ (forall b, csubst (Some qhalf) b c_1m2al = czero)
  /\ (forall a, csubst a (Some (Q2Qc 0)) c_hbe = czero).
Proof. exact (conj skip_alpha_0 (conj skip_alpha_1 (conj skip_alpha_half skip_beta_0))). Qed.
Print Assumptions C15_special_values.

(* what the current source computes (regenerated trace) is the documented formula, in each of
   the 8 parameter cases (the n-th case of [cases] / [trace_table]) and for every component *)
Theorem C15_code_computes_spec :
  forall (R : Type) (K : Fops R), is_ring K -> forall inj, is_qhom K inj ->
  forall (alpha beta : R) (G : order -> order -> R), (forall a b, G a b = G b a) ->
  forall n ab tc, nth_error cases n = Some ab -> nth_error trace_table n = Some tc ->
  (forall v, fst ab = Some v -> alpha = inj v) -> (forall v, snd ab = Some v -> beta = inj v) ->
  (forall m c s, nth_error (t_stress tc) m = Some c -> nth_error (tab2 stress_doc) m = Some s ->
     eval K inj alpha beta G c = eval K inj alpha beta G s)
  /\ (forall m c s, nth_error (t_force tc) m = Some c -> nth_error (tab1 force_doc) m = Some s ->
     eval K inj alpha beta G c = eval K inj alpha beta G s)
  /\ (forall m c s, nth_error (t_hess tc) m = Some c -> nth_error (tab2 hess_doc) m = Some s ->
     eval K inj alpha beta G c = eval K inj alpha beta G s)
  /\ (forall m c s, nth_error (t_hess_symm tc) m = Some c -> nth_error (tab2 hess_symm) m = Some s ->
     eval K inj alpha beta G c = eval K inj alpha beta G s)
  /\ length trace_table = length cases /\ length (t_stress tc) = 9 /\ length (t_force tc) = 3
  /\ length (t_hess tc) = 9 /\ length (t_hess_symm tc) = 9.
Proof.
  exact (fun R K Kr inj Hinj alpha beta G Gs n ab tc Hab Htc Ha Hb =>
           code_computes_spec K Kr inj Hinj alpha beta G Gs n ab tc Hab Htc Ha Hb).
Qed.
Print Assumptions C15_code_computes_spec.

(* the hypotheses are satisfiable (rationals, constant basis functions), and the decision
   procedure is not vacuous: it refutes symmetry of the unsymmetrised Hessian *)
Example C15_model_exists : is_ring exK /\ dmodel_ok exK exM.
Proof. exact (conj exKr exM_ok). Qed.
Print Assumptions C15_model_exists.
(* a model whose derivations do not vanish: dual numbers over Qc, phi = first-order germs of exponentials *)
Example C15_model_nontrivial :
  is_ring dualK /\ dmodel_ok dualK dualM /\ m_D dualM AX (m_phi dualM o0 0) <> f0 dualK.
Proof. exact (conj dualKr (conj dualM_ok dualM_nontrivial)). Qed.
Print Assumptions C15_model_nontrivial.
Example C15_equivb_separates : equivb (hess_doc AX AY) (hess_doc AY AX) = false.
Proof. vm_compute; reflexivity. Qed.
Print Assumptions C15_equivb_separates.
