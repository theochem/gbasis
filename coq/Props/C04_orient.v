(* Props/C04_orient.v — property C04 (and C11): the electron-repulsion block does not depend on which of
   the eight orientations of the quartet the recursions are evaluated for.

   After the orientation repair, ElectronRepulsionIntegral.construct_array_contraction evaluates the
   recursions of _two_elec_int.py for ONE of (ab|cd) (ba|cd) (ab|dc) (ba|dc) (cd|ab) (dc|ab) (cd|ba) (dc|ba),
   chosen by a floating-point conditioning estimate, and transposes the axes back.  The model
   (Model/TwoElec.v: orient, eri_block_oriented, eri_block_impl) takes the choice as an ORACLE
   `choose : shell -> shell -> shell -> shell -> orient`; the theorems below show that the exact result is the
   same for every oracle, so the model stays a faithful transcription whatever the estimate decides.

   Chain:  per axis and per s, the four-index bivariate Gaussian moment M4 (= hh of Ms, C04_core) is symmetric
   under a<->b, c<->d (moving a mean by AB is the binomial/horizontal recursion: C04_mean_shift_first/second) and under
   the exchange of the electrons (C04_wick_swap with p<->q, P<->Q)  ==>  the VALUE of the s-polynomial R4 of
   two_elec_correct at every s is symmetric  ==>  (a coefficient list vanishing at 0,1,2,.. is zero; char. 0)
   Phi_0 (R4) is symmetric, prefactor and Boys argument being symmetric  ==>  the specification value
   eri_spec (the right-hand side of C04_two_elec_correct) is symmetric  ==>  every entry of
   eri_block_oriented o equals the entry of eri_block.

   Every theorem is over an arbitrary field of characteristic 0, all angular momenta, exponents, centres,
   contraction shapes; all are closed under the global context.  The proofs are `exact lemma`, or a few lines
   from lemmas of Proofs/EriOrientP.v, + `Print Assumptions`; the `Example`s show the hypotheses satisfiable and
   read C04_eri_block_orientation_independent at a concrete quartet over Qc (all eight oriented blocks, entry by
   entry); that the transposition matters is a refutation by vm_compute. *)
From Coq Require Import List Arith ZArith.
From GB Require Import Base.Field Base.FNum Base.Tables Gauss.Moment1D Gauss.SPoly Gauss.Wick2D
  Model.Shell Model.OneElec Model.TwoElec Proofs.TwoElecP Proofs.EriOrientP.
Import ListNotations.


(* with T j = L(x^j), Hf d T b a = L(x^a (x+d)^b): re-expanding around x + d and going back *)
Theorem C04_hrr_shift_swap :
  forall (F : Type) (K : Fops F), is_field K ->
  forall (d : F) (h : nat -> F) (a b : nat),
  Hf K (fopp K d) (fun j => Hf K d h j 0) a b = Hf K d h b a.
Proof. exact (fun F K Kf => Hf_shift_swap K Kf). Qed.
Print Assumptions C04_hrr_shift_swap.

(* Stein's lemma for E[(y1+a1+d)^i (y1+a1)^j (y2+c1)^k] = T3 i j k := Hf d (fun j' => M j' k) i j *)
Theorem C04_stein_three_factors :
  forall (F : Type) (K : Fops F), is_field K ->
  forall (a1 c1 s11 s12 s22 d : F) (i j k : nat),
  T3 K a1 c1 s11 s12 s22 d i (S j) k
  = fadd K (fadd K (fmul K a1 (T3 K a1 c1 s11 s12 s22 d i j k))
       (fmul K s11 (fadd K (fmul K (ofnat K j) (T3 K a1 c1 s11 s12 s22 d i (j - 1) k))
                           (fmul K (ofnat K i) (T3 K a1 c1 s11 s12 s22 d (i - 1) j k)))))
     (fmul K s12 (fmul K (ofnat K k) (T3 K a1 c1 s11 s12 s22 d i j (k - 1)))).
Proof. exact (fun F K Kf => M_stein3 K Kf). Qed.
Print Assumptions C04_stein_three_factors.

(* moving the mean of the first (second) variable by d is the binomial (horizontal) recursion *)
Theorem C04_mean_shift_first :
  forall (F : Type) (K : Fops F), is_field K ->
  forall (a1 c1 s11 s12 s22 d : F) (i k : nat),
  M K (fadd K a1 d) c1 s11 s12 s22 i k = Hf K d (fun j => M K a1 c1 s11 s12 s22 j k) i 0.
Proof. exact (fun F K Kf => M_mean_shift1 K Kf). Qed.
Print Assumptions C04_mean_shift_first.

Theorem C04_mean_shift_second :
  forall (F : Type) (K : Fops F), is_field K ->
  forall (a1 c1 s11 s12 s22 d : F) (i k : nat),
  M K a1 (fadd K c1 d) s11 s12 s22 i k = Hf K d (fun l => M K a1 c1 s11 s12 s22 i l) k 0.
Proof.
  intros F K Kf a1 c1 s11 s12 s22 d i k.
  rewrite (M_swap K Kf), (M_mean_shift1 K Kf).
  apply (Hf_ext K). intros l. symmetry. apply (M_swap K Kf).
Qed.
Print Assumptions C04_mean_shift_second.

(* exchanging the electrons in the (a0|c0) integrand: p <-> q, PA <-> QC, PQ -> QP *)
Theorem C04_Ms_electron_swap :
  forall (F : Type) (K : Fops F), is_field K ->
  forall (p q PA QC PQ s : F) (i k : nat),
  Ms K p q PA QC PQ s i k = Ms K q p QC PA (fopp K PQ) s k i.
Proof. exact (fun F K Kf => Ms_el_swap K Kf). Qed.
Print Assumptions C04_Ms_electron_swap.

(* the exact per-axis integrand E[(y1+PA)^a (y1+PB)^b (y2+QC)^c (y2+QD)^d] at s: three generators *)
Theorem C04_M4_swap_ab :
  forall (F : Type) (K : Fops F), is_field K ->
  forall (alpha beta gamma delta xa xb xc xd s : F) (a b c d : nat),
  M4 K alpha beta gamma delta xa xb xc xd s a b c d = M4 K beta alpha gamma delta xb xa xc xd s b a c d.
Proof. exact (fun F K Kf => M4_swap_ab K Kf). Qed.
Print Assumptions C04_M4_swap_ab.

Theorem C04_M4_swap_cd :
  forall (F : Type) (K : Fops F), is_field K ->
  forall (alpha beta gamma delta xa xb xc xd s : F) (a b c d : nat),
  M4 K alpha beta gamma delta xa xb xc xd s a b c d = M4 K alpha beta delta gamma xa xb xd xc s a b d c.
Proof. exact (fun F K Kf => M4_swap_cd K Kf). Qed.
Print Assumptions C04_M4_swap_cd.

Theorem C04_M4_swap_electrons :
  forall (F : Type) (K : Fops F), is_field K ->
  forall (alpha beta gamma delta xa xb xc xd s : F) (a b c d : nat),
  M4 K alpha beta gamma delta xa xb xc xd s a b c d = M4 K gamma delta alpha beta xc xd xa xb s c d a b.
Proof. exact (fun F K Kf => M4_swap_el K Kf). Qed.
Print Assumptions C04_M4_swap_electrons.


(* the VALUE of R4 at every s is symmetric (for the primitive quartet alpha beta | gamma delta; only the
   exponent sums must be non-zero) *)
Theorem C04_R4_value_swap_ab :
  forall (F : Type) (K : Fops F), is_field K ->
  forall (s1 s2 s3 s4 : shell F) (i1 i2 i3 i4 : nat) (alpha beta gamma delta : F),
  fadd K (f1 K) (f1 K) <> f0 K -> fadd K alpha beta <> f0 K -> fadd K gamma delta <> f0 K ->
  fadd K (fadd K alpha beta) (fadd K gamma delta) <> f0 K ->
  forall s : F,
  peval K (R4 K s1 s2 s3 s4 i1 i2 i3 i4 alpha beta gamma delta) s
  = peval K (R4 K s2 s1 s3 s4 i2 i1 i3 i4 beta alpha gamma delta) s.
Proof. exact (fun F K Kf => R4_value_swap_ab K Kf). Qed.
Print Assumptions C04_R4_value_swap_ab.

Theorem C04_R4_value_swap_cd :
  forall (F : Type) (K : Fops F), is_field K ->
  forall (s1 s2 s3 s4 : shell F) (i1 i2 i3 i4 : nat) (alpha beta gamma delta : F),
  fadd K (f1 K) (f1 K) <> f0 K -> fadd K alpha beta <> f0 K -> fadd K gamma delta <> f0 K ->
  fadd K (fadd K alpha beta) (fadd K gamma delta) <> f0 K ->
  forall s : F,
  peval K (R4 K s1 s2 s3 s4 i1 i2 i3 i4 alpha beta gamma delta) s
  = peval K (R4 K s1 s2 s4 s3 i1 i2 i4 i3 alpha beta delta gamma) s.
Proof. exact (fun F K Kf => R4_value_swap_cd K Kf). Qed.
Print Assumptions C04_R4_value_swap_cd.

Theorem C04_R4_value_swap_electrons :
  forall (F : Type) (K : Fops F), is_field K ->
  forall (s1 s2 s3 s4 : shell F) (i1 i2 i3 i4 : nat) (alpha beta gamma delta : F),
  fadd K (f1 K) (f1 K) <> f0 K -> fadd K alpha beta <> f0 K -> fadd K gamma delta <> f0 K ->
  fadd K (fadd K alpha beta) (fadd K gamma delta) <> f0 K ->
  forall s : F,
  peval K (R4 K s1 s2 s3 s4 i1 i2 i3 i4 alpha beta gamma delta) s
  = peval K (R4 K s3 s4 s1 s2 i3 i4 i1 i2 gamma delta alpha beta) s.
Proof. exact (fun F K Kf => R4_value_swap_el K Kf). Qed.
Print Assumptions C04_R4_value_swap_electrons.

(* hence Phi_0, with the sequence beta_m = pref * F_m(rho |PQ|^2) the model feeds to the recursions (itself
   symmetric), is the same number: uniqueness of the polynomial representative, characteristic 0 *)
Theorem C04_R4_Phi_swap_ab :
  forall (F : Type) (K : Fops F), is_field K ->
  forall (s1 s2 s3 s4 : shell F) (i1 i2 i3 i4 : nat) (alpha beta gamma delta : F),
  fadd K (f1 K) (f1 K) <> f0 K -> fadd K alpha beta <> f0 K -> fadd K gamma delta <> f0 K ->
  fadd K (fadd K alpha beta) (fadd K gamma delta) <> f0 K ->
  (forall n : nat, ofnat K (S n) <> f0 K) ->
  Phi K (eri_base K (s_x s1) (s_y s1) (s_z s1) (s_x s2) (s_y s2) (s_z s2) (s_x s3) (s_y s3) (s_z s3) (s_x s4) (s_y s4) (s_z s4) alpha beta gamma delta) 0
        (R4 K s1 s2 s3 s4 i1 i2 i3 i4 alpha beta gamma delta)
  = Phi K (eri_base K (s_x s2) (s_y s2) (s_z s2) (s_x s1) (s_y s1) (s_z s1) (s_x s3) (s_y s3) (s_z s3) (s_x s4) (s_y s4) (s_z s4) beta alpha gamma delta) 0
        (R4 K s2 s1 s3 s4 i2 i1 i3 i4 beta alpha gamma delta).
Proof. exact (fun F K Kf => R4_Phi_swap_ab K Kf). Qed.
Print Assumptions C04_R4_Phi_swap_ab.

Theorem C04_R4_Phi_swap_cd :
  forall (F : Type) (K : Fops F), is_field K ->
  forall (s1 s2 s3 s4 : shell F) (i1 i2 i3 i4 : nat) (alpha beta gamma delta : F),
  fadd K (f1 K) (f1 K) <> f0 K -> fadd K alpha beta <> f0 K -> fadd K gamma delta <> f0 K ->
  fadd K (fadd K alpha beta) (fadd K gamma delta) <> f0 K ->
  (forall n : nat, ofnat K (S n) <> f0 K) ->
  Phi K (eri_base K (s_x s1) (s_y s1) (s_z s1) (s_x s2) (s_y s2) (s_z s2) (s_x s3) (s_y s3) (s_z s3) (s_x s4) (s_y s4) (s_z s4) alpha beta gamma delta) 0
        (R4 K s1 s2 s3 s4 i1 i2 i3 i4 alpha beta gamma delta)
  = Phi K (eri_base K (s_x s1) (s_y s1) (s_z s1) (s_x s2) (s_y s2) (s_z s2) (s_x s4) (s_y s4) (s_z s4) (s_x s3) (s_y s3) (s_z s3) alpha beta delta gamma) 0
        (R4 K s1 s2 s4 s3 i1 i2 i4 i3 alpha beta delta gamma).
Proof. exact (fun F K Kf => R4_Phi_swap_cd K Kf). Qed.
Print Assumptions C04_R4_Phi_swap_cd.

Theorem C04_R4_Phi_swap_electrons :
  forall (F : Type) (K : Fops F), is_field K ->
  forall (s1 s2 s3 s4 : shell F) (i1 i2 i3 i4 : nat) (alpha beta gamma delta : F),
  fadd K (f1 K) (f1 K) <> f0 K -> fadd K alpha beta <> f0 K -> fadd K gamma delta <> f0 K ->
  fadd K (fadd K alpha beta) (fadd K gamma delta) <> f0 K ->
  (forall n : nat, ofnat K (S n) <> f0 K) ->
  Phi K (eri_base K (s_x s1) (s_y s1) (s_z s1) (s_x s2) (s_y s2) (s_z s2) (s_x s3) (s_y s3) (s_z s3) (s_x s4) (s_y s4) (s_z s4) alpha beta gamma delta) 0
        (R4 K s1 s2 s3 s4 i1 i2 i3 i4 alpha beta gamma delta)
  = Phi K (eri_base K (s_x s3) (s_y s3) (s_z s3) (s_x s4) (s_y s4) (s_z s4) (s_x s1) (s_y s1) (s_z s1) (s_x s2) (s_y s2) (s_z s2) gamma delta alpha beta) 0
        (R4 K s3 s4 s1 s2 i3 i4 i1 i2 gamma delta alpha beta).
Proof. exact (fun F K Kf => R4_Phi_swap_el K Kf). Qed.
Print Assumptions C04_R4_Phi_swap_electrons.


(* eri_spec is, literally, the right-hand side of C04_two_elec_correct *)
Theorem C04_eri_spec_unfold :
  forall (F : Type) (K : Fops F) (s1 s2 s3 s4 : shell F) (m1 i1 m2 i2 m3 i3 m4 i4 : nat),
  eri_spec K s1 s2 s3 s4 m1 i1 m2 i2 m3 i3 m4 i4
  = fmul K (fmul K (fmul K (fmul K
      (csum K (wts K s1) m1 (s_exps s1) (fun alpha =>
        csum K (wts K s2) m2 (s_exps s2) (fun beta =>
          csum K (wts K s3) m3 (s_exps s3) (fun gamma =>
            csum K (wts K s4) m4 (s_exps s4) (fun delta =>
              Phi K (eri_base K (s_x s1) (s_y s1) (s_z s1) (s_x s2) (s_y s2) (s_z s2) (s_x s3) (s_y s3) (s_z s3) (s_x s4) (s_y s4) (s_z s4) alpha beta gamma delta) 0
                    (R4 K s1 s2 s3 s4 i1 i2 i3 i4 alpha beta gamma delta))))))
      (inv_sqrt_df K (nth i1 (comps_of s1) (0, 0, 0)))) (inv_sqrt_df K (nth i2 (comps_of s2) (0, 0, 0))))
      (inv_sqrt_df K (nth i3 (comps_of s3) (0, 0, 0)))) (inv_sqrt_df K (nth i4 (comps_of s4) (0, 0, 0))).
Proof. reflexivity. Qed.
Print Assumptions C04_eri_spec_unfold.

(* spec symmetry: (a) a <-> b, (b) c <-> d, (c) the two electrons; sums over the primitives commute *)
Theorem C04_eri_spec_symmetric :
  forall (F : Type) (K : Fops F), is_field K ->
  forall (s1 s2 s3 s4 : shell F) (m1 i1 m2 i2 m3 i3 m4 i4 : nat),
  (forall n : nat, ofnat K (S n) <> f0 K) ->
  (forall alpha beta, In alpha (s_exps s1) -> In beta (s_exps s2) -> fadd K alpha beta <> f0 K) ->
  (forall gamma delta, In gamma (s_exps s3) -> In delta (s_exps s4) -> fadd K gamma delta <> f0 K) ->
  (forall alpha beta gamma delta, In alpha (s_exps s1) -> In beta (s_exps s2) ->
     In gamma (s_exps s3) -> In delta (s_exps s4) ->
     fadd K (fadd K alpha beta) (fadd K gamma delta) <> f0 K) ->
  eri_spec K s1 s2 s3 s4 m1 i1 m2 i2 m3 i3 m4 i4 = eri_spec K s2 s1 s3 s4 m2 i2 m1 i1 m3 i3 m4 i4
  /\ eri_spec K s1 s2 s3 s4 m1 i1 m2 i2 m3 i3 m4 i4 = eri_spec K s1 s2 s4 s3 m1 i1 m2 i2 m4 i4 m3 i3
  /\ eri_spec K s1 s2 s3 s4 m1 i1 m2 i2 m3 i3 m4 i4 = eri_spec K s3 s4 s1 s2 m3 i3 m4 i4 m1 i1 m2 i2.
Proof.
  intros F K Kf s1 s2 s3 s4 m1 i1 m2 i2 m3 i3 m4 i4 char0 Hp Hq Hpq.
  pose proof (conj Hp (conj Hq Hpq) : exps_ok K s1 s2 s3 s4) as He.
  repeat split; [apply eri_spec_swap_ab|apply eri_spec_swap_cd|apply eri_spec_swap_el]; assumption.
Qed.
Print Assumptions C04_eri_spec_symmetric.

(* all eight orientations: opick_k o x1 x2 x3 x4 = x_{order[k]} for order = _ORIENTATIONS[o] *)
Theorem C04_eri_spec_symmetric_8 :
  forall (F : Type) (K : Fops F), is_field K ->
  forall (o : orient) (s1 s2 s3 s4 : shell F) (m1 i1 m2 i2 m3 i3 m4 i4 : nat),
  (forall n : nat, ofnat K (S n) <> f0 K) ->
  (forall alpha beta, In alpha (s_exps s1) -> In beta (s_exps s2) -> fadd K alpha beta <> f0 K) ->
  (forall gamma delta, In gamma (s_exps s3) -> In delta (s_exps s4) -> fadd K gamma delta <> f0 K) ->
  (forall alpha beta gamma delta, In alpha (s_exps s1) -> In beta (s_exps s2) ->
     In gamma (s_exps s3) -> In delta (s_exps s4) ->
     fadd K (fadd K alpha beta) (fadd K gamma delta) <> f0 K) ->
  eri_spec K (opick1 o s1 s2 s3 s4) (opick2 o s1 s2 s3 s4) (opick3 o s1 s2 s3 s4) (opick4 o s1 s2 s3 s4)
           (opick1 o m1 m2 m3 m4) (opick1 o i1 i2 i3 i4) (opick2 o m1 m2 m3 m4) (opick2 o i1 i2 i3 i4)
           (opick3 o m1 m2 m3 m4) (opick3 o i1 i2 i3 i4) (opick4 o m1 m2 m3 m4) (opick4 o i1 i2 i3 i4)
  = eri_spec K s1 s2 s3 s4 m1 i1 m2 i2 m3 i3 m4 i4.
Proof.
  intros F K Kf o s1 s2 s3 s4 m1 i1 m2 i2 m3 i3 m4 i4 char0 Hp Hq Hpq.
  exact (eri_spec_orient K Kf char0 o s1 s2 s3 s4 m1 i1 m2 i2 m3 i3 m4 i4 (conj Hp (conj Hq Hpq))).
Qed.
Print Assumptions C04_eri_spec_symmetric_8.


(* EVERY entry of the block evaluated in ANY of the eight orientations and transposed back equals the
   entry of the block evaluated in the given orientation.  Hypotheses as in C04_two_elec_correct
   (exact arithmetic, non-zero exponent sums, indices in range, component degrees) plus characteristic 0. *)
Theorem C04_eri_block_orientation_independent :
  forall (F : Type) (K : Fops F), is_field K ->
  forall (o : orient) (s1 s2 s3 s4 : shell F) (m1 i1 m2 i2 m3 i3 m4 i4 : nat),
  (forall x : F, fapx K x = x) ->
  (forall n : nat, ofnat K (S n) <> f0 K) ->
  (forall alpha beta, In alpha (s_exps s1) -> In beta (s_exps s2) -> fadd K alpha beta <> f0 K) ->
  (forall gamma delta, In gamma (s_exps s3) -> In delta (s_exps s4) -> fadd K gamma delta <> f0 K) ->
  (forall alpha beta gamma delta, In alpha (s_exps s1) -> In beta (s_exps s2) ->
     In gamma (s_exps s3) -> In delta (s_exps s4) ->
     fadd K (fadd K alpha beta) (fadd K gamma delta) <> f0 K) ->
  m1 < nseg s1 -> m2 < nseg s2 -> m3 < nseg s3 -> m4 < nseg s4 ->
  i1 < length (comps_of s1) -> i2 < length (comps_of s2) ->
  i3 < length (comps_of s3) -> i4 < length (comps_of s4) ->
  compsum (nth i1 (comps_of s1) (0, 0, 0)) <= s_l s1 -> compsum (nth i2 (comps_of s2) (0, 0, 0)) <= s_l s2 ->
  compsum (nth i3 (comps_of s3) (0, 0, 0)) <= s_l s3 -> compsum (nth i4 (comps_of s4) (0, 0, 0)) <= s_l s4 ->
  nth i4 (nth m4 (nth i3 (nth m3 (nth i2 (nth m2 (nth i1 (nth m1 (eri_block_oriented K o s1 s2 s3 s4) []) []) []) []) []) []) []) (f0 K)
  = nth i4 (nth m4 (nth i3 (nth m3 (nth i2 (nth m2 (nth i1 (nth m1 (eri_block K s1 s2 s3 s4) []) []) []) []) []) []) []) (f0 K).
Proof. exact (fun F K Kf => eri_block_orientation_independent K Kf). Qed.
Print Assumptions C04_eri_block_orientation_independent.

(* for ANY choice function (the floating-point conditioning estimate of the implementation), the block of
   the implementation agrees entry by entry with eri_block *)
Theorem C04_eri_block_impl_is_eri_block :
  forall (F : Type) (K : Fops F), is_field K ->
  forall (choose : shell F -> shell F -> shell F -> shell F -> orient)
         (s1 s2 s3 s4 : shell F) (m1 i1 m2 i2 m3 i3 m4 i4 : nat),
  (forall x : F, fapx K x = x) ->
  (forall n : nat, ofnat K (S n) <> f0 K) ->
  (forall alpha beta, In alpha (s_exps s1) -> In beta (s_exps s2) -> fadd K alpha beta <> f0 K) ->
  (forall gamma delta, In gamma (s_exps s3) -> In delta (s_exps s4) -> fadd K gamma delta <> f0 K) ->
  (forall alpha beta gamma delta, In alpha (s_exps s1) -> In beta (s_exps s2) ->
     In gamma (s_exps s3) -> In delta (s_exps s4) ->
     fadd K (fadd K alpha beta) (fadd K gamma delta) <> f0 K) ->
  m1 < nseg s1 -> m2 < nseg s2 -> m3 < nseg s3 -> m4 < nseg s4 ->
  i1 < length (comps_of s1) -> i2 < length (comps_of s2) ->
  i3 < length (comps_of s3) -> i4 < length (comps_of s4) ->
  compsum (nth i1 (comps_of s1) (0, 0, 0)) <= s_l s1 -> compsum (nth i2 (comps_of s2) (0, 0, 0)) <= s_l s2 ->
  compsum (nth i3 (comps_of s3) (0, 0, 0)) <= s_l s3 -> compsum (nth i4 (comps_of s4) (0, 0, 0)) <= s_l s4 ->
  nth i4 (nth m4 (nth i3 (nth m3 (nth i2 (nth m2 (nth i1 (nth m1 (eri_block_impl K choose s1 s2 s3 s4) []) []) []) []) []) []) []) (f0 K)
  = nth i4 (nth m4 (nth i3 (nth m3 (nth i2 (nth m2 (nth i1 (nth m1 (eri_block K s1 s2 s3 s4) []) []) []) []) []) []) []) (f0 K).
Proof.
  intros F K Kf choose s1 s2 s3 s4. unfold eri_block_impl. apply (eri_block_orientation_independent K Kf).
Qed.
Print Assumptions C04_eri_block_impl_is_eri_block.


(* characteristic 0 holds at the executable instance (the other hypotheses: C04_two_elec_hyps_ex) *)
Example C04_orient_char0_ex : forall n, ofnat KQ4 (S n) <> f0 KQ4.
Proof. exact orient_char0_ex. Qed.
Print Assumptions C04_orient_char0_ex.

(* a concrete (p s | s p) quartet at Qc, four centres, two primitives / two segmented contractions on the
   first shell, two segmented contractions on the third: the eight oriented blocks coincide with eri_block
   on all 36 entries (exact rationals; the orientation theorem at this quartet) *)
Example C04_eight_orientations_ex :
  (let r := eri_block KQ4 o_s1 o_s2 o_s3 o_s4 in
   forallb (fun o => block_eqb (eri_block_oriented KQ4 o o_s1 o_s2 o_s3 o_s4) r) all_orients) = true.
Proof. exact eight_orientations_ex. Qed.
Print Assumptions C04_eight_orientations_ex.

(* the transposition is not vacuous: (cd|ab) read in the axis order of (ab|cd) is a different array *)
Example C04_transposition_matters_ex :
  block_eqb (eri_block KQ4 o_s3 o_s4 o_s1 o_s2) (eri_block KQ4 o_s1 o_s2 o_s3 o_s4) = false
  /\ length (flat8 (eri_block KQ4 o_s1 o_s2 o_s3 o_s4)) = 36.
Proof. exact transposition_matters_ex. Qed.
Print Assumptions C04_transposition_matters_ex.
