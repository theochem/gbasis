(* Props/C12_rotation.v — property C12, GENERAL ROTATIONS (proper and improper), proved at the level of the algebraic
   specification and, for the overlap, of the list-level model's block.

   Chain (all over an arbitrary field, no analysis, no axioms):
     Gauss/Poly3.v      polynomials in three variables as monomial lists seen through all linear functionals [Jsum J];
                        the isotropic 3-D Gaussian moment functional E3 v (the 1-D functional of Gauss/Moment1D.v with
                        the same variance along x, y, z); Stein's rule along each axis; UNIQUENESS (a linear functional
                        with I(y_i f) = v I(d_i f) is I(1) E3 v); linear substitution f o R, its multiplicativity and
                        chain rule; hence  E3 v (f o R) = E3 v f  for every R with R R^T = 1 and EVERY polynomial f.
     Proofs/RotationP.v the product over the axes of the 1-D factors T1 of [ovl_prim] / [mom_prim] is E3 of the product
                        polynomial (y+PA)^a (y+PB)^b [(y+PC)^k]; P, PA, PB, PC rotate with the centres, the prefactor
                        depends on |A-B|^2; covariance of the primitive overlap and multipole-moment specifications,
                        the representation matrix read off (R^T u)^a multiplied out ([rot_expand]).
     Proofs/RotationBlockP.v  the matrix collected over [default_comps l] ([rep_mat], satisfies RigidP.mono_rep) and the
                        law lifted through contraction and normalisation to every entry of [overlap_block]
                        (= Overlap.construct_array_contraction): the conclusion of [RigidP.rotation_law_overlap], under
                        its hypotheses plus 1+1 <> 0 and one coefficient row per exponent.

   CONVENTIONS.  R : mat3 (rows); [rot_shell R s] has centre R * centre(s); D(R)[a, a'] = [rep_mat R a' a] = coefficient
   of u^a' in (R^T u)^a, so that  sum_{a'} D(R)[a,a'] (integral about the rotated centres with index a') = (integral
   of the original system with index a).  [orthogonal R] is R R^T = R^T R = 1: nothing is assumed about det R.

   Kinetic energy: Laplacian, y.grad and |y|^2 commute with every orthogonal substitution, [kin_prim] is the
   corresponding operator acting on the right index of the overlap, hence the primitive kinetic-energy specification and
   every entry of [kinetic_block] (= KineticEnergyIntegral.construct_array_contraction) obey the same law.

   The other integrals: momentum, angular momentum, point-charge and multipole-moment blocks in Props/C12_rotation2.v,
   evaluations and electron repulsion in Props/C12_rotation3.v, the whole-basis overlap, kinetic energy and evaluation
   in Props/C12_rotation4.v.  Decided for general rotations only by the correspondence check harness/c12.py (rational
   rotations from integer quaternions, 1e-9): spherical / mixed shells, densities, the other whole-basis functions. *)
From Coq Require Import List Arith ZArith QArith Qcanon Field_theory.
From GB Require Import Base.Field Base.FNum Base.Tables Gauss.Moment1D Gauss.Poly3 Model.Shell Model.MomentInt
  Model.Overlap Model.DiffOp Proofs.CoreSumP Proofs.CoreBlockP Proofs.CoreDiffP Proofs.RigidP Proofs.RotationP
  Proofs.RotationBlockP.
Import ListNotations.

(* 1. the isotropic Gaussian moment functional in three variables *)

(* Stein's rule along every axis: E3 (y_i f) = v E3 (d_i f) *)
Theorem C12_rotation_stein3 :
  forall (F : Type) (K : Fops F), is_field K ->
  forall (v : F) (i : axis) (f : poly3), E3 K v (mulv i f) = fmul K v (E3 K v (dv K i f)).
Proof. exact (@stein3). Qed.
Print Assumptions C12_rotation_stein3.

(* the moment sequence m_a m_b m_c is the only solution of the three Stein recurrences *)
Theorem C12_rotation_moments3_unique :
  forall (F : Type) (K : Fops F), is_field K ->
  forall (v : F) (J : mon -> F) (c0 : F),
  stein_laws K v c0 J -> forall m : mon, J m = fmul K c0 (M3 K v m).
Proof. exact (@moments3_unique). Qed.
Print Assumptions C12_rotation_moments3_unique.

(* UNIQUENESS: a linear functional on monomial lists obeying Stein's rule on monomials is I(1) * E3 *)
Theorem C12_rotation_gauss3_uniqueness :
  forall (F : Type) (K : Fops F), is_field K ->
  forall (v : F) (I : poly3 -> F),
  plinear3 K I -> stein_on_monomials K v I -> forall f : poly3, I f = fmul K (I (one3 K)) (E3 K v f).
Proof. exact (@gauss3_uniqueness). Qed.
Print Assumptions C12_rotation_gauss3_uniqueness.

(* [subst] is substitution: the value of f o R at u is the value of f at R u *)
Theorem C12_rotation_subst_is_substitution :
  forall (F : Type) (K : Fops F), is_field K ->
  forall (u : axis -> F) (R : mat) (f : poly3),
  peval K u (subst K R f) = peval K (fun i : axis => dot K (R i) u) f.
Proof. exact (@peval_subst). Qed.
Print Assumptions C12_rotation_subst_is_substitution.

(* (y_i f) o R = (sum_j R i j y_j) (f o R), seen through every linear functional *)
Theorem C12_rotation_subst_multiplicative :
  forall (F : Type) (K : Fops F), is_field K ->
  forall (R : mat) (i : axis) (f : poly3), peq K (subst K R (mulv i f)) (mullin K (R i) (subst K R f)).
Proof. exact (@subst_mulv). Qed.
Print Assumptions C12_rotation_subst_multiplicative.

(* chain rule: d_k (f o R) = sum_i R i k ((d_i f) o R) *)
Theorem C12_rotation_chain_rule :
  forall (F : Type) (K : Fops F), is_field K ->
  forall (R : mat) (k : axis) (f : poly3) (J : mon -> F),
  Jsum K J (dv K k (subst K R f)) = sum3 K (fun i : axis => fmul K (R i k) (Jsum K J (subst K R (dv K i f)))).
Proof. exact (@dv_subst). Qed.
Print Assumptions C12_rotation_chain_rule.

(* ROTATION INVARIANCE: for every R with R R^T = 1 (proper or improper), every polynomial f, every variance v *)
Theorem C12_rotation_E3_invariant :
  forall (F : Type) (K : Fops F), is_field K ->
  forall (v : F) (R : mat), orth_rows K R -> forall f : poly3, E3 K v (subst K R f) = E3 K v f.
Proof. exact (@E3_subst_orth). Qed.
Print Assumptions C12_rotation_E3_invariant.

(* the kinetic operator -h (Lap - 4 beta y.grad - 6 beta + 4 beta^2 |y|^2) commutes with every orthogonal substitution *)
Theorem C12_rotation_kinetic_operator_invariant :
  forall (F : Type) (K : Fops F), is_field K ->
  forall (R : mat) (h beta : F) (f : poly3),
  orth_rows K R -> orth_rows K (transpose R) ->
  peq K (kinop K h beta (subst K R f)) (subst K R (kinop K h beta f)).
Proof. exact (@kinop_subst). Qed.
Print Assumptions C12_rotation_kinetic_operator_invariant.

Theorem C12_rotation_laplacian_invariant :
  forall (F : Type) (K : Fops F), is_field K ->
  forall (R : mat) (f : poly3), orth_rows K R -> peq K (lap K (subst K R f)) (subst K R (lap K f)).
Proof. exact (@lap_subst). Qed.
Print Assumptions C12_rotation_laplacian_invariant.

(* 2. the primitive specifications of the block theorems are E3 of a product polynomial *)

Theorem C12_rotation_ovl_prim_is_E3 :
  forall (F : Type) (K : Fops F), is_field K ->
  forall (sa sb : shell F) (ca cb : comp) (alpha beta : F),
  ovl_prim K sa sb ca cb alpha beta =
  fmul K (KAB K sa sb alpha beta) (E3 K (fdiv K (f1 K) (twop K alpha beta)) (pair_poly K sa sb ca cb alpha beta)).
Proof.
  intros F K Kf sa sb ca cb alpha beta.
  exact (mom_prim_is_E3 K Kf (f0 K, f0 K, f0 K) (0, 0, 0)%nat sa sb ca cb alpha beta).
Qed.
Print Assumptions C12_rotation_ovl_prim_is_E3.

Theorem C12_rotation_mom_prim_is_E3 :
  forall (F : Type) (K : Fops F), is_field K ->
  forall (C : vec3) (o : comp) (sa sb : shell F) (ca cb : comp) (alpha beta : F),
  mom_prim K (vget C 0) (vget C 1) (vget C 2) o sa sb ca cb alpha beta =
  fmul K (KAB K sa sb alpha beta)
    (E3 K (fdiv K (f1 K) (twop K alpha beta)) (triple_poly K C o sa sb ca cb alpha beta)).
Proof. exact (@mom_prim_is_E3). Qed.
Print Assumptions C12_rotation_mom_prim_is_E3.

(* kin_prim (CoreDiffP) is the kinetic operator acting on the right index of ovl_prim *)
Theorem C12_rotation_kin_prim_is_operator :
  forall (F : Type) (K : Fops F), is_field K ->
  forall (sa sb : shell F) (ca cb : comp) (alpha beta : F),
  kin_prim K sa sb ca cb alpha beta =
  kinT K (fdiv K (f1 K) (fadd K (f1 K) (f1 K))) beta (fun b : mon => ovl_prim K sa sb ca b alpha beta) cb.
Proof. exact (@kin_prim_is_kinT). Qed.
Print Assumptions C12_rotation_kin_prim_is_operator.

(* the s-s prefactor sees the centres only through |A - B|^2 *)
Theorem C12_rotation_prefactor_invariant :
  forall (F : Type) (K : Fops F), is_field K ->
  (forall x y : F, fexp K (fadd K x y) = fmul K (fexp K x) (fexp K y)) ->
  forall (R : mat3) (sa sb : shell F) (alpha beta : F),
  orthogonal K R -> KAB K (rot_shell K R sa) (rot_shell K R sb) alpha beta = KAB K sa sb alpha beta.
Proof. exact (@KAB_rot). Qed.
Print Assumptions C12_rotation_prefactor_invariant.

(* 3. general rotations, primitive level *)

(* meaning of [rot_expand]: the polynomial (R^T u)^a in monomials of u *)
Theorem C12_rotation_rot_expand_meaning :
  forall (F : Type) (K : Fops F), is_field K ->
  forall (R : mat3) (a : comp) (u : vec3),
  Jsum K (monomial K u) (rot_expand K R a) = monomial K (mapply_t K R u) a.
Proof. exact (@rot_expand_eval). Qed.
Print Assumptions C12_rotation_rot_expand_meaning.

(* overlap of two primitives, any exponent triples a, b *)
Theorem C12_rotation_overlap_primitive :
  forall (F : Type) (K : Fops F), is_field K ->
  (forall x y : F, fexp K (fadd K x y) = fmul K (fexp K x) (fexp K y)) ->
  forall (R : mat3) (sa sb : shell F) (ca cb : comp) (alpha beta : F),
  orthogonal K R -> psum K alpha beta <> f0 K ->
  Jsum K (fun a' : mon => Jsum K (fun b' : mon =>
       ovl_prim K (rot_shell K R sa) (rot_shell K R sb) a' b' alpha beta)
     (rot_expand K R cb)) (rot_expand K R ca)
  = ovl_prim K sa sb ca cb alpha beta.
Proof. exact (@overlap_prim_rotation_covariant). Qed.
Print Assumptions C12_rotation_overlap_primitive.

(* multipole moment (r - C)^o about the rotated origin R C: the order index rotates with the same representation *)
Theorem C12_rotation_moment_primitive :
  forall (F : Type) (K : Fops F), is_field K ->
  (forall x y : F, fexp K (fadd K x y) = fmul K (fexp K x) (fexp K y)) ->
  forall (R : mat3) (C : vec3) (o : comp) (sa sb : shell F) (ca cb : comp) (alpha beta : F),
  orthogonal K R -> psum K alpha beta <> f0 K ->
  let C' := mapply K R C in
  Jsum K (fun o' : mon => Jsum K (fun a' : mon => Jsum K (fun b' : mon =>
       mom_prim K (vget C' 0) (vget C' 1) (vget C' 2) o' (rot_shell K R sa) (rot_shell K R sb) a' b' alpha beta)
     (rot_expand K R cb)) (rot_expand K R ca)) (rot_expand K R o)
  = mom_prim K (vget C 0) (vget C 1) (vget C 2) o sa sb ca cb alpha beta.
Proof. exact (@moment_prim_rotation_covariant). Qed.
Print Assumptions C12_rotation_moment_primitive.

(* kinetic energy of two primitives *)
Theorem C12_rotation_kinetic_primitive :
  forall (F : Type) (K : Fops F), is_field K ->
  (forall x y : F, fexp K (fadd K x y) = fmul K (fexp K x) (fexp K y)) ->
  forall (R : mat3) (sa sb : shell F) (ca cb : comp) (alpha beta : F),
  orthogonal K R -> psum K alpha beta <> f0 K ->
  Jsum K (fun a' : mon => Jsum K (fun b' : mon =>
       kin_prim K (rot_shell K R sa) (rot_shell K R sb) a' b' alpha beta)
     (rot_expand K R cb)) (rot_expand K R ca)
  = kin_prim K sa sb ca cb alpha beta.
Proof. exact (@kinetic_prim_rotation_covariant). Qed.
Print Assumptions C12_rotation_kinetic_primitive.

(* the collected coefficients form a representation matrix in the sense of RigidP.mono_rep *)
Theorem C12_rotation_rep_mat_represents :
  forall (F : Type) (K : Fops F), is_field K ->
  forall (R : mat3) (l : nat), mono_rep K R l (rep_mat K R).
Proof. exact (@rep_mat_mono_rep). Qed.
Print Assumptions C12_rotation_rep_mat_represents.

(* matrix form over the Cartesian components of the two shells *)
Theorem C12_rotation_overlap_primitive_matrix :
  forall (F : Type) (K : Fops F), is_field K ->
  (forall x y : F, fexp K (fadd K x y) = fmul K (fexp K x) (fexp K y)) ->
  forall (R : mat3) (la lb : nat) (sa sb : shell F) (ja jb : comp) (alpha beta : F),
  orthogonal K R -> psum K alpha beta <> f0 K ->
  In ja (default_comps la) -> In jb (default_comps lb) ->
  fsum K (map (fun ia : comp => fsum K (map (fun ib : comp =>
      fmul K (fmul K (rep_mat K R ia ja) (rep_mat K R ib jb))
        (ovl_prim K (rot_shell K R sa) (rot_shell K R sb) ia ib alpha beta))
    (default_comps lb))) (default_comps la))
  = ovl_prim K sa sb ja jb alpha beta.
Proof. exact (@overlap_prim_rotation_matrix). Qed.
Print Assumptions C12_rotation_overlap_primitive_matrix.

(* 4. general rotations, Overlap.construct_array_contraction (list-level model): every entry, every segment,
      any angular momenta, any contraction.  This is RigidP.rotation_law_overlap with the hypotheses
      "1+1 <> 0" and "one coefficient row per exponent" added (C12_general_rotation_law_overlap_statement of
      Props/C12.v without them is therefore still not a theorem, only by these two side conditions). *)
Theorem C12_rotation_overlap_block :
  forall (F : Type) (K : Fops F), is_field K ->
  (forall x : F, fapx K x = x) ->
  (forall x y : F, fexp K (fadd K x y) = fmul K (fexp K x) (fexp K y)) ->
  (forall c : comp, dfnorm K c <> f0 K) ->
  fadd K (f1 K) (f1 K) <> f0 K ->
  forall R : mat3, orthogonal K R ->
  forall la lb : nat, exists Ma Mb : comp -> comp -> F,
    mono_rep K R la Ma /\ mono_rep K R lb Mb /\
    forall sa sb : shell F,
    s_l sa = la -> s_l sb = lb -> s_comps sa = [] -> s_comps sb = [] ->
    wf_coeffs sa -> wf_coeffs sb ->
    (forall a b : F, In a (s_exps sa) -> In b (s_exps sb) -> fadd K a b <> f0 K) ->
    forall ma mb ja jb : nat,
    (ma < nseg sa)%nat -> (mb < nseg sb)%nat ->
    (ja < length (default_comps la))%nat -> (jb < length (default_comps lb))%nat ->
    let cmp := fun l i : nat => nth i (default_comps l) (0, 0, 0)%nat in
    fmul K (fmul K (dfnorm K (cmp la ja)) (dfnorm K (cmp lb jb)))
      (nth jb (nth mb (nth ja (nth ma (overlap_block K sa sb) []) []) []) (f0 K))
    = fsum K (map (fun ia : nat => fsum K (map (fun ib : nat =>
        fmul K (fmul K (fmul K (fmul K (Ma (cmp la ia) (cmp la ja)) (Mb (cmp lb ib) (cmp lb jb)))
                               (dfnorm K (cmp la ia))) (dfnorm K (cmp lb ib)))
          (nth ib (nth mb (nth ia (nth ma (overlap_block K (rot_shell K R sa) (rot_shell K R sb)) []) []) [])
               (f0 K)))
        (seq 0 (length (default_comps lb))))) (seq 0 (length (default_comps la)))).
Proof.
  intros F K Kf Hapx Hexp Hdf H2 R HO la lb.
  exact (block_law_of_rep K Kf _ (overlap_block_rotation_law_rep K Kf Hexp Hapx H2 Hdf) R HO la lb).
Qed.
Print Assumptions C12_rotation_overlap_block.

(* the stated law of Props/C12.v implies the proved one (they differ by the two side conditions only) *)
Theorem C12_rotation_stated_law_implies_proved :
  forall (F : Type) (K : Fops F), rotation_law_overlap K -> rotation_law_overlap_wf K.
Proof.
  intros F K H Hapx Hexp Hdf _ R HO la lb. destruct (H Hapx Hexp Hdf R HO la lb) as (Ma & Mb & A & B & C).
  exists Ma, Mb. split; [exact A|]. split; [exact B|].
  intros sa sb Hla Hlb Hca Hcb _ _. exact (C sa sb Hla Hlb Hca Hcb).
Qed.
Print Assumptions C12_rotation_stated_law_implies_proved.

(* KineticEnergyIntegral.construct_array_contraction (list-level model): the same sentence ([block_law]: the equation
   of C12_rotation_overlap_block with kinetic_block in place of overlap_block) *)
Theorem C12_rotation_kinetic_block :
  forall (F : Type) (K : Fops F), is_field K ->
  (forall x : F, fapx K x = x) ->
  (forall x y : F, fexp K (fadd K x y) = fmul K (fexp K x) (fexp K y)) ->
  (forall c : comp, dfnorm K c <> f0 K) ->
  fadd K (f1 K) (f1 K) <> f0 K ->
  forall R : mat3, orthogonal K R ->
  forall la lb : nat, exists Ma Mb : comp -> comp -> F,
    mono_rep K R la Ma /\ mono_rep K R lb Mb /\
    forall sa sb : shell F,
    s_l sa = la -> s_l sb = lb -> s_comps sa = [] -> s_comps sb = [] ->
    wf_coeffs sa -> wf_coeffs sb ->
    (forall a b : F, In a (s_exps sa) -> In b (s_exps sb) -> fadd K a b <> f0 K) ->
    forall ma mb ja jb : nat,
    (ma < nseg sa)%nat -> (mb < nseg sb)%nat ->
    (ja < length (default_comps la))%nat -> (jb < length (default_comps lb))%nat ->
    let cmp := fun l i : nat => nth i (default_comps l) (0, 0, 0)%nat in
    fmul K (fmul K (dfnorm K (cmp la ja)) (dfnorm K (cmp lb jb)))
      (nth jb (nth mb (nth ja (nth ma (kinetic_block K sa sb) []) []) []) (f0 K))
    = fsum K (map (fun ia : nat => fsum K (map (fun ib : nat =>
        fmul K (fmul K (fmul K (fmul K (Ma (cmp la ia) (cmp la ja)) (Mb (cmp lb ib) (cmp lb jb)))
                               (dfnorm K (cmp la ia))) (dfnorm K (cmp lb ib)))
          (nth ib (nth mb (nth ia (nth ma (kinetic_block K (rot_shell K R sa) (rot_shell K R sb)) []) []) [])
               (f0 K)))
        (seq 0 (length (default_comps lb))))) (seq 0 (length (default_comps la)))).
Proof.
  intros F K Kf Hapx Hexp Hdf H2.
  exact (block_law_of_rep K Kf _ (kinetic_block_rotation_law_rep K Kf Hexp Hapx H2 Hdf)).
Qed.
Print Assumptions C12_rotation_kinetic_block.

(* 5. the hypotheses are satisfiable (3-4-5 rotation about z and the improper (1/3)[[1,2,2],[2,1,-2],[2,-2,1]]) *)
Theorem C12_rotation_hypotheses_satisfiable :
  exists (F : Type) (K : Fops F) (R1 R2 : mat3) (alpha beta : F),
    is_field K /\ (forall x y, fexp K (fadd K x y) = fmul K (fexp K x) (fexp K y))
    /\ orthogonal K R1 /\ orthogonal K R2 /\ psum K alpha beta <> f0 K.
Proof.
  exists Qc, (QcK true (Q2Qc 3) (fun x => x) (fun _ => Q2Qc 1) (fun x => x) (fun _ x => x)),
    R345, Rimp, (qc_of 3 2), (qc_of 2 3).
  split; [apply QcK_field|]. split; [apply KQ_exp_hom|]. split; [apply orthogonal_R345|].
  split; [apply orthogonal_Rimp|apply ex_psum].
Qed.
Print Assumptions C12_rotation_hypotheses_satisfiable.

Theorem C12_rotation_block_hypotheses_satisfiable :
  exists (F : Type) (K : Fops F) (R : mat3) (sa sb : shell F),
    is_field K /\ (forall x y, fexp K (fadd K x y) = fmul K (fexp K x) (fexp K y)) /\ (forall x, fapx K x = x)
    /\ fadd K (f1 K) (f1 K) <> f0 K /\ (forall c, dfnorm K c <> f0 K)
    /\ orthogonal K R /\ wf_coeffs sa /\ wf_coeffs sb /\ s_comps sa = [] /\ s_comps sb = []
    /\ (forall a b, In a (s_exps sa) -> In b (s_exps sb) -> fadd K a b <> f0 K).
Proof.
  exists Qc, exKQ, R345, exP, exD.
  split; [apply QcK_field|]. destruct KQ_hyps as (A & B & C & D).
  split; [exact A|]. split; [exact B|]. split; [exact C|]. split; [exact D|].
  exact block_law_hypotheses_satisfiable.
Qed.
Print Assumptions C12_rotation_block_hypotheses_satisfiable.

(* the laws in boolean form on concrete rational data (p and d primitives; a contracted p shell with two segments
   against a d shell through the list-level model), proper and improper rotation: the theorems above at R345, Rimp *)
Theorem C12_rotation_examples_computed :
  forallb (fun ca => forallb (fun cb => ovl_cov_check R345 ca cb) pd_comps) pd_comps = true
  /\ forallb (fun ca => forallb (fun cb => ovl_cov_check Rimp ca cb)
       [(0, 1, 0)%nat; (1, 0, 1)%nat; (0, 0, 2)%nat]) pd_comps = true
  /\ forallb (fun R => forallb (fun ca => forallb (fun cb => kin_cov_check R ca cb)
       [(0, 1, 0)%nat; (1, 0, 1)%nat; (0, 0, 2)%nat]) [(1, 0, 0)%nat; (1, 1, 0)%nat]) [R345; Rimp] = true
  /\ block_law_all (overlap_block exKQ) = true /\ block_law_all (kinetic_block exKQ) = true.
Proof.
  exact (conj overlap_rotation_345_computed (conj overlap_rotation_improper_computed
          (conj kinetic_rotation_computed (conj block_law_computed kinetic_block_law_computed)))).
Qed.
Print Assumptions C12_rotation_examples_computed.
