(* Props/C12_rotation2.v — property C12, GENERAL ROTATIONS (proper and improper), continued from Props/C12_rotation.v:
   the POINT-CHARGE (Boys-type) integral, the MOMENTUM (vector), the ANGULAR MOMENTUM (pseudo-vector) and the MULTIPOLE
   MOMENT block, at the level of the algebraic specification and of every entry of the list-level model's blocks.
   Any field, no analysis, no axioms; no property of the Boys function, of sqrt or pi is used.

   Chain:
     Proofs/RotationMoreP.v       point charge: for every s the s-polynomial of OneElecP ([prim_poly], value = product over
                                  the axes of three 1-D Gaussian moments with the SAME variance v(1-s)) is E3 (v(1-s)) of the
                                  product polynomial (y + PA - s PC)^a (y + PB - s PC)^b; the displacements rotate with R;
                                  Poly3.E3_subst_orth gives covariance of the VALUES for every s; the D-combination of
                                  s-polynomials is a coefficient list, Phi is linear, and OneElecP.Phi_unique (characteristic
                                  0) transfers the law to Phi for ANY sequence beta; the Boys sequence depends on |A-B|^2,
                                  |P-C|^2 only.  Momentum: grad_k = d_k - 2 beta u_k on the right index of the overlap,
                                  chain rule grad_k (f o Q) = sum_i Q i k (grad_i f) o Q.
     Proofs/RotationAngP.v        angular momentum about the coordinate origin: L_k = sum eps_kmn (u_m + B_m) grad_n,
                                  (row_i Q) x (row_j Q) = det Q eps_ijl row_l Q for orthonormal columns, hence
                                  L'_k (f o Q) = det Q sum_l Q l k (L_l f) o Q.
     Proofs/RotationMoreBlockP.v  lifting through contraction and normalisation for a FIXED R and two kernels
                                  ([block_rotation_law_generic2]); [one_elec_spec] of OneElecP as a contracted sum.
     Proofs/RotationLawsP.v       [law_expanded]: [block_law2] with the hypotheses curried and the sums explicit.

   CONVENTIONS (as in C12_rotation.v).  R : mat3 (rows), R[k][i] = [matf R k i]; [rot_shell R s] has centre R * centre(s);
   D(R)[a,a'] = coefficient of u^a' in (R^T u)^a, so that Jsum J (rot_expand R a) = sum_a' D(R)[a,a'] J a' and
   [rep_mat R a' a] = D(R)[a,a'] collected over [default_comps l]; [orthogonal R] is R R^T = R^T R = 1, nothing assumed
   about det R; [det3 (matf R)] is the determinant (its square is 1: C12_rotation2_det_squared).
   Block law ([law_expanded K R la lb ent ent']), for Cartesian shells of angular momenta la, lb in the default component
   order, one coefficient row per exponent, non-zero exponent sums, every segment pair (ma, mb) and component pair (ja, jb):
        dfnorm(ja) dfnorm(jb) ent(sa, sb)[ma, ja, mb, jb]
          = sum_ia sum_ib rep_mat[ia, ja] rep_mat[ib, jb] dfnorm(ia) dfnorm(ib) ent'(R sa, R sb)[ma, ia, mb, ib].

   STILL ONLY TESTED for general rotations (harness/c12.py): electron-repulsion integrals, spherical / mixed shells,
   evaluations, densities, whole-basis assembly.  For spherical shells the law would follow by linearity from the Cartesian
   one GIVEN matrices D_sph with  T D_cart = D_sph T  (T the Cartesian-to-spherical transformation incl. norms); their
   existence (the span of the rows of T is rotation invariant) is not proved for general l and no theorem is stated. *)
From Coq Require Import List Arith ZArith QArith Qcanon Field_theory.
From GB Require Import Base.Field Base.FNum Base.Tables Gauss.Moment1D Gauss.SPoly Gauss.Poly3 Model.Shell
  Model.MomentInt Model.Overlap Model.DiffOp Model.OneElec Proofs.CoreSumP Proofs.CoreBlockP Proofs.CoreDiffP
  Proofs.OneElecP Proofs.RigidP Proofs.RotationP Proofs.RotationBlockP Proofs.RotationMoreP Proofs.RotationMoreBlockP
  Proofs.RotationAngP Proofs.RotationLawsP.
Import ListNotations.

(* for every s the s-polynomial is the isotropic 3-D functional, variance v (1 - s), of (y+PA-sPC)^a (y+PB-sPC)^b *)
Theorem C12_rotation2_point_charge_integrand_is_E3 :
  forall (F : Type) (K : Fops F), is_field K ->
  forall (C A B : axis -> F) (alpha beta : F) (ca cb : comp) (s : F),
  SPoly.peval K (prim_poly K (C AX) (C AY) (C AZ) (A AX) (A AY) (A AZ) (B AX) (B AY) (B AZ) alpha beta ca cb) s
  = E3 K (fmul K (fdiv K (f1 K) (fmul K (fadd K (f1 K) (f1 K)) (fadd K alpha beta))) (fsub K (f1 K) s))
      (smono K (dAs K C A B alpha beta s) ca (smono K (dBs K C A B alpha beta s) cb (one3 K))).
Proof. exact (@prim_poly_is_E3). Qed.
Print Assumptions C12_rotation2_point_charge_integrand_is_E3.

(* per s: the values of the s-polynomials of the rotated system, D-contracted, are those of the original system *)
Theorem C12_rotation2_point_charge_integrand_covariant :
  forall (F : Type) (K : Fops F), is_field K ->
  forall (R : axis -> axis -> F) (C A B : axis -> F) (alpha beta : F) (ca cb : mon) (s : F),
  orth_rows K (transpose R) -> fadd K alpha beta <> f0 K ->
  Jsum K (fun a' : mon => Jsum K (fun b' : mon =>
      SPoly.peval K (prim_poly_v K (rotv K R C) (rotv K R A) (rotv K R B) alpha beta a' b') s)
    (subst_mon K (transpose R) cb)) (subst_mon K (transpose R) ca)
  = SPoly.peval K (prim_poly_v K C A B alpha beta ca cb) s.
Proof. exact (@prim_poly_rotation_covariant_eval). Qed.
Print Assumptions C12_rotation2_point_charge_integrand_covariant.

(* through the linear functional Phi_m of ANY sequence bet (no property of the Boys function) *)
Theorem C12_rotation2_point_charge_Phi_covariant :
  forall (F : Type) (K : Fops F), is_field K -> (forall n : nat, ofnat K (S n) <> f0 K) ->
  forall (R : axis -> axis -> F) (C A B : axis -> F) (alpha beta : F) (ca cb : mon) (bet : nat -> F) (m : nat),
  orth_rows K (transpose R) -> fadd K alpha beta <> f0 K ->
  Jsum K (fun a' : mon => Jsum K (fun b' : mon =>
      Phi K bet m (prim_poly_v K (rotv K R C) (rotv K R A) (rotv K R B) alpha beta a' b'))
    (subst_mon K (transpose R) cb)) (subst_mon K (transpose R) ca)
  = Phi K bet m (prim_poly_v K C A B alpha beta ca cb).
Proof. exact (@Phi_prim_poly_rotation_covariant). Qed.
Print Assumptions C12_rotation2_point_charge_Phi_covariant.

(* the sequence (2 pi / p) K_AB F_m(p |PC|^2) is unchanged when A, B, C are rotated together *)
Theorem C12_rotation2_boys_sequence_invariant :
  forall (F : Type) (K : Fops F), is_field K ->
  forall (R : axis -> axis -> F) (C A B : axis -> F) (alpha beta : F) (m : nat),
  orth_rows K (transpose R) -> fadd K alpha beta <> f0 K ->
  boys_seq_v K (rotv K R C) (rotv K R A) (rotv K R B) alpha beta m = boys_seq_v K C A B alpha beta m.
Proof. exact (@boys_seq_rot). Qed.
Print Assumptions C12_rotation2_boys_sequence_invariant.

(* GENERAL ROTATIONS, point-charge integral of two primitives, the charge at C: [prim_val] is the primitive value of the
   block theorem OneElecP.one_elec_entry *)
Theorem C12_rotation2_point_charge_primitive :
  forall (F : Type) (K : Fops F), is_field K -> (forall n : nat, ofnat K (S n) <> f0 K) ->
  forall (R : mat3) (C : vec3) (sa sb : shell F) (ca cb : comp) (alpha beta : F),
  orthogonal K R -> psum K alpha beta <> f0 K ->
  let C' := mapply K R C in let sa' := rot_shell K R sa in let sb' := rot_shell K R sb in
  Jsum K (fun a' : mon => Jsum K (fun b' : mon =>
       prim_val K (vget C' 0) (vget C' 1) (vget C' 2) (s_x sa') (s_y sa') (s_z sa') (s_x sb') (s_y sb') (s_z sb')
                alpha beta a' b')
     (rot_expand K R cb)) (rot_expand K R ca)
  = prim_val K (vget C 0) (vget C 1) (vget C 2) (s_x sa) (s_y sa) (s_z sa) (s_x sb) (s_y sb) (s_z sb)
             alpha beta ca cb.
Proof. exact (@point_charge_prim_rotation_covariant). Qed.
Print Assumptions C12_rotation2_point_charge_primitive.

(* the specification of OneElecP in the vocabulary of the two-index block theorems *)
Theorem C12_rotation2_one_elec_spec_is_contracted :
  forall (F : Type) (K : Fops F), is_field K -> (forall x : F, fapx K x = x) ->
  forall (Cx Cy Cz : F) (sa sb : shell F) (ma : nat) (ca : comp) (mb : nat) (cb : comp),
  wf_coeffs sa -> wf_coeffs sb ->
  one_elec_spec K Cx Cy Cz sa sb ma ca mb cb
  = contracted K sa sb ca cb ma mb (fun alpha beta : F =>
      prim_val K Cx Cy Cz (s_x sa) (s_y sa) (s_z sa) (s_x sb) (s_y sb) (s_z sb) alpha beta ca cb).
Proof. exact (@one_elec_spec_contracted). Qed.
Print Assumptions C12_rotation2_one_elec_spec_is_contracted.

(* any two kernels whose entries are contracted primitive values obeying the primitive matrix law obey the block law *)
Theorem C12_rotation2_generic_lifting :
  forall (F : Type) (K : Fops F), is_field K -> (forall x : F, fapx K x = x) -> (forall c : comp, dfnorm K c <> f0 K) ->
  forall (R : mat3) (la lb : nat) (ent ent' : entry_fun) (prim prim' : prim_fun),
  entries_are K la lb ent prim -> entries_are K la lb ent' prim' -> prim_law K R la lb prim prim' ->
  block_law2 K R la lb ent ent'.
Proof. exact (@block_rotation_law_generic2). Qed.
Print Assumptions C12_rotation2_generic_lifting.

(* [block_law2] written out *)
Theorem C12_rotation2_block_law_meaning :
  forall (F : Type) (K : Fops F) (R : mat3) (la lb : nat) (ent ent' : shell F -> shell F -> nat -> nat -> nat -> nat -> F),
  block_law2 K R la lb ent ent' <->
  (forall sa sb : shell F,
     s_l sa = la -> s_l sb = lb -> s_comps sa = [] -> s_comps sb = [] -> wf_coeffs sa -> wf_coeffs sb ->
     (forall a b : F, In a (s_exps sa) -> In b (s_exps sb) -> fadd K a b <> f0 K) ->
     forall ma mb ja jb : nat, (ma < nseg sa)%nat -> (mb < nseg sb)%nat ->
       (ja < length (default_comps la))%nat -> (jb < length (default_comps lb))%nat ->
       fmul K (fmul K (dfnorm K (cmpd la ja)) (dfnorm K (cmpd lb jb))) (ent sa sb ma ja mb jb)
       = fsum K (map (fun ia : nat => fsum K (map (fun ib : nat =>
           fmul K (fmul K (fmul K (fmul K (rep_mat K R (cmpd la ia) (cmpd la ja))
                                          (rep_mat K R (cmpd lb ib) (cmpd lb jb)))
                                  (dfnorm K (cmpd la ia))) (dfnorm K (cmpd lb ib)))
             (ent' (rot_shell K R sa) (rot_shell K R sb) ma ia mb ib))
           (seq 0 (length (default_comps lb))))) (seq 0 (length (default_comps la))))).
Proof. exact (@block_law2_unfold). Qed.
Print Assumptions C12_rotation2_block_law_meaning.

(* GENERAL ROTATIONS, PointChargeIntegral.construct_array_contraction (list-level model [point_charge_block], either
   branch of the l_a < l_b swap): every entry, every point; the points [((x, y, z), q); ...] rotate with the shells *)
Theorem C12_rotation2_point_charge_block :
  forall (F : Type) (K : Fops F), is_field K ->
  (forall x : F, fapx K x = x) -> (forall c : comp, dfnorm K c <> f0 K) -> (forall n : nat, ofnat K (S n) <> f0 K) ->
  forall (R : mat3) (points : list (F * F * F * F)) (k la lb : nat),
  orthogonal K R -> (k < length points)%nat ->
  let points' := map (fun pt : F * F * F * F => (mapply K R (fst pt), snd pt)) points in
  forall sa sb : shell F,
    s_l sa = la -> s_l sb = lb -> s_comps sa = [] -> s_comps sb = [] -> wf_coeffs sa -> wf_coeffs sb ->
    (forall a b : F, In a (s_exps sa) -> In b (s_exps sb) -> fadd K a b <> f0 K) ->
    forall ma mb ja jb : nat, (ma < nseg sa)%nat -> (mb < nseg sb)%nat ->
      (ja < length (default_comps la))%nat -> (jb < length (default_comps lb))%nat ->
      fmul K (fmul K (dfnorm K (cmpd la ja)) (dfnorm K (cmpd lb jb)))
        (nth k (nth jb (nth mb (nth ja (nth ma (point_charge_block K points sa sb) []) []) []) []) (f0 K))
      = fsum K (map (fun ia : nat => fsum K (map (fun ib : nat =>
          fmul K (fmul K (fmul K (fmul K (rep_mat K R (cmpd la ia) (cmpd la ja))
                                         (rep_mat K R (cmpd lb ib) (cmpd lb jb)))
                                 (dfnorm K (cmpd la ia))) (dfnorm K (cmpd lb ib)))
            (nth k (nth ib (nth mb (nth ia (nth ma
               (point_charge_block K points' (rot_shell K R sa) (rot_shell K R sb)) []) []) []) []) (f0 K)))
          (seq 0 (length (default_comps lb))))) (seq 0 (length (default_comps la)))).
Proof.
  intros F K Kf Hapx Hdf c0 R points k la lb HO Hk.
  exact (proj1 (block_law2_unfold K R la lb _ _)
           (point_charge_block_rotation_law K Kf Hapx Hdf c0 R points k la lb HO Hk)).
Qed.
Print Assumptions C12_rotation2_point_charge_block.

(* the one-point routine [one_elec_point] (= _compute_one_elec_integrals before the charge factor), charge at C *)
Theorem C12_rotation2_one_elec_point_block :
  forall (F : Type) (K : Fops F), is_field K ->
  (forall x : F, fapx K x = x) -> (forall c : comp, dfnorm K c <> f0 K) -> (forall n : nat, ofnat K (S n) <> f0 K) ->
  forall (R : mat3) (C : vec3) (la lb : nat), orthogonal K R ->
  law_expanded K R la lb
    (fun sa sb ma ia mb ib =>
       nth ib (nth mb (nth ia (nth ma (one_elec_point K (vget C 0) (vget C 1) (vget C 2) sa sb) []) []) []) (f0 K))
    (fun sa sb ma ia mb ib =>
       nth ib (nth mb (nth ia (nth ma (one_elec_point K (vget (mapply K R C) 0) (vget (mapply K R C) 1)
                                         (vget (mapply K R C) 2) sa sb) []) []) []) (f0 K)).
Proof.
  intros F K Kf Hapx Hdf c0 R C la lb HO.
  exact (proj1 (block_law2_unfold K R la lb _ _) (one_elec_point_rotation_law K Kf Hapx Hdf c0 R C la lb HO)).
Qed.
Print Assumptions C12_rotation2_one_elec_point_block.

(* chain rule for the Gaussian-weighted derivative grad_k = d_k - 2 beta u_k, columns of Q orthonormal *)
Theorem C12_rotation2_gradient_chain_rule :
  forall (F : Type) (K : Fops F), is_field K ->
  forall (Q : axis -> axis -> F) (k : axis) (beta : F) (f : poly3) (J : mon -> F),
  orth_rows K (transpose Q) ->
  Jsum K J (gradop K k beta (subst K Q f))
  = sum3 K (fun i : axis => fmul K (Q i k) (Jsum K J (subst K Q (gradop K i beta f)))).
Proof. exact (@gradop_subst). Qed.
Print Assumptions C12_rotation2_gradient_chain_rule.

(* mom_x_prim, mom_y_prim, mom_z_prim of CoreDiffP are that operator on the right index of the overlap *)
Theorem C12_rotation2_mom_prim_is_gradient :
  forall (F : Type) (K : Fops F), is_field K ->
  forall (k : axis) (sa sb : shell F) (ca cb : comp) (alpha beta : F),
  match k with AX => mom_x_prim K | AY => mom_y_prim K | AZ => mom_z_prim K end sa sb ca cb alpha beta
  = gradT K k beta (fun b : mon => ovl_prim K sa sb ca b alpha beta) cb.
Proof. exact (@mom_prim_is_gradT). Qed.
Print Assumptions C12_rotation2_mom_prim_is_gradient.

(* GENERAL ROTATIONS, momentum of two primitives: the D-contracted integrals of the rotated system are the rotated
   vector R (mom_x, mom_y, mom_z) of the original system *)
Theorem C12_rotation2_momentum_primitive :
  forall (F : Type) (K : Fops F), is_field K ->
  (forall x y : F, fexp K (fadd K x y) = fmul K (fexp K x) (fexp K y)) ->
  forall (R : mat3) (k : axis) (sa sb : shell F) (ca cb : comp) (alpha beta : F),
  orthogonal K R -> psum K alpha beta <> f0 K ->
  Jsum K (fun a' : mon => Jsum K (fun b' : mon =>
       momk K k (rot_shell K R sa) (rot_shell K R sb) a' b' alpha beta)
     (rot_expand K R cb)) (rot_expand K R ca)
  = sum3 K (fun i : axis => fmul K (matf R k i) (momk K i sa sb ca cb alpha beta)).
Proof. exact (@momentum_prim_rotation_covariant). Qed.
Print Assumptions C12_rotation2_momentum_primitive.

(* inverse form: rotating the D-contracted vector back with R^T gives the original component *)
Theorem C12_rotation2_momentum_primitive_inverse :
  forall (F : Type) (K : Fops F), is_field K ->
  (forall x y : F, fexp K (fadd K x y) = fmul K (fexp K x) (fexp K y)) ->
  forall (R : mat3) (j : axis) (sa sb : shell F) (ca cb : comp) (alpha beta : F),
  orthogonal K R -> psum K alpha beta <> f0 K ->
  sum3 K (fun k : axis => fmul K (matf R k j)
    (Jsum K (fun a' : mon => Jsum K (fun b' : mon =>
         momk K k (rot_shell K R sa) (rot_shell K R sb) a' b' alpha beta)
       (rot_expand K R cb)) (rot_expand K R ca)))
  = momk K j sa sb ca cb alpha beta.
Proof.
  intros F K Kf Hexp R j sa sb ca cb alpha beta HO Hp.
  unfold sum3 at 1. rewrite !(momentum_prim_rotation_covariant K Kf Hexp R _ sa sb ca cb alpha beta HO Hp).
  exact (Poly3.orth_contract K Kf (matf R) (fun i => momk K i sa sb ca cb alpha beta) j (orthogonal_cols K R HO)).
Qed.
Print Assumptions C12_rotation2_momentum_primitive_inverse.

(* MomentumIntegral.construct_array_contraction ([momentum_block_re]: the real matrix M of the value -i M, last axis
   x, y, z): every entry *)
Theorem C12_rotation2_momentum_block :
  forall (F : Type) (K : Fops F), is_field K ->
  (forall x : F, fapx K x = x) -> (forall c : comp, dfnorm K c <> f0 K) -> fadd K (f1 K) (f1 K) <> f0 K ->
  (forall x y : F, fexp K (fadd K x y) = fmul K (fexp K x) (fexp K y)) ->
  forall (R : mat3) (k : axis) (la lb : nat), orthogonal K R ->
  let comp_of := fun (i : axis) (sa sb : shell F) (ma ia mb ib : nat) =>
    nth (ax2nat i) (nth ib (nth mb (nth ia (nth ma (momentum_block_re K sa sb) []) []) []) []) (f0 K) in
  law_expanded K R la lb
    (fun sa sb ma ia mb ib => sum3 K (fun i : axis => fmul K (matf R k i) (comp_of i sa sb ma ia mb ib)))
    (comp_of k).
Proof.
  intros F K Kf Hapx Hdf H2 Hexp R k la lb HO.
  exact (proj1 (block_law2_unfold K R la lb _ _) (momentum_block_rotation_law K Kf Hapx Hdf H2 Hexp R k la lb HO)).
Qed.
Print Assumptions C12_rotation2_momentum_block.

Theorem C12_rotation2_det_squared :
  forall (F : Type) (K : Fops F), is_field K ->
  forall R : mat3, orthogonal K R -> fmul K (det3 K (matf R)) (det3 K (matf R)) = f1 K.
Proof. intros F K Kf R HO. apply (det3_sq K Kf). exact (orthogonal_rows K R HO). Qed.
Print Assumptions C12_rotation2_det_squared.

(* (row x) x (row y) = det * (row z) for a matrix with orthonormal columns (and cyclically: RotationAngP.cross_cyclic) *)
Theorem C12_rotation2_cross_product_of_rows :
  forall (F : Type) (K : Fops F), is_field K ->
  forall (M : mat) (k : axis), orth_rows K (transpose M) -> cross K M AX AY k = fmul K (det3 K M) (M AZ k).
Proof. intros F K Kf M k. exact (cross_cyclic K Kf M AX k). Qed.
Print Assumptions C12_rotation2_cross_product_of_rows.

(* L_k = sum eps_kmn (u_m + B_m) grad_n under an orthogonal substitution, B' = Q^T B *)
Theorem C12_rotation2_angular_operator_pseudovector :
  forall (F : Type) (K : Fops F), is_field K ->
  forall (Q : axis -> axis -> F) (Bv Bv' : axis -> F) (beta : F) (k : axis) (f : poly3) (J : mon -> F),
  orth_rows K (transpose Q) ->
  (forall n : axis, Bv' n = sum3 K (fun i : axis => fmul K (Q i n) (Bv i))) ->
  Jsum K J (Lop K Bv' beta k (subst K Q f))
  = fmul K (det3 K Q) (sum3 K (fun l : axis => fmul K (Q l k) (Jsum K J (subst K Q (Lop K Bv beta l f))))).
Proof. exact (@Lop_subst). Qed.
Print Assumptions C12_rotation2_angular_operator_pseudovector.

(* ang_x_prim, ang_y_prim, ang_z_prim of CoreDiffP are that operator on the right index of the overlap *)
Theorem C12_rotation2_ang_prim_is_operator :
  forall (F : Type) (K : Fops F), is_field K ->
  forall (k : axis) (sa sb : shell F) (ca cb : comp) (alpha beta : F),
  match k with AX => ang_x_prim K | AY => ang_y_prim K | AZ => ang_z_prim K end sa sb ca cb alpha beta
  = LT K (centre sb) beta k (fun b : mon => ovl_prim K sa sb ca b alpha beta) cb.
Proof. exact (@ang_prim_is_LT). Qed.
Print Assumptions C12_rotation2_ang_prim_is_operator.

(* GENERAL ROTATIONS, angular momentum of two primitives: D x D on the indices, det R * R on the component *)
Theorem C12_rotation2_angular_momentum_primitive :
  forall (F : Type) (K : Fops F), is_field K ->
  (forall x y : F, fexp K (fadd K x y) = fmul K (fexp K x) (fexp K y)) ->
  forall (R : mat3) (k : axis) (sa sb : shell F) (ca cb : comp) (alpha beta : F),
  orthogonal K R -> psum K alpha beta <> f0 K ->
  Jsum K (fun a' : mon => Jsum K (fun b' : mon =>
       angk K k (rot_shell K R sa) (rot_shell K R sb) a' b' alpha beta)
     (rot_expand K R cb)) (rot_expand K R ca)
  = fmul K (det3 K (matf R)) (sum3 K (fun l : axis => fmul K (matf R k l) (angk K l sa sb ca cb alpha beta))).
Proof. exact (@angular_momentum_prim_rotation_covariant). Qed.
Print Assumptions C12_rotation2_angular_momentum_primitive.

(* AngularMomentumIntegral.construct_array_contraction ([angmom_block_re]): every entry *)
Theorem C12_rotation2_angular_momentum_block :
  forall (F : Type) (K : Fops F), is_field K ->
  (forall x : F, fapx K x = x) -> (forall c : comp, dfnorm K c <> f0 K) -> fadd K (f1 K) (f1 K) <> f0 K ->
  (forall x y : F, fexp K (fadd K x y) = fmul K (fexp K x) (fexp K y)) ->
  forall (R : mat3) (k : axis) (la lb : nat), orthogonal K R ->
  let comp_of := fun (i : axis) (sa sb : shell F) (ma ia mb ib : nat) =>
    nth (ax2nat i) (nth ib (nth mb (nth ia (nth ma (angmom_block_re K sa sb) []) []) []) []) (f0 K) in
  law_expanded K R la lb
    (fun sa sb ma ia mb ib =>
       fmul K (det3 K (matf R)) (sum3 K (fun l : axis => fmul K (matf R k l) (comp_of l sa sb ma ia mb ib))))
    (comp_of k).
Proof.
  intros F K Kf Hapx Hdf H2 Hexp R k la lb HO.
  exact (proj1 (block_law2_unfold K R la lb _ _) (angmom_block_rotation_law K Kf Hexp Hapx Hdf H2 R k la lb HO)).
Qed.
Print Assumptions C12_rotation2_angular_momentum_block.

(* multipole-moment block: the order index rotates with D(R) as well.  Original system: the order o = orders[d] of any
   requested list, origin C; rotated system: all orders of degree |o| requested ([default_comps |o|]), origin R C *)
Theorem C12_rotation2_moment_block :
  forall (F : Type) (K : Fops F), is_field K ->
  (forall x : F, fapx K x = x) -> (forall c : comp, dfnorm K c <> f0 K) -> fadd K (f1 K) (f1 K) <> f0 K ->
  (forall x y : F, fexp K (fadd K x y) = fmul K (fexp K x) (fexp K y)) ->
  forall (R : mat3) (C : vec3) (orders : list comp) (d la lb : nat), orthogonal K R -> (d < length orders)%nat ->
  let o := nth d orders (0, 0, 0)%nat in
  let lo := mdeg o in
  let C' := mapply K R C in
  law_expanded K R la lb
    (fun sa sb ma ia mb ib =>
       nth d (nth ib (nth mb (nth ia (nth ma
         (moment_block K (vget C 0) (vget C 1) (vget C 2) orders sa sb) []) []) []) []) (f0 K))
    (fun sa sb ma ia mb ib =>
       fsum K (mk (length (default_comps lo)) (fun d' : nat =>
         fmul K (rep_mat K R (cmpd lo d') o)
           (nth d' (nth ib (nth mb (nth ia (nth ma
              (moment_block K (vget C' 0) (vget C' 1) (vget C' 2) (default_comps lo) sa sb) []) []) []) []) (f0 K))))).
Proof.
  intros F K Kf Hapx Hdf H2 Hexp R C orders d la lb HO Hd.
  exact (proj1 (block_law2_unfold K R la lb _ _)
           (moment_block_rotation_law K Kf Hapx Hdf H2 Hexp R C orders d la lb HO Hd)).
Qed.
Print Assumptions C12_rotation2_moment_block.

(* the hypotheses are satisfiable; the laws in boolean form on rational data, as instances (3-4-5 rotation and
   the improper (1/3)[[1,2,2],[2,1,-2],[2,-2,1]]; p and d primitives; contracted two-segment p shell against p / d
   shells through the list-level model, point-charge block on its swapped branch) *)
Theorem C12_rotation2_hypotheses_satisfiable :
  exists (F : Type) (K : Fops F) (R1 R2 : mat3) (alpha beta : F),
    is_field K /\ (forall n, ofnat K (S n) <> f0 K)
    /\ (forall x y, fexp K (fadd K x y) = fmul K (fexp K x) (fexp K y))
    /\ orthogonal K R1 /\ orthogonal K R2 /\ psum K alpha beta <> f0 K.
Proof.
  exists Qc, exKQm, R345, Rimp, (qc_of 3 2), (qc_of 2 3).
  split; [apply QcK_field|]. split; [apply exKQm_char0|]. split; [apply KQ_exp_hom|].
  split; [apply orthogonal_R345|]. split; [apply orthogonal_Rimp|apply ex_psum].
Qed.
Print Assumptions C12_rotation2_hypotheses_satisfiable.

Theorem C12_rotation2_block_hypotheses_satisfiable :
  exists (F : Type) (K : Fops F) (R : mat3) (sa sb : shell F),
    is_field K /\ (forall x, fapx K x = x) /\ (forall c, dfnorm K c <> f0 K) /\ (forall n, ofnat K (S n) <> f0 K)
    /\ fadd K (f1 K) (f1 K) <> f0 K /\ (forall x y, fexp K (fadd K x y) = fmul K (fexp K x) (fexp K y))
    /\ orthogonal K R /\ good_pair K 1 2 sa sb.
Proof.
  exists Qc, exKQb, R345, exP, exD. split; [apply QcK_field|].
  destruct exKQb_hyps as (A & B & C & D & E).
  repeat (split; [assumption|]). split; [exact orthogonal_R345|exact good_pair_ex].
Qed.
Print Assumptions C12_rotation2_block_hypotheses_satisfiable.

Theorem C12_rotation2_examples_computed :
  forallb (fun R => forallb (fun t => pc_cov_check R (fst t) (snd t)) ex_pairs) [R345; Rimp] = true
  /\ forallb (fun R => forallb (fun k => forallb (fun t => mom_vec_check R k (fst t) (snd t)) ex_pairs)
       [AX; AY; AZ]) [R345; Rimp] = true
  /\ forallb (fun R => forallb (fun k => forallb (fun t => ang_vec_check R k (fst t) (snd t)) ex_pairs)
       [AX; AY; AZ]) [R345; Rimp] = true.
Proof.
  exact (conj point_charge_rotation_computed (conj momentum_rotation_computed angular_momentum_rotation_computed)).
Qed.
Print Assumptions C12_rotation2_examples_computed.

(* the block laws at the list-level model, in boolean form: one_elec_point (p x p, improper), point_charge_block (two points,
   contracted p x d, swapped branch, 3-4-5), momentum_block_re, moment_block (order (1,1,0) against the six second-order
   moments about R C), angmom_block_re (both rotations) *)
Theorem C12_rotation2_block_examples_computed :
  exb_one_elec_point = true /\ exb_point_charge_block = true /\ exb_momentum_block = true
  /\ exb_moment_block = true /\ exb_angmom_block = true.
Proof.
  exact (conj one_elec_point_law_computed (conj point_charge_block_law_computed (conj momentum_block_law_computed
          (conj moment_block_law_computed angmom_block_law_computed)))).
Qed.
Print Assumptions C12_rotation2_block_examples_computed.
