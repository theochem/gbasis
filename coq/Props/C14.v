(* Props/C14.v — theorems backing property C14 (electrostatic potential = nuclear minus electronic
   Coulomb potential; distance threshold; transform = density matrix transformed back).
   Statements about the executable model Model/Esp.v of gbasis/evals/electrostatic_potential.py;
   each follows in a line or two from lemmas of Proofs/EspP.v and is followed by Print Assumptions.
   All statements are unbounded in the basis, the numbers of points and nuclei, the charges, the
   threshold and the shape of the transform. *)
From Coq Require Import List Arith Bool Reals QArith Qcanon.
From GB Require Import Base.Field Base.Tables Model.Shell Model.Assembly Model.OneElec Model.OneBody
  Model.Esp Proofs.EspP.
Import ListNotations.
Local Open Scope nat_scope.

(* Whenever the call is accepted, it returns one value per point, and the value at point p is
     sum_A [ d(R_p, R_A) < thr ? 0 : Z_A / d(R_p, R_A) ]  -  sum_ab P_ab V_ab(p)
   with V = the model of point_charge_integral(basis, points, -ones, transform) (property C03). *)
Theorem C14_esp_formula :
  forall (F : Type) (K : Fops F), is_field K ->
  forall basis P points ncoords ncharges T thr v,
  esp K basis P points ncoords ncharges T thr = Some v ->
  length v = length points /\
  forall p, p < length points ->
    nth p v (f0 K)
    = fsub K (nuclear_sum K thr ncoords ncharges (nth p points (f0 K, f0 K, f0 K)))
             (electronic_sum K (point_charge_integral K (unit_neg_points K points) basis T) P p).
Proof. exact (fun F K Kf => esp_formula K Kf). Qed.
Print Assumptions C14_esp_formula.

(* the two sums, spelled out (definitional unfoldings, stated so that the reader need not open
   Proofs/EspP.v): the nuclear sum runs over the nuclei, each contributing 0 or Z/d ... *)
Theorem C14_nuclear_sum_unfold :
  forall (F : Type) (K : Fops F) thr ncoords ncharges R,
  nuclear_sum K thr ncoords ncharges R
  = Tables.sumn (f0 K) (fadd K) (Nat.min (length ncoords) (length ncharges))
      (fun A => if masked K thr R (nth A ncoords (f0 K, f0 K, f0 K)) then f0 K
                else fdiv K (nth A ncharges (f0 K)) (Esp.dist K R (nth A ncoords (f0 K, f0 K, f0 K)))).
Proof. exact (fun F K thr nc nz R => eq_refl). Qed.
Print Assumptions C14_nuclear_sum_unfold.

(* ... and the electronic sum is the density-matrix-weighted double sum of the integrals *)
Theorem C14_electronic_sum_unfold :
  forall (F : Type) (K : Fops F) H P p,
  electronic_sum K H P p
  = Tables.sumn (f0 K) (fadd K) (length P) (fun a => Tables.sumn (f0 K) (fadd K) (length P) (fun b =>
      fmul K (nth b (nth a P []) (f0 K)) (nth p (nth b (nth a H []) []) (f0 K)))).
Proof. exact (fun F K H P p => eq_refl). Qed.
Print Assumptions C14_electronic_sum_unfold.

(* the integrals: with the unit NEGATIVE charges the code passes, every shell-pair block entry is
   PLUS the one-electron Coulomb integral at that point (point_charge.py multiplies by -q) *)
Theorem C14_unit_negative_charges_give_plus_coulomb :
  forall (F : Type) (K : Fops F), is_field K ->
  forall points sa sb ma ia mb ib p,
  ma < nseg sa -> ia < length (comps_of sa) -> mb < nseg sb -> ib < length (comps_of sb) ->
  p < length points ->
  nth p (nth ib (nth mb (nth ia (nth ma
      (point_charge_block K (unit_neg_points K points) sa sb) []) []) []) []) (f0 K)
  = let R := nth p points (f0 K, f0 K, f0 K) in
    if Nat.ltb (s_l sa) (s_l sb)
    then (nth ia (nth ma (nth ib (nth mb
           (one_elec_point K (fst (fst R)) (snd (fst R)) (snd R) sb sa) []) []) []) (f0 K))
    else (nth ib (nth mb (nth ia (nth ma
           (one_elec_point K (fst (fst R)) (snd (fst R)) (snd R) sa sb) []) []) []) (f0 K)).
Proof. exact (fun F K Kf => unit_neg_block_entry K Kf). Qed.
Print Assumptions C14_unit_negative_charges_give_plus_coulomb.

Theorem C14_accepted_iff :
  forall (F : Type) (K : Fops F) basis P points ncoords ncharges T thr,
  (exists v, esp K basis P points ncoords ncharges T thr = Some v) <->
  square_symmetric K P = true /\ length ncoords = length ncharges /\ fltb K thr (f0 K) = false
  /\ size_ok (nfun_basis basis) P T = true.
Proof. exact (fun F K => esp_accepts K). Qed.
Print Assumptions C14_accepted_iff.

(* with a transform the density matrix is compared with the number of ROWS of the transform
   (rectangular transforms pass), and the transform needs one column per contraction *)
Theorem C14_size_rule_with_transform :
  forall (F : Type) nf (P t : list (list F)),
  size_ok nf P (Some t) = true <-> length t = length P /\ Forall (fun row => length row = nf) t.
Proof. exact (fun F => @size_ok_transform F). Qed.
Print Assumptions C14_size_rule_with_transform.

Theorem C14_size_rule_without_transform :
  forall (F : Type) nf (P : list (list F)), size_ok nf P None = true <-> nf = length P.
Proof. intros F nf P. unfold size_ok. apply Nat.eqb_eq. Qed.
Print Assumptions C14_size_rule_without_transform.

Theorem C14_negative_threshold_refused :
  forall basis P points ncoords ncharges T (thr : R), (thr < 0)%R ->
  esp RKe basis P points ncoords ncharges T thr = None.
Proof.
  intros basis P points ncoords ncharges T thr H. unfold esp, esp_with.
  rewrite (proj2 (fltb_R thr (f0 RKe)) H). cbn [negb]. now rewrite !andb_false_r.
Qed.
Print Assumptions C14_negative_threshold_refused.

(* any field: the decision is a function of (threshold, point, nucleus position) only, and the
   contribution is 0 when dropped and Z/d when kept, for every charge Z *)
Theorem C14_mask_ignores_charge :
  forall (F : Type) (K : Fops F) thr R n,
  (masked K thr R n = true -> forall Z, nuc_term K thr R (n, Z) = f0 K) /\
  (masked K thr R n = false -> forall Z, nuc_term K thr R (n, Z) = fdiv K Z (Esp.dist K R n)).
Proof. exact (fun F K thr R n => conj (nuc_term_masked K thr R n) (nuc_term_kept K thr R n)). Qed.
Print Assumptions C14_mask_ignores_charge.

(* the reals, real square root: dropped iff the Euclidean distance is below the threshold *)
Theorem C14_mask_iff_distance :
  forall (thr : R) (p n : Rpt),
  masked RKe thr p n = true <->
  (sqrt ((fst (fst p) - fst (fst n))² + (snd (fst p) - snd (fst n))² + (snd p - snd n)²) < thr)%R.
Proof. exact mask_iff_distance_R. Qed.
Print Assumptions C14_mask_iff_distance.

Theorem C14_mask_iff_squared_distance :
  forall (thr : R) (p n : Rpt), (0 <= thr)%R ->
  (masked RKe thr p n = true <->
   ((fst (fst p) - fst (fst n))² + (snd (fst p) - snd (fst n))² + (snd p - snd n)² < thr * thr)%R).
Proof. exact mask_iff_sqdistance_R. Qed.
Print Assumptions C14_mask_iff_squared_distance.

Theorem C14_nuclear_term_by_distance :
  forall (thr : R) (p n : Rpt) (Z : R),
  ((sqrt (edist2 p n) < thr)%R -> nuc_term RKe thr p (n, Z) = 0%R) /\
  (~ (sqrt (edist2 p n) < thr)%R -> nuc_term RKe thr p (n, Z) = (Z / sqrt (edist2 p n))%R).
Proof.
  intros thr p n Z. split; intros H.
  - apply nuc_term_masked. now apply mask_iff_distance_R.
  - apply (nuc_term_kept RKe thr p n). destruct (masked RKe thr p n) eqn:E; [|reflexivity].
    exfalso. apply H. now apply mask_iff_distance_R.
Qed.
Print Assumptions C14_nuclear_term_by_distance.

(* whatever the sign or magnitude of the charge *)
Theorem C14_mask_independent_of_charge :
  forall (thr : R) (p n : Rpt) (Z Z' : R), Z <> 0%R -> Z' <> 0%R -> (0 < edist2 p n)%R ->
  (nuc_term RKe thr p (n, Z) = 0%R <-> nuc_term RKe thr p (n, Z') = 0%R).
Proof. exact mask_charge_independent_R. Qed.
Print Assumptions C14_mask_independent_of_charge.

Example C14_charge_hypotheses_satisfiable :
  (4 <> 0)%R /\ (-1 <> 0)%R /\ (0 < edist2 (1, 0, 0) (0, 0, 0))%R.
Proof. exact charge_hyps_example. Qed.
Print Assumptions C14_charge_hypotheses_satisfiable.

Theorem C14_threshold_zero_drops_nothing :
  forall (p n : Rpt), masked RKe 0%R p n = false.
Proof.
  intros p n. destruct (masked RKe 0%R p n) eqn:E; [|reflexivity].
  apply mask_iff_distance_R in E. destruct (Rlt_not_le _ _ E (sqrt_pos (edist2 p n))).
Qed.
Print Assumptions C14_threshold_zero_drops_nothing.

Theorem C14_threshold_beyond_all_distances_drops_all :
  forall (thr : R) (p : Rpt) ncoords ncharges,
  (forall n, In n ncoords -> (sqrt (edist2 p n) < thr)%R) ->
  nuclear_sum RKe thr ncoords ncharges p = 0%R.
Proof.
  intros thr p ncoords ncharges H. unfold nuclear_sum. apply (Sums.sumn_zero RKe RKe_field). intros A HA.
  unfold nuc_contrib. rewrite (proj2 (mask_iff_distance_R thr p _)); [reflexivity|].
  apply H, nth_In. exact (Nat.lt_le_trans _ _ _ HA (Nat.le_min_l _ _)).
Qed.
Print Assumptions C14_threshold_beyond_all_distances_drops_all.

(* the rule of the pinned tree (Z/d against 1/threshold) is a different function *)
Example C14_pinned_rule_differs :
  let p : Rpt := (1, 0, 0)%R in let n : Rpt := (0, 0, 0)%R in
  nuc_term_pinned RKe (1/2)%R p (n, 4%R) = 0%R /\ nuc_term RKe (1/2)%R p (n, 4%R) = 4%R /\
  nuc_term_pinned RKe 2%R p (n, (-1)%R) = (-1)%R /\ nuc_term RKe 2%R p (n, (-1)%R) = 0%R.
Proof. exact pinned_rule_differs. Qed.
Print Assumptions C14_pinned_rule_differs.

(* the executable instance: with an exact oracle root the mask is the squared-distance comparison *)
Theorem C14_mask_executable_instance :
  forall ex opi osqrt oexp oln oboys (thr : Qc) (p n : Qc * Qc * Qc),
  let K := QcK ex opi osqrt oexp oln oboys in
  (0 <= thr)%Qc -> (0 <= osqrt (Esp.dist2 K p n))%Qc ->
  (osqrt (Esp.dist2 K p n) * osqrt (Esp.dist2 K p n) = Esp.dist2 K p n)%Qc ->
  (masked K thr p n = true <-> (Esp.dist2 K p n < thr * thr)%Qc).
Proof. exact mask_iff_sqdistance_Qc. Qed.
Print Assumptions C14_mask_executable_instance.

Example C14_exact_root_satisfiable :
  let sq := fun x : Qc => if Qc_eq_dec x (Q2Qc 25) then Q2Qc 5 else Q2Qc 0 in
  let K := QcK true (Q2Qc 3) sq (fun x => x) (fun x => x) (fun _ x => x) in
  let p : Qc * Qc * Qc := (Q2Qc 3, Q2Qc 4, Q2Qc 0) in
  let n : Qc * Qc * Qc := (Q2Qc 0, Q2Qc 0, Q2Qc 0) in
  (0 <= sq (Esp.dist2 K p n))%Qc /\
  (sq (Esp.dist2 K p n) * sq (Esp.dist2 K p n) = Esp.dist2 K p n)%Qc /\
  masked K (Q2Qc 5) p n = false /\ masked K (Q2Qc (5 + (1 # 1024))) p n = true.
Proof.
  cbv zeta. split; [vm_compute; congruence|]. split; [apply Qc_is_canon; vm_compute; reflexivity|].
  split; vm_compute; reflexivity.
Qed.
Print Assumptions C14_exact_root_satisfiable.

(* array level: for ANY array V of vectors over the points (rows no longer than the first), any
   rectangular T with n columns and any P with as many rows as T,
     sum_ij P_ij (T V T^T)_ij(p) = sum_ab (T^T P T)_ab V_ab(p) *)
Theorem C14_transform_is_backtransformed_P :
  forall (F : Type) (K : Fops F), is_field K ->
  forall np V T P n p,
  arr_ok np V -> Forall (fun row => length row = n) T -> length T = length P ->
  electronic_sum K (transformed_ints K V (Some T)) P p
  = electronic_sum K V (backtransform K T P n) p.
Proof. exact (fun F K Kf => transform_is_backtransformed_P K Kf). Qed.
Print Assumptions C14_transform_is_backtransformed_P.

Theorem C14_backtransform_unfold :
  forall (F : Type) (K : Fops F) T P n a b, a < n -> b < n ->
  nth b (nth a (backtransform K T P n) []) (f0 K)
  = Tables.sumn (f0 K) (fadd K) (length P) (fun i => Tables.sumn (f0 K) (fadd K) (length P) (fun j =>
      fmul K (fmul K (nth a (nth i T []) (f0 K)) (nth j (nth i P []) (f0 K))) (nth b (nth j T []) (f0 K)))).
Proof. intros F K T P n a b Ha Hb. unfold backtransform. now rewrite !nth_mk by assumption. Qed.
Print Assumptions C14_backtransform_unfold.

(* the transformed array is Assembly.lincomb2 (tensordot on index 0, then on index 1) *)
Theorem C14_transformed_ints_is_the_codes_call :
  forall (F : Type) (K : Fops F) basis points T,
  transformed_ints K (point_charge_integral K (unit_neg_points K points) basis None) T
  = point_charge_integral K (unit_neg_points K points) basis T.
Proof. exact (fun F K => hartree_ints_is_point_charge_integral K). Qed.
Print Assumptions C14_transformed_ints_is_the_codes_call.

(* model level: an accepted call with a transform (any number of rows) returns what the
   untransformed path returns for T^T P T; and that call is accepted too.
   PARTIAL here: the hypothesis [squareb ...] says that the model's integral array is K x K x N.
   It is PROVED for every basis of well-formed shells in Props/C14_full.v
   (C14_shape_bit_is_a_theorem; the statement without the hypothesis is
   C14_esp_transform_is_backtransformed there); this version is kept because it also covers
   shells with component lists of non-standard size, for which the bit is decided by computation
   (Example below; the runner evaluates it for the array of EVERY case of the correspondence run,
   the harness stops if it is ever false). *)
Theorem C14_esp_transform_is_backtransformed_partial :
  forall (F : Type) (K : Fops F), is_field K ->
  forall basis P points ncoords ncharges T thr v,
  squareb (nfun_basis basis) (length points)
          (point_charge_integral K (unit_neg_points K points) basis None) = true ->
  esp K basis P points ncoords ncharges (Some T) thr = Some v ->
  v = esp_values K (point_charge_integral K (unit_neg_points K points) basis None)
        (backtransform K T P (nfun_basis basis)) points (combine ncoords ncharges) thr
  /\ ((forall x y, feqb K x y = true <-> x = y) ->
      esp K basis (backtransform K T P (nfun_basis basis)) points ncoords ncharges None thr = Some v).
Proof. exact (fun F K Kf => esp_transform_is_backtransformed K Kf). Qed.
Print Assumptions C14_esp_transform_is_backtransformed_partial.

Example C14_shape_hypothesis_satisfiable :
  forall (F : Type) (K : Fops F) (x y : F),
  let basis := [mkShell F 0 x x x [y] [[y]] false [] [];
                mkShell F 1 y x y [x; y] [[x; y]; [y; x]] true [] []] in
  nfun_basis basis = 7 /\
  squareb 7 2 (point_charge_integral K (unit_neg_points K [(x, y, x); (y, y, x)]) basis None) = true.
Proof. intros F K x y. cbv zeta. split; vm_compute; reflexivity. Qed.
Print Assumptions C14_shape_hypothesis_satisfiable.

Example C14_field_and_equality_hypotheses_satisfiable :
  is_field RKe /\ (forall x y : R, feqb RKe x y = true <-> x = y) /\
  (forall ex opi osqrt oexp oln oboys, is_field (QcK ex opi osqrt oexp oln oboys)).
Proof. exact (conj RKe_field (conj RKe_eqb QcK_field)). Qed.
Print Assumptions C14_field_and_equality_hypotheses_satisfiable.

Example C14_arr_ok_satisfiable :
  forall (F : Type) (K : Fops F) (x : F),
  arr_ok 1 [[[x]; [x]]; [[x]; []]] /\ Forall (fun row => length row = 2) [[x; x]; [x; x]; [x; x]].
Proof.
  intros F K x. unfold arr_ok, vec_ok, Pv. cbn [hd length].
  split; [split|]; repeat (apply Forall_cons || apply Forall_nil); auto.
Qed.
Print Assumptions C14_arr_ok_satisfiable.

(* T^T P T of a symmetric P is symmetric *)
Theorem C14_backtransform_symmetric :
  forall (F : Type) (K : Fops F), is_field K ->
  forall T P n a b,
  (forall i j, i < length P -> j < length P ->
     nth j (nth i P []) (f0 K) = nth i (nth j P []) (f0 K)) ->
  a < n -> b < n ->
  nth b (nth a (backtransform K T P n) []) (f0 K) = nth a (nth b (backtransform K T P n) []) (f0 K).
Proof. exact (fun F K Kf => backtransform_symmetric K Kf). Qed.
Print Assumptions C14_backtransform_symmetric.

Theorem C14_linear_in_density_matrix_and_charges :
  forall (F : Type) (K : Fops F), is_field K ->
  forall H points ncoords thr c1 P1 Z1 c2 P2 Z2 p,
  length P1 = length P2 -> length Z1 = length Z2 -> p < length points ->
  nth p (esp_values K H (mcomb K (length P1) c1 P1 c2 P2) points
           (combine ncoords (zcomb K (length Z1) c1 Z1 c2 Z2)) thr) (f0 K)
  = fadd K (fmul K c1 (nth p (esp_values K H P1 points (combine ncoords Z1) thr) (f0 K)))
           (fmul K c2 (nth p (esp_values K H P2 points (combine ncoords Z2) thr) (f0 K))).
Proof. exact (fun F K Kf => esp_values_linear K Kf). Qed.
Print Assumptions C14_linear_in_density_matrix_and_charges.

Theorem C14_electronic_term_linear_in_P :
  forall (F : Type) (K : Fops F), is_field K ->
  forall H c1 P1 c2 P2 p, length P1 = length P2 ->
  electronic_sum K H (mcomb K (length P1) c1 P1 c2 P2) p
  = fadd K (fmul K c1 (electronic_sum K H P1 p)) (fmul K c2 (electronic_sum K H P2 p)).
Proof. exact (fun F K Kf => electronic_sum_linear K Kf). Qed.
Print Assumptions C14_electronic_term_linear_in_P.

Theorem C14_nuclear_term_linear_in_charges :
  forall (F : Type) (K : Fops F), is_field K ->
  forall thr ncoords c1 Z1 c2 Z2 R, length Z1 = length Z2 ->
  nuclear_sum K thr ncoords (zcomb K (length Z1) c1 Z1 c2 Z2) R
  = fadd K (fmul K c1 (nuclear_sum K thr ncoords Z1 R)) (fmul K c2 (nuclear_sum K thr ncoords Z2 R)).
Proof. exact (fun F K Kf => nuclear_sum_linear K Kf). Qed.
Print Assumptions C14_nuclear_term_linear_in_charges.

Example C14_linearity_hypotheses_satisfiable :
  forall (F : Type) (x : F), length [[x; x]; [x; x]] = length [[x; x]; [x; x]] /\ length [x] = length [x] /\ 0 < length [(x, x, x)].
Proof. exact (fun F x => conj eq_refl (conj eq_refl (le_n 1))). Qed.
Print Assumptions C14_linearity_hypotheses_satisfiable.
