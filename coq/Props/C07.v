(* Props/C07.v — theorems backing property C07 (multipole moments exact). *)
From Coq Require Import List Arith.
From GB Require Import Base.Field Base.Tables Gauss.Moment1D Model.MomentInt Proofs.MomentIntP.

(* every moment order k, every la lb: the entry is prefactor x E((y+PC)^k (y+PA)^i (y+PB)^j),
   the 1-D integral of (x-A)^i (x-X)^k (x-B)^j against the Gaussian product *)
Theorem C07_moment_table_exact :
  forall (F : Type) (K : Fops F), is_field K ->
  forall (Ax Bx Cx alpha beta : F) (la lb km : nat),
  psum K alpha beta <> f0 K -> fadd K (f1 K) (f1 K) <> f0 K ->
  forall k j i, k <= km -> j <= lb -> i <= la ->
  nth3 K k j i (table K Ax Bx Cx alpha beta la lb km)
  = fmul K (base K Ax Bx alpha beta)
      (T3 K (fdiv K (f1 K) (twop K alpha beta))
          (PA K Ax Bx alpha beta) (PB K Ax Bx alpha beta) (PC K Ax Bx Cx alpha beta) k i j).
Proof. exact (@table_correct). Qed.
Print Assumptions C07_moment_table_exact.

(* order 0 reproduces the overlap whatever the origin *)
Theorem C07_order0_is_overlap :
  forall (F : Type) (K : Fops F), is_field K ->
  forall (Ax Bx Cx Cx' alpha beta : F) (la lb km km' : nat),
  psum K alpha beta <> f0 K -> fadd K (f1 K) (f1 K) <> f0 K ->
  forall j i, j <= lb -> i <= la ->
  nth3 K 0 j i (table K Ax Bx Cx alpha beta la lb km)
  = nth3 K 0 j i (table K Ax Bx Cx' alpha beta la lb km').
Proof. exact (fun F K Kf Ax Bx Cx Cx' alpha beta la lb km km' Hp H2 j i Hj Hi =>
  eq_trans (table_correct K Kf Ax Bx Cx alpha beta la lb km Hp H2 0 j i (Nat.le_0_l _) Hj Hi)
    (eq_sym (table_correct K Kf Ax Bx Cx' alpha beta la lb km' Hp H2 0 j i (Nat.le_0_l _) Hj Hi))). Qed.
Print Assumptions C07_order0_is_overlap.
