(* Props/C09_full.v — property C09, two-index symmetric class (base_two_symm.py) at FULL strength: the statement
   that Props/C09.v has as C09_two_symm_mix_is_cart_transformed_partial (there with the exchange of the two
   transforms under transposition ASSUMED) is proved here for all blocks and both triangles, on the assembly
   model the integral models use (Model/Overlap.two_symm_integral, Model/OneBody.two_symm_integral_h).
   Statements closed by [exact] of a lemma of Proofs/AssemblyFullP.v or Proofs/AssembledSphOverlapP.v, each
   followed by Print Assumptions.
   Unbounded in the number of shells, angular momenta, segments; any assignment of coordinate types; any
   element module (no algebraic law) unless said otherwise.

   oidx bs k m q / gidx bs k m c   output position of (shell k, segment m, spherical-or-Cartesian row q) /
                                   Cartesian position (Props/C01_assembled.v C01_mixed_unfold, C01_index_unfold)
   tsum sph T L q f                sum_{c<L} T[q][c] . f c  if sph, f q otherwise: T_s applied to one index
   to_cart s                       s with coord_type Cartesian
   The four-index class is in Props/C09_block4.v: C09_block4_index1_partial does not extend to indices 2-4 as an
   equation between whole blocks (index 1 is the OUTERMOST stage, moving T_s2 out through it needs additivity
   laws that [module_laws] does not contain), but stated ENTRY BY ENTRY it needs no law at all and is proved
   there for all four indices, with the assembled corollaries under the eight-fold symmetry hypothesis of C11. *)
From Coq Require Import List Arith Bool.
From GB Require Import Base.Field Base.FNum Base.Tables Model.Shell Model.MomentInt Model.Spherical Model.Assembly Model.Overlap
  Model.DiffOp Model.OneBody Proofs.CoreDiffP Proofs.AssembledP Proofs.AssembledSphP Proofs.AssembledSphOverlapP
  Proofs.AssemblyFullP.
Import ListNotations.

(* what the symbols stand for (by definition) *)
Theorem C09_full_unfold :
  forall (F : Type) (K : Fops F) (A : Type) (azero : A) (aadd : A -> A -> A) (ascale : F -> A -> A)
         (sph : bool) (T : list (list F)) (L q : nat) (f : nat -> A) (s : shell F),
  tsum K azero aadd ascale sph T L q f
  = (if sph then asum azero aadd (mk L (fun c => ascale (nth c (nth q T []) (f0 K)) (f c))) else f q)
  /\ to_cart s = mkShell F (s_l s) (s_x s) (s_y s) (s_z s) (s_exps s) (s_coeffs s) false (s_comps s) (s_labels s)
  /\ osize s = (if s_sph s then length (labels_of s) else length (comps_of s)).
Proof. exact (fun F K A z a sc sph T L q f s => conj eq_refl (conj eq_refl eq_refl)). Qed.
Print Assumptions C09_full_unfold.

(* the FULL two-index symmetric statement: every entry, both triangles, any module *)
Theorem C09_two_symm_mix_is_cart_transformed :
  forall (F : Type) (K : Fops F) (A : Type) (azero : A) (aadd : A -> A -> A) (ascale : F -> A -> A)
         (blockf : shell F -> shell F -> list (list (list (list A)))),
  (forall a b, blockf (to_cart a) (to_cart b) = blockf a b) ->
  forall bs : list (shell F), (forall s, In s bs -> 0 < nseg s) -> blocks_shaped blockf bs bs ->
  forall i j m q m' q', i < length bs -> j < length bs ->
  m < nseg (sh_at K bs i) -> q < osize (sh_at K bs i) -> m' < nseg (sh_at K bs j) -> q' < osize (sh_at K bs j) ->
  let si := sh_at K bs i in let sj := sh_at K bs j in
  let cart := fun c c' =>
    nth (gidx K (map to_cart bs) j m' c') (nth (gidx K (map to_cart bs) i m c)
        (two_symm_integral K azero aadd ascale blockf (map to_cart bs) None) []) azero in
  nth (oidx K bs j m' q') (nth (oidx K bs i m q) (two_symm_integral K azero aadd ascale blockf bs None) []) azero
  = if Nat.leb i j
    then tsum K azero aadd ascale (s_sph sj) (shell_transform K sj) (ncomp sj) q' (fun c' =>
           tsum K azero aadd ascale (s_sph si) (shell_transform K si) (ncomp si) q (fun c => cart c c'))
    else tsum K azero aadd ascale (s_sph si) (shell_transform K si) (ncomp si) q (fun c =>
           tsum K azero aadd ascale (s_sph sj) (shell_transform K sj) (ncomp sj) q' (fun c' => cart c c')).
Proof. exact (fun F K A z a sc => two_symm_mix_is_cart_transformed K z a sc). Qed.
Print Assumptions C09_two_symm_mix_is_cart_transformed.

(* scalar entries over a field: the two orders of summation coincide — one double sum for both triangles
   (dsum: Props/C01_assembled.v C01_mixed_unfold) *)
Theorem C09_two_symm_mix_is_cart_transformed_scalar :
  forall (F : Type) (K : Fops F), is_field K ->
  forall blockf : shell F -> shell F -> list (list (list (list F))),
  (forall a b, blockf (to_cart a) (to_cart b) = blockf a b) ->
  forall bs : list (shell F), (forall s, In s bs -> 0 < nseg s) -> blocks_shaped blockf bs bs ->
  forall i j m q m' q', i < length bs -> j < length bs ->
  m < nseg (sh_at K bs i) -> q < osize (sh_at K bs i) -> m' < nseg (sh_at K bs j) -> q' < osize (sh_at K bs j) ->
  nth (oidx K bs j m' q') (nth (oidx K bs i m q)
      (two_symm_integral K (f0 K) (fadd K) (fmul K) blockf bs None) []) (f0 K)
  = dsum K (sh_at K bs i) (sh_at K bs j) q q' (fun c c' =>
      nth (gidx K (map to_cart bs) j m' c') (nth (gidx K (map to_cart bs) i m c)
          (two_symm_integral K (f0 K) (fadd K) (fmul K) blockf (map to_cart bs) None) []) (f0 K)).
Proof. exact (fun F K Kf => two_symm_mix_is_cart_transformed_scalar K Kf). Qed.
Print Assumptions C09_two_symm_mix_is_cart_transformed_scalar.

(* the conjugating assembly (momentum, angular momentum: blocks strictly above the diagonal evaluated, all others
   conjugated transposes), for a conjugation that is additive and commutes with scaling *)
Theorem C09_two_symm_h_mix_is_cart_transformed :
  forall (F : Type) (K : Fops F) (A : Type) (azero : A) (aadd : A -> A -> A) (ascale : F -> A -> A)
         (blockf : shell F -> shell F -> list (list (list (list A)))),
  (forall a b, blockf (to_cart a) (to_cart b) = blockf a b) ->
  forall bs : list (shell F), (forall s, In s bs -> 0 < nseg s) -> blocks_shaped blockf bs bs ->
  forall aconj : A -> A, aconj azero = azero ->
  (forall x y, aconj (aadd x y) = aadd (aconj x) (aconj y)) ->
  (forall t x, aconj (ascale t x) = ascale t (aconj x)) ->
  forall i j m q m' q', i < length bs -> j < length bs ->
  m < nseg (sh_at K bs i) -> q < osize (sh_at K bs i) -> m' < nseg (sh_at K bs j) -> q' < osize (sh_at K bs j) ->
  let si := sh_at K bs i in let sj := sh_at K bs j in
  let cart := fun c c' =>
    nth (gidx K (map to_cart bs) j m' c') (nth (gidx K (map to_cart bs) i m c)
        (two_symm_integral_h K azero aadd ascale aconj blockf (map to_cart bs) None) []) (aconj azero) in
  nth (oidx K bs j m' q') (nth (oidx K bs i m q)
      (two_symm_integral_h K azero aadd ascale aconj blockf bs None) []) (aconj azero)
  = if Nat.ltb i j
    then tsum K azero aadd ascale (s_sph sj) (shell_transform K sj) (ncomp sj) q' (fun c' =>
           tsum K azero aadd ascale (s_sph si) (shell_transform K si) (ncomp si) q (fun c => cart c c'))
    else tsum K azero aadd ascale (s_sph si) (shell_transform K si) (ncomp si) q (fun c =>
           tsum K azero aadd ascale (s_sph sj) (shell_transform K sj) (ncomp sj) q' (fun c' => cart c c')).
Proof. exact (fun F K A z a sc => two_symm_h_mix_is_cart_transformed K z a sc). Qed.
Print Assumptions C09_two_symm_h_mix_is_cart_transformed.

(* instances on the production models *)
Theorem C09_momentum_mixed_is_cart_transformed :
  forall (F : Type) (K : Fops F), is_field K ->
  forall bs : list (shell F), (forall s, In s bs -> 0 < nseg s) ->
  forall i j m q m' q', i < length bs -> j < length bs ->
  m < nseg (sh_at K bs i) -> q < osize (sh_at K bs i) -> m' < nseg (sh_at K bs j) -> q' < osize (sh_at K bs j) ->
  let si := sh_at K bs i in let sj := sh_at K bs j in
  let cart := fun c c' =>
    nth (gidx K (map to_cart bs) j m' c') (nth (gidx K (map to_cart bs) i m c)
        (momentum_integral_re K (map to_cart bs) None) []) (vneg K (@vzero F)) in
  nth (oidx K bs j m' q') (nth (oidx K bs i m q) (momentum_integral_re K bs None) []) (vneg K (@vzero F))
  = if Nat.ltb i j
    then tsum K (@vzero F) (vadd K) (vscale K) (s_sph sj) (shell_transform K sj) (ncomp sj) q' (fun c' =>
           tsum K (@vzero F) (vadd K) (vscale K) (s_sph si) (shell_transform K si) (ncomp si) q (fun c => cart c c'))
    else tsum K (@vzero F) (vadd K) (vscale K) (s_sph si) (shell_transform K si) (ncomp si) q (fun c =>
           tsum K (@vzero F) (vadd K) (vscale K) (s_sph sj) (shell_transform K sj) (ncomp sj) q' (fun c' => cart c c')).
Proof. exact (fun F K Kf => momentum_mixed_is_cart_transformed_vec K Kf). Qed.
Print Assumptions C09_momentum_mixed_is_cart_transformed.

Theorem C09_angmom_mixed_is_cart_transformed :
  forall (F : Type) (K : Fops F), is_field K ->
  forall bs : list (shell F), (forall s, In s bs -> 0 < nseg s) ->
  forall i j m q m' q', i < length bs -> j < length bs ->
  m < nseg (sh_at K bs i) -> q < osize (sh_at K bs i) -> m' < nseg (sh_at K bs j) -> q' < osize (sh_at K bs j) ->
  let si := sh_at K bs i in let sj := sh_at K bs j in
  let cart := fun c c' =>
    nth (gidx K (map to_cart bs) j m' c') (nth (gidx K (map to_cart bs) i m c)
        (angmom_integral_re K (map to_cart bs) None) []) (vneg K (@vzero F)) in
  nth (oidx K bs j m' q') (nth (oidx K bs i m q) (angmom_integral_re K bs None) []) (vneg K (@vzero F))
  = if Nat.ltb i j
    then tsum K (@vzero F) (vadd K) (vscale K) (s_sph sj) (shell_transform K sj) (ncomp sj) q' (fun c' =>
           tsum K (@vzero F) (vadd K) (vscale K) (s_sph si) (shell_transform K si) (ncomp si) q (fun c => cart c c'))
    else tsum K (@vzero F) (vadd K) (vscale K) (s_sph si) (shell_transform K si) (ncomp si) q (fun c =>
           tsum K (@vzero F) (vadd K) (vscale K) (s_sph sj) (shell_transform K sj) (ncomp sj) q' (fun c' => cart c c')).
Proof. exact (fun F K Kf => angmom_mixed_is_cart_transformed_vec K Kf). Qed.
Print Assumptions C09_angmom_mixed_is_cart_transformed.

(* ---- the hypotheses are satisfiable ---- *)
Example C09_full_hypotheses_satisfiable :
  forall (F : Type) (K : Fops F) (bs : list (shell F)),
  (forall a b, overlap_block K (to_cart a) (to_cart b) = overlap_block K a b)
  /\ blocks_shaped (overlap_block K) bs bs
  /\ (forall a b, kinetic_block K (to_cart a) (to_cart b) = kinetic_block K a b)
  /\ blocks_shaped (kinetic_block K) bs bs.
Proof. exact (fun F K bs => full_hypotheses_satisfiable K bs). Qed.
Print Assumptions C09_full_hypotheses_satisfiable.

Example C09_conjugation_laws_satisfiable :
  forall (F : Type) (K : Fops F), is_field K ->
  vneg K (@vzero F) = @vzero F
  /\ (forall x y : list F, vneg K (vadd K x y) = vadd K (vneg K x) (vneg K y))
  /\ (forall t (x : list F), vneg K (vscale K t x) = vscale K t (vneg K x)).
Proof. exact (fun F K Kf => conj_laws_satisfiable K Kf). Qed.
Print Assumptions C09_conjugation_laws_satisfiable.
