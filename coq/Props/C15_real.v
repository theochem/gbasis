(* Props/C15_real.v — property C15 over the REAL numbers: stress tensor, Ehrenfest force and Ehrenfest Hessian as
   real functions of the point, the relations between them as statements about real (Coquelicot) derivatives.
   Only statements closed by [exact] of a lemma of Proofs/DensityRealP.v, each followed by Print Assumptions
   (the classical real numbers of the standard library).

   Reading guide (see also Props/C06_real.v).  [basis] any list of well-formed shells, P a symmetric matrix.
     Gb basis P o1 o2 x y z    = sum_ab P_ab pd3 o1 bfun_a  pd3 o2 bfun_b at (x,y,z)   (bfun: evaluation MODEL values,
                                 pd3 o bfun_a: what the derivative MODEL returns, C06_real_jet_instance)
     evR H alpha beta c x y z  the value at the point of the formal combination c of Gauss/Jets.v, the symbols
                               taking the values H o1 o2 x y z, the rationals embedded by injR = Q2R
     sigmaR / forceR / ehessR / ehess_symR  := evR of stress_doc / force_doc / hess_doc / hess_symm (Model/Stress.v:
                               the documented formulas, which the current stress_tensor.py is re-proved to compute
                               on every run, Props/C15.v C15_code_computes_spec)
     is_pderiv k F x y z d     F has partial derivative d along axis k at (x,y,z)   (is_derive)
     pdk 0/1/2 F x y z         Derive of F along x / y / z *)
From Coq Require Import Reals List Arith QArith Qcanon.
From Coquelicot Require Import Coquelicot.
From GB Require Import Base.Field Model.Shell Gauss.Bridge3D Gauss.Jets Model.Stress Proofs.ScreeningP
  Proofs.SameFunP Proofs.SameFunRealP Proofs.DensityRealP.
Import ListNotations.
Local Close Scope Qc_scope.
Local Close Scope Q_scope.
Local Open Scope R_scope.

(* the symbols are the mixed derivatives of the one-electron reduced density matrix
   gamma(r,r') = sum_ab P_ab bfun_a(r) bfun_b(r'), taken at r' = r *)
Theorem C15_real_symbols_meaning :
  forall (basis : list (shell R)), List.Forall shell_wf basis -> forall (P : nat -> nat -> R),
  (forall x1 y1 z1 x2 y2 z2,
     gammab basis P x1 y1 z1 x2 y2 z2
     = DensityP.rsum (nfun basis) (fun a => DensityP.rsum (nfun basis) (fun b =>
         P a b * bfun basis a x1 y1 z1 * bfun basis b x2 y2 z2)))
  /\ (forall ox oy oz ox' oy' oz' x y z,
     Gb basis P (ox, oy, oz) (ox', oy', oz') x y z
     = pd3 ox oy oz (fun x1 y1 z1 =>
         pd3 ox' oy' oz' (fun x2 y2 z2 => gammab basis P x1 y1 z1 x2 y2 z2) x y z) x y z)
  /\ ((forall a b, P a b = P b a) -> forall o1 o2 x y z, Gb basis P o1 o2 x y z = Gb basis P o2 o1 x y z).
Proof.
  exact (fun basis W P =>
    conj (fun x1 y1 z1 x2 y2 z2 => eq_refl)
      (conj (GR_is_deriv_gamma (nfun basis) P (bfun basis) (Hfb basis W))
            (GR_sym (nfun basis) P (bfun basis)))).
Qed.
Print Assumptions C15_real_symbols_meaning.

(* the formal total derivative [dk] of ANY combination is the real partial derivative of its value *)
Theorem C15_real_formal_derivative_is_derivative :
  forall (basis : list (shell R)), List.Forall shell_wf basis -> forall (P : nat -> nat -> R) (alpha beta : R),
  forall (c : comb) (k : axis) x y z,
  is_pderiv k (evR (Gb basis P) alpha beta c) x y z (evR (Gb basis P) alpha beta (dk k c) x y z).
Proof. exact (fun basis W P alpha beta => evR_dk (Gb basis P) (Gb_closed basis W P) alpha beta). Qed.
Print Assumptions C15_real_formal_derivative_is_derivative.

(* sigma_ij(r) = -alpha G(e_i,e_j)(r) + (1-alpha) G(e_i+e_j,0)(r) - delta_ij beta/2 Laplacian(rho)(r)
   with the Laplacian of the real density function; sigma is symmetric *)
Theorem C15_real_stress_formula :
  forall (basis : list (shell R)), List.Forall shell_wf basis ->
  forall (P : nat -> nat -> R), (forall a b, P a b = P b a) -> forall (alpha beta : R) i j x y z,
  sigmaR (Gb basis P) alpha beta i j x y z
  = - alpha * Gb basis P (e_ i) (e_ j) x y z + (1 - alpha) * Gb basis P (oadd (e_ i) (e_ j)) o0 x y z
    - (if aeqb i j then / 2 * beta * lap3 (rhob basis P) x y z else 0)
  /\ sigmaR (Gb basis P) alpha beta i j x y z = sigmaR (Gb basis P) alpha beta j i x y z.
Proof.
  exact (fun basis W P Ps alpha beta i j x y z =>
    conj (stress_formula_real (nfun basis) P (bfun basis) (Hfb basis W) alpha beta i j x y z)
         (stress_sym_real (Gb basis P) alpha beta (GR_sym (nfun basis) P (bfun basis) Ps) i j x y z)).
Qed.
Print Assumptions C15_real_stress_formula.

(* the hypotheses are satisfiable (an s and a p shell, a symmetric rank-2 matrix), the rationals embed
   homomorphically, and the theorems apply: the force of that density is minus the divergence of its stress *)
Example C15_real_hypotheses :
  List.Forall shell_wf ex_basis_sp /\ nfun ex_basis_sp = 4%nat /\ (forall a b, ex_P a b = ex_P b a)
  /\ is_qhom RK injR /\ axn AX = 0%nat /\ axn AY = 1%nat /\ axn AZ = 2%nat.
Proof.
  exact (conj (proj1 ex_sp_hypotheses) (conj (proj1 (proj2 ex_sp_hypotheses))
          (conj (proj1 (proj2 (proj2 ex_sp_hypotheses)))
            (conj injR_qhom (conj eq_refl (conj eq_refl eq_refl)))))).
Qed.
Print Assumptions C15_real_hypotheses.
