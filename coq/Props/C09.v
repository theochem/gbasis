(* Props/C09.v — theorems backing property C09 (spherical, mixed and linearly
   transformed results derive from the Cartesian ones).  Statements that follow in
   a line or two from lemmas of Proofs/AssemblyP.v, each followed by Print Assumptions.
   All statements are unbounded in the number of shells, block shapes and T. *)
From Coq Require Import List Arith Bool.
From GB Require Import Base.Field Base.Tables Base.Blocks Model.Shell Model.Spherical Model.Assembly
  Model.Assembly14 Proofs.AssemblyP.
Import ListNotations.

(* ---- one index (base_one.py) ---- *)
(* (a) any list of shells, any cart/sph assignment, any blocks: the assembled array
   is the all-Cartesian array with (+)_s T_s applied to the basis index. *)
Theorem C09_one_mix_is_cart_transformed :
  forall (F : Type) (K : Fops F) (A : Type) (azero : A) (aadd : A -> A -> A) (ascale : F -> A -> A)
         (P : A -> Prop), module_laws K azero aadd ascale P ->
  forall l : list (@sh F * list (list A)), Forall (shell_ok ascale P) l ->
  one_mix azero aadd ascale l = lin azero aadd ascale (Ubasis K ascale l) (one_cartesian ascale l).
Proof. exact (fun F K A z a s P ML => one_mix_is_cart_transformed K z a s P ML). Qed.
Print Assumptions C09_one_mix_is_cart_transformed.

Example C09_module_laws_satisfiable :
  forall (F : Type) (K : Fops F), is_field K -> module_laws K (f0 K) (fadd K) (fmul K) (fun _ => True).
Proof. exact (fun F K Kf => module_laws_field K Kf). Qed.
Print Assumptions C09_module_laws_satisfiable.

Example C09_shell_ok_satisfiable :
  forall (F : Type) (K : Fops F) (x y : F),
  Forall (shell_ok (fmul K) (fun _ => True))
    [ (mkSh true [[f1 K; f1 K]] [[f1 K; f1 K]], [[x; y]]); (mkSh false [] [[f1 K]], [[x]]) ].
Proof.
  intros F K x y.
  repeat constructor; cbn; try discriminate; intros _; repeat split; try discriminate; repeat constructor.
Qed.
Print Assumptions C09_shell_ok_satisfiable.

(* (b) the three code paths agree *)
Theorem C09_one_spherical_is_mix_all_sph :
  forall (F : Type) (A : Type) (azero : A) (aadd : A -> A -> A) (ascale : F -> A -> A)
         (l : list (@sh F * list (list A))),
  one_spherical azero aadd ascale l = one_mix azero aadd ascale (map (set_sph true) l).
Proof. exact (fun F A z a s l => one_spherical_is_mix z a s l). Qed.
Print Assumptions C09_one_spherical_is_mix_all_sph.

Theorem C09_one_cartesian_is_mix_all_cart :
  forall (F : Type) (A : Type) (azero : A) (aadd : A -> A -> A) (ascale : F -> A -> A)
         (l : list (@sh F * list (list A))),
  one_cartesian ascale l = one_mix azero aadd ascale (map (set_sph false) l).
Proof. exact (fun F A z a s l => one_cartesian_is_mix z a s l). Qed.
Print Assumptions C09_one_cartesian_is_mix_all_cart.

(* (c) lincomb = T (any shape) applied to the array of the shells' types; entry i is
   the dot product sum_k T[i][k] * array[k] *)
Theorem C09_one_lincomb_is_T_applied :
  forall (F : Type) (A : Type) (azero : A) (aadd : A -> A -> A) (ascale : F -> A -> A)
         (T : list (list F)) (l : list (@sh F * list (list A))),
  one_lincomb azero aadd ascale T l = lin azero aadd ascale T (one_mix azero aadd ascale l) /\
  forall i, i < length T ->
    nth i (one_lincomb azero aadd ascale T l) azero
    = dot azero aadd ascale (nth i T []) (one_mix azero aadd ascale l).
Proof. exact (fun F A z a s T l => conj (one_lincomb_is_T_applied z a s T l)
  (fun i Hi => eq_trans (f_equal (fun v => nth i v z) (one_lincomb_is_T_applied z a s T l))
                        (lin_entry z a s T _ i Hi))). Qed.
Print Assumptions C09_one_lincomb_is_T_applied.

(* ---- two indices (base_two_asymm.py, base_two_symm.py) ---- *)
(* (a) per block: the processed block of shells (s1, s2) is T_s1 on index 0 and T_s2 on
   index 1 of the Cartesian (normalised, merged) block *)
Theorem C09_block2_is_cart_transformed :
  forall (F : Type) (K : Fops F) (A : Type) (azero : A) (aadd : A -> A -> A) (ascale : F -> A -> A)
         (P : A -> Prop), module_laws K azero aadd ascale P ->
  forall sph1 sph2 s1 s2 blk, block2_ok ascale P sph1 sph2 s1 s2 blk ->
  block2 azero aadd ascale sph1 sph2 s1 s2 blk
  = mat_left_w azero aadd ascale (axis_width sph2 s2) (U_left K ascale sph1 s1 s2 blk)
      (mat_right azero aadd ascale (U_of K sph2 s2) (block2 azero aadd ascale false false s1 s2 blk)).
Proof. exact (fun F K A z a s P ML => block2_is_cart_transformed K z a s P ML). Qed.
Print Assumptions C09_block2_is_cart_transformed.

(* block-matrix core: assembling (vcat of hcat) commutes with block-diagonal maps, for any
   numbers of row and column blocks and any block sizes *)
Theorem C09_assembly_commutes_with_block_diagonal :
  forall (F : Type) (K : Fops F) (A : Type) (azero : A) (aadd : A -> A -> A) (ascale : F -> A -> A)
         (P : A -> Prop), module_laws K azero aadd ascale P ->
  forall n1 n2 (U1 U2 : nat -> list (list F)) (Cf Bf : nat -> nat -> list (list A)),
  0 < n2 ->
  (forall i j, i < n1 -> j < n2 ->
     Bf i j = mat_left_w azero aadd ascale (length (U2 j)) (U1 i) (mat_right azero aadd ascale (U2 j) (Cf i j))) ->
  (forall i, i < n1 -> rect (U1 i)) -> (forall j, j < n2 -> rect (U2 j)) ->
  (forall i j, i < n1 -> j < n2 -> length (Cf i j) = ncols (U1 i) /\ mat_ok P (ncols (U2 j)) (Cf i j)) ->
  two_asymm_blocks n1 n2 Bf
  = mat_left_w azero aadd ascale (fold_right plus 0 (mk n2 (fun j => length (U2 j)))) (bdiag K (mk n1 U1))
      (mat_right azero aadd ascale (bdiag K (mk n2 U2)) (two_asymm_blocks n1 n2 Cf)).
Proof. exact (fun F K A z a s P ML => asm_blocks K z a s P ML). Qed.
Print Assumptions C09_assembly_commutes_with_block_diagonal.

(* (a) asymmetric class: mix = (+)T_s of basis one on index 0 and (+)T_s of basis two on index 1
   of the all-Cartesian array *)
Theorem C09_two_asymm_mix_is_cart_transformed :
  forall (F : Type) (K : Fops F) (A : Type) (azero : A) (aadd : A -> A -> A) (ascale : F -> A -> A)
         (P : A -> Prop), module_laws K azero aadd ascale P ->
  forall ss1 ss2 bf, 0 < length ss1 -> 0 < length ss2 ->
  (forall i j, i < length ss1 -> j < length ss2 ->
     pair_ok K azero aadd ascale P (nth i ss1 (mkSh false [] [])) (nth j ss2 (mkSh false [] [])) (bf i j)) ->
  two_asymm_n azero aadd ascale 2 ss1 ss2 bf
  = mat_left_w azero aadd ascale (Wlist K ss2) (Ulist K ss1)
      (mat_right azero aadd ascale (Ulist K ss2) (two_asymm_n azero aadd ascale 0 ss1 ss2 bf)).
Proof. exact (fun F K A z a s P ML => two_asymm_mix_is_cart_transformed K z a s P ML). Qed.
Print Assumptions C09_two_asymm_mix_is_cart_transformed.

Example C09_pair_ok_satisfiable :
  forall (F : Type) (K : Fops F) (a b c d : F),
  let s := mkSh true [[f1 K; f1 K]] [[f1 K; f1 K]] in
  pair_ok K (f0 K) (fadd K) (fmul K) (fun _ => True) s s [[ [[a; b]]; [[c; d]] ]].
Proof.
  intros F K a b c d. cbv zeta.
  unfold pair_ok, block2_ok, slab_ok, ax_ok, U_left, U_of, Ushape, mat_ok, Prow, rect.
  cbn. repeat split; try discriminate; repeat constructor; intros; discriminate.
Qed.
Print Assumptions C09_pair_ok_satisfiable.

(* (a) symmetric class (upper blocks evaluated, all others = transposed mirrored block).
   PARTIAL: the third hypothesis (transposition exchanges the two transforms on the mirrored
   blocks, and the transposed Cartesian blocks are well-shaped) is assumed, not derived. It does
   NOT assume that the block function is symmetric: mix = transformed cart holds for the
   mirrored assembly as such; symmetry of the block function under swapping the shells is what
   makes the mirrored assembly equal to the full one (C09_two_symm_is_full below). *)
Theorem C09_two_symm_mix_is_cart_transformed_partial :
  forall (F : Type) (K : Fops F) (A : Type) (azero : A) (aadd : A -> A -> A) (ascale : F -> A -> A)
         (P : A -> Prop), module_laws K azero aadd ascale P ->
  forall ss bf, 0 < length ss ->
  (forall i j, i < length ss -> j < length ss ->
     pair_ok K azero aadd ascale P (nth i ss (mkSh false [] [])) (nth j ss (mkSh false [] [])) (bf i j)) ->
  (forall i j, j <= i -> i < length ss ->
     let C := block2 azero aadd ascale false false (nth j ss (mkSh false [] [])) (nth i ss (mkSh false [] [])) (bf j i) in
     transpose azero (mat_left_w azero aadd ascale (length (Ui K ss i)) (Ui K ss j) (mat_right azero aadd ascale (Ui K ss i) C))
     = mat_left_w azero aadd ascale (length (Ui K ss j)) (Ui K ss i) (mat_right azero aadd ascale (Ui K ss j) (transpose azero C)) /\
     length (transpose azero C) = ncols (Ui K ss i) /\ mat_ok P (ncols (Ui K ss j)) (transpose azero C)) ->
  two_symm_n azero aadd ascale 2 ss bf
  = mat_left_w azero aadd ascale (Wlist K ss) (Ulist K ss)
      (mat_right azero aadd ascale (Ulist K ss) (two_symm_n azero aadd ascale 0 ss bf)).
Proof. exact (fun F K A z a s P ML => two_symm_mix_is_cart_transformed_partial K z a s P ML). Qed.
Print Assumptions C09_two_symm_mix_is_cart_transformed_partial.

(* with a block function that is symmetric under swapping the shells (processed blocks:
   B j i transposed = B i j) the mirrored assembly is the assembly of all blocks *)
Theorem C09_two_symm_is_full :
  forall (A : Type) (azero : A) (n : nat) (Bf : nat -> nat -> list (list A)),
  (forall i j, j <= i -> i < n -> transpose azero (Bf j i) = Bf i j) ->
  two_symm_blocks_t azero n Bf = two_asymm_blocks n n Bf.
Proof.
  intros A azero n Bf H. rewrite two_symm_blocks_t_asymm. apply two_asymm_blocks_ext. intros i j Hi Hj.
  destruct (Nat.ltb_spec i j); [reflexivity|]. now apply H.
Qed.
Print Assumptions C09_two_symm_is_full.

Example C09_symmetric_block_function_exists :
  forall (A : Type) (azero x : A),
  let Bf := fun _ _ : nat => [[x]] in
  forall i j, j <= i -> i < 3 -> transpose azero (Bf j i) = Bf i j.
Proof. exact (fun A z x i j _ _ => eq_refl). Qed.
Print Assumptions C09_symmetric_block_function_exists.

(* (b) the cartesian / spherical code paths are the mix path on all-Cartesian / all-spherical types *)
Theorem C09_two_paths_agree :
  forall (F : Type) (A : Type) (azero : A) (aadd : A -> A -> A) (ascale : F -> A -> A) mode,
  (forall ss1 ss2 bf,
    (mode = 0 -> forall s, In s ss1 \/ In s ss2 -> sh_sph s = false) ->
    (mode = 1 -> forall s, In s ss1 \/ In s ss2 -> sh_sph s = true) ->
    two_asymm_n azero aadd ascale mode ss1 ss2 bf = two_asymm_n azero aadd ascale 2 ss1 ss2 bf) /\
  (forall ss bf,
    (mode = 0 -> forall s : @sh F, In s ss -> sh_sph s = false) ->
    (mode = 1 -> forall s, In s ss -> sh_sph s = true) ->
    two_symm_n azero aadd ascale mode ss bf = two_symm_n azero aadd ascale 2 ss bf).
Proof.
  intros F A azero aadd ascale mode. split.
  - intros ss1 ss2 bf H0 H1. apply two_asymm_blocks_ext. intros i j Hi Hj. cbv zeta.
    now rewrite !mode_ty by (intros E; auto using nth_In).
  - intros ss bf H0 H1. unfold two_symm_n. rewrite !two_symm_blocks_t_asymm.
    apply two_asymm_blocks_ext. intros i j Hi Hj.
    now rewrite !mode_ty by (intros E; auto using nth_In).
Qed.
Print Assumptions C09_two_paths_agree.

(* (c) lincomb with (rectangular) T1, T2: entry (i, j) = sum_l T2[j][l] * (sum_k T1[i][k] * row_k)[l] *)
Theorem C09_two_lincomb_is_T_applied :
  forall (F : Type) (A : Type) (azero : A) (aadd : A -> A -> A) (ascale : F -> A -> A)
         (T1 T2 : list (list F)) (m : list (list A)) i j,
  i < length T1 -> j < length T2 ->
  nth j (nth i (lincomb2n azero aadd ascale (Some T1) (Some T2) m) []) azero
  = dot azero aadd ascale (nth j T2 [])
      (dot (rzero azero (length (hd [] m))) (radd aadd) (rscale ascale) (nth i T1 []) m).
Proof.
  intros F A azero aadd ascale T1 T2 m i j Hi Hj. unfold lincomb2n, mat_right, mat_left, lin at 2.
  rewrite (nth_map_lt _ _ _ []) by (now rewrite map_length).
  rewrite (lin_entry azero aadd ascale T2 _ j Hj). f_equal.
  now apply (nth_map_lt (fun t => dot (rzero azero (length (hd [] m))) (radd aadd) (rscale ascale) t m)).
Qed.
Print Assumptions C09_two_lincomb_is_T_applied.

(* ---- four indices (base_four_symm.py) ---- *)
(* PARTIAL (this form): per block, first index only, as an equation between whole blocks.  The
   statement for ALL FOUR indices is proved entry by entry in Props/C09_block4.v
   (C09_block4_entry / C09_block4_is_cart_transformed, any module, no law; C09_block4_quadruple_sum
   over a field) and lifted to the assembled arrays there (C09_four_symm_mix_is_cart_transformed,
   C09_eri_mixed_is_cart_transformed_full: no symmetry hypothesis, sym8 is a theorem for the ERI
   blocks, C09_eri_sym8).  For an ARBITRARY block function the eight-fold symmetry stays a
   hypothesis (the code evaluates one quartet per orbit and copies); the list-level equation
   C09_four_mix_statement below is not proved in that generality (it is checked by the
   labelled-integer correspondence for every type pattern of <= 4 shells). *)
Theorem C09_block4_index1_partial :
  forall (F : Type) (K : Fops F) (A : Type) (azero : A) (aadd : A -> A -> A) (ascale : F -> A -> A)
         (P : A -> Prop), module_laws K azero aadd ascale P ->
  forall t1 t2 t3 t4 s1 s2 s3 s4 blk,
  ax_ok (P3 P t2 t3 t4 s2 s3 s4) t1 (sh_T s1) (b2_of azero aadd ascale t2 t3 t4 s1 s2 s3 s4 blk) ->
  block4 azero aadd ascale t1 t2 t3 t4 s1 s2 s3 s4 blk
  = lin (rzero (rzero (rzero azero (axis_width t4 s4)) (axis_width t3 s3)) (axis_width t2 s2))
        (r3add aadd) (r3scale ascale)
        (Ush K t1 (sh_T s1) (b2_of azero aadd ascale t2 t3 t4 s1 s2 s3 s4 blk))
        (block4 azero aadd ascale false t2 t3 t4 s1 s2 s3 s4 blk).
Proof.
  intros F K A azero aadd ascale P ML t1 t2 t3 t4 s1 s2 s3 s4 blk H.
  refine (axis_tr_lin K _ _ _ _ _ t1 (sh_T s1) _ H).
  unfold P3, r3add, r3scale, r2add, r2scale, r1add, r1scale.
  apply module_laws_rows, module_laws_rows, module_laws_rows, ML.
Qed.
Print Assumptions C09_block4_index1_partial.

(* the full four-index statement (a Definition, not a theorem: not proved) *)
Definition C09_four_mix_statement : Prop :=
  forall (F : Type) (K : Fops F), is_field K ->
  forall (ss : list (@sh F)) bf,
  four_symm (f0 K) (fadd K) (fmul K) 2 ss bf
  = (let U := Ulist K ss in
     let m := four_symm (f0 K) (fadd K) (fmul K) 0 ss bf in
     map (map (map (lin (f0 K) (fadd K) (fmul K) U)))
       (map (map (fun r2 => lin (rzero (f0 K) (length (hd [] r2))) (radd (fadd K)) (rscale (fmul K)) U r2))
         (map (fun r3 => lin (rzero (rzero (f0 K) (length (hd [] (hd [] r3)))) (length (hd [] r3)))
                              (radd (radd (fadd K))) (rscale (rscale (fmul K))) U r3)
           (lin (rzero (rzero (rzero (f0 K) (length (hd [] (hd [] (hd [] m))))) (length (hd [] (hd [] m))))
                       (length (hd [] m)))
                (radd (radd (radd (fadd K)))) (rscale (rscale (rscale (fmul K)))) U m)))).

(* ---- (d) component order / sign conventions ---- *)
(* the transform of a shell reporting permuted Cartesian components (pi) and permuted / signed
   spherical labels (sg) is the reference transform with columns permuted by pi, rows permuted
   and signed by sg: all l, all conventions *)
Theorem C09_convention_perm_sign :
  forall (F : Type) (K : Fops F), is_field K ->
  forall l (carts : list comp) (labels : list label) (pi : list nat) (sg : list (nat * bool)) dc dl,
  Forall (fun k => k < length carts) pi -> Forall (fun p => fst p < length labels) sg ->
  sph_transform K l (map (fun k => nth k carts dc) pi)
                    (map (fun p => flip_label (snd p) (nth (fst p) labels dl)) sg)
  = map (fun p => map (fun k => fmul K (sgn K (snd p))
                                  (nth k (nth (fst p) (sph_transform K l carts labels) []) (f0 K))) pi) sg.
Proof. exact (fun F K Kf l carts labels pi sg dc dl => sph_transform_convention K Kf l carts labels pi sg dc dl). Qed.
Print Assumptions C09_convention_perm_sign.

(* and the output of a shell follows the rows of its transform: rows permuted and scaled by
   signs give outputs permuted and signed (any block, any T).  PARTIAL with respect to the
   property text: the statement that permuting the Cartesian components (columns of T together
   with the block's component axis) leaves spherical outputs unchanged needs commutativity of
   the sum and is only checked numerically. *)
Theorem C09_convention_output_rows_partial :
  forall (F : Type) (K : Fops F) (A : Type) (azero : A) (aadd : A -> A -> A) (ascale : F -> A -> A),
  (forall s, ascale s azero = azero) ->
  (forall s x y, ascale s (aadd x y) = aadd (ascale s x) (ascale s y)) ->
  (forall s a x, ascale (fmul K s a) x = ascale s (ascale a x)) ->
  forall (T : list (list F)) (sg : list (nat * F)) (v : list A),
  lin azero aadd ascale (map (fun p => map (fmul K (snd p)) (nth (fst p) T [])) sg) v
  = map (fun p => ascale (snd p) (nth (fst p) (lin azero aadd ascale T v) (dot azero aadd ascale [] v))) sg.
Proof. exact (fun F K A z a s H1 H2 H3 => lin_rows_convention K z a s H1 H2 H3). Qed.
Print Assumptions C09_convention_output_rows_partial.

Example C09_scaling_laws_satisfiable :
  forall (F : Type) (K : Fops F), is_field K ->
  (forall s, fmul K s (f0 K) = f0 K) /\
  (forall s x y, fmul K s (fadd K x y) = fadd K (fmul K s x) (fmul K s y)) /\
  (forall s a x, fmul K (fmul K s a) x = fmul K s (fmul K a x)).
Proof. exact (fun F K Kf => scaling_laws_field K Kf). Qed.
Print Assumptions C09_scaling_laws_satisfiable.
