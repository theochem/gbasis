(* Props/C13.v — theorems backing property C13 (contractions behave as the linear combinations they
   denote).  Each is an instance of a lemma of Proofs/ContractionP.v: a congruence or linearity lemma of
   a kernel shape applied to a shell_equiv / shell_lin fact; the Examples show the hypotheses satisfiable.

   Vocabulary (Proofs/ContractionP.v):
     prims s            the list of (exponent, coefficient-row) pairs of a shell
     set_prims s ps     the shell with the same frame (l, centre, type, conventions) and primitives ps
     set_coeffs s C     ... with the coefficient matrix C;   col_shell s m   ... with column m only
     scale_col s m k    ... with column m multiplied by k;   colfac m0 k m = k if m = m0, else 1
     kblock g sa sb     the two-index block built by the code's two tensordots (Model/MomentInt.block_of)
                        from a primitive kernel g alpha beta ca cb;  kentry = its defining double sum
     nblock / nentry    the block after step 1 of the assembly (x norm_cont_a x norm_cont_b)
     scale_hyps s m k kabs   kabs <> 0, sqrt(k^2 x) = kabs sqrt x and sqrt x <> 0 on the self-overlaps x of column m
   All theorems quantify over the field, the shells (any K, M, l, exponents, coefficients) and, where a
   kernel g appears, over every primitive kernel; the models of _moment_int.py, _diff_operator_int.py and
   angular_momentum.py are proved to be kernel blocks (the four .._is_kernel_block theorems), so every C13 theorem about
   kblock / kentry / nblock holds for overlap, multipole moments, kinetic energy, momentum, angular momentum.
   The evaluation block, the point-charge / nuclear-attraction kernel and the electron-repulsion block have
   their own theorems (.._eval, .._one_elec / .._point_charge, .._eri).

   Stated in full in the property, proved here only in part (names end in _partial):
     generalized_is_segmented, ASSEMBLED: "for every public function, the array of a basis and of the basis in
       which every generalized shell is replaced by its single-column shells coincide".  Proved in full for
       evaluate_basis and evaluate_deriv_basis (C13_generalized_is_segmented_basis_eval(_deriv): any basis,
       Cartesian / spherical / mixed, with transform).  For the two-index functions it is proved for ONE pair of
       shells of any coordinate types (the four C13_generalized_is_segmented_assembled .._partial theorems: the
       processed block is the segment-major matrix of the tiles; overlap_integral_asymmetric([sa], [sb]) = the
       same of the single-column shells, with transforms; any frame kernel); for SEVERAL shells per basis and
       the symmetric assembly it is proved for overlap_integral and kinetic_energy_integral in Props/C13_assembled.v
       (C13_generalized_is_segmented_assembled_overlap: any basis, any coordinate types, with transform; a generic
       reduction for the other symmetric two-index functions is there too); for the other two-index functions
       and the four-index assembly the statement is decided by the correspondence search only.  At shell-block level (the input of the flattening) the law is
       proved for every kernel (the C13_generalized_is_segmented theorems).
     column_scale, ASSEMBLED: "for every public function, multiplying a column by k > 0 changes nothing and by
       k < 0 flips the sign of that function".  Proved assembled for overlap_integral(_asymmetric) and positive
       factors (the two C13_column_scale_assembled .._partial theorems); for every kernel, both signs, on the contraction-
       normalised block / entries (the C13_column_scale theorems, before the spherical transform and the flattening, which
       act per segment); assembled for the other functions: correspondence search. *)
From Coq Require Import List Arith Permutation QArith Qcanon Reals.
From GB Require Import Base.Field Base.FNum Base.Tables Base.Blocks Model.Shell Model.MomentInt
  Model.Spherical Model.Assembly Model.Overlap Model.DiffOp Model.OneElec Model.TwoElec Model.Eval
  Proofs.BlockP Proofs.ContractionP.
Import ListNotations.

(* every entry of a two-index block built by block_of from a primitive kernel g is the double sum over the (exponent, coefficient-row) pairs of the two shells *)
Theorem C13_kernel_block_entry_is_double_sum :
  forall (F : Type) (K : Fops F) (g : F -> F -> comp -> comp -> F) (sa sb : shell F),
  kblock K g sa sb = mk4 (nseg sa) (ncomp sa) (nseg sb) (ncomp sb) (kentry K g sa sb).
Proof. exact (@kblock_form). Qed.
Print Assumptions C13_kernel_block_entry_is_double_sum.

(* _compute_multipole_moment_integrals (overlap, moments) is such a block, for every order *)
Theorem C13_mm_block_is_kernel_block :
  forall (F : Type) (K : Fops F) (Cx Cy Cz : F) (orders : list comp) (sa sb : shell F),
  mm_block K Cx Cy Cz orders sa sb =
  map (fun o : comp => kblock K (mm_kern K Cx Cy Cz (omax orders) sa sb o) sa sb) orders.
Proof. exact (@mm_block_kernel). Qed.
Print Assumptions C13_mm_block_is_kernel_block.

Theorem C13_overlap_block_is_kernel_block :
  forall (F : Type) (K : Fops F) (sa sb : shell F),
  overlap_block K sa sb = kblock K (ov_kern K sa sb) sa sb.
Proof. exact (@overlap_block_kernel). Qed.
Print Assumptions C13_overlap_block_is_kernel_block.

(* _compute_differential_operator_integrals (kinetic energy, momentum) *)
Theorem C13_diffop_block_is_kernel_block :
  forall (F : Type) (K : Fops F) (orders : list comp) (sa sb : shell F),
  diffop_block K orders sa sb =
  map (fun o : comp => kblock K (do_kern K (omax orders) sa sb o) sa sb) orders.
Proof. exact (@diffop_block_kernel). Qed.
Print Assumptions C13_diffop_block_is_kernel_block.

(* angular momentum: three kernel blocks zipped *)
Theorem C13_angmom_block_is_kernel_block :
  forall (F : Type) (K : Fops F) (sa sb : shell F),
  angmom_block_re K sa sb =
  zip4 (fun (xy : list F) (z : F) => xy ++ [z])
  (zip4 (fun x y : F => [x; y]) (kblock K (am_kern K 0 sa sb) sa sb)
  (kblock K (am_kern K 1 sa sb) sa sb)) (kblock K (am_kern K 2 sa sb) sa sb).
Proof. exact (@angmom_block_kernel). Qed.
Print Assumptions C13_angmom_block_is_kernel_block.

Theorem C13_fsum_perm :
  forall (F : Type) (K : Fops F),
  is_field K -> forall l l' : list F, Permutation l l' -> fsum K l = fsum K l'.
Proof. exact (@GB.Base.Sums.fsum_perm). Qed.
Print Assumptions C13_fsum_perm.

(* 1. column (ma, mb) of the block of two generalized shells = the block of the two single-column shells (any kernel) *)
Theorem C13_generalized_is_segmented :
  forall (F : Type) (K : Fops F) (g : F -> F -> comp -> comp -> F) (sa sb : shell F) (ma mb : nat),
  (ma < nseg sa)%nat ->
  (mb < nseg sb)%nat ->
  kblock K g (col_shell K sa ma) (col_shell K sb mb) =
  mk4 1 (ncomp sa) 1 (ncomp sb) (fun _ ia _ ib : nat => nth4' K ma ia mb ib (kblock K g sa sb)).
Proof. exact (@kblock_segmented). Qed.
Print Assumptions C13_generalized_is_segmented.

Theorem C13_generalized_is_segmented_entry :
  forall (F : Type) (K : Fops F) (g : F -> F -> comp -> comp -> F) (sa sb : shell F)
  (ma ia mb ib : nat),
  (ma < nseg sa)%nat ->
  (ia < ncomp sa)%nat ->
  (mb < nseg sb)%nat ->
  (ib < ncomp sb)%nat ->
  nth4' K ma ia mb ib (kblock K g sa sb) =
  nth4' K 0 ia 0 ib (kblock K g (col_shell K sa ma) (col_shell K sb mb)).
Proof.
  intros F K g sa sb ma ia mb ib Hma Hia Hmb Hib. rewrite (kblock_segmented K g sa sb ma mb Hma Hmb).
  symmetry. apply (nth4_mk4 K); assumption || apply Nat.lt_0_1.
Qed.
Print Assumptions C13_generalized_is_segmented_entry.

(* ... for the multipole-moment / overlap block, all orders at once *)
Theorem C13_generalized_is_segmented_mm :
  forall (F : Type) (K : Fops F) (Cx Cy Cz : F) (orders : list comp) (sa sb : shell F)
  (ma mb : nat),
  (ma < nseg sa)%nat ->
  (mb < nseg sb)%nat ->
  mm_block K Cx Cy Cz orders (col_shell K sa ma) (col_shell K sb mb) =
  map
  (fun blk : list (list (list (list F))) =>
  mk4 1 (ncomp sa) 1 (ncomp sb) (fun _ ia _ ib : nat => nth4' K ma ia mb ib blk))
  (mm_block K Cx Cy Cz orders sa sb).
Proof. exact (@mm_generalized_is_segmented). Qed.
Print Assumptions C13_generalized_is_segmented_mm.

(* ... for the evaluation block (any back-end mode, any derivative order) *)
Theorem C13_generalized_is_segmented_eval :
  forall (F : Type) (K : Fops F),
  is_field K ->
  forall (md : rowmode) (ef : F -> F) (o : comp) (s : shell F) (pts : list point) (m : nat),
  (m < nseg s)%nat ->
  block_with K md (fun x : F => x) ef (col_shell K s m) o pts =
  [nth m (block_with K md (fun x : F => x) ef s o pts) []].
Proof. exact (@eval_generalized_is_segmented). Qed.
Print Assumptions C13_generalized_is_segmented_eval.

(* ... for the one-electron Boys kernel (contraction before the horizontal recursion) *)
Theorem C13_generalized_is_segmented_one_elec :
  forall (F : Type) (K : Fops F) (Cx Cy Cz : F) (sa sb : shell F) (ma mb : nat),
  (ma < nseg sa)%nat ->
  (mb < nseg sb)%nat ->
  one_elec_point K Cx Cy Cz (col_shell K sa ma) (col_shell K sb mb) =
  [map (fun b2 : list (list F) => [nth mb b2 []]) (nth ma (one_elec_point K Cx Cy Cz sa sb) [])].
Proof. exact (@oe_generalized_is_segmented). Qed.
Print Assumptions C13_generalized_is_segmented_one_elec.

(* ... for PointChargeIntegral.construct_array_contraction (with the la < lb swap), every point *)
Theorem C13_generalized_is_segmented_point_charge :
  forall (F : Type) (K : Fops F) (points : list (F * F * F * F)) (sa sb : shell F) (ma mb : nat),
  (ma < nseg sa)%nat ->
  (mb < nseg sb)%nat ->
  point_charge_block K points (col_shell K sa ma) (col_shell K sb mb) =
  mk 1
  (fun _ : nat =>
  mk (ncomp sa)
  (fun ia : nat =>
  mk 1
  (fun _ : nat =>
  mk (ncomp sb)
  (fun ib : nat =>
  nth ib (nth mb (nth ia (nth ma (point_charge_block K points sa sb) []) []) []) [])))).
Proof. exact (@pc_generalized_is_segmented). Qed.
Print Assumptions C13_generalized_is_segmented_point_charge.

(* ... for the electron-repulsion block, four shells *)
Theorem C13_generalized_is_segmented_eri :
  forall (F : Type) (K : Fops F),
  is_field K ->
  forall (s1 s2 s3 s4 : shell F) (m1 m2 m3 m4 : nat),
  (m1 < nseg s1)%nat ->
  (m2 < nseg s2)%nat ->
  (m3 < nseg s3)%nat ->
  (m4 < nseg s4)%nat ->
  eri_block K (col_shell K s1 m1) (col_shell K s2 m2) (col_shell K s3 m3) (col_shell K s4 m4) =
  mk 1
  (fun _ : nat =>
  mk (ncomp s1)
  (fun i1 : nat =>
  mk 1
  (fun _ : nat =>
  mk (ncomp s2)
  (fun i2 : nat =>
  mk 1
  (fun _ : nat =>
  mk (ncomp s3)
  (fun i3 : nat =>
  mk 1
  (fun _ : nat =>
  mk (ncomp s4)
  (fun i4 : nat => nth8 K m1 i1 m2 i2 m3 i3 m4 i4 (eri_block K s1 s2 s3 s4))))))))).
Proof. exact (@eri_generalized_is_segmented). Qed.
Print Assumptions C13_generalized_is_segmented_eri.

Theorem C13_norm_cont_segmented :
  forall (F : Type) (K : Fops F) (s : shell F) (m : nat),
  (m < nseg s)%nat -> norm_cont K (col_shell K s m) = [nth m (norm_cont K s) []].
Proof. exact (@norm_cont_col_shell). Qed.
Print Assumptions C13_norm_cont_segmented.

(* assembled: evaluate_basis of the basis in which every generalized shell is replaced by its single-column shells, in order, is the same matrix (same functions, same order: segment-major flattening) *)
Theorem C13_generalized_is_segmented_basis_eval :
  forall (F : Type) (K : Fops F),
  is_field K ->
  forall (basis : list (shell F)) (pts : list point) (T : option (list (list F))),
  evaluate_basis_model K (segmented_basis K basis) pts T = evaluate_basis_model K basis pts T.
Proof.
  intros F K Kf basis pts T. unfold evaluate_basis_model. apply one_index_segmented.
  exact (block_with_seg_compatible K Kf (fun s => gen_mode K false (s_l s) (0, 0, 0)%nat) (fexp K) (0, 0, 0)%nat pts
           (fun _ _ => eq_refl) basis).
Qed.
Print Assumptions C13_generalized_is_segmented_basis_eval.

Theorem C13_generalized_is_segmented_basis_eval_deriv :
  forall (F : Type) (K : Fops F),
  is_field K ->
  forall (basis : list (shell F)) (pts : list point) (o : comp) (T : option (list (list F)))
  (bk : backend),
  evaluate_deriv_basis_model K (segmented_basis K basis) pts o T bk =
  evaluate_deriv_basis_model K basis pts o T bk.
Proof. exact (@evaluate_deriv_basis_generalized_is_segmented). Qed.
Print Assumptions C13_generalized_is_segmented_basis_eval_deriv.

(* 2. any Permutation of the (exponent, coefficient-row) pairs of either shell leaves the block unchanged (any kernel) *)
Theorem C13_prim_perm_invariant :
  forall (F : Type) (K : Fops F),
  is_field K ->
  forall (g : F -> F -> comp -> comp -> F) (sa sb : shell F) (psa psb : list prim),
  Permutation (prims sa) psa ->
  Permutation (prims sb) psb ->
  nseg (set_prims sa psa) = nseg sa ->
  nseg (set_prims sb psb) = nseg sb ->
  kblock K g (set_prims sa psa) (set_prims sb psb) = kblock K g sa sb.
Proof.
  intros F K Kf g sa sb psa psb Ha Hb Na Nb. apply kblock_congr; now apply shell_equiv_perm.
Qed.
Print Assumptions C13_prim_perm_invariant.

(* a permutation of the rows of a rectangular K x M matrix keeps M (discharges the nseg hypotheses) *)
Theorem C13_perm_keeps_columns :
  forall (F : Type) (s : shell F) (ps : list prim) (M : nat),
  rect_rows M (s_coeffs s) ->
  wf_shell s -> s_coeffs s <> [] -> Permutation (prims s) ps -> nseg (set_prims s ps) = nseg s.
Proof. exact (@nseg_perm). Qed.
Print Assumptions C13_perm_keeps_columns.

Theorem C13_prim_perm_invariant_mm :
  forall (F : Type) (K : Fops F),
  is_field K ->
  forall (Cx Cy Cz : F) (orders : list comp) (sa sb : shell F) (psa psb : list prim),
  Permutation (prims sa) psa ->
  Permutation (prims sb) psb ->
  nseg (set_prims sa psa) = nseg sa ->
  nseg (set_prims sb psb) = nseg sb ->
  mm_block K Cx Cy Cz orders (set_prims sa psa) (set_prims sb psb) =
  mm_block K Cx Cy Cz orders sa sb.
Proof.
  intros F K Kf Cx Cy Cz orders sa sb psa psb Ha Hb Na Nb. apply mm_block_congr; now apply shell_equiv_perm.
Qed.
Print Assumptions C13_prim_perm_invariant_mm.

Theorem C13_prim_perm_invariant_eval :
  forall (F : Type) (K : Fops F),
  is_field K ->
  forall (md : rowmode) (ef : F -> F) (o : comp) (s : shell F) (ps : list prim) (pts : list point),
  Permutation (prims s) ps ->
  nseg (set_prims s ps) = nseg s ->
  block_with K md (fun x : F => x) ef (set_prims s ps) o pts =
  block_with K md (fun x : F => x) ef s o pts.
Proof.
  intros F K Kf md ef o s ps pts HP HN. apply (eval_block_congr K Kf). now apply shell_equiv_perm.
Qed.
Print Assumptions C13_prim_perm_invariant_eval.

Theorem C13_prim_perm_invariant_one_elec :
  forall (F : Type) (K : Fops F),
  is_field K ->
  forall (Cx Cy Cz : F) (sa sb : shell F) (psa psb : list prim),
  Permutation (prims sa) psa ->
  Permutation (prims sb) psb ->
  nseg (set_prims sa psa) = nseg sa ->
  nseg (set_prims sb psb) = nseg sb ->
  one_elec_point K Cx Cy Cz (set_prims sa psa) (set_prims sb psb) = one_elec_point K Cx Cy Cz sa sb.
Proof.
  intros F K Kf Cx Cy Cz sa sb psa psb Ha Hb Na Nb. apply oe_congr; now apply shell_equiv_perm.
Qed.
Print Assumptions C13_prim_perm_invariant_one_elec.

Theorem C13_prim_perm_invariant_point_charge :
  forall (F : Type) (K : Fops F),
  is_field K ->
  forall (points : list (F * F * F * F)) (sa sb : shell F) (psa psb : list prim),
  Permutation (prims sa) psa ->
  Permutation (prims sb) psb ->
  nseg (set_prims sa psa) = nseg sa ->
  nseg (set_prims sb psb) = nseg sb ->
  point_charge_block K points (set_prims sa psa) (set_prims sb psb) =
  point_charge_block K points sa sb.
Proof.
  intros F K Kf points sa sb psa psb Ha Hb Na Nb. apply pc_congr; now apply shell_equiv_perm.
Qed.
Print Assumptions C13_prim_perm_invariant_point_charge.

Theorem C13_prim_perm_invariant_eri :
  forall (F : Type) (K : Fops F),
  is_field K ->
  forall (s1 s2 s3 s4 : shell F) (p1 p2 p3 p4 : list prim),
  Permutation (prims s1) p1 ->
  Permutation (prims s2) p2 ->
  Permutation (prims s3) p3 ->
  Permutation (prims s4) p4 ->
  nseg (set_prims s1 p1) = nseg s1 ->
  nseg (set_prims s2 p2) = nseg s2 ->
  nseg (set_prims s3 p3) = nseg s3 ->
  nseg (set_prims s4 p4) = nseg s4 ->
  eri_block K (set_prims s1 p1) (set_prims s2 p2) (set_prims s3 p3) (set_prims s4 p4) =
  eri_block K s1 s2 s3 s4.
Proof.
  intros F K Kf s1 s2 s3 s4 p1 p2 p3 p4 P1 P2 P3 P4 N1 N2 N3 N4.
  apply (eri_block_congr K Kf); now apply shell_equiv_perm.
Qed.
Print Assumptions C13_prim_perm_invariant_eri.

(* 3. replacing (alpha, r) by (alpha, r1), (alpha, r2) with r = r1 + r2 leaves the block unchanged (any kernel, either shell) *)
Theorem C13_prim_split_a :
  forall (F : Type) (K : Fops F),
  is_field K ->
  forall (g : F -> F -> comp -> comp -> F) (sa sb : shell F) (l1 l2 : list (F * list F))
  (a : F) (r r1 r2 : list F),
  prims sa = l1 ++ (a, r) :: l2 ->
  r = map2 (fadd K) r1 r2 ->
  length r1 = length r2 ->
  kblock K g (set_prims sa (l1 ++ (a, r1) :: (a, r2) :: l2)) sb = kblock K g sa sb.
Proof.
  intros F K Kf g sa sb l1 l2 a r r1 r2 Hp Hr Hl.
  apply kblock_congr; [now apply (shell_equiv_split K Kf sa l1 l2 a r)|apply shell_equiv_refl].
Qed.
Print Assumptions C13_prim_split_a.

Theorem C13_prim_split_b :
  forall (F : Type) (K : Fops F),
  is_field K ->
  forall (g : F -> F -> comp -> comp -> F) (sa sb : shell F) (l1 l2 : list (F * list F))
  (a : F) (r r1 r2 : list F),
  prims sb = l1 ++ (a, r) :: l2 ->
  r = map2 (fadd K) r1 r2 ->
  length r1 = length r2 ->
  kblock K g sa (set_prims sb (l1 ++ (a, r1) :: (a, r2) :: l2)) = kblock K g sa sb.
Proof.
  intros F K Kf g sa sb l1 l2 a r r1 r2 Hp Hr Hl.
  apply kblock_congr; [apply shell_equiv_refl|now apply (shell_equiv_split K Kf sb l1 l2 a r)].
Qed.
Print Assumptions C13_prim_split_b.

Theorem C13_prim_split_mm_a :
  forall (F : Type) (K : Fops F),
  is_field K ->
  forall (Cx Cy Cz : F) (orders : list comp) (sa sb : shell F) (l1 l2 : list (F * list F))
  (a : F) (r r1 r2 : list F),
  prims sa = l1 ++ (a, r) :: l2 ->
  r = map2 (fadd K) r1 r2 ->
  length r1 = length r2 ->
  mm_block K Cx Cy Cz orders (set_prims sa (l1 ++ (a, r1) :: (a, r2) :: l2)) sb =
  mm_block K Cx Cy Cz orders sa sb.
Proof.
  intros F K Kf Cx Cy Cz orders sa sb l1 l2 a r r1 r2 Hp Hr Hl.
  apply mm_block_congr; [now apply (shell_equiv_split K Kf sa l1 l2 a r)|apply shell_equiv_refl].
Qed.
Print Assumptions C13_prim_split_mm_a.

Theorem C13_prim_split_mm_b :
  forall (F : Type) (K : Fops F),
  is_field K ->
  forall (Cx Cy Cz : F) (orders : list comp) (sa sb : shell F) (l1 l2 : list (F * list F))
  (a : F) (r r1 r2 : list F),
  prims sb = l1 ++ (a, r) :: l2 ->
  r = map2 (fadd K) r1 r2 ->
  length r1 = length r2 ->
  mm_block K Cx Cy Cz orders sa (set_prims sb (l1 ++ (a, r1) :: (a, r2) :: l2)) =
  mm_block K Cx Cy Cz orders sa sb.
Proof.
  intros F K Kf Cx Cy Cz orders sa sb l1 l2 a r r1 r2 Hp Hr Hl.
  apply mm_block_congr; [apply shell_equiv_refl|now apply (shell_equiv_split K Kf sb l1 l2 a r)].
Qed.
Print Assumptions C13_prim_split_mm_b.

Theorem C13_prim_split_eval :
  forall (F : Type) (K : Fops F),
  is_field K ->
  forall (md : rowmode) (ef : F -> F) (o : comp) (s : shell F) (l1 l2 : list (F * list F))
  (a : F) (r r1 r2 : list F) (pts : list point),
  prims s = l1 ++ (a, r) :: l2 ->
  r = map2 (fadd K) r1 r2 ->
  length r1 = length r2 ->
  block_with K md (fun x : F => x) ef (set_prims s (l1 ++ (a, r1) :: (a, r2) :: l2)) o pts =
  block_with K md (fun x : F => x) ef s o pts.
Proof.
  intros F K Kf md ef o s l1 l2 a r r1 r2 pts Hp Hr Hl.
  apply (eval_block_congr K Kf). now apply (shell_equiv_split K Kf s l1 l2 a r).
Qed.
Print Assumptions C13_prim_split_eval.

Theorem C13_prim_split_point_charge_a :
  forall (F : Type) (K : Fops F),
  is_field K ->
  forall (points : list (F * F * F * F)) (sa sb : shell F) (l1 l2 : list (F * list F))
  (a : F) (r r1 r2 : list F),
  prims sa = l1 ++ (a, r) :: l2 ->
  r = map2 (fadd K) r1 r2 ->
  length r1 = length r2 ->
  point_charge_block K points (set_prims sa (l1 ++ (a, r1) :: (a, r2) :: l2)) sb =
  point_charge_block K points sa sb.
Proof.
  intros F K Kf points sa sb l1 l2 a r r1 r2 Hp Hr Hl.
  apply pc_congr; [now apply (shell_equiv_split K Kf sa l1 l2 a r)|apply shell_equiv_refl].
Qed.
Print Assumptions C13_prim_split_point_charge_a.

Theorem C13_prim_split_point_charge_b :
  forall (F : Type) (K : Fops F),
  is_field K ->
  forall (points : list (F * F * F * F)) (sa sb : shell F) (l1 l2 : list (F * list F))
  (a : F) (r r1 r2 : list F),
  prims sb = l1 ++ (a, r) :: l2 ->
  r = map2 (fadd K) r1 r2 ->
  length r1 = length r2 ->
  point_charge_block K points sa (set_prims sb (l1 ++ (a, r1) :: (a, r2) :: l2)) =
  point_charge_block K points sa sb.
Proof.
  intros F K Kf points sa sb l1 l2 a r r1 r2 Hp Hr Hl.
  apply pc_congr; [apply shell_equiv_refl|now apply (shell_equiv_split K Kf sb l1 l2 a r)].
Qed.
Print Assumptions C13_prim_split_point_charge_b.

Theorem C13_prim_split_eri_1 :
  forall (F : Type) (K : Fops F),
  is_field K ->
  forall (s1 s2 s3 s4 : shell F) (l1 l2 : list (F * list F)) (a : F) (r r1 r2 : list F),
  prims s1 = l1 ++ (a, r) :: l2 ->
  r = map2 (fadd K) r1 r2 ->
  length r1 = length r2 ->
  eri_block K (set_prims s1 (l1 ++ (a, r1) :: (a, r2) :: l2)) s2 s3 s4 = eri_block K s1 s2 s3 s4.
Proof.
  intros F K Kf s1 s2 s3 s4 l1 l2 a r r1 r2 Hp Hr Hl.
  apply (eri_block_congr K Kf); try apply shell_equiv_refl. now apply (shell_equiv_split K Kf s1 l1 l2 a r).
Qed.
Print Assumptions C13_prim_split_eri_1.

Theorem C13_prim_split_eri_2 :
  forall (F : Type) (K : Fops F),
  is_field K ->
  forall (s1 s2 s3 s4 : shell F) (l1 l2 : list (F * list F)) (a : F) (r r1 r2 : list F),
  prims s2 = l1 ++ (a, r) :: l2 ->
  r = map2 (fadd K) r1 r2 ->
  length r1 = length r2 ->
  eri_block K s1 (set_prims s2 (l1 ++ (a, r1) :: (a, r2) :: l2)) s3 s4 = eri_block K s1 s2 s3 s4.
Proof.
  intros F K Kf s1 s2 s3 s4 l1 l2 a r r1 r2 Hp Hr Hl.
  apply (eri_block_congr K Kf); try apply shell_equiv_refl. now apply (shell_equiv_split K Kf s2 l1 l2 a r).
Qed.
Print Assumptions C13_prim_split_eri_2.

Theorem C13_prim_split_eri_3 :
  forall (F : Type) (K : Fops F),
  is_field K ->
  forall (s1 s2 s3 s4 : shell F) (l1 l2 : list (F * list F)) (a : F) (r r1 r2 : list F),
  prims s3 = l1 ++ (a, r) :: l2 ->
  r = map2 (fadd K) r1 r2 ->
  length r1 = length r2 ->
  eri_block K s1 s2 (set_prims s3 (l1 ++ (a, r1) :: (a, r2) :: l2)) s4 = eri_block K s1 s2 s3 s4.
Proof.
  intros F K Kf s1 s2 s3 s4 l1 l2 a r r1 r2 Hp Hr Hl.
  apply (eri_block_congr K Kf); try apply shell_equiv_refl. now apply (shell_equiv_split K Kf s3 l1 l2 a r).
Qed.
Print Assumptions C13_prim_split_eri_3.

Theorem C13_prim_split_eri_4 :
  forall (F : Type) (K : Fops F),
  is_field K ->
  forall (s1 s2 s3 s4 : shell F) (l1 l2 : list (F * list F)) (a : F) (r r1 r2 : list F),
  prims s4 = l1 ++ (a, r) :: l2 ->
  r = map2 (fadd K) r1 r2 ->
  length r1 = length r2 ->
  eri_block K s1 s2 s3 (set_prims s4 (l1 ++ (a, r1) :: (a, r2) :: l2)) = eri_block K s1 s2 s3 s4.
Proof.
  intros F K Kf s1 s2 s3 s4 l1 l2 a r r1 r2 Hp Hr Hl.
  apply (eri_block_congr K Kf); try apply shell_equiv_refl. now apply (shell_equiv_split K Kf s4 l1 l2 a r).
Qed.
Print Assumptions C13_prim_split_eri_4.

(* the ERI block only depends on the contraction sums of its four shells *)
Theorem C13_eri_block_congr :
  forall (F : Type) (K : Fops F),
  is_field K ->
  forall s1 s2 s3 s4 s1' s2' s3' s4' : shell F,
  same_frame s1 s1' ->
  same_frame s2 s2' ->
  same_frame s3 s3' ->
  same_frame s4 s4' ->
  nseg s1' = nseg s1 ->
  nseg s2' = nseg s2 ->
  nseg s3' = nseg s3 ->
  nseg s4' = nseg s4 ->
  (forall m : nat, sum_equiv K (prims s1) m (prims s1') m) ->
  (forall m : nat, sum_equiv K (prims s2) m (prims s2') m) ->
  (forall m : nat, sum_equiv K (prims s3) m (prims s3') m) ->
  (forall m : nat, sum_equiv K (prims s4) m (prims s4') m) ->
  eri_block K s1' s2' s3' s4' = eri_block K s1 s2 s3 s4.
Proof.
  intros F K Kf s1 s2 s3 s4 s1' s2' s3' s4' F1 F2 F3 F4 N1 N2 N3 N4 E1 E2 E3 E4.
  exact (eri_block_congr K Kf s1 s2 s3 s4 s1' s2' s3' s4' (conj F1 (conj N1 E1)) (conj F2 (conj N2 E2))
           (conj F3 (conj N3 E3)) (conj F4 (conj N4 E4))).
Qed.
Print Assumptions C13_eri_block_congr.

(* 4. the un-normalised block is additive and homogeneous in the coefficient matrix of each shell (any kernel) *)
Theorem C13_unnormalised_linear_add_a :
  forall (F : Type) (K : Fops F),
  is_field K ->
  forall (g : F -> F -> comp -> comp -> F) (sa sb : shell F) (C1 C2 : list (list F))
  (ma ia mb ib : nat),
  same_shape C1 C2 ->
  kentry K g (set_coeffs sa (rows_add K C1 C2)) sb ma ia mb ib =
  fadd K (kentry K g (set_coeffs sa C1) sb ma ia mb ib)
  (kentry K g (set_coeffs sa C2) sb ma ia mb ib).
Proof.
  intros F K Kf; intros. apply (lin11 K Kf), kentry_lin_a; try assumption. now apply shell_lin_add.
Qed.
Print Assumptions C13_unnormalised_linear_add_a.

Theorem C13_unnormalised_linear_scale_a :
  forall (F : Type) (K : Fops F),
  is_field K ->
  forall (g : F -> F -> comp -> comp -> F) (sa sb : shell F) (k : F) (C : list (list F))
  (ma ia mb ib : nat),
  kentry K g (set_coeffs sa (rows_scale K k C)) sb ma ia mb ib =
  fmul K k (kentry K g (set_coeffs sa C) sb ma ia mb ib).
Proof.
  intros F K Kf; intros. apply (lin10 K Kf), kentry_lin_a; try assumption. now apply shell_lin_scale.
Qed.
Print Assumptions C13_unnormalised_linear_scale_a.

Theorem C13_unnormalised_linear_add_b :
  forall (F : Type) (K : Fops F),
  is_field K ->
  forall (g : F -> F -> comp -> comp -> F) (sa sb : shell F) (C1 C2 : list (list F))
  (ma ia mb ib : nat),
  same_shape C1 C2 ->
  kentry K g sa (set_coeffs sb (rows_add K C1 C2)) ma ia mb ib =
  fadd K (kentry K g sa (set_coeffs sb C1) ma ia mb ib)
  (kentry K g sa (set_coeffs sb C2) ma ia mb ib).
Proof.
  intros F K Kf; intros. apply (lin11 K Kf), kentry_lin_b; try assumption. now apply shell_lin_add.
Qed.
Print Assumptions C13_unnormalised_linear_add_b.

Theorem C13_unnormalised_linear_scale_b :
  forall (F : Type) (K : Fops F),
  is_field K ->
  forall (g : F -> F -> comp -> comp -> F) (sa sb : shell F) (k : F) (C : list (list F))
  (ma ia mb ib : nat),
  kentry K g sa (set_coeffs sb (rows_scale K k C)) ma ia mb ib =
  fmul K k (kentry K g sa (set_coeffs sb C) ma ia mb ib).
Proof.
  intros F K Kf; intros. apply (lin10 K Kf), kentry_lin_b; try assumption. now apply shell_lin_scale.
Qed.
Print Assumptions C13_unnormalised_linear_scale_b.

Theorem C13_unnormalised_linear_mm_add_a :
  forall (F : Type) (K : Fops F),
  is_field K ->
  forall (Cx Cy Cz : F) (orders : list comp) (sa sb : shell F) (C1 C2 : list (list F))
  (d ma ia mb ib : nat),
  same_shape C1 C2 ->
  (d < length orders)%nat ->
  (ma < nseg (set_coeffs sa C1))%nat ->
  (ia < ncomp sa)%nat ->
  (mb < nseg sb)%nat ->
  (ib < ncomp sb)%nat ->
  mm_entry' K Cx Cy Cz orders (set_coeffs sa (rows_add K C1 C2)) sb d ma ia mb ib =
  fadd K (mm_entry' K Cx Cy Cz orders (set_coeffs sa C1) sb d ma ia mb ib)
  (mm_entry' K Cx Cy Cz orders (set_coeffs sa C2) sb d ma ia mb ib).
Proof.
  intros F K Kf; intros. apply (lin11 K Kf), mm_entry_lin_a; try assumption. now apply shell_lin_add.
Qed.
Print Assumptions C13_unnormalised_linear_mm_add_a.

Theorem C13_unnormalised_linear_mm_scale_a :
  forall (F : Type) (K : Fops F),
  is_field K ->
  forall (Cx Cy Cz : F) (orders : list comp) (sa sb : shell F) (k : F)
  (C : list (list F)) (d ma ia mb ib : nat),
  (d < length orders)%nat ->
  (ma < nseg (set_coeffs sa C))%nat ->
  (ia < ncomp sa)%nat ->
  (mb < nseg sb)%nat ->
  (ib < ncomp sb)%nat ->
  mm_entry' K Cx Cy Cz orders (set_coeffs sa (rows_scale K k C)) sb d ma ia mb ib =
  fmul K k (mm_entry' K Cx Cy Cz orders (set_coeffs sa C) sb d ma ia mb ib).
Proof.
  intros F K Kf; intros. apply (lin10 K Kf), mm_entry_lin_a; try assumption. now apply shell_lin_scale.
Qed.
Print Assumptions C13_unnormalised_linear_mm_scale_a.

Theorem C13_unnormalised_linear_mm_add_b :
  forall (F : Type) (K : Fops F),
  is_field K ->
  forall (Cx Cy Cz : F) (orders : list comp) (sa sb : shell F) (C1 C2 : list (list F))
  (d ma ia mb ib : nat),
  same_shape C1 C2 ->
  (d < length orders)%nat ->
  (ma < nseg sa)%nat ->
  (ia < ncomp sa)%nat ->
  (mb < nseg (set_coeffs sb C1))%nat ->
  (ib < ncomp sb)%nat ->
  mm_entry' K Cx Cy Cz orders sa (set_coeffs sb (rows_add K C1 C2)) d ma ia mb ib =
  fadd K (mm_entry' K Cx Cy Cz orders sa (set_coeffs sb C1) d ma ia mb ib)
  (mm_entry' K Cx Cy Cz orders sa (set_coeffs sb C2) d ma ia mb ib).
Proof.
  intros F K Kf; intros. apply (lin11 K Kf), mm_entry_lin_b; try assumption. now apply shell_lin_add.
Qed.
Print Assumptions C13_unnormalised_linear_mm_add_b.

Theorem C13_unnormalised_linear_mm_scale_b :
  forall (F : Type) (K : Fops F),
  is_field K ->
  forall (Cx Cy Cz : F) (orders : list comp) (sa sb : shell F) (k : F)
  (C : list (list F)) (d ma ia mb ib : nat),
  (d < length orders)%nat ->
  (ma < nseg sa)%nat ->
  (ia < ncomp sa)%nat ->
  (mb < nseg (set_coeffs sb C))%nat ->
  (ib < ncomp sb)%nat ->
  mm_entry' K Cx Cy Cz orders sa (set_coeffs sb (rows_scale K k C)) d ma ia mb ib =
  fmul K k (mm_entry' K Cx Cy Cz orders sa (set_coeffs sb C) d ma ia mb ib).
Proof.
  intros F K Kf; intros. apply (lin10 K Kf), mm_entry_lin_b; try assumption. now apply shell_lin_scale.
Qed.
Print Assumptions C13_unnormalised_linear_mm_scale_b.

Theorem C13_unnormalised_linear_eval_add :
  forall (F : Type) (K : Fops F),
  is_field K ->
  forall (md : rowmode) (ef : F -> F) (o : comp) (s : shell F) (C1 C2 : list (list F))
  (p : point) (m c : nat),
  same_shape C1 C2 ->
  eval_entry K md ef o (set_coeffs s (rows_add K C1 C2)) p m c =
  fadd K (eval_entry K md ef o (set_coeffs s C1) p m c)
  (eval_entry K md ef o (set_coeffs s C2) p m c).
Proof.
  intros F K Kf; intros. apply (lin11 K Kf), eval_entry_lin; try assumption. now apply shell_lin_add.
Qed.
Print Assumptions C13_unnormalised_linear_eval_add.

Theorem C13_unnormalised_linear_eval_scale :
  forall (F : Type) (K : Fops F),
  is_field K ->
  forall (md : rowmode) (ef : F -> F) (o : comp) (s : shell F) (k : F)
  (C : list (list F)) (p : point) (m c : nat),
  eval_entry K md ef o (set_coeffs s (rows_scale K k C)) p m c =
  fmul K k (eval_entry K md ef o (set_coeffs s C) p m c).
Proof.
  intros F K Kf; intros. apply (lin10 K Kf), eval_entry_lin; try assumption. now apply shell_lin_scale.
Qed.
Print Assumptions C13_unnormalised_linear_eval_scale.

(* 5a. a column of each shell multiplied by a factor: the un-normalised entries pick up the factors *)
Theorem C13_column_scale_unnormalised :
  forall (F : Type) (K : Fops F),
  is_field K ->
  forall (g : F -> F -> comp -> comp -> F) (sa sb : shell F) (m0a : nat)
  (ka : F) (m0b : nat) (kb : F) (ma ia mb ib : nat),
  kentry K g (scale_col K sa m0a ka) (scale_col K sb m0b kb) ma ia mb ib =
  fmul K (fmul K (colfac K m0a ka ma) (colfac K m0b kb mb)) (kentry K g sa sb ma ia mb ib).
Proof. exact (@kentry_scale_col). Qed.
Print Assumptions C13_column_scale_unnormalised.

Theorem C13_column_scale_mm_unnormalised :
  forall (F : Type) (K : Fops F),
  is_field K ->
  forall (Cx Cy Cz : F) (orders : list comp) (sa sb : shell F) (m0a : nat)
  (ka : F) (m0b : nat) (kb : F) (d ma ia mb ib : nat),
  (d < length orders)%nat ->
  (ma < nseg sa)%nat ->
  (ia < ncomp sa)%nat ->
  (mb < nseg sb)%nat ->
  (ib < ncomp sb)%nat ->
  mm_entry' K Cx Cy Cz orders (scale_col K sa m0a ka) (scale_col K sb m0b kb) d ma ia mb ib =
  fmul K (fmul K (colfac K m0a ka ma) (colfac K m0b kb mb))
  (mm_entry' K Cx Cy Cz orders sa sb d ma ia mb ib).
Proof. exact (@mm_scale_col_unnormalised). Qed.
Print Assumptions C13_column_scale_mm_unnormalised.

(* 5b. with sqrt(k^2 x) = kabs sqrt x on the self-overlaps of that column, norm_cont of the scaled column is divided by kabs *)
Theorem C13_column_scale_norm_cont :
  forall (F : Type) (K : Fops F),
  is_field K ->
  forall (s : shell F) (m0 : nat) (k ka : F),
  (forall x : F, fapx K x = x) ->
  ka <> f0 K ->
  ((m0 < nseg s)%nat ->
  forall c : nat,
  (c < ncomp s)%nat ->
  fsqrt K (fmul K (fmul K k k) (selfov K s m0 c)) = fmul K ka (fsqrt K (selfov K s m0 c))) ->
  ((m0 < nseg s)%nat -> forall c : nat, (c < ncomp s)%nat -> fsqrt K (selfov K s m0 c) <> f0 K) ->
  norm_cont K (scale_col K s m0 k) =
  mk (nseg s)
  (fun m : nat =>
  mk (ncomp s)
  (fun c : nat => fmul K (colfac K m0 (fdiv K (f1 K) ka) m) (ncget K (norm_cont K s) m c))).
Proof. exact (@norm_cont_scale_col). Qed.
Print Assumptions C13_column_scale_norm_cont.

(* 5. contraction-normalised block: function m0 is multiplied by k/kabs (= +1 for k > 0, -1 for k < 0), nothing else changes *)
Theorem C13_column_scale :
  forall (F : Type) (K : Fops F),
  is_field K ->
  forall (g : F -> F -> comp -> comp -> F) (sa sb : shell F) (m0a : nat)
  (ka kaa : F) (m0b : nat) (kb kba : F),
  (forall x : F, fapx K x = x) ->
  scale_hyps K sa m0a ka kaa ->
  scale_hyps K sb m0b kb kba ->
  nblock K g (scale_col K sa m0a ka) (scale_col K sb m0b kb) =
  mk4 (nseg sa) (ncomp sa) (nseg sb) (ncomp sb)
  (fun ma ia mb ib : nat =>
  fmul K (fmul K (colfac K m0a (fdiv K ka kaa) ma) (colfac K m0b (fdiv K kb kba) mb))
  (nth4' K ma ia mb ib (nblock K g sa sb))).
Proof. exact (@nblock_scale_col). Qed.
Print Assumptions C13_column_scale.

Theorem C13_column_scale_a :
  forall (F : Type) (K : Fops F),
  is_field K ->
  forall (g : F -> F -> comp -> comp -> F) (sa sb : shell F) (m0 : nat) (k kabs : F),
  (forall x : F, fapx K x = x) ->
  scale_hyps K sa m0 k kabs ->
  nblock K g (scale_col K sa m0 k) sb =
  mk4 (nseg sa) (ncomp sa) (nseg sb) (ncomp sb)
  (fun ma ia mb ib : nat =>
  fmul K (colfac K m0 (fdiv K k kabs) ma) (nth4' K ma ia mb ib (nblock K g sa sb))).
Proof. exact (@nblock_scale_col_a). Qed.
Print Assumptions C13_column_scale_a.

Theorem C13_column_scale_b :
  forall (F : Type) (K : Fops F),
  is_field K ->
  forall (g : F -> F -> comp -> comp -> F) (sa sb : shell F) (m0 : nat) (k kabs : F),
  (forall x : F, fapx K x = x) ->
  scale_hyps K sb m0 k kabs ->
  nblock K g sa (scale_col K sb m0 k) =
  mk4 (nseg sa) (ncomp sa) (nseg sb) (ncomp sb)
  (fun ma ia mb ib : nat =>
  fmul K (colfac K m0 (fdiv K k kabs) mb) (nth4' K ma ia mb ib (nblock K g sa sb))).
Proof. exact (@nblock_scale_col_b). Qed.
Print Assumptions C13_column_scale_b.

(* k > 0 (kabs = k): unchanged *)
Theorem C13_column_scale_positive :
  forall (F : Type) (K : Fops F),
  is_field K ->
  forall (g : F -> F -> comp -> comp -> F) (sa sb : shell F) (m0a : nat)
  (ka : F) (m0b : nat) (kb : F),
  (forall x : F, fapx K x = x) ->
  scale_hyps K sa m0a ka ka ->
  scale_hyps K sb m0b kb kb ->
  nblock K g (scale_col K sa m0a ka) (scale_col K sb m0b kb) = nblock K g sa sb.
Proof. exact (@nblock_scale_col_pos). Qed.
Print Assumptions C13_column_scale_positive.

(* k < 0 (kabs = -k): the sign of that function only *)
Theorem C13_column_scale_negative :
  forall (F : Type) (K : Fops F),
  is_field K ->
  forall (g : F -> F -> comp -> comp -> F) (sa sb : shell F) (m0 : nat) (k : F),
  (forall x : F, fapx K x = x) ->
  scale_hyps K sa m0 k (fopp K k) ->
  nblock K g (scale_col K sa m0 k) sb =
  mk4 (nseg sa) (ncomp sa) (nseg sb) (ncomp sb)
  (fun ma ia mb ib : nat =>
  fmul K (colfac K m0 (fopp K (f1 K)) ma) (nth4' K ma ia mb ib (nblock K g sa sb))).
Proof. exact (@nblock_scale_col_neg_a). Qed.
Print Assumptions C13_column_scale_negative.

(* the same law for the value of a normalised function at a point *)
Theorem C13_column_scale_eval :
  forall (F : Type) (K : Fops F),
  is_field K ->
  forall (md : rowmode) (ef : F -> F) (o : comp) (s : shell F) (m0 : nat)
  (k kabs : F) (p : point) (m c : nat),
  (forall x : F, fapx K x = x) ->
  scale_hyps K s m0 k kabs ->
  (m < nseg s)%nat ->
  (c < ncomp s)%nat ->
  eval_nentry K md ef o (scale_col K s m0 k) p m c =
  fmul K (colfac K m0 (fdiv K k kabs) m) (eval_nentry K md ef o s p m c).
Proof. exact (@eval_column_scale). Qed.
Print Assumptions C13_column_scale_eval.

(* assembled (partial: overlap matrices, positive factors): overlap_integral is unchanged when any columns of any shells are multiplied by positive factors *)
Theorem C13_column_scale_assembled_partial :
  forall (F : Type) (K : Fops F),
  is_field K ->
  forall (basis basis' : list (shell F)) (T : option (list (list F))),
  (forall x : F, fapx K x = x) ->
  Forall2 (pos_rescaled K) basis basis' -> overlap_integral K basis' T = overlap_integral K basis T.
Proof.
  intros F K Kf basis basis' T Hapx H.
  apply (two_symm_integral_rel K (f0 K) (fadd K) (fmul K) (overlap_block K) (pos_rescaled K)); [|exact H].
  intros s1 s1' s2 s2'. exact (pblock_overlap_pos K Kf s1 s1' s2 s2' Hapx).
Qed.
Print Assumptions C13_column_scale_assembled_partial.

Theorem C13_column_scale_assembled_asymm_partial :
  forall (F : Type) (K : Fops F),
  is_field K ->
  forall (b1 b1' b2 b2' : list (shell F)) (T1 T2 : option (list (list F))),
  (forall x : F, fapx K x = x) ->
  Forall2 (pos_rescaled K) b1 b1' ->
  Forall2 (pos_rescaled K) b2 b2' ->
  overlap_integral_asymm K b1' b2' T1 T2 = overlap_integral_asymm K b1 b2 T1 T2.
Proof.
  intros F K Kf b1 b1' b2 b2' T1 T2 Hapx H1 H2.
  apply (two_asymm_integral_rel K (f0 K) (fadd K) (fmul K) (overlap_block K) (pos_rescaled K)); [|exact H1|exact H2].
  intros s1 s1' s2 s2'. exact (pblock_overlap_pos K Kf s1 s1' s2 s2' Hapx).
Qed.
Print Assumptions C13_column_scale_assembled_asymm_partial.

(* assembled, two-index (partial: ONE pair of shells, any coordinate types): the processed block (norm_cont applied, spherical transforms applied, flattened) of two generalized shells is the matrix of the processed blocks of their single-column shells, tiles in segment-major order on both sides; any kernel G that reads only the frames of the shells *)
Theorem C13_generalized_is_segmented_assembled_pair_partial :
  forall (F : Type) (K : Fops F) (G : shell F -> shell F -> F -> F -> comp -> comp -> F)
  (sa sb : shell F),
  (forall ma mb : nat, G (col_shell K sa ma) (col_shell K sb mb) = G sa sb) ->
  pblock K (f0 K) (fadd K) (fmul K) (kblockf K G) (prep K sa) (prep K sb) =
  concat
  (mk (nseg sa)
  (fun ma : nat =>
  mk (if s_sph sa then length (shell_transform K sa) else ncomp sa)
  (fun i : nat =>
  concat
  (mk (nseg sb)
  (fun mb : nat =>
  nth i
  (pblock K (f0 K) (fadd K) (fmul K) (kblockf K G) (prep K (col_shell K sa ma))
  (prep K (col_shell K sb mb))) []))))).
Proof. intros F K G. exact (pblock_segment_major K G (kblockf K G) (fun _ _ => eq_refl)). Qed.
Print Assumptions C13_generalized_is_segmented_assembled_pair_partial.

Theorem C13_generalized_is_segmented_assembled_overlap_pair_partial :
  forall (F : Type) (K : Fops F) (sa sb : shell F),
  pblock K (f0 K) (fadd K) (fmul K) (overlap_block K) (prep K sa) (prep K sb) =
  concat
  (mk (nseg sa)
  (fun ma : nat =>
  mk (if s_sph sa then length (shell_transform K sa) else ncomp sa)
  (fun i : nat =>
  concat
  (mk (nseg sb)
  (fun mb : nat =>
  nth i
  (pblock K (f0 K) (fadd K) (fmul K) (overlap_block K)
  (prep K (col_shell K sa ma)) (prep K (col_shell K sb mb))) []))))).
Proof. exact (@overlap_pblock_segment_major). Qed.
Print Assumptions C13_generalized_is_segmented_assembled_overlap_pair_partial.

(* public-function level (partial: one generalized shell on each side): the base_two_asymm array of ([sa], [sb]) equals that of (single-column shells of sa, single-column shells of sb), with or without transforms *)
Theorem C13_generalized_is_segmented_assembled_two_asymm_partial :
  forall (F : Type) (K : Fops F) (G : shell F -> shell F -> F -> F -> comp -> comp -> F)
  (sa sb : shell F) (T1 T2 : option (list (list F))),
  (0 < nseg sb)%nat ->
  (forall ma mb : nat, G (col_shell K sa ma) (col_shell K sb mb) = G sa sb) ->
  two_asymm_integral K (f0 K) (fadd K) (fmul K) (kblockf K G) (segments K sa) (segments K sb) T1 T2 =
  two_asymm_integral K (f0 K) (fadd K) (fmul K) (kblockf K G) [sa] [sb] T1 T2.
Proof. intros F K G. exact (two_asymm_pair_segmented K G (kblockf K G) (fun _ _ => eq_refl)). Qed.
Print Assumptions C13_generalized_is_segmented_assembled_two_asymm_partial.

Theorem C13_generalized_is_segmented_assembled_overlap_asymm_partial :
  forall (F : Type) (K : Fops F) (sa sb : shell F) (T1 T2 : option (list (list F))),
  (0 < nseg sb)%nat ->
  overlap_integral_asymm K (segments K sa) (segments K sb) T1 T2 =
  overlap_integral_asymm K [sa] [sb] T1 T2.
Proof.
  intros F K sa sb T1 T2 HM.
  exact (two_asymm_pair_segmented K (ov_kern K) (overlap_block K) (overlap_block_kernel K) sa sb T1 T2 HM (fun _ _ => eq_refl)).
Qed.
Print Assumptions C13_generalized_is_segmented_assembled_overlap_asymm_partial.

(* 4. for the one-electron Boys kernel: linear through the horizontal recursion *)
Theorem C13_unnormalised_linear_one_elec_add_a :
  forall (F : Type) (K : Fops F),
  is_field K ->
  forall (Cx Cy Cz : F) (sa sb : shell F) (C1 C2 : list (list F)) (ma ia mb ib : nat),
  same_shape C1 C2 ->
  (ma < nseg (set_coeffs sa C1))%nat ->
  (ia < ncomp sa)%nat ->
  (mb < nseg sb)%nat ->
  (ib < ncomp sb)%nat ->
  nth4' K ma ia mb ib (one_elec_point K Cx Cy Cz (set_coeffs sa (rows_add K C1 C2)) sb) =
  fadd K (nth4' K ma ia mb ib (one_elec_point K Cx Cy Cz (set_coeffs sa C1) sb))
  (nth4' K ma ia mb ib (one_elec_point K Cx Cy Cz (set_coeffs sa C2) sb)).
Proof.
  intros F K Kf; intros. apply (lin11 K Kf), oe_lin_a; try assumption. now apply shell_lin_add.
Qed.
Print Assumptions C13_unnormalised_linear_one_elec_add_a.

Theorem C13_unnormalised_linear_one_elec_scale_a :
  forall (F : Type) (K : Fops F),
  is_field K ->
  forall (Cx Cy Cz : F) (sa sb : shell F) (k : F) (C : list (list F)) (ma ia mb ib : nat),
  (ma < nseg (set_coeffs sa C))%nat ->
  (ia < ncomp sa)%nat ->
  (mb < nseg sb)%nat ->
  (ib < ncomp sb)%nat ->
  nth4' K ma ia mb ib (one_elec_point K Cx Cy Cz (set_coeffs sa (rows_scale K k C)) sb) =
  fmul K k (nth4' K ma ia mb ib (one_elec_point K Cx Cy Cz (set_coeffs sa C) sb)).
Proof.
  intros F K Kf; intros. apply (lin10 K Kf), oe_lin_a; try assumption. now apply shell_lin_scale.
Qed.
Print Assumptions C13_unnormalised_linear_one_elec_scale_a.

Theorem C13_unnormalised_linear_one_elec_add_b :
  forall (F : Type) (K : Fops F),
  is_field K ->
  forall (Cx Cy Cz : F) (sa sb : shell F) (C1 C2 : list (list F)) (ma ia mb ib : nat),
  same_shape C1 C2 ->
  (ma < nseg sa)%nat ->
  (ia < ncomp sa)%nat ->
  (mb < nseg (set_coeffs sb C1))%nat ->
  (ib < ncomp sb)%nat ->
  nth4' K ma ia mb ib (one_elec_point K Cx Cy Cz sa (set_coeffs sb (rows_add K C1 C2))) =
  fadd K (nth4' K ma ia mb ib (one_elec_point K Cx Cy Cz sa (set_coeffs sb C1)))
  (nth4' K ma ia mb ib (one_elec_point K Cx Cy Cz sa (set_coeffs sb C2))).
Proof.
  intros F K Kf; intros. apply (lin11 K Kf), oe_lin_b; try assumption. now apply shell_lin_add.
Qed.
Print Assumptions C13_unnormalised_linear_one_elec_add_b.

Theorem C13_unnormalised_linear_one_elec_scale_b :
  forall (F : Type) (K : Fops F),
  is_field K ->
  forall (Cx Cy Cz : F) (sa sb : shell F) (k : F) (C : list (list F)) (ma ia mb ib : nat),
  (ma < nseg sa)%nat ->
  (ia < ncomp sa)%nat ->
  (mb < nseg (set_coeffs sb C))%nat ->
  (ib < ncomp sb)%nat ->
  nth4' K ma ia mb ib (one_elec_point K Cx Cy Cz sa (set_coeffs sb (rows_scale K k C))) =
  fmul K k (nth4' K ma ia mb ib (one_elec_point K Cx Cy Cz sa (set_coeffs sb C))).
Proof.
  intros F K Kf; intros. apply (lin10 K Kf), oe_lin_b; try assumption. now apply shell_lin_scale.
Qed.
Print Assumptions C13_unnormalised_linear_one_elec_scale_b.

(* PointChargeIntegral block entries are -q x (possibly transposed) one-electron entries *)
Theorem C13_point_charge_entry :
  forall (F : Type) (K : Fops F) (points : list (F * F * F * F)) (sa sb : shell F)
  (ma ia mb ib : nat),
  (ma < nseg sa)%nat ->
  (ia < ncomp sa)%nat ->
  (mb < nseg sb)%nat ->
  (ib < ncomp sb)%nat ->
  nth ib (nth mb (nth ia (nth ma (point_charge_block K points sa sb) []) []) []) [] =
  map
  (fun '(cx, cy, cz, q) =>
  fmul K (fopp K q)
  (if s_l sa <? s_l sb
  then nth4' K mb ib ma ia (one_elec_point K cx cy cz sb sa)
  else nth4' K ma ia mb ib (one_elec_point K cx cy cz sa sb))) points.
Proof. exact (@pc_block_entry). Qed.
Print Assumptions C13_point_charge_entry.

(* 4. for the electron-repulsion block: a coefficient matrix whose contraction sums are c1 x (those of C1) + c2 x (those of C2) gives c1 x block(C1) + c2 x block(C2); C1 + C2 and k C1 are such matrices *)
Theorem C13_sum_lin_add :
  forall (F : Type) (K : Fops F),
  is_field K ->
  forall (m : nat) (es : list F) (C1 C2 : list (list F)),
  same_shape C1 C2 ->
  sum_lin K m (f1 K) (f1 K) (combine es (rows_add K C1 C2)) (combine es C1) (combine es C2).
Proof. exact (@sum_lin_add). Qed.
Print Assumptions C13_sum_lin_add.

Theorem C13_sum_lin_scale :
  forall (F : Type) (K : Fops F),
  is_field K ->
  forall (m : nat) (es : list F) (k : F) (C : list (list F)),
  sum_lin K m k (f0 K) (combine es (rows_scale K k C)) (combine es C) (combine es C).
Proof. exact (@sum_lin_scale). Qed.
Print Assumptions C13_sum_lin_scale.

Theorem C13_sum_lin_scale_col :
  forall (F : Type) (K : Fops F),
  is_field K ->
  forall (m : nat) (es : list F) (m0 : nat) (k : F) (C : list (list F)),
  sum_lin K m (colfac K m0 k m) (f0 K) (combine es (scale_col_rows K m0 k C))
  (combine es C) (combine es C).
Proof. exact (@sum_lin_scale_col). Qed.
Print Assumptions C13_sum_lin_scale_col.

Theorem C13_unnormalised_linear_eri_1 :
  forall (F : Type) (K : Fops F),
  is_field K ->
  forall (s1 s2 s3 s4 : shell F) (C C1 C2 : list (list F)) (c1 c2 : F)
  (m1 i1 m2 i2 m3 i3 m4 i4 : nat),
  (i1 < ncomp s1)%nat ->
  (i2 < ncomp s2)%nat ->
  (i3 < ncomp s3)%nat ->
  (i4 < ncomp s4)%nat ->
  sum_lin K m1 c1 c2 (combine (s_exps s1) C) (combine (s_exps s1) C1) (combine (s_exps s1) C2) ->
  nseg (set_coeffs s1 C1) = nseg (set_coeffs s1 C) ->
  nseg (set_coeffs s1 C2) = nseg (set_coeffs s1 C) ->
  (m1 < nseg (set_coeffs s1 C))%nat ->
  (m2 < nseg s2)%nat ->
  (m3 < nseg s3)%nat ->
  (m4 < nseg s4)%nat ->
  nth8 K m1 i1 m2 i2 m3 i3 m4 i4 (eri_block K (set_coeffs s1 C) s2 s3 s4) =
  fadd K (fmul K c1 (nth8 K m1 i1 m2 i2 m3 i3 m4 i4 (eri_block K (set_coeffs s1 C1) s2 s3 s4)))
  (fmul K c2 (nth8 K m1 i1 m2 i2 m3 i3 m4 i4 (eri_block K (set_coeffs s1 C2) s2 s3 s4))).
Proof.
  intros F K Kf s1 s2 s3 s4 C C1 C2 c1 c2 m1 i1 m2 i2 m3 i3 m4 i4 Hi1 Hi2 Hi3 Hi4 HL NA NB H1 H2 H3 H4.
  apply (eri_block_lin_1 K Kf (set_coeffs s1 C1) s2 s3 s4 (set_coeffs s1 C) (set_coeffs s1 C2)); try assumption.
  - now rewrite NA.
  - apply shell_lin_coeffs; congruence.
Qed.
Print Assumptions C13_unnormalised_linear_eri_1.

Theorem C13_unnormalised_linear_eri_2 :
  forall (F : Type) (K : Fops F),
  is_field K ->
  forall (s1 s2 s3 s4 : shell F) (C C1 C2 : list (list F)) (c1 c2 : F)
  (m1 i1 m2 i2 m3 i3 m4 i4 : nat),
  (i1 < ncomp s1)%nat ->
  (i2 < ncomp s2)%nat ->
  (i3 < ncomp s3)%nat ->
  (i4 < ncomp s4)%nat ->
  sum_lin K m2 c1 c2 (combine (s_exps s2) C) (combine (s_exps s2) C1) (combine (s_exps s2) C2) ->
  nseg (set_coeffs s2 C1) = nseg (set_coeffs s2 C) ->
  nseg (set_coeffs s2 C2) = nseg (set_coeffs s2 C) ->
  (m1 < nseg s1)%nat ->
  (m2 < nseg (set_coeffs s2 C))%nat ->
  (m3 < nseg s3)%nat ->
  (m4 < nseg s4)%nat ->
  nth8 K m1 i1 m2 i2 m3 i3 m4 i4 (eri_block K s1 (set_coeffs s2 C) s3 s4) =
  fadd K (fmul K c1 (nth8 K m1 i1 m2 i2 m3 i3 m4 i4 (eri_block K s1 (set_coeffs s2 C1) s3 s4)))
  (fmul K c2 (nth8 K m1 i1 m2 i2 m3 i3 m4 i4 (eri_block K s1 (set_coeffs s2 C2) s3 s4))).
Proof.
  intros F K Kf s1 s2 s3 s4 C C1 C2 c1 c2 m1 i1 m2 i2 m3 i3 m4 i4 Hi1 Hi2 Hi3 Hi4 HL NA NB H1 H2 H3 H4.
  apply (eri_block_lin_2 K Kf s1 (set_coeffs s2 C1) s3 s4 (set_coeffs s2 C) (set_coeffs s2 C2)); try assumption.
  - now rewrite NA.
  - apply shell_lin_coeffs; congruence.
Qed.
Print Assumptions C13_unnormalised_linear_eri_2.

Theorem C13_unnormalised_linear_eri_3 :
  forall (F : Type) (K : Fops F),
  is_field K ->
  forall (s1 s2 s3 s4 : shell F) (C C1 C2 : list (list F)) (c1 c2 : F)
  (m1 i1 m2 i2 m3 i3 m4 i4 : nat),
  (i1 < ncomp s1)%nat ->
  (i2 < ncomp s2)%nat ->
  (i3 < ncomp s3)%nat ->
  (i4 < ncomp s4)%nat ->
  sum_lin K m3 c1 c2 (combine (s_exps s3) C) (combine (s_exps s3) C1) (combine (s_exps s3) C2) ->
  nseg (set_coeffs s3 C1) = nseg (set_coeffs s3 C) ->
  nseg (set_coeffs s3 C2) = nseg (set_coeffs s3 C) ->
  (m1 < nseg s1)%nat ->
  (m2 < nseg s2)%nat ->
  (m3 < nseg (set_coeffs s3 C))%nat ->
  (m4 < nseg s4)%nat ->
  nth8 K m1 i1 m2 i2 m3 i3 m4 i4 (eri_block K s1 s2 (set_coeffs s3 C) s4) =
  fadd K (fmul K c1 (nth8 K m1 i1 m2 i2 m3 i3 m4 i4 (eri_block K s1 s2 (set_coeffs s3 C1) s4)))
  (fmul K c2 (nth8 K m1 i1 m2 i2 m3 i3 m4 i4 (eri_block K s1 s2 (set_coeffs s3 C2) s4))).
Proof.
  intros F K Kf s1 s2 s3 s4 C C1 C2 c1 c2 m1 i1 m2 i2 m3 i3 m4 i4 Hi1 Hi2 Hi3 Hi4 HL NA NB H1 H2 H3 H4.
  apply (eri_block_lin_3 K Kf s1 s2 (set_coeffs s3 C1) s4 (set_coeffs s3 C) (set_coeffs s3 C2)); try assumption.
  - now rewrite NA.
  - apply shell_lin_coeffs; congruence.
Qed.
Print Assumptions C13_unnormalised_linear_eri_3.

Theorem C13_unnormalised_linear_eri_4 :
  forall (F : Type) (K : Fops F),
  is_field K ->
  forall (s1 s2 s3 s4 : shell F) (C C1 C2 : list (list F)) (c1 c2 : F)
  (m1 i1 m2 i2 m3 i3 m4 i4 : nat),
  (i1 < ncomp s1)%nat ->
  (i2 < ncomp s2)%nat ->
  (i3 < ncomp s3)%nat ->
  (i4 < ncomp s4)%nat ->
  sum_lin K m4 c1 c2 (combine (s_exps s4) C) (combine (s_exps s4) C1) (combine (s_exps s4) C2) ->
  nseg (set_coeffs s4 C1) = nseg (set_coeffs s4 C) ->
  nseg (set_coeffs s4 C2) = nseg (set_coeffs s4 C) ->
  (m1 < nseg s1)%nat ->
  (m2 < nseg s2)%nat ->
  (m3 < nseg s3)%nat ->
  (m4 < nseg (set_coeffs s4 C))%nat ->
  nth8 K m1 i1 m2 i2 m3 i3 m4 i4 (eri_block K s1 s2 s3 (set_coeffs s4 C)) =
  fadd K (fmul K c1 (nth8 K m1 i1 m2 i2 m3 i3 m4 i4 (eri_block K s1 s2 s3 (set_coeffs s4 C1))))
  (fmul K c2 (nth8 K m1 i1 m2 i2 m3 i3 m4 i4 (eri_block K s1 s2 s3 (set_coeffs s4 C2)))).
Proof.
  intros F K Kf s1 s2 s3 s4 C C1 C2 c1 c2 m1 i1 m2 i2 m3 i3 m4 i4 Hi1 Hi2 Hi3 Hi4 HL NA NB H1 H2 H3 H4.
  apply (eri_block_lin_4 K Kf s1 s2 s3 (set_coeffs s4 C1) (set_coeffs s4 C) (set_coeffs s4 C2)); try assumption.
  - now rewrite NA.
  - apply shell_lin_coeffs; congruence.
Qed.
Print Assumptions C13_unnormalised_linear_eri_4.

Theorem C13_column_scale_one_elec_unnormalised_a :
  forall (F : Type) (K : Fops F),
  is_field K ->
  forall (Cx Cy Cz : F) (sa sb : shell F) (m0 : nat) (k : F) (ma ia mb ib : nat),
  (ma < nseg sa)%nat ->
  (ia < ncomp sa)%nat ->
  (mb < nseg sb)%nat ->
  (ib < ncomp sb)%nat ->
  nth4' K ma ia mb ib (one_elec_point K Cx Cy Cz (scale_col K sa m0 k) sb) =
  fmul K (colfac K m0 k ma) (nth4' K ma ia mb ib (one_elec_point K Cx Cy Cz sa sb)).
Proof.
  intros F K Kf; intros. apply (lin10 K Kf), oe_lin_a; try assumption. now apply shell_lin_scale_col.
Qed.
Print Assumptions C13_column_scale_one_elec_unnormalised_a.

Theorem C13_column_scale_one_elec_unnormalised_b :
  forall (F : Type) (K : Fops F),
  is_field K ->
  forall (Cx Cy Cz : F) (sa sb : shell F) (m0 : nat) (k : F) (ma ia mb ib : nat),
  (ma < nseg sa)%nat ->
  (ia < ncomp sa)%nat ->
  (mb < nseg sb)%nat ->
  (ib < ncomp sb)%nat ->
  nth4' K ma ia mb ib (one_elec_point K Cx Cy Cz sa (scale_col K sb m0 k)) =
  fmul K (colfac K m0 k mb) (nth4' K ma ia mb ib (one_elec_point K Cx Cy Cz sa sb)).
Proof.
  intros F K Kf; intros. apply (lin10 K Kf), oe_lin_b; try assumption. now apply shell_lin_scale_col.
Qed.
Print Assumptions C13_column_scale_one_elec_unnormalised_b.

(* 5. for the one-electron kernel and the electron-repulsion block (contraction-normalised entries) *)
Theorem C13_column_scale_one_elec_a :
  forall (F : Type) (K : Fops F),
  is_field K ->
  forall (Cx Cy Cz : F) (sa sb : shell F) (m0 : nat) (k kabs : F) (ma ia mb ib : nat),
  (forall x : F, fapx K x = x) ->
  scale_hyps K sa m0 k kabs ->
  (ma < nseg sa)%nat ->
  (ia < ncomp sa)%nat ->
  (mb < nseg sb)%nat ->
  (ib < ncomp sb)%nat ->
  oe_nentry K Cx Cy Cz (scale_col K sa m0 k) sb ma ia mb ib =
  fmul K (colfac K m0 (fdiv K k kabs) ma) (oe_nentry K Cx Cy Cz sa sb ma ia mb ib).
Proof. exact (@oe_column_scale_a). Qed.
Print Assumptions C13_column_scale_one_elec_a.

Theorem C13_column_scale_one_elec_b :
  forall (F : Type) (K : Fops F),
  is_field K ->
  forall (Cx Cy Cz : F) (sa sb : shell F) (m0 : nat) (k kabs : F) (ma ia mb ib : nat),
  (forall x : F, fapx K x = x) ->
  scale_hyps K sb m0 k kabs ->
  (ma < nseg sa)%nat ->
  (ia < ncomp sa)%nat ->
  (mb < nseg sb)%nat ->
  (ib < ncomp sb)%nat ->
  oe_nentry K Cx Cy Cz sa (scale_col K sb m0 k) ma ia mb ib =
  fmul K (colfac K m0 (fdiv K k kabs) mb) (oe_nentry K Cx Cy Cz sa sb ma ia mb ib).
Proof. exact (@oe_column_scale_b). Qed.
Print Assumptions C13_column_scale_one_elec_b.

Theorem C13_column_scale_eri_1 :
  forall (F : Type) (K : Fops F),
  is_field K ->
  forall (s1 s2 s3 s4 : shell F) (m0 : nat) (k kabs : F) (m1 i1 m2 i2 m3 i3 m4 i4 : nat),
  (forall x : F, fapx K x = x) ->
  (m1 < nseg s1)%nat ->
  (i1 < ncomp s1)%nat ->
  (m2 < nseg s2)%nat ->
  (i2 < ncomp s2)%nat ->
  (m3 < nseg s3)%nat ->
  (i3 < ncomp s3)%nat ->
  (m4 < nseg s4)%nat ->
  (i4 < ncomp s4)%nat ->
  scale_hyps K s1 m0 k kabs ->
  eri_nentry K (scale_col K s1 m0 k) s2 s3 s4 m1 i1 m2 i2 m3 i3 m4 i4 =
  fmul K (colfac K m0 (fdiv K k kabs) m1) (eri_nentry K s1 s2 s3 s4 m1 i1 m2 i2 m3 i3 m4 i4).
Proof. exact (@eri_column_scale_1). Qed.
Print Assumptions C13_column_scale_eri_1.

Theorem C13_column_scale_eri_2 :
  forall (F : Type) (K : Fops F),
  is_field K ->
  forall (s1 s2 s3 s4 : shell F) (m0 : nat) (k kabs : F) (m1 i1 m2 i2 m3 i3 m4 i4 : nat),
  (forall x : F, fapx K x = x) ->
  (m1 < nseg s1)%nat ->
  (i1 < ncomp s1)%nat ->
  (m2 < nseg s2)%nat ->
  (i2 < ncomp s2)%nat ->
  (m3 < nseg s3)%nat ->
  (i3 < ncomp s3)%nat ->
  (m4 < nseg s4)%nat ->
  (i4 < ncomp s4)%nat ->
  scale_hyps K s2 m0 k kabs ->
  eri_nentry K s1 (scale_col K s2 m0 k) s3 s4 m1 i1 m2 i2 m3 i3 m4 i4 =
  fmul K (colfac K m0 (fdiv K k kabs) m2) (eri_nentry K s1 s2 s3 s4 m1 i1 m2 i2 m3 i3 m4 i4).
Proof. exact (@eri_column_scale_2). Qed.
Print Assumptions C13_column_scale_eri_2.

Theorem C13_column_scale_eri_3 :
  forall (F : Type) (K : Fops F),
  is_field K ->
  forall (s1 s2 s3 s4 : shell F) (m0 : nat) (k kabs : F) (m1 i1 m2 i2 m3 i3 m4 i4 : nat),
  (forall x : F, fapx K x = x) ->
  (m1 < nseg s1)%nat ->
  (i1 < ncomp s1)%nat ->
  (m2 < nseg s2)%nat ->
  (i2 < ncomp s2)%nat ->
  (m3 < nseg s3)%nat ->
  (i3 < ncomp s3)%nat ->
  (m4 < nseg s4)%nat ->
  (i4 < ncomp s4)%nat ->
  scale_hyps K s3 m0 k kabs ->
  eri_nentry K s1 s2 (scale_col K s3 m0 k) s4 m1 i1 m2 i2 m3 i3 m4 i4 =
  fmul K (colfac K m0 (fdiv K k kabs) m3) (eri_nentry K s1 s2 s3 s4 m1 i1 m2 i2 m3 i3 m4 i4).
Proof. exact (@eri_column_scale_3). Qed.
Print Assumptions C13_column_scale_eri_3.

Theorem C13_column_scale_eri_4 :
  forall (F : Type) (K : Fops F),
  is_field K ->
  forall (s1 s2 s3 s4 : shell F) (m0 : nat) (k kabs : F) (m1 i1 m2 i2 m3 i3 m4 i4 : nat),
  (forall x : F, fapx K x = x) ->
  (m1 < nseg s1)%nat ->
  (i1 < ncomp s1)%nat ->
  (m2 < nseg s2)%nat ->
  (i2 < ncomp s2)%nat ->
  (m3 < nseg s3)%nat ->
  (i3 < ncomp s3)%nat ->
  (m4 < nseg s4)%nat ->
  (i4 < ncomp s4)%nat ->
  scale_hyps K s4 m0 k kabs ->
  eri_nentry K s1 s2 s3 (scale_col K s4 m0 k) m1 i1 m2 i2 m3 i3 m4 i4 =
  fmul K (colfac K m0 (fdiv K k kabs) m4) (eri_nentry K s1 s2 s3 s4 m1 i1 m2 i2 m3 i3 m4 i4).
Proof. exact (@eri_column_scale_4). Qed.
Print Assumptions C13_column_scale_eri_4.

(* the hypothesis on the square root holds for the real square root: sqrt(k^2 x) = |k| sqrt x *)
Theorem C13_sqrt_scale_R :
  forall k x : R, sqrt (k * k * x) = (Rabs k * sqrt x)%R.
Proof. exact (@sqrt_scale_R). Qed.
Print Assumptions C13_sqrt_scale_R.

Theorem C13_scale_hyps_R :
  forall (s : shell R) (m0 : nat) (k : R),
  k <> 0%R ->
  ((m0 < nseg s)%nat -> forall c : nat, (c < ncomp s)%nat -> (0 < selfov RKc s m0 c)%R) ->
  scale_hyps RKc s m0 k (Rabs k).
Proof. exact (@scale_hyps_R). Qed.
Print Assumptions C13_scale_hyps_R.

(* over the reals: factor k <> 0 on a column with positive self-overlap multiplies that normalised function by sign(k) *)
Theorem C13_column_scale_R :
  forall (g : R -> R -> comp -> comp -> R) (sa sb : shell R) (m0 : nat) (k : R),
  k <> 0%R ->
  ((m0 < nseg sa)%nat -> forall c : nat, (c < ncomp sa)%nat -> (0 < selfov RKc sa m0 c)%R) ->
  nblock RKc g (scale_col RKc sa m0 k) sb =
  mk4 (nseg sa) (ncomp sa) (nseg sb) (ncomp sb)
  (fun ma ia mb ib : nat =>
  (colfac RKc m0 (sgnR k) ma * nth4' RKc ma ia mb ib (nblock RKc g sa sb))%R).
Proof. exact (@column_scale_R). Qed.
Print Assumptions C13_column_scale_R.

(* concrete instances at Qc (p shell K=3 M=2 against a d shell K=2 M=1, orders (0,0,0) and (1,0,2)) *)
Example C13_ex_generalized_is_segmented :
  mm_block KQ (Q2Qc 0) 1 (Q2Qc 0) ex_orders (col_shell KQ ex_sa 1) (col_shell KQ ex_sb 0) =
  map
  (fun blk : list (list (list (list Qc))) =>
  mk4 1 3 1 6 (fun _ ia _ ib : nat => nth4' KQ 1 ia 0 ib blk))
  (mm_block KQ (Q2Qc 0) 1 (Q2Qc 0) ex_orders ex_sa ex_sb).
Proof. apply (mm_generalized_is_segmented KQ); [exact (le_n 2)|exact (le_n 1)]. Qed.
Print Assumptions C13_ex_generalized_is_segmented.

Example C13_ex_prim_perm :
  let ps := prims ex_sa in
  mm_block KQ (Q2Qc 0) 1 (Q2Qc 0) ex_orders
  (set_prims ex_sa [nth 2 ps (Q2Qc 0, []); nth 0 ps (Q2Qc 0, []); nth 1 ps (Q2Qc 0, [])])
  (set_prims ex_sb [nth 1 (prims ex_sb) (Q2Qc 0, []); nth 0 (prims ex_sb) (Q2Qc 0, [])]) =
  mm_block KQ (Q2Qc 0) 1 (Q2Qc 0) ex_orders ex_sa ex_sb.
Proof. exact (@ex_prim_perm). Qed.
Print Assumptions C13_ex_prim_perm.

Example C13_ex_prim_split :
  mm_block KQ (Q2Qc 0) 1 (Q2Qc 0) ex_orders
  (set_prims ex_sa
  ([(Q2Qc (1 # 2), [1; Q2Qc (1 # 2)])] ++
  [(Q2Qc 2, ex_r1); (Q2Qc 2, ex_r2); (Q2Qc 5, [Q2Qc 3; Q2Qc 0])])) ex_sb =
  mm_block KQ (Q2Qc 0) 1 (Q2Qc 0) ex_orders ex_sa ex_sb.
Proof.
  apply (mm_block_congr KQ); [|apply shell_equiv_refl].
  apply (shell_equiv_split KQ KQ_field) with (r := map2 (fadd KQ) ex_r1 ex_r2); reflexivity.
Qed.
Print Assumptions C13_ex_prim_split.

Example C13_ex_linear :
  let C1 := [[1; Q2Qc (1 # 2)]; [Q2Qc 0; Q2Qc 2]; [Q2Qc 3; Q2Qc 0]] in
  let C2 := [[Q2Qc (-1 # 3); 1]; [Q2Qc 4; Q2Qc (1 # 7)]; [1; 1]] in
  mm_entry' KQ (Q2Qc 0) 1 (Q2Qc 0) ex_orders (set_coeffs ex_sa (rows_add KQ C1 C2)) ex_sb 1 1 2 0 4 =
  fadd KQ (mm_entry' KQ (Q2Qc 0) 1 (Q2Qc 0) ex_orders (set_coeffs ex_sa C1) ex_sb 1 1 2 0 4)
  (mm_entry' KQ (Q2Qc 0) 1 (Q2Qc 0) ex_orders (set_coeffs ex_sa C2) ex_sb 1 1 2 0 4).
Proof. exact (@ex_linear). Qed.
Print Assumptions C13_ex_linear.

Example C13_ex_scale_hyps :
  scale_hyps KQ ex_sa 1 (Q2Qc (-1)) 1.
Proof. exact (@ex_scale_hyps). Qed.
Print Assumptions C13_ex_scale_hyps.

Example C13_ex_column_scale_neg :
  nblock KQ (ov_kern KQ ex_sa ex_sb) (scale_col KQ ex_sa 1 (Q2Qc (-1))) ex_sb =
  mk4 2 3 1 6
  (fun ma ia mb ib : nat =>
  fmul KQ (colfac KQ 1 (fdiv KQ (Q2Qc (-1)) 1) ma)
  (nth4' KQ ma ia mb ib (nblock KQ (ov_kern KQ ex_sa ex_sb) ex_sa ex_sb))).
Proof. apply nblock_scale_col_a; [exact KQ_field|reflexivity|exact ex_scale_hyps]. Qed.
Print Assumptions C13_ex_column_scale_neg.

Example C13_ex_column_scale_R :
  forall x : R,
  (0 < x)%R ->
  sqrt (-3 * -3 * x) = (3 * sqrt x)%R /\
  sqrt x <> 0%R /\ sgnR (-3) = (-1)%R /\ sgnR (1 / 1000000) = 1%R.
Proof. exact (@column_scale_R_ex). Qed.
Print Assumptions C13_ex_column_scale_R.
