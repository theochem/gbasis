(* Props/BRIDGE_3d.v — the analytic bridge (B1) carried to three dimensions (the Boys functional, (B2), is in
   Props/BRIDGE_boys.v).
   Only statements closed by [exact] of a lemma proved in Gauss/Bridge3D.v (BRIDGE3_gint3_meaning by reflexivity), each
   followed by Print Assumptions.  Notation (see Props/BRIDGE.v for gint, Gint):

   gint3 F l    :=  the ITERATED improper Riemann integral of F : R -> R -> R -> R (z innermost, then y,
                    then x) exists and equals l  (BRIDGE3_gint3_meaning).  "Integral over R^3" MEANS this
                    iterated integral here; its identification with the Lebesgue integral over R^3
                    (Fubini-Tonelli for polynomial x Gaussian) is the residual trusted step of (B1) in 3-D.
   cprim al A c :=  (x-A_x)^{c_x} (y-A_y)^{c_y} (z-A_z)^{c_z} exp(-al |r-A|^2), gprim s al c the same at the
                    centre of the shell s;  cfun s m c := sum_k coeff[k][m] * norm_prim(al_k, c) * gprim s al_k c
   pd3 ox oy oz G x y z := d^ox/dx^ox d^oy/dy^oy d^oz/dz^oz G at (x,y,z) (Coquelicot's Derive_n, nested);
   lap3 := pd3 2 0 0 + pd3 0 2 0 + pd3 0 0 2
   RK           :=  the number interface at R (real sqrt, exp, PI) of Proofs/ScreeningP.v; the right-hand
                    sides are the specs of Proofs/CoreBlockP.v / CoreDiffP.v and the MODEL functions at RK

   What remains trusted for (B1) in 3-D after this file: only "iterated improper integral = integral over R^3"
   (Fubini-Tonelli for polynomial x Gaussian). *)
From Coq Require Import List Reals.
From Coquelicot Require Import Coquelicot.
From GB Require Import Base.Field Base.FNum Gauss.Moment1D Gauss.DerivBridge Gauss.BridgeR
  Model.Shell Model.MomentInt Model.Overlap Model.DiffOp Proofs.DiffOpP
  Proofs.CoreSumP Proofs.CoreBlockP Proofs.CoreDiffP Proofs.ScreeningP Proofs.CoreNormP
  Gauss.Bridge3D.
Import ListNotations.
Open Scope R_scope.

Theorem BRIDGE3_gint3_meaning :
  forall (F : R -> R -> R -> R) (l : R),
  gint3 F l <->
  exists (Iz : R -> R -> R) (Iyz : R -> R),
    (forall x y, gint (fun z => F x y z) (Iz x y)) /\
    (forall x, gint (fun y => Iz x y) (Iyz x)) /\
    gint Iyz l.
Proof. reflexivity. Qed.
Print Assumptions BRIDGE3_gint3_meaning.

Theorem BRIDGE3_gint3_unique :
  forall (F : R -> R -> R -> R) (l l' : R), gint3 F l -> gint3 F l' -> l = l'.
Proof. exact gint3_unique. Qed.
Print Assumptions BRIDGE3_gint3_unique.

Theorem BRIDGE3_gint3_as_Gint :
  forall (F : R -> R -> R -> R) (l : R), gint3 F l ->
  Gint (fun x => Gint (fun y => Gint (fun z => F x y z))) = l.
Proof. exact gint3_as_Gint. Qed.
Print Assumptions BRIDGE3_gint3_as_Gint.

Theorem BRIDGE3_gint3_prod :
  forall (f g h : R -> R) (If Ig Ih : R), gint f If -> gint g Ig -> gint h Ih ->
  gint3 (fun x y z => f x * g y * h z) (If * Ig * Ih).
Proof. exact gint3_prod. Qed.
Print Assumptions BRIDGE3_gint3_prod.

Theorem BRIDGE3_gint3_scal :
  forall (k : R) (F : R -> R -> R -> R) (l : R), gint3 F l -> gint3 (fun x y z => k * F x y z) (k * l).
Proof. exact gint3_scal. Qed.
Print Assumptions BRIDGE3_gint3_scal.

Theorem BRIDGE3_gint3_plus :
  forall (F G : R -> R -> R -> R) (lf lg : R), gint3 F lf -> gint3 G lg ->
  gint3 (fun x y z => F x y z + G x y z) (lf + lg).
Proof. exact gint3_plus. Qed.
Print Assumptions BRIDGE3_gint3_plus.

Theorem BRIDGE3_mom_prim_integral :
  forall (Cx Cy Cz : R) (o : Shell.comp) (sa sb : shell R) (ca cb : Shell.comp) (al be : R),
  0 < al -> 0 < be ->
  gint3 (fun x y z => (x - Cx) ^ cx o * (y - Cy) ^ cy o * (z - Cz) ^ cz o
                      * gprim sa al ca x y z * gprim sb be cb x y z)
        (mom_prim RK Cx Cy Cz o sa sb ca cb al be).
Proof. exact mom_prim_3d_integral. Qed.
Print Assumptions BRIDGE3_mom_prim_integral.

Theorem BRIDGE3_overlap_prim_integral :
  forall (sa sb : shell R) (ca cb : Shell.comp) (al be : R), 0 < al -> 0 < be ->
  gint3 (fun x y z => gprim sa al ca x y z * gprim sb be cb x y z) (ovl_prim RK sa sb ca cb al be).
Proof. exact overlap_prim_3d_integral. Qed.
Print Assumptions BRIDGE3_overlap_prim_integral.

(* written out without the shell record *)
Theorem BRIDGE3_sprim_is_cartesian_gaussian :
  forall (s : shell R) (al : R) (c : Shell.comp) (x y z : R),
  gprim s al c x y z
  = (x - s_x s) ^ cx c * (y - s_y s) ^ cy c * (z - s_z s) ^ cz c
    * exp (- al * ((x - s_x s) ^ 2 + (y - s_y s) ^ 2 + (z - s_z s) ^ 2)).
Proof. exact (fun s al c x y z => eq_refl). Qed.
Print Assumptions BRIDGE3_sprim_is_cartesian_gaussian.

Theorem BRIDGE3_derivative_of_primitive_1d :
  forall (be B : R) (j k : nat) (x : R),
  is_derive_n (fun t => (t - B) ^ j * exp (- be * (t - B) ^ 2)) k x
              (Eval.u RKd be j k (x - B) * exp (- be * (x - B) ^ 2)).
Proof. exact cg1_is_derive_n. Qed.
Print Assumptions BRIDGE3_derivative_of_primitive_1d.

Theorem BRIDGE3_deriv_1d_integral :
  forall (al be A B : R) (k i j : nat), 0 < al -> 0 < be ->
  gint (fun x => ((x - A) ^ i * exp (- al * (x - A) ^ 2))
                 * Derive_n (fun t => (t - B) ^ j * exp (- be * (t - B) ^ 2)) k x)
       (iterop (Bop RK be) k (Sfun RK A B al be) i j).
Proof. exact deriv_1d_integral. Qed.
Print Assumptions BRIDGE3_deriv_1d_integral.

Theorem BRIDGE3_moment1_1d_integral :
  forall (al be A B : R) (i j : nat), 0 < al -> 0 < be ->
  gint (fun x => ((x - A) ^ i * exp (- al * (x - A) ^ 2))
                 * (x * ((x - B) ^ j * exp (- be * (x - B) ^ 2))))
       (M1o RK A B al be i j).
Proof. exact moment1_1d_integral. Qed.
Print Assumptions BRIDGE3_moment1_1d_integral.

Theorem BRIDGE3_dprim_integral :
  forall (o : Shell.comp) (sa sb : shell R) (ca cb : Shell.comp) (al be : R), 0 < al -> 0 < be ->
  gint3 (fun x y z => gprim sa al ca x y z * pd3 (cx o) (cy o) (cz o) (gprim sb be cb) x y z)
        (dprim RK o sa sb ca cb al be).
Proof. exact dprim_3d_integral. Qed.
Print Assumptions BRIDGE3_dprim_integral.

Theorem BRIDGE3_kinetic_prim_integral :
  forall (sa sb : shell R) (ca cb : Shell.comp) (al be : R), 0 < al -> 0 < be ->
  gint3 (fun x y z => gprim sa al ca x y z * (- (1 / 2) * lap3 (gprim sb be cb) x y z))
        (kin_prim RK sa sb ca cb al be).
Proof. exact kinetic_prim_3d_integral. Qed.
Print Assumptions BRIDGE3_kinetic_prim_integral.

Theorem BRIDGE3_momentum_prim_integral :
  forall (sa sb : shell R) (ca cb : Shell.comp) (al be : R), 0 < al -> 0 < be ->
  gint3 (fun x y z => gprim sa al ca x y z * pd3 1 0 0 (gprim sb be cb) x y z)
        (mom_x_prim RK sa sb ca cb al be) /\
  gint3 (fun x y z => gprim sa al ca x y z * pd3 0 1 0 (gprim sb be cb) x y z)
        (mom_y_prim RK sa sb ca cb al be) /\
  gint3 (fun x y z => gprim sa al ca x y z * pd3 0 0 1 (gprim sb be cb) x y z)
        (mom_z_prim RK sa sb ca cb al be).
Proof. exact momentum_prim_3d_integral. Qed.
Print Assumptions BRIDGE3_momentum_prim_integral.

Theorem BRIDGE3_angmom_prim_integral :
  forall (sa sb : shell R) (ca cb : Shell.comp) (al be : R), 0 < al -> 0 < be ->
  gint3 (fun x y z => gprim sa al ca x y z
                      * (y * pd3 0 0 1 (gprim sb be cb) x y z - z * pd3 0 1 0 (gprim sb be cb) x y z))
        (ang_x_prim RK sa sb ca cb al be) /\
  gint3 (fun x y z => gprim sa al ca x y z
                      * (z * pd3 1 0 0 (gprim sb be cb) x y z - x * pd3 0 0 1 (gprim sb be cb) x y z))
        (ang_y_prim RK sa sb ca cb al be) /\
  gint3 (fun x y z => gprim sa al ca x y z
                      * (x * pd3 0 1 0 (gprim sb be cb) x y z - y * pd3 1 0 0 (gprim sb be cb) x y z))
        (ang_z_prim RK sa sb ca cb al be).
Proof. exact angmom_prim_3d_integral. Qed.
Print Assumptions BRIDGE3_angmom_prim_integral.

Theorem BRIDGE3_cfun_is_contraction :
  forall (s : shell R) (m : nat) (c : Shell.comp) (x y z : R),
  cfun s m c x y z
  = FNum.fsum RK (Tables.mk (length (s_exps s)) (fun k =>
      (nth m (nth k (s_coeffs s) []) 0 * norm_prim RK (s_l s) c (nth k (s_exps s) 0))
      * gprim s (nth k (s_exps s) 0) c x y z)).
Proof. exact (fun s m c x y z => eq_refl). Qed.
Print Assumptions BRIDGE3_cfun_is_contraction.

Theorem BRIDGE3_derivative_of_contraction :
  forall (s : shell R) (m : nat) (c : Shell.comp) (ox oy oz : nat) (x y z : R),
  pd3 ox oy oz (cfun s m c) x y z
  = FNum.fsum RK (Tables.mk (length (s_exps s)) (fun k =>
      cw s m c k * pd3 ox oy oz (gprim s (nth k (s_exps s) 0) c) x y z)).
Proof. exact pd3_cfun. Qed.
Print Assumptions BRIDGE3_derivative_of_contraction.

Theorem BRIDGE3_overlap_block_is_integral :
  forall (sa sb : shell R) (ma ia mb ib : nat),
  wf_shell sa -> wf_shell sb -> pos_exps3 sa -> pos_exps3 sb ->
  (ma < nseg sa)%nat -> (ia < length (comps_of sa))%nat ->
  (mb < nseg sb)%nat -> (ib < length (comps_of sb))%nat ->
  gint3 (fun x y z => cfun sa ma (nth ia (comps_of sa) (0, 0, 0)%nat) x y z
                      * cfun sb mb (nth ib (comps_of sb) (0, 0, 0)%nat) x y z)
        (Overlap.nth4 RK ma ia mb ib (overlap_block RK sa sb)).
Proof. exact overlap_block_is_integral. Qed.
Print Assumptions BRIDGE3_overlap_block_is_integral.

Theorem BRIDGE3_mm_block_is_integral :
  forall (sa sb : shell R) (ma ia mb ib : nat),
  wf_shell sa -> wf_shell sb -> pos_exps3 sa -> pos_exps3 sb ->
  (ma < nseg sa)%nat -> (ia < length (comps_of sa))%nat ->
  (mb < nseg sb)%nat -> (ib < length (comps_of sb))%nat ->
  forall (Cx Cy Cz : R) (orders : list Shell.comp) (d : nat), (d < length orders)%nat ->
  let o := nth d orders (0, 0, 0)%nat in
  gint3 (fun x y z => (x - Cx) ^ cx o * (y - Cy) ^ cy o * (z - Cz) ^ cz o
                      * cfun sa ma (nth ia (comps_of sa) (0, 0, 0)%nat) x y z
                      * cfun sb mb (nth ib (comps_of sb) (0, 0, 0)%nat) x y z)
        (Overlap.nth4 RK ma ia mb ib (nth d (mm_block RK Cx Cy Cz orders sa sb) [])).
Proof. exact mm_block_is_integral. Qed.
Print Assumptions BRIDGE3_mm_block_is_integral.

Theorem BRIDGE3_diffop_block_is_integral :
  forall (sa sb : shell R) (ma ia mb ib : nat),
  wf_shell sa -> wf_shell sb -> pos_exps3 sa -> pos_exps3 sb ->
  (ma < nseg sa)%nat -> (ia < length (comps_of sa))%nat ->
  (mb < nseg sb)%nat -> (ib < length (comps_of sb))%nat ->
  forall (orders : list Shell.comp) (d : nat), (d < length orders)%nat ->
  let o := nth d orders (0, 0, 0)%nat in
  gint3 (fun x y z => cfun sa ma (nth ia (comps_of sa) (0, 0, 0)%nat) x y z
                      * pd3 (cx o) (cy o) (cz o) (cfun sb mb (nth ib (comps_of sb) (0, 0, 0)%nat)) x y z)
        (Overlap.nth4 RK ma ia mb ib (nth d (diffop_block RK orders sa sb) [])).
Proof. exact diffop_block_is_integral. Qed.
Print Assumptions BRIDGE3_diffop_block_is_integral.

Theorem BRIDGE3_kinetic_block_is_integral :
  forall (sa sb : shell R) (ma ia mb ib : nat),
  wf_shell sa -> wf_shell sb -> pos_exps3 sa -> pos_exps3 sb ->
  (ma < nseg sa)%nat -> (ia < length (comps_of sa))%nat ->
  (mb < nseg sb)%nat -> (ib < length (comps_of sb))%nat ->
  gint3 (fun x y z => cfun sa ma (nth ia (comps_of sa) (0, 0, 0)%nat) x y z
                      * (- (1 / 2) * lap3 (cfun sb mb (nth ib (comps_of sb) (0, 0, 0)%nat)) x y z))
        (Overlap.nth4 RK ma ia mb ib (kinetic_block RK sa sb)).
Proof. exact kinetic_block_is_integral. Qed.
Print Assumptions BRIDGE3_kinetic_block_is_integral.

Theorem BRIDGE3_momentum_block_is_integral :
  forall (sa sb : shell R) (ma ia mb ib : nat),
  wf_shell sa -> wf_shell sb -> pos_exps3 sa -> pos_exps3 sb ->
  (ma < nseg sa)%nat -> (ia < length (comps_of sa))%nat ->
  (mb < nseg sb)%nat -> (ib < length (comps_of sb))%nat ->
  let ca := nth ia (comps_of sa) (0, 0, 0)%nat in let cb := nth ib (comps_of sb) (0, 0, 0)%nat in
  let e := get4 [] ma ia mb ib (momentum_block_re RK sa sb) in
  gint3 (fun x y z => cfun sa ma ca x y z * pd3 1 0 0 (cfun sb mb cb) x y z) (nth 0 e 0) /\
  gint3 (fun x y z => cfun sa ma ca x y z * pd3 0 1 0 (cfun sb mb cb) x y z) (nth 1 e 0) /\
  gint3 (fun x y z => cfun sa ma ca x y z * pd3 0 0 1 (cfun sb mb cb) x y z) (nth 2 e 0).
Proof. exact momentum_block_is_integral. Qed.
Print Assumptions BRIDGE3_momentum_block_is_integral.

Theorem BRIDGE3_angmom_block_is_integral :
  forall (sa sb : shell R) (ma ia mb ib : nat),
  wf_shell sa -> wf_shell sb -> pos_exps3 sa -> pos_exps3 sb ->
  (ma < nseg sa)%nat -> (ia < length (comps_of sa))%nat ->
  (mb < nseg sb)%nat -> (ib < length (comps_of sb))%nat ->
  let ca := nth ia (comps_of sa) (0, 0, 0)%nat in let cb := nth ib (comps_of sb) (0, 0, 0)%nat in
  let e := get4 [] ma ia mb ib (angmom_block_re RK sa sb) in
  gint3 (fun x y z => cfun sa ma ca x y z
           * (y * pd3 0 0 1 (cfun sb mb cb) x y z - z * pd3 0 1 0 (cfun sb mb cb) x y z)) (nth 0 e 0) /\
  gint3 (fun x y z => cfun sa ma ca x y z
           * (z * pd3 1 0 0 (cfun sb mb cb) x y z - x * pd3 0 0 1 (cfun sb mb cb) x y z)) (nth 1 e 0) /\
  gint3 (fun x y z => cfun sa ma ca x y z
           * (x * pd3 0 1 0 (cfun sb mb cb) x y z - y * pd3 1 0 0 (cfun sb mb cb) x y z)) (nth 2 e 0).
Proof. exact angmom_block_is_integral. Qed.
Print Assumptions BRIDGE3_angmom_block_is_integral.

(* the hypotheses are satisfiable, a concrete instance, the normalisation *)
Example BRIDGE3_block_hypotheses_satisfiable :
  wf_shell ex_shell_d /\ wf_shell ex_shell_p /\ pos_exps3 ex_shell_d /\ pos_exps3 ex_shell_p /\
  (1 < nseg ex_shell_d)%nat /\ (4 < length (comps_of ex_shell_d))%nat /\
  (0 < nseg ex_shell_p)%nat /\ (2 < length (comps_of ex_shell_p))%nat.
Proof. exact block_hypotheses_satisfiable. Qed.
Print Assumptions BRIDGE3_block_hypotheses_satisfiable.

Example BRIDGE3_kinetic_block_instance :
  gint3 (fun x y z => cfun ex_shell_d 1 (0, 1, 1)%nat x y z
                      * (- (1 / 2) * lap3 (cfun ex_shell_p 0 (0, 0, 1)%nat) x y z))
        (Overlap.nth4 RK 1 4 0 2 (kinetic_block RK ex_shell_d ex_shell_p)).
Proof. exact kinetic_block_instance. Qed.
Print Assumptions BRIDGE3_kinetic_block_instance.

Example BRIDGE3_normalised_primitive :
  forall (s : shell R) (c : Shell.comp) (al : R), 0 < al -> (cx c + cy c + cz c)%nat = s_l s ->
  gint3 (fun x y z => (norm_prim RK (s_l s) c al * gprim s al c x y z)
                      * (norm_prim RK (s_l s) c al * gprim s al c x y z)) 1.
Proof. exact normalised_primitive. Qed.
Print Assumptions BRIDGE3_normalised_primitive.

