(* Props/C01_block.v — block-level theorems backing property C01 (overlap integrals exact, primitives
   normalised).  Only statements closed by [exact] of a lemma proved in Proofs/Core*.v, each followed by
   Print Assumptions.  The spec is written with the abstract Gaussian moment functional [T3] of
   Gauss/Moment1D.v (no tables):
     T1 A B C alpha beta k i j = T3 (1/(2(alpha+beta))) (P-A) (P-B) (P-C) k i j          (one axis)
     KAB sa sb alpha beta      = product over x, y, z of sqrt(pi/p) exp(-mu (A-B)^2)
     ovl_prim sa sb ca cb      = KAB * T1_x(0, a_x, b_x) * T1_y(0, a_y, b_y) * T1_z(0, a_z, b_z)
     contracted sa sb ca cb ma mb prim
        = sum_{k < K_a} sum_{k' < K_b} d_a[k][ma] d_b[k'][mb] N(alpha_k, ca) N(beta_k', cb) prim(alpha_k, beta_k')
   Hypotheses: fapx is the identity (true for the exact runner instance), 1+1 <> 0, alpha_k+beta_k' <> 0 for
   every pair of exponents, one coefficient row per exponent, every Cartesian component <= l (true for the
   default component list), indices in range. *)
From Coq Require Import List Arith Reals.
From GB Require Import Base.Field Base.FNum Base.Tables Gauss.Moment1D Model.Shell Model.MomentInt Model.Overlap
  Proofs.CoreSumP Proofs.CoreBlockP Proofs.CoreNormP Proofs.CoreExamplesP Proofs.ScreeningP.
Import ListNotations.

(* what the spec symbols stand for (by definition) *)
Theorem C01_spec_unfold :
  forall (F : Type) (K : Fops F) (sa sb : shell F) (ca cb : Shell.comp) (ma mb : nat) (prim : F -> F -> F)
         (alpha beta : F),
  contracted K sa sb ca cb ma mb prim
  = FNum.fsum K (mk (length (s_exps sa)) (fun ka => FNum.fsum K (mk (length (s_exps sb)) (fun kb =>
      fmul K (fmul K (fmul K (fmul K
        (nth ma (nth ka (s_coeffs sa) []) (f0 K)) (nth mb (nth kb (s_coeffs sb) []) (f0 K)))
        (norm_prim K (s_l sa) ca (nth ka (s_exps sa) (f0 K))))
        (norm_prim K (s_l sb) cb (nth kb (s_exps sb) (f0 K))))
        (prim (nth ka (s_exps sa) (f0 K)) (nth kb (s_exps sb) (f0 K)))))))
  /\ ovl_prim K sa sb ca cb alpha beta
     = fmul K
         (fmul K (fmul K (base K (s_x sa) (s_x sb) alpha beta) (base K (s_y sa) (s_y sb) alpha beta))
                 (base K (s_z sa) (s_z sb) alpha beta))
         (fmul K (fmul K
            (T3 K (fdiv K (f1 K) (twop K alpha beta)) (PA K (s_x sa) (s_x sb) alpha beta)
                (PB K (s_x sa) (s_x sb) alpha beta) (PC K (s_x sa) (s_x sb) (f0 K) alpha beta) 0 (cx ca) (cx cb))
            (T3 K (fdiv K (f1 K) (twop K alpha beta)) (PA K (s_y sa) (s_y sb) alpha beta)
                (PB K (s_y sa) (s_y sb) alpha beta) (PC K (s_y sa) (s_y sb) (f0 K) alpha beta) 0 (cy ca) (cy cb)))
            (T3 K (fdiv K (f1 K) (twop K alpha beta)) (PA K (s_z sa) (s_z sb) alpha beta)
                (PB K (s_z sa) (s_z sb) alpha beta) (PC K (s_z sa) (s_z sb) (f0 K) alpha beta) 0 (cz ca) (cz cb))).
Proof. exact (fun F K sa sb ca cb ma mb prim alpha beta => conj eq_refl eq_refl). Qed.
Print Assumptions C01_spec_unfold.

(* overlap_block_correct: every entry of Overlap.construct_array_contraction's model is the contracted,
   normalised primitive overlap spec — all l_a, l_b, K, M, centres, exponents, coefficients *)
Theorem C01_overlap_block_correct :
  forall (F : Type) (K : Fops F), is_field K ->
  (forall x : F, fapx K x = x) -> fadd K (f1 K) (f1 K) <> f0 K ->
  forall (sa sb : shell F) (ma ia mb ib : nat),
  wf_shell sa -> wf_shell sb -> exps_ok K sa sb ->
  ma < nseg sa -> ia < length (comps_of sa) -> mb < nseg sb -> ib < length (comps_of sb) ->
  nth4 K ma ia mb ib (overlap_block K sa sb)
  = contracted K sa sb (nth ia (comps_of sa) (0,0,0)) (nth ib (comps_of sb) (0,0,0)) ma mb
      (ovl_prim K sa sb (nth ia (comps_of sa) (0,0,0)) (nth ib (comps_of sb) (0,0,0))).
Proof. exact (@overlap_block_correct). Qed.
Print Assumptions C01_overlap_block_correct.

(* the block of the exchanged pair is the transpose (used by C11) *)
Theorem C01_overlap_block_sym :
  forall (F : Type) (K : Fops F), is_field K ->
  (forall x : F, fapx K x = x) -> fadd K (f1 K) (f1 K) <> f0 K ->
  forall (sa sb : shell F) (ma ia mb ib : nat),
  wf_shell sa -> wf_shell sb -> exps_ok K sa sb ->
  ma < nseg sa -> ia < length (comps_of sa) -> mb < nseg sb -> ib < length (comps_of sb) ->
  nth4 K mb ib ma ia (overlap_block K sb sa) = nth4 K ma ia mb ib (overlap_block K sa sb).
Proof. exact (@overlap_block_sym). Qed.
Print Assumptions C01_overlap_block_sym.

(* the well-formedness hypothesis holds for every shell with the default component list *)
Theorem C01_default_shell_wf :
  forall (F : Type) (s : shell F), s_comps s = [] -> length (s_coeffs s) = length (s_exps s) -> wf_shell s.
Proof. exact (@wf_shell_default). Qed.
Print Assumptions C01_default_shell_wf.

(* one centre, one exponent: the 1-D spec integral is the bare Gaussian moment (2n-1)!! / (4 alpha)^n *)
Theorem C01_T1_self_diag :
  forall (F : Type) (K : Fops F), is_field K ->
  forall (A C alpha : F) (n : nat), psum K alpha alpha <> f0 K ->
  T1 K A A C alpha alpha 0 n n = fmul K (fdf_odd K n) (FNum.fpow K (fdiv K (f1 K) (twop K alpha alpha)) n).
Proof. exact (@T1_self_diag). Qed.
Print Assumptions C01_T1_self_diag.

(* N(alpha,a)^2 (pi/(2 alpha))^{3/2} prod_i (2a_i-1)!!/(4 alpha)^{a_i} = 1   (pow32 x = x sqrt x) *)
Theorem C01_norm_prim_sq :
  forall (l : nat) (c : Shell.comp) (alpha : R),
  (0 < alpha)%R -> cx c + cy c + cz c = l ->
  (norm_prim RK l c alpha * norm_prim RK l c alpha
   * pow32 (PI / (2 * alpha))
   * (fdf_odd RK (cx c) / (4 * alpha) ^ cx c * (fdf_odd RK (cy c) / (4 * alpha) ^ cy c)
      * (fdf_odd RK (cz c) / (4 * alpha) ^ cz c)) = 1)%R.
Proof. exact norm_prim_sq. Qed.
Print Assumptions C01_norm_prim_sq.

(* ... i.e. the primitive normalisation constant of contractions.py normalises the self-overlap SPEC to 1 *)
Theorem C01_norm_prim_self_overlap :
  forall (s : shell R) (c : Shell.comp) (alpha : R),
  (0 < alpha)%R -> cx c + cy c + cz c = s_l s ->
  (norm_prim RK (s_l s) c alpha * norm_prim RK (s_l s) c alpha * ovl_prim RK s s c c alpha alpha = 1)%R.
Proof. exact norm_prim_self_overlap. Qed.
Print Assumptions C01_norm_prim_self_overlap.

(* the prefactor of the spec is the textbook K_AB (pi/p)^{3/2} exp(-mu |A-B|^2) *)
Theorem C01_KAB_closed_form :
  forall (sa sb : shell R) (alpha beta : R), (0 < alpha)%R -> (0 < beta)%R ->
  (KAB RK sa sb alpha beta
   = pow32 (PI / (alpha + beta))
     * exp (- (alpha * beta / (alpha + beta))
            * ((s_x sa - s_x sb) * (s_x sa - s_x sb) + (s_y sa - s_y sb) * (s_y sa - s_y sb)
               + (s_z sa - s_z sb) * (s_z sa - s_z sb))))%R.
Proof. exact KAB_closed_form. Qed.
Print Assumptions C01_KAB_closed_form.

(* over Qc (the runner's field, any oracle closures): generalized d shell (K=2, M=2) x off-centre p shell *)
Example C01_block_hypotheses_Qc :
  forall opi osqrt oexp oln oboys,
  let K := KQ opi osqrt oexp oln oboys in
  is_field K /\ (forall x, fapx K x = x) /\ fadd K (f1 K) (f1 K) <> f0 K
  /\ wf_shell ex_sa /\ wf_shell ex_sb /\ exps_ok K ex_sa ex_sb /\ exps_ok K ex_sa ex_sa
  /\ 1 < nseg ex_sa /\ 5 < length (comps_of ex_sa) /\ 0 < nseg ex_sb /\ 2 < length (comps_of ex_sb).
Proof. exact block_hypotheses_satisfiable. Qed.
Print Assumptions C01_block_hypotheses_Qc.

(* over R: every pair of shells with positive exponents *)
Example C01_block_hypotheses_R :
  is_field RK /\ (forall x : R, fapx RK x = x) /\ fadd RK (f1 RK) (f1 RK) <> f0 RK
  /\ forall sa sb : shell R, (forall x, In x (s_exps sa) -> (0 < x)%R) -> (forall x, In x (s_exps sb) -> (0 < x)%R)
     -> exps_ok RK sa sb.
Proof. exact (conj RK_field (conj fapx_id_R (conj two_neq_0_R exps_ok_pos_R))). Qed.
Print Assumptions C01_block_hypotheses_R.

Example C01_norm_prim_self_overlap_ex :
  let s := mkShell R 2 0%R 0%R 0%R [(3 / 2)%R] [[1%R]] false [] [] in
  (norm_prim RK 2 (1, 1, 0)%nat (3 / 2) * norm_prim RK 2 (1, 1, 0)%nat (3 / 2)
   * ovl_prim RK s s (1, 1, 0)%nat (1, 1, 0)%nat (3 / 2) (3 / 2) = 1)%R.
Proof. exact norm_prim_self_overlap_ex. Qed.
Print Assumptions C01_norm_prim_self_overlap_ex.
