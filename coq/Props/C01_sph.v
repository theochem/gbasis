(* Props/C01_sph.v — property C01, diag_one_sph: the diagonal of the assembled overlap matrix is 1 at SPHERICAL
   shells (l <= 10), for bases mixing Cartesian and spherical shells.  Only statements closed by [exact] of a
   lemma of Proofs/DiagSphP.v / DiagSphCheckP.v / DiagSphRealP.v / SphLinkP.v, each followed by Print Assumptions.

   Symbols (C01sph_unfold):  D_c = dfp c = prod (2c_i-1)!!;  g(n) = gk n = (n-1)!! (n even), 0 (n odd);
   G(c,c') = Gk c c' = prod_axis g(c_i + c'_i) — the overlap of the monomials x^c, x^c' of one shell up to the
   radial factor;  rs c = 1/sqrt D_c;  Rad s m = the radial part of the self-overlap of segment m;
   Orth s q q' = sum_cc' T_s[q][c] T_s[q'][c'] G(c,c') rs c rs c' — Gram matrix of the rows of the shell's
   transformation for unit-normalised Cartesians (T_s = Model/Spherical.shell_transform for a spherical shell,
   identity for a Cartesian one);  sqrt_ok x = (sqrt x)^2 = x and x <> 0;  hcoef / hrad = the rational
   coefficient and the radicand of a row of generate_transformation (no square root);
   Eorth l m sine = hrad l m / (2l-1)!! * sum_cc' h_c G(c,c') h_c' on the default Cartesian order.

   How the statement is obtained, and what is NOT used: Props/C10.v proves orthonormality of the rows on the exact
   model Model/SphExact.v (entries r*sqrt q).  Composing it with the assembled overlap would need the lemma
     MISSING:  Model/Spherical.sph_transform K l carts labels [i][j] = r * fsqrt K q  for (r, q) the entry of
               SphExact.left_form l carts labels, in a field K with exact square roots,
   which is not proved.  Instead the orthonormality is re-established here for Model/Spherical itself (the
   transform the assembled models use), on the same finite domain: rational identity by complete enumeration
   l <= 10 over the exact rationals (C01sph_rows_unit_Qc, vm_compute), transported to R (C01sph_rows_unit_R).
   Restrictions kept visible: default Cartesian order of the spherical shell (a permuted order needs invariance of
   the double sum under permutation); the positivity of the segment's self-overlap is a premise, as in
   C01_diag_one_cart_R, and is discharged for uncontracted shells. *)
From Coq Require Import List Arith Reals.
From GB Require Import Base.Field Base.FNum Base.Tables Model.Shell Model.MomentInt Model.Spherical Model.Overlap
  Proofs.CoreSumP Proofs.CoreBlockP Proofs.ScreeningP Proofs.AssembledP Proofs.AssembledOverlapP
  Proofs.AssembledRealP Proofs.AssembledSphP Proofs.AssembledSphOverlapP
  Proofs.DiagSphP Proofs.DiagSphCheckP Proofs.DiagSphRealP.
Import ListNotations.

Theorem C01sph_unfold :
  forall (F : Type) (K : Fops F) (s : shell F) (c c' : comp) (n m q q' l : nat) (sine : bool) (x : F),
  dfp K c = fmul K (fmul K (fdf_odd K (cx c)) (fdf_odd K (cy c))) (fdf_odd K (cz c))
  /\ gk K n = (if Nat.even n then fdf_odd K (n / 2) else f0 K)
  /\ Gk K c c' = fmul K (fmul K (gk K (cx c + cx c')) (gk K (cy c + cy c'))) (gk K (cz c + cz c'))
  /\ rs K c = fdiv K (f1 K) (fsqrt K (dfp K c))
  /\ Orth K s q q' = dsum K s s q q' (fun a b =>
       fmul K (Gk K (nth a (comps_of s) (0, 0, 0)) (nth b (comps_of s) (0, 0, 0)))
              (fmul K (rs K (nth a (comps_of s) (0, 0, 0))) (rs K (nth b (comps_of s) (0, 0, 0)))))
  /\ (sqrt_ok K x <-> fmul K (fsqrt K x) (fsqrt K x) = x /\ x <> f0 K)
  /\ hrad K l m = fdiv K (fmul K (fmul K (fadd K (f1 K) (f1 K)) (ffact K (l + m))) (ffact K (l - m)))
                         (if Nat.eqb m 0 then fadd K (f1 K) (f1 K) else f1 K)
  /\ Eorth K l m sine = fmul K (fdiv K (hrad K l m) (fdf_odd K l))
       (FNum.fsum K (map (fun a => FNum.fsum K (map (fun b =>
          fmul K (fmul K (hcoef K l m sine a) (Gk K a b)) (hcoef K l m sine b)) (default_comps l))) (default_comps l))).
Proof. exact (fun F K s c c' n m q q' l sine x => conj eq_refl (conj eq_refl (conj eq_refl (conj eq_refl
         (conj eq_refl (conj (conj (fun H => H) (fun H => H)) (conj eq_refl eq_refl))))))). Qed.
Print Assumptions C01sph_unfold.

(* any field: the self-overlap block factorises; the contraction norm is component-independent *)
Theorem C01sph_self_block_factor :
  forall (F : Type) (K : Fops F), is_field K -> (forall x : F, fapx K x = x) -> fadd K (f1 K) (f1 K) <> f0 K ->
  forall s : shell F, wf_shell s -> comps_homog s -> exps_ok K s s ->
  forall m c c', m < nseg s -> c < ncomp s -> c' < ncomp s ->
  nth4 K m c m c' (overlap_block K s s)
  = fmul K (Rad K s m)
      (fmul K (Gk K (nth c (comps_of s) (0, 0, 0)) (nth c' (comps_of s) (0, 0, 0)))
              (fmul K (rs K (nth c (comps_of s) (0, 0, 0))) (rs K (nth c' (comps_of s) (0, 0, 0))))).
Proof. exact (fun F K Kf Hapx H2 => self_block_factor K Kf Hapx H2). Qed.
Print Assumptions C01sph_self_block_factor.

Theorem C01sph_norm_cont_component_independent :
  forall (F : Type) (K : Fops F), is_field K -> (forall x : F, fapx K x = x) -> fadd K (f1 K) (f1 K) <> f0 K ->
  forall s : shell F, wf_shell s -> comps_homog s -> exps_ok K s s ->
  forall m c, m < nseg s -> c < ncomp s -> sqrt_ok K (dfp K (nth c (comps_of s) (0, 0, 0))) ->
  nth4 K m c m c (overlap_block K s s) = Rad K s m
  /\ ncont K s m c = fdiv K (f1 K) (fsqrt K (Rad K s m)).
Proof. exact (fun F K Kf Hapx H2 s Ws Hs Es m c Hm Hc Hd =>
         conj (self_block_diag K Kf Hapx H2 s Ws Hs Es m c Hm Hc Hd)
              (ncont_component_independent K Kf Hapx H2 s Ws Hs Es m c Hm Hc Hd)). Qed.
Print Assumptions C01sph_norm_cont_component_independent.

(* within one segment of one shell the assembled overlap IS the Gram matrix of the rows of T_s *)
Theorem C01sph_diag_block_is_Orth :
  forall (F : Type) (K : Fops F), is_field K -> (forall x : F, fapx K x = x) -> fadd K (f1 K) (f1 K) <> f0 K ->
  forall bs : list (shell F), (forall s, In s bs -> 0 < nseg s) -> basis_wf bs -> basis_exps K bs bs ->
  forall i m q q', i < length bs -> comps_homog (sh_at K bs i) ->
  m < nseg (sh_at K bs i) -> q < osize (sh_at K bs i) -> q' < osize (sh_at K bs i) ->
  (forall c, c < ncomp (sh_at K bs i) -> sqrt_ok K (dfp K (nth c (comps_of (sh_at K bs i)) (0, 0, 0)))) ->
  sqrt_ok K (Rad K (sh_at K bs i) m) ->
  nth (oidx K bs i m q') (nth (oidx K bs i m q) (overlap_integral K bs None) []) (f0 K)
  = Orth K (sh_at K bs i) q q'.
Proof. exact (fun F K Kf Hapx H2 => sph_diag_block_is_Orth K Kf Hapx H2). Qed.
Print Assumptions C01sph_diag_block_is_Orth.

(* diag_one_sph given orthonormal rows (any field with a square-root oracle exact on the self-overlap) *)
Theorem C01_diag_one_sph_of_orthonormal :
  forall (F : Type) (K : Fops F), is_field K -> (forall x : F, fapx K x = x) -> fadd K (f1 K) (f1 K) <> f0 K ->
  forall bs : list (shell F), (forall s, In s bs -> 0 < nseg s) -> basis_wf bs -> basis_exps K bs bs ->
  forall i m q, i < length bs -> comps_homog (sh_at K bs i) ->
  m < nseg (sh_at K bs i) -> q < osize (sh_at K bs i) ->
  (forall c, c < ncomp (sh_at K bs i) -> sqrt_ok K (dfp K (nth c (comps_of (sh_at K bs i)) (0, 0, 0)))) ->
  sqrt_ok K (Rad K (sh_at K bs i) m) ->
  Orth K (sh_at K bs i) q q = f1 K ->
  nth (oidx K bs i m q) (nth (oidx K bs i m q) (overlap_integral K bs None) []) (f0 K) = f1 K.
Proof. exact (fun F K Kf Hapx H2 => diag_one_sph_of_orthonormal K Kf Hapx H2). Qed.
Print Assumptions C01_diag_one_sph_of_orthonormal.

(* the rows of Model/Spherical.sph_transform in rational terms: Orth(q,q) = rad/(2l-1)!! * h.G.h *)
Theorem C01sph_Orth_rational :
  forall (F : Type) (K : Fops F), is_field K -> (forall x : F, fapx K x = x) ->
  forall (s : shell F) (q : nat), s_sph s = true -> q < nlab s ->
  let lb := nth q (labels_of s) (false, false, 0) in
  (forall c, c < ncomp s -> sqrt_ok K (dfp K (nth c (comps_of s) (0, 0, 0)))) ->
  sqrt_ok K (fdf_odd K (s_l s)) ->
  fmul K (fsqrt K (hrad K (s_l s) (snd lb))) (fsqrt K (hrad K (s_l s) (snd lb))) = hrad K (s_l s) (snd lb) ->
  Orth K s q q
  = fmul K (fdiv K (hrad K (s_l s) (snd lb)) (fdf_odd K (s_l s)))
           (HGH K (s_l s) (snd lb) (snd (fst lb)) (comps_of s)).
Proof. exact (fun F K Kf Hapx => Orth_rational K Kf Hapx). Qed.
Print Assumptions C01sph_Orth_rational.

(* the finite domain l <= 10, enumerated completely over the exact rationals *)
Theorem C01sph_rows_unit_Qc :
  forall l sine m, l <= 10 -> m <= l /\ (sine = true -> 1 <= m) -> Eorth QK l m sine = f1 QK.
Proof. exact Eorth_Q_le10. Qed.
Print Assumptions C01sph_rows_unit_Qc.

Theorem C01sph_rows_unit_R :
  forall l sine m, l <= 10 -> m <= l /\ (sine = true -> 1 <= m) -> Eorth RK l m sine = 1%R.
Proof. exact orth_rational_le10_R. Qed.
Print Assumptions C01sph_rows_unit_R.

Theorem C01_diag_one_sph_R :
  forall bs : list (shell R), (forall s, In s bs -> 0 < nseg s) -> basis_wf bs ->
  (forall s, In s bs -> forall x, In x (s_exps s) -> (0 < x)%R) ->
  forall i m q, i < length bs ->
  let s := sh_at RK bs i in
  s_sph s = true -> s_l s <= 10 -> comps_of s = default_comps (s_l s) ->
  m < nseg s -> q < length (labels_of s) ->
  (let lb := nth q (labels_of s) (false, false, 0) in snd lb <= s_l s /\ (snd (fst lb) = true -> 1 <= snd lb)) ->
  (0 < nth4 RK m 0 m 0 (overlap_block RK s s))%R ->
  nth (oidx RK bs i m q) (nth (oidx RK bs i m q) (overlap_integral RK bs None) []) 0%R = 1%R.
Proof. exact diag_one_sph_R. Qed.
Print Assumptions C01_diag_one_sph_R.

(* the whole diagonal of a basis of default-convention shells, Cartesian and spherical mixed *)
Theorem C01_diag_one_mixed_R :
  forall bs : list (shell R), (forall s, In s bs -> 0 < nseg s) -> basis_wf bs ->
  (forall s, In s bs -> forall x, In x (s_exps s) -> (0 < x)%R) ->
  (forall s, In s bs -> s_comps s = [] /\ s_labels s = [] /\ (s_sph s = true -> s_l s <= 10)) ->
  (forall i m, i < length bs -> m < nseg (sh_at RK bs i) ->
     (0 < nth4 RK m 0 m 0 (overlap_block RK (sh_at RK bs i) (sh_at RK bs i)))%R) ->
  forall I, I < ototal RK bs -> nth I (nth I (overlap_integral RK bs None) []) 0%R = 1%R.
Proof. exact diag_one_mixed_R. Qed.
Print Assumptions C01_diag_one_mixed_R.

(* uncontracted shells with non-zero coefficients: no premise left *)
Theorem C01_diag_one_mixed_uncontracted_R :
  forall bs : list (shell R), (forall s, In s bs -> 0 < nseg s) ->
  (forall s, In s bs -> exists alpha row,
     (s_exps s = [alpha] /\ s_coeffs s = [row] /\ (0 < alpha)%R
      /\ (forall cc, In cc (comps_of s) -> cx cc + cy cc + cz cc = s_l s))
     /\ forall d, In d row -> d <> 0%R) ->
  (forall s, In s bs -> s_comps s = [] /\ s_labels s = [] /\ (s_sph s = true -> s_l s <= 10)) ->
  forall I, I < ototal RK bs -> nth I (nth I (overlap_integral RK bs None) []) 0%R = 1%R.
Proof. exact diag_one_mixed_uncontracted_R. Qed.
Print Assumptions C01_diag_one_mixed_uncontracted_R.

(* default labels are admissible (so the label hypothesis of C01_diag_one_sph_R is satisfiable) *)
Example C01sph_default_labels_admissible :
  forall l lb, In lb (default_labels l) -> snd lb <= l /\ (snd (fst lb) = true -> 1 <= snd lb).
Proof. exact SphLinkP.default_labels_adm. Qed.
Print Assumptions C01sph_default_labels_admissible.

(* a basis over R meeting the hypotheses of C01_diag_one_mixed_R: spherical generalized d shell (K = 2, M = 2),
   Cartesian p shell, spherical f shell: 20 functions *)
Example C01sph_hypotheses_satisfiable :
  (forall s, In s ex_basis_sph -> 0 < nseg s) /\ basis_wf ex_basis_sph
  /\ (forall s, In s ex_basis_sph -> forall x, In x (s_exps s) -> (0 < x)%R)
  /\ (forall s, In s ex_basis_sph -> s_comps s = [] /\ s_labels s = [] /\ (s_sph s = true -> s_l s <= 10))
  /\ ototal RK ex_basis_sph = 20.
Proof. exact diag_sph_hypotheses_satisfiable. Qed.
Print Assumptions C01sph_hypotheses_satisfiable.

(* ... and a basis meeting every hypothesis of C01_diag_one_mixed_uncontracted_R (spherical d shell with two
   segments + Cartesian p shell): its 13 diagonal elements are 1 *)
Example C01_diag_one_sph_example_R :
  forall I, I < 13 -> nth I (nth I (overlap_integral RK ex_basis_unc None) []) 0%R = 1%R.
Proof. exact diag_one_sph_example_R. Qed.
Print Assumptions C01_diag_one_sph_example_R.
