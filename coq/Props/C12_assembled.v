(* Props/C12_assembled.v — property C12, "quantities about the coordinate origin shift by d x p": the angular
   momentum about a displaced origin, for the WHOLE-BASIS model of angular_momentum_integral
   (Model/OneBody.angmom_integral_re: the real array R of the value -iR, last axis = x, y, z).
   Props/C12.v has the law for one shell pair (C12_origin_shift_angular_momentum_block_partial); here it is lifted
   through the Hermitian assembly (blocks above the diagonal evaluated, all others conjugated transposes) for every
   position (I, J), both triangles and the diagonal blocks, any number of shells, any assignment of coordinate
   types.  Only statements closed by [exact] of a lemma of Proofs/AngmomAsmP.v + Print Assumptions.

   shift_shell K tx ty tz s   s with its centre moved by (tx, ty, tz);  tget t c = component c of t
   Moving every centre by t with the origin fixed = moving the origin by -t:
       L^t[I][J][c] = L[I][J][c] + t_{c+1} p[I][J][c+2] - t_{c+2} p[I][J][c+1]   (indices mod 3),  i.e.  L^t = L + t x p,
   p = momentum_integral_re of the original basis (the value of the operator is -i times these real arrays).
   Hypotheses: a field, exact arithmetic (fapx = id), 2 <> 0, shells with at least one segment, one coefficient
   row per exponent and components within l, exponent sums non-zero.  transform = None (the final
   transformation acts linearly on both sides; not stated). *)
From Coq Require Import List Arith QArith Qcanon.
From GB Require Import Base.Field Base.FNum Base.Tables Model.Shell Model.MomentInt Model.DiffOp Model.Overlap
  Model.OneBody Proofs.CoreSumP Proofs.CoreBlockP Proofs.CoreExamplesP Proofs.AssembledP Proofs.AssembledOverlapP
  Proofs.AssembledSphP Proofs.AssembledSphOverlapP Proofs.AssembledExamplesP Proofs.RigidP Proofs.AngmomAsmP.
Import ListNotations.
Local Open Scope nat_scope.

(* Cartesian bases, positions through btotal *)
Theorem C12_origin_shift_angular_momentum_integral_cart :
  forall (F : Type) (K : Fops F), is_field K ->
  (forall x : F, fapx K x = x) -> fadd K (f1 K) (f1 K) <> f0 K ->
  forall bs : list (shell F), cart_basis bs -> basis_wf bs -> basis_exps K bs bs ->
  forall (tx ty tz : F) (I J c : nat), I < btotal K bs -> J < btotal K bs -> c < 3 ->
  let t := (tx, ty, tz) in
  let Lt := nth J (nth I (angmom_integral_re K (map (shift_shell K tx ty tz) bs) None) []) [] in
  let L0 := nth J (nth I (angmom_integral_re K bs None) []) [] in
  let P := nth J (nth I (momentum_integral_re K bs None) []) [] in
  nth c Lt (f0 K)
  = fadd K (fadd K (nth c L0 (f0 K)) (fmul K (tget t ((c + 1) mod 3)) (nth ((c + 2) mod 3) P (f0 K))))
           (fmul K (fopp K (tget t ((c + 2) mod 3))) (nth ((c + 1) mod 3) P (f0 K))).
Proof. exact (fun F K Kf => angmom_integral_origin_shift K Kf). Qed.
Print Assumptions C12_origin_shift_angular_momentum_integral_cart.

(* any assignment of coordinate types (Cartesian / spherical / mixed), positions through ototal *)
Theorem C12_origin_shift_angular_momentum_integral :
  forall (F : Type) (K : Fops F), is_field K ->
  (forall x : F, fapx K x = x) -> fadd K (f1 K) (f1 K) <> f0 K ->
  forall bs : list (shell F), seg_basis bs -> basis_wf bs -> basis_exps K bs bs ->
  forall (tx ty tz : F) (I J c : nat), I < ototal K bs -> J < ototal K bs -> c < 3 ->
  let t := (tx, ty, tz) in
  let Lt := nth J (nth I (angmom_integral_re K (map (shift_shell K tx ty tz) bs) None) []) [] in
  let L0 := nth J (nth I (angmom_integral_re K bs None) []) [] in
  let P := nth J (nth I (momentum_integral_re K bs None) []) [] in
  nth c Lt (f0 K)
  = fadd K (fadd K (nth c L0 (f0 K)) (fmul K (tget t ((c + 1) mod 3)) (nth ((c + 2) mod 3) P (f0 K))))
           (fmul K (fopp K (tget t ((c + 2) mod 3))) (nth ((c + 1) mod 3) P (f0 K))).
Proof. exact (fun F K Kf => angmom_integral_origin_shift_mixed K Kf). Qed.
Print Assumptions C12_origin_shift_angular_momentum_integral.

(* the moved basis has the same index map *)
Theorem C12_shifted_basis_same_positions :
  forall (F : Type) (K : Fops F) (bs : list (shell F)) (tx ty tz : F),
  ototal K (map (shift_shell K tx ty tz) bs) = ototal K bs /\
  forall i m q, i < length bs ->
    oidx K (map (shift_shell K tx ty tz) bs) i m q = oidx K bs i m q.
Proof.
  exact (fun F K bs tx ty tz =>
    conj (eq_trans (f_equal (ooff K _) (map_length _ bs)) (ooff_shift K bs tx ty tz (length bs) (le_n _)))
         (oidx_shift K bs tx ty tz)).
Qed.
Print Assumptions C12_shifted_basis_same_positions.

(* the hypotheses are satisfiable: generalized spherical d shell (two segments), off-centre Cartesian p shell,
   contracted spherical s shell over Qc, any oracle closures; the theorem instantiated *)
Example C12_assembled_hypotheses_satisfiable :
  forall (opi : Qc) (osqrt oexp oln : Qc -> Qc) (oboys : nat -> Qc -> Qc),
  let K := KQ opi osqrt oexp oln oboys in
  is_field K /\ (forall x : Qc, fapx K x = x) /\ fadd K (f1 K) (f1 K) <> f0 K /\
  seg_basis ex_mixed /\ basis_wf ex_mixed /\ basis_exps K ex_mixed ex_mixed /\ ototal K ex_mixed = 14.
Proof.
  exact (fun opi osqrt oexp oln oboys =>
    conj (KQ_field _ _ _ _ _) (conj (KQ_apx _ _ _ _ _) (conj (KQ_two _ _ _ _ _)
      (conj ex_mixed_seg (conj ex_mixed_wf (conj (ex_mixed_exps opi osqrt oexp oln oboys)
        (proj1 (proj2 (proj2 (proj2 (mixed_hypotheses_satisfiable opi osqrt oexp oln oboys))))))))))).
Qed.
Print Assumptions C12_assembled_hypotheses_satisfiable.

(* the law at a LOWER-triangle position of that basis (row = p_z of the Cartesian shell, column = a spherical d
   function), x component, centres moved by (1, 2, 3): L_x gains 2 p_z - 3 p_y *)
Example C12_assembled_instance :
  forall (opi : Qc) (osqrt oexp oln : Qc -> Qc) (oboys : nat -> Qc -> Qc),
  let K := KQ opi osqrt oexp oln oboys in
  let t := (Q2Qc 1, Q2Qc 2, Q2Qc 3) in
  let Lt := nth 8 (nth 12 (angmom_integral_re K (map (shift_shell K (Q2Qc 1) (Q2Qc 2) (Q2Qc 3)) ex_mixed) None) []) [] in
  let L0 := nth 8 (nth 12 (angmom_integral_re K ex_mixed None) []) [] in
  let P := nth 8 (nth 12 (momentum_integral_re K ex_mixed None) []) [] in
  nth 0 Lt (f0 K)
  = fadd K (fadd K (nth 0 L0 (f0 K)) (fmul K (tget t 1) (nth 2 P (f0 K))))
           (fmul K (fopp K (tget t 2)) (nth 1 P (f0 K))).
Proof. exact ex_angmom_shift. Qed.
Print Assumptions C12_assembled_instance.
