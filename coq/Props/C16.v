(* Props/C16.v — theorems backing property C16 (analytic integrals and pointwise evaluations describe the
   same functions).  Only statements, proved from the lemmas of Proofs/SameFunP.v, each followed by
   Print Assumptions.  All statements hold for every list of shells, every angular momentum, contraction
   length, number of segments, coordinate type, centre, exponent, point, derivative order, moment origin and
   order: there is no bound.

   bf_k := k-th element of [descr_basis K basis] : a list of weighted primitive Gaussians
           (weight, centre, exponent, monomial); see C16_descriptor_structure.
   eval_spec bf r        = sum_i w_i (x-X)^a (y-Y)^b (z-Z)^c exp(-alpha_i |r-R|^2)        (C16_eval_spec_is_the_sum)
   pair_spec I bf bf'    = sum_i sum_j w_i w'_j I(prim_i, prim'_j)
   Iov / Imom / Ikin     = the E-functional expressions (Gauss/Moment1D.v) of a PAIR OF PRIMITIVES:
                           what the analytic bridge (B1) of DESIGN 2.6 reads as the integral of their product
                           (times the moment monomial; for Ikin: of -1/2 phi_a Laplacian phi_b).
   (B1) itself — "the Lebesgue integral of a polynomial times a Gaussian is sqrt(pi/p) m_n" — is TRUSTED; it
   enters C16_integral_* below as an explicit hypothesis on an arbitrary linear functional. *)
From Coq Require Import List Arith ZArith.
From GB Require Import Base.Field Base.FNum Base.Tables Model.Shell Model.MomentInt Model.Spherical
  Model.Assembly Model.Overlap Model.DiffOp Model.OneBody Model.Eval Proofs.SameFunP.
Import ListNotations.

(* The theorem of DESIGN 5/C16: ONE descriptor list serves the evaluation model and the overlap / moment /
   kinetic models — same functions, same order (segment-major, then component), same weights and signs. *)
Theorem same_function_objects :
  forall (F : Type) (K : Fops F), is_field K -> (forall x, fapx K x = x) ->
  forall (basis : list (shell F)) (pts : list point) (o : comp) (Cx Cy Cz : F) (orders : list comp) (d : nat),
  fadd K (f1 K) (f1 K) <> f0 K -> Forall shell_wf basis ->
  (forall sa sb, In sa basis -> In sb basis -> exps_ok K sa sb) ->
  d < length orders ->
  let ds := descr_basis K basis in
  evaluate_deriv_basis_model K basis pts o None General = Some (map (fun bf => map (deriv_spec K o bf) pts) ds)
  /\ evaluate_basis_model K basis pts None = map (fun bf => map (eval_spec K bf) pts) ds
  /\ overlap_integral K basis None = outer (pair_spec K (Iov K)) ds ds
  /\ map (map (fun v => nth d v (f0 K))) (moment_integral K Cx Cy Cz orders basis None)
     = outer (pair_spec K (Imom K Cx Cy Cz (nth d orders (0, 0, 0)))) ds ds
  /\ kinetic_integral K basis None = outer (pair_spec K (Ikin K)) ds ds.
Proof. exact @SameFunP.same_function_objects. Qed.
Print Assumptions same_function_objects.

(* what a function descriptor is: weights = norm_cont x coefficient x norm_prim, component order = comps_of,
   spherical rows = rows of generate_transformation, segment-major *)
Theorem C16_descriptor_structure :
  forall (F : Type) (K : Fops F) (s : shell F),
  descr K s = concat (mk (nseg s) (fun m =>
    let carts := mk (length (comps_of s)) (cart_desc K s m) in
    if s_sph s then map (fun trow => dcomb K trow carts) (shell_transform K s) else carts))
  /\ forall m ic,
     cart_desc K s m ic
     = map (fun ae : F * list F =>
              mkT (fmul K (nth ic (nth m (norm_cont K s) []) (f0 K))
                          (fmul K (nth m (snd ae) (f0 K))
                                  (norm_prim K (s_l s) (nth ic (comps_of s) (0, 0, 0)) (fst ae))))
                  (mkG (s_x s) (s_y s) (s_z s) (fst ae) (nth ic (comps_of s) (0, 0, 0))))
           (combine (s_exps s) (s_coeffs s)).
Proof. split; reflexivity. Qed.
Print Assumptions C16_descriptor_structure.

Theorem C16_eval_spec_is_the_sum :
  forall (F : Type) (K : Fops F) (d : fdesc) (r : point),
  eval_spec K d r = fsum K (map (fun t =>
    let dx := fsub K (fst (fst r)) (t_x t) in let dy := fsub K (snd (fst r)) (t_y t) in
    let dz := fsub K (snd r) (t_z t) in
    fmul K (fmul K (t_w t) (fmul K (fmul K (fpow K dx (cx (t_c t))) (fpow K dy (cy (t_c t)))) (fpow K dz (cz (t_c t)))))
           (fexp K (fopp K (fmul K (t_a t) (fadd K (fadd K (fmul K dx dx) (fmul K dy dy)) (fmul K dz dz)))))) d).
Proof. reflexivity. Qed.
Print Assumptions C16_eval_spec_is_the_sum.

(* number of functions of a shell: segments x (components | spherical labels) *)
Theorem C16_descriptor_count :
  forall (F : Type) (K : Fops F) (s : shell F),
  length (descr K s) = nseg s * nrows K s
  /\ nrows K s = (if s_sph s then length (labels_of s) else length (comps_of s)).
Proof. exact (fun F K s => conj (descr_length K s) (nrows_eq K s)). Qed.
Print Assumptions C16_descriptor_count.

(* evaluation side alone (needs only well-formed component lists), any derivative order *)
Theorem C16_eval_model_is_eval_of_descriptors :
  forall (F : Type) (K : Fops F), is_field K ->
  forall (o : comp) (pts : list point) (basis : list (shell F)), Forall comps_ok basis ->
  evaluate_deriv_basis_model K basis pts o None General
  = Some (map (fun bf => map (deriv_spec K o bf) pts) (descr_basis K basis)).
Proof. exact @same_function_eval. Qed.
Print Assumptions C16_eval_model_is_eval_of_descriptors.

(* with a transformation matrix: row i is the combination sum_k T[i][k] bf_k *)
Theorem C16_eval_model_transformed :
  forall (F : Type) (K : Fops F), is_field K ->
  forall (o : comp) (pts : list point) (basis : list (shell F)) (T : list (list F)),
  Forall comps_ok basis -> descr_basis K basis <> [] ->
  evaluate_deriv_basis_model K basis pts o (Some T) General
  = Some (map (fun trow => map (deriv_spec K o (dcomb K trow (descr_basis K basis))) pts) T).
Proof. exact @same_function_eval_transformed. Qed.
Print Assumptions C16_eval_model_transformed.

(* integral side per shell pair (what base_two_symm.py does to one block, every cart/sph combination) *)
Theorem C16_overlap_block_is_pairing_table :
  forall (F : Type) (K : Fops F), is_field K -> (forall x, fapx K x = x) ->
  forall sa sb : shell F, fadd K (f1 K) (f1 K) <> f0 K -> comps_ok sa -> comps_ok sb -> exps_ok K sa sb ->
  pblock K (f0 K) (fadd K) (fmul K) (overlap_block K) (prep K sa) (prep K sb)
  = outer (pair_spec K (Iov K)) (descr K sa) (descr K sb).
Proof. exact @same_function_pblock_overlap. Qed.
Print Assumptions C16_overlap_block_is_pairing_table.

Theorem C16_kinetic_block_is_pairing_table :
  forall (F : Type) (K : Fops F), is_field K -> (forall x, fapx K x = x) ->
  forall sa sb : shell F, fadd K (f1 K) (f1 K) <> f0 K -> comps_ok sa -> comps_ok sb -> exps_ok K sa sb ->
  pblock K (f0 K) (fadd K) (fmul K) (kinetic_block K) (prep K sa) (prep K sb)
  = outer (pair_spec K (Ikin K)) (descr K sa) (descr K sb).
Proof. exact @same_function_pblock_kinetic. Qed.
Print Assumptions C16_kinetic_block_is_pairing_table.

(* the pairings are symmetric (overlap / moments: exchanging the two primitives; kinetic: integration by
   parts on both sides), which is what lets the mirrored assembly be the full table *)
Theorem C16_pairings_symmetric :
  forall (F : Type) (K : Fops F), is_field K ->
  (forall Cx Cy Cz o g1 g2, Imom K Cx Cy Cz o g1 g2 = Imom K Cx Cy Cz o g2 g1)
  /\ (forall g1 g2, psum K (g_a g1) (g_a g2) <> f0 K -> fadd K (f1 K) (f1 K) <> f0 K -> Ikin K g1 g2 = Ikin K g2 g1).
Proof. exact (fun F K Kf => conj (Imom_sym K Kf) (Ikin_sym K Kf)). Qed.
Print Assumptions C16_pairings_symmetric.

(* ---- the bridge, with (B1) as an explicit hypothesis on an ARBITRARY functional Lin ---- *)
(* if Lin is extensional, additive, homogeneous and returns I(g1, g2) on the product of two unit-weight
   primitives, then Lin(phi_i phi_j) is the pairing of their descriptors = the overlap-model entry *)
Theorem C16_integral_of_product :
  forall (F : Type) (K : Fops F), is_field K ->
  forall Lin : (point -> F) -> F,
  (forall f g, (forall r, f r = g r) -> Lin f = Lin g) ->
  (forall f g, Lin (fun r => fadd K (f r) (g r)) = fadd K (Lin f) (Lin g)) ->
  (forall c f, Lin (fun r => fmul K c (f r)) = fmul K c (Lin f)) ->
  forall Ip : gprim -> gprim -> F, (forall g1 g2, Lin (q_ov K g1 g2) = Ip g1 g2) ->
  forall d1 d2, Lin (fun r => fmul K (eval_spec K d1 r) (eval_spec K d2 r)) = pair_spec K Ip d1 d2.
Proof. exact @lin_of_product. Qed.
Print Assumptions C16_integral_of_product.

(* trace identity: Lin(rho_P) = sum_ab P_ab S_ab (= tr(P S) for symmetric P), by linearity over finite sums *)
Theorem C16_integral_of_density :
  forall (F : Type) (K : Fops F), is_field K ->
  forall Lin : (point -> F) -> F,
  (forall f g, (forall r, f r = g r) -> Lin f = Lin g) ->
  (forall f g, Lin (fun r => fadd K (f r) (g r)) = fadd K (Lin f) (Lin g)) ->
  (forall c f, Lin (fun r => fmul K c (f r)) = fmul K c (Lin f)) ->
  forall Ip : gprim -> gprim -> F, (forall g1 g2, Lin (q_ov K g1 g2) = Ip g1 g2) ->
  forall (P : list (list F)) (ds : list fdesc),
  Lin (fun r => contract2 K P ds (fun da db => fmul K (eval_spec K da r) (eval_spec K db r)))
  = contract2 K P ds (pair_spec K Ip).
Proof. exact @lin_of_density. Qed.
Print Assumptions C16_integral_of_density.

(* half the products of gradients -> kinetic pairing; positive-definite kinetic-energy density -> tr(P T) *)
Theorem C16_integral_of_gradient_product :
  forall (F : Type) (K : Fops F), is_field K ->
  forall Lin : (point -> F) -> F,
  (forall f g, (forall r, f r = g r) -> Lin f = Lin g) ->
  (forall f g, Lin (fun r => fadd K (f r) (g r)) = fadd K (Lin f) (Lin g)) ->
  (forall c f, Lin (fun r => fmul K c (f r)) = fmul K c (Lin f)) ->
  forall Ip : gprim -> gprim -> F, (forall g1 g2, Lin (q_kin K g1 g2) = Ip g1 g2) ->
  forall d1 d2,
  Lin (fun r => fmul K (fdiv K (f1 K) (fadd K (f1 K) (f1 K)))
         (fadd K (fadd K (fmul K (deriv_spec K (1,0,0) d1 r) (deriv_spec K (1,0,0) d2 r))
                         (fmul K (deriv_spec K (0,1,0) d1 r) (deriv_spec K (0,1,0) d2 r)))
                 (fmul K (deriv_spec K (0,0,1) d1 r) (deriv_spec K (0,0,1) d2 r))))
  = pair_spec K Ip d1 d2.
Proof.
  intros F K Kf Lin Lext Ladd Lscale Ip B1.
  exact (lin_pairing_of K Kf Lin Lext Ladd Lscale (q_kin K) Ip B1 _ (grad_product K Kf)).
Qed.
Print Assumptions C16_integral_of_gradient_product.

Theorem C16_integral_of_posdef_ked :
  forall (F : Type) (K : Fops F), is_field K ->
  forall Lin : (point -> F) -> F,
  (forall f g, (forall r, f r = g r) -> Lin f = Lin g) ->
  (forall f g, Lin (fun r => fadd K (f r) (g r)) = fadd K (Lin f) (Lin g)) ->
  (forall c f, Lin (fun r => fmul K c (f r)) = fmul K c (Lin f)) ->
  forall Ip : gprim -> gprim -> F, (forall g1 g2, Lin (q_kin K g1 g2) = Ip g1 g2) ->
  forall (P : list (list F)) (ds : list fdesc),
  Lin (fun r => contract2 K P ds (fun da db =>
         fmul K (fdiv K (f1 K) (fadd K (f1 K) (f1 K)))
           (fadd K (fadd K (fmul K (deriv_spec K (1,0,0) da r) (deriv_spec K (1,0,0) db r))
                           (fmul K (deriv_spec K (0,1,0) da r) (deriv_spec K (0,1,0) db r)))
                   (fmul K (deriv_spec K (0,0,1) da r) (deriv_spec K (0,0,1) db r)))))
  = contract2 K P ds (pair_spec K Ip).
Proof.
  intros F K Kf Lin Lext Ladd Lscale Ip B1.
  exact (lin_contract_of K Kf Lin Lext Ladd Lscale (q_kin K) Ip B1 _ (grad_product K Kf)).
Qed.
Print Assumptions C16_integral_of_posdef_ked.

(* ---- the hypotheses are satisfiable ---- *)
Example C16_default_components_ok :
  forall (F : Type) (s : shell F), s_comps s = [] -> comps_ok s.
Proof. exact @default_comps_ok. Qed.
Print Assumptions C16_default_components_ok.

(* a non-trivial functional meeting the hypotheses on Lin: evaluation at a point *)
Example C16_functional_hypotheses :
  forall (F : Type) (K : Fops F) (r0 : point (F:=F)) (q : @gprim F -> @gprim F -> point (F:=F) -> F),
  let Lin := fun f : point (F:=F) -> F => f r0 in
  (forall f g, (forall r, f r = g r) -> Lin f = Lin g) /\
  (forall f g, Lin (fun r => fadd K (f r) (g r)) = fadd K (Lin f) (Lin g)) /\
  (forall c f, Lin (fun r => fmul K c (f r)) = fmul K c (Lin f)) /\
  (forall g1 g2, Lin (q g1 g2) = q g1 g2 r0).
Proof. intros F K r0 q. cbv zeta. repeat split; intros; auto. Qed.
Print Assumptions C16_functional_hypotheses.

(* concrete shells over Qc (a generalized Cartesian p shell K = 2, M = 2 and a spherical d shell, off the
   origin): the hypotheses of same_function_objects hold, and its five equations in the boolean form a test
   would print (instances of the theorem, not an independent evaluation) *)
Example C16_example_hypotheses :
  is_field Ex.KQ /\ (forall x, fapx Ex.KQ x = x) /\ fadd Ex.KQ (f1 Ex.KQ) (f1 Ex.KQ) <> f0 Ex.KQ
  /\ Forall shell_wf Ex.basis
  /\ (forall sa sb, In sa Ex.basis -> In sb Ex.basis -> exps_ok Ex.KQ sa sb).
Proof. exact Ex.ex_hyps. Qed.
Print Assumptions C16_example_hypotheses.

Example C16_example_sizes :
  length Ex.ds = 11 /\ length (descr Ex.KQ Ex.sP) = 6 /\ length (descr Ex.KQ Ex.sD) = 5.
Proof.
  unfold Ex.ds, descr_basis, Ex.basis. cbn [map concat].
  rewrite !app_length, !descr_length, !nrows_eq. cbn. auto.
Qed.
Print Assumptions C16_example_sizes.

Example C16_example_eval :
  Ex.mat_eqb (evaluate_basis_model Ex.KQ Ex.basis Ex.pts None)
             (map (fun bf => map (eval_spec Ex.KQ bf) Ex.pts) Ex.ds) = true.
Proof.
  destruct Ex.ex_hyps as (Kf & _ & _ & W & _).
  rewrite (same_function_eval_values Ex.KQ Kf Ex.basis Ex.pts (comps_ok_of_wf Ex.basis W)).
  apply Ex.mat_eqb_refl.
Qed.
Print Assumptions C16_example_eval.

Example C16_example_deriv :
  match evaluate_deriv_basis_model Ex.KQ Ex.basis Ex.pts (1, 0, 2) None General with
  | Some m => Ex.mat_eqb m (map (fun bf => map (deriv_spec Ex.KQ (1, 0, 2) bf) Ex.pts) Ex.ds)
  | None => false
  end = true.
Proof.
  destruct Ex.ex_hyps as (Kf & _ & _ & W & _).
  rewrite (same_function_eval Ex.KQ Kf (1, 0, 2) Ex.pts Ex.basis (comps_ok_of_wf Ex.basis W)).
  apply Ex.mat_eqb_refl.
Qed.
Print Assumptions C16_example_deriv.

Example C16_example_overlap :
  Ex.mat_eqb (overlap_integral Ex.KQ Ex.basis None) (outer (pair_spec Ex.KQ (Iov Ex.KQ)) Ex.ds Ex.ds) = true.
Proof.
  destruct Ex.ex_hyps as (Kf & Ha & H2 & W & E).
  rewrite (same_function_overlap Ex.KQ Kf Ha Ex.basis H2 W E). apply Ex.mat_eqb_refl.
Qed.
Print Assumptions C16_example_overlap.

Example C16_example_kinetic :
  Ex.mat_eqb (kinetic_integral Ex.KQ Ex.basis None) (outer (pair_spec Ex.KQ (Ikin Ex.KQ)) Ex.ds Ex.ds) = true.
Proof.
  destruct Ex.ex_hyps as (Kf & Ha & H2 & W & E).
  rewrite (same_function_kinetic Ex.KQ Kf Ha Ex.basis H2 W E). apply Ex.mat_eqb_refl.
Qed.
Print Assumptions C16_example_kinetic.

Example C16_example_moment :
  Ex.mat_eqb (map (map (fun v => nth 1 v (f0 Ex.KQ)))
                (moment_integral Ex.KQ (Ex.q 1 4) (Ex.q 0 1) (Ex.q (-1) 2) [(1, 0, 0); (0, 2, 1)] Ex.basis None))
             (outer (pair_spec Ex.KQ (Imom Ex.KQ (Ex.q 1 4) (Ex.q 0 1) (Ex.q (-1) 2) (0, 2, 1))) Ex.ds Ex.ds) = true.
Proof.
  destruct Ex.ex_hyps as (Kf & Ha & H2 & W & E).
  rewrite (same_function_moment Ex.KQ Kf Ha (Ex.q 1 4) (Ex.q 0 1) (Ex.q (-1) 2) [(1, 0, 0); (0, 2, 1)] Ex.basis 1
             H2 W E Nat.lt_1_2).
  apply Ex.mat_eqb_refl.
Qed.
Print Assumptions C16_example_moment.
