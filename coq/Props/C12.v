(* Props/C12.v — theorems backing property C12 (results are covariant under rigid motions).

   FULL STATEMENT of the property, in model terms (not proved in full): for every orthogonal matrix R
   (proper or improper) and every translation t, with every centre, point, charge position and the moment
   origin moved by x -> R x + t, each integral array of the moved system is the array of the original system
   transformed by one representation matrix per basis index (the representation of R on the degree-l
   polynomials, in gbasis' per-component normalisation; the induced (2l+1)x(2l+1) orthogonal matrix for
   spherical shells), with vector / tensor components (moments, momentum, derivatives) rotating with R and the
   angular momentum with det(R) R; values, densities and potentials at the moved points are unchanged; and
   quantities about the coordinate origin shift by d x p / binomially.
   [C12_general_rotation_law_overlap_statement] below writes this out for the overlap block as a Coq
   proposition (a Definition: it is neither proved nor assumed anywhere).

   PROVED here (all inputs, no bound): the translation part for every model; the origin laws; the 48 signed
   axis permutations (one reflection + two transpositions generate them) for the separable integrals at the
   levels named in each theorem; for Boys-type integrals the law at the level of the specification.
   Theorems whose name ends in _partial prove less than the sentence of the property they belong to; the comment
   says what is missing.  NOT PROVED: general rotations (needs the representation theory of O(3) on
   homogeneous polynomials); decided by the correspondence check harness/c12.py only (rational rotations from
   integer quaternions, tolerance 1e-9).
   This file is generated from the lemma list in tools/gen_c12_props.py: the statements are those printed by Coq
   for the lemmas of Proofs/RigidP.v. *)
From Coq Require Import List Arith ZArith QArith Qcanon Field_theory.
From GB Require Import Base.Field Base.FNum Base.Tables Gauss.Moment1D Gauss.SPoly Model.Shell Model.MomentInt
  Model.DiffOp Model.OneElec Model.TwoElec Model.Eval Model.Overlap Model.OneBody Model.Assembly Proofs.RigidP.
Import ListNotations.

(* the law for general rotations, written out for Overlap.construct_array_contraction (see Proofs/RigidP.v,
   Section FullStatement, for the vocabulary: orthogonal, rot_shell, mono_rep, dfnorm) *)
Definition C12_general_rotation_law_overlap_statement : Prop :=
  forall (F : Type) (K : Fops F), is_field K -> rotation_law_overlap K.

(* 1. Translation invariance (every model sees centres, points, charges and the moment origin only through differences) *)

(* one axis, one primitive pair: the whole Obara-Saika table (all la lb, all moment orders) *)
Theorem C12_translation_moment_table :
  forall (F : Type) (K : Fops F),
  is_field K ->
  forall (Ax Bx Cx alpha beta t : F) (la lb km : nat),
  psum K alpha beta <> f0 K ->
  table K (fadd K Ax t) (fadd K Bx t) (fadd K Cx t) alpha beta la lb km =
  table K Ax Bx Cx alpha beta la lb km.
Proof. exact (@table_shift). Qed.
Print Assumptions C12_translation_moment_table.

(* the padded derivative table of _diff_operator_int.py, every order D *)
Theorem C12_translation_derivative_table :
  forall (F : Type) (K : Fops F),
  is_field K ->
  forall (Ax Bx alpha beta t : F) (la lb D : nat),
  psum K alpha beta <> f0 K ->
  dtable K (fadd K Ax t) (fadd K Bx t) alpha beta la lb D = dtable K Ax Bx alpha beta la lb D.
Proof. exact (@dtable_shift). Qed.
Print Assumptions C12_translation_derivative_table.

(* point-charge primitive cube: PA, PC, AB, the exp argument and the Boys argument are unchanged *)
Theorem C12_translation_vrr_primitive :
  forall (F : Type) (K : Fops F),
  is_field K ->
  forall (L : nat) (Ax Ay Az Bx By Bz Cx Cy Cz alpha beta tx ty tz : F),
  fadd K alpha beta <> f0 K ->
  vrr_prim K L (fadd K Ax tx) (fadd K Ay ty) (fadd K Az tz) (fadd K Bx tx) 
    (fadd K By ty) (fadd K Bz tz) (fadd K Cx tx) (fadd K Cy ty) (fadd K Cz tz) alpha beta =
  vrr_prim K L Ax Ay Az Bx By Bz Cx Cy Cz alpha beta.
Proof. exact (@vrr_prim_shift). Qed.
Print Assumptions C12_translation_vrr_primitive.

(* electron-repulsion primitive: vertical recursion + electron transfer, all four centres moved *)
Theorem C12_translation_eri_primitive :
  forall (F : Type) (K : Fops F),
  is_field K ->
  forall (L Lc : nat) (Ax Ay Az Bx By Bz Cx Cy Cz Dx Dy Dz alpha beta gamma delta tx ty tz : F),
  fadd K alpha beta <> f0 K ->
  fadd K gamma delta <> f0 K ->
  eri_prim K L Lc (fadd K Ax tx, fadd K Ay ty, fadd K Az tz)
    (fadd K Bx tx, fadd K By ty, fadd K Bz tz) (fadd K Cx tx, fadd K Cy ty, fadd K Cz tz)
    (fadd K Dx tx, fadd K Dy ty, fadd K Dz tz) alpha beta gamma delta =
  eri_prim K L Lc (Ax, Ay, Az) (Bx, By, Bz) (Cx, Cy, Cz) (Dx, Dy, Dz) alpha beta gamma delta.
Proof. exact (@eri_prim_shift). Qed.
Print Assumptions C12_translation_eri_primitive.

(* basis-function evaluation: the Gaussian argument and the three axis rows *)
Theorem C12_translation_eval_primitive :
  forall (F : Type) (K : Fops F),
  is_field K ->
  forall (md : rowmode) (ef : F -> F) (s : shell F) (o : comp) (tx ty tz : F) 
    (p : F * F * F) (alpha : F),
  prim_data K md ef (shift_shell K tx ty tz s) o (shift_point K tx ty tz p) alpha =
  prim_data K md ef s o p alpha.
Proof. exact (@prim_data_shift). Qed.
Print Assumptions C12_translation_eval_primitive.

(* _compute_multipole_moment_integrals with the origin moved along *)
Theorem C12_translation_multipole_block :
  forall (F : Type) (K : Fops F),
  is_field K ->
  forall (Cx Cy Cz : F) (orders : list comp) (sa sb : shell F) (tx ty tz : F),
  exps_ok K sa sb ->
  mm_block K (fadd K Cx tx) (fadd K Cy ty) (fadd K Cz tz) orders (shift_shell K tx ty tz sa)
    (shift_shell K tx ty tz sb) = mm_block K Cx Cy Cz orders sa sb.
Proof. exact (@mm_block_shift). Qed.
Print Assumptions C12_translation_multipole_block.

(* Moment.construct_array_contraction *)
Theorem C12_translation_moment_block :
  forall (F : Type) (K : Fops F),
  is_field K ->
  forall (Cx Cy Cz : F) (orders : list comp) (sa sb : shell F) (tx ty tz : F),
  exps_ok K sa sb ->
  moment_block K (fadd K Cx tx) (fadd K Cy ty) (fadd K Cz tz) orders (shift_shell K tx ty tz sa)
    (shift_shell K tx ty tz sb) = moment_block K Cx Cy Cz orders sa sb.
Proof. exact (@moment_block_shift). Qed.
Print Assumptions C12_translation_moment_block.

(* Overlap.construct_array_contraction *)
Theorem C12_translation_overlap_block :
  forall (F : Type) (K : Fops F),
  is_field K ->
  forall (sa sb : shell F) (tx ty tz : F),
  exps_ok K sa sb ->
  overlap_block K (shift_shell K tx ty tz sa) (shift_shell K tx ty tz sb) = overlap_block K sa sb.
Proof. exact (@overlap_block_shift). Qed.
Print Assumptions C12_translation_overlap_block.

(* _compute_differential_operator_integrals, any list of orders *)
Theorem C12_translation_diffop_block :
  forall (F : Type) (K : Fops F),
  is_field K ->
  forall (orders : list comp) (sa sb : shell F) (tx ty tz : F),
  exps_ok K sa sb ->
  diffop_block K orders (shift_shell K tx ty tz sa) (shift_shell K tx ty tz sb) =
  diffop_block K orders sa sb.
Proof. exact (@diffop_block_shift). Qed.
Print Assumptions C12_translation_diffop_block.

(* KineticEnergyIntegral.construct_array_contraction *)
Theorem C12_translation_kinetic_block :
  forall (F : Type) (K : Fops F),
  is_field K ->
  forall (sa sb : shell F) (tx ty tz : F),
  exps_ok K sa sb ->
  kinetic_block K (shift_shell K tx ty tz sa) (shift_shell K tx ty tz sb) = kinetic_block K sa sb.
Proof. exact (@kinetic_block_shift). Qed.
Print Assumptions C12_translation_kinetic_block.

(* MomentumIntegral.construct_array_contraction (real matrix R of -iR) *)
Theorem C12_translation_momentum_block :
  forall (F : Type) (K : Fops F),
  is_field K ->
  forall (sa sb : shell F) (tx ty tz : F),
  exps_ok K sa sb ->
  momentum_block_re K (shift_shell K tx ty tz sa) (shift_shell K tx ty tz sb) =
  momentum_block_re K sa sb.
Proof. exact (@momentum_block_shift). Qed.
Print Assumptions C12_translation_momentum_block.

(* _compute_one_elec_integrals for one point charge *)
Theorem C12_translation_one_elec_point :
  forall (F : Type) (K : Fops F),
  is_field K ->
  forall (Cx Cy Cz : F) (sa sb : shell F) (tx ty tz : F),
  exps_ok K sa sb ->
  one_elec_point K (fadd K Cx tx) (fadd K Cy ty) (fadd K Cz tz) (shift_shell K tx ty tz sa)
    (shift_shell K tx ty tz sb) = one_elec_point K Cx Cy Cz sa sb.
Proof. exact (@one_elec_point_shift). Qed.
Print Assumptions C12_translation_one_elec_point.

(* PointChargeIntegral.construct_array_contraction, all charges moved *)
Theorem C12_translation_point_charge_block :
  forall (F : Type) (K : Fops F),
  is_field K ->
  forall (points : list (F * F * F * F)) (sa sb : shell F) (tx ty tz : F),
  exps_ok K sa sb ->
  point_charge_block K (map (shift_charge K tx ty tz) points) (shift_shell K tx ty tz sa)
    (shift_shell K tx ty tz sb) = point_charge_block K points sa sb.
Proof. exact (@point_charge_block_shift). Qed.
Print Assumptions C12_translation_point_charge_block.

(* ElectronRepulsionIntegral.construct_array_contraction *)
Theorem C12_translation_eri_block :
  forall (F : Type) (K : Fops F),
  is_field K ->
  forall (s1 s2 s3 s4 : shell F) (tx ty tz : F),
  exps_ok K s1 s2 ->
  exps_ok K s3 s4 ->
  eri_block K (shift_shell K tx ty tz s1) (shift_shell K tx ty tz s2) (shift_shell K tx ty tz s3)
    (shift_shell K tx ty tz s4) = eri_block K s1 s2 s3 s4.
Proof. exact (@eri_block_shift). Qed.
Print Assumptions C12_translation_eri_block.

(* the (M, L, N) evaluation block for any row mode (both back-ends, error scales) *)
Theorem C12_translation_eval_block_with :
  forall (F : Type) (K : Fops F),
  is_field K ->
  forall (md : rowmode) (cm ef : F -> F) (s : shell F) (o : comp) (pts : list (F * F * F))
    (tx ty tz : F),
  block_with K md cm ef (shift_shell K tx ty tz s) o (map (shift_point K tx ty tz) pts) =
  block_with K md cm ef s o pts.
Proof. exact (@block_with_shift). Qed.
Print Assumptions C12_translation_eval_block_with.

(* EvalDeriv.construct_array_contraction, any order and back-end (including refusals) *)
Theorem C12_translation_eval_block :
  forall (F : Type) (K : Fops F),
  is_field K ->
  forall (s : shell F) (pts : list (F * F * F)) (o : comp) (bk : backend) (tx ty tz : F),
  eval_block K (shift_shell K tx ty tz s) (map (shift_point K tx ty tz) pts) o bk =
  eval_block K s pts o bk.
Proof. exact (@eval_block_shift). Qed.
Print Assumptions C12_translation_eval_block.

(* the public overlap_integral of a whole basis (Cartesian/spherical/mixed, any transform) *)
Theorem C12_translation_overlap_integral :
  forall (F : Type) (K : Fops F),
  is_field K ->
  forall (tx ty tz : F) (basis : list (shell F)) (T : option (list (list F))),
  basis_ok K basis ->
  overlap_integral K (map (shift_shell K tx ty tz) basis) T = overlap_integral K basis T.
Proof. exact (@overlap_integral_shift). Qed.
Print Assumptions C12_translation_overlap_integral.

(* kinetic_energy_integral *)
Theorem C12_translation_kinetic_integral :
  forall (F : Type) (K : Fops F),
  is_field K ->
  forall (tx ty tz : F) (basis : list (shell F)) (T : option (list (list F))),
  basis_ok K basis ->
  kinetic_integral K (map (shift_shell K tx ty tz) basis) T = kinetic_integral K basis T.
Proof. exact (@kinetic_integral_shift). Qed.
Print Assumptions C12_translation_kinetic_integral.

(* moment_integral with the origin moved along *)
Theorem C12_translation_moment_integral :
  forall (F : Type) (K : Fops F),
  is_field K ->
  forall (tx ty tz Cx Cy Cz : F) (orders : list comp) (basis : list (shell F))
    (T : option (list (list F))),
  basis_ok K basis ->
  moment_integral K (fadd K Cx tx) (fadd K Cy ty) (fadd K Cz tz) orders
    (map (shift_shell K tx ty tz) basis) T = moment_integral K Cx Cy Cz orders basis T.
Proof. exact (@moment_integral_shift). Qed.
Print Assumptions C12_translation_moment_integral.

(* point_charge_integral *)
Theorem C12_translation_point_charge_integral :
  forall (F : Type) (K : Fops F),
  is_field K ->
  forall (tx ty tz : F) (points : list (F * F * F * F)) (basis : list (shell F))
    (T : option (list (list F))),
  basis_ok K basis ->
  point_charge_integral K (map (shift_charge K tx ty tz) points) (map (shift_shell K tx ty tz) basis)
    T = point_charge_integral K points basis T.
Proof. exact (@point_charge_integral_shift). Qed.
Print Assumptions C12_translation_point_charge_integral.

(* nuclear_electron_attraction_integral *)
Theorem C12_translation_nuclear_attraction_integral :
  forall (F : Type) (K : Fops F),
  is_field K ->
  forall (tx ty tz : F) (points : list (F * F * F * F)) (basis : list (shell F))
    (T : option (list (list F))),
  basis_ok K basis ->
  nuclear_attraction_integral K (map (shift_charge K tx ty tz) points)
    (map (shift_shell K tx ty tz) basis) T = nuclear_attraction_integral K points basis T.
Proof. exact (@nuclear_attraction_integral_shift). Qed.
Print Assumptions C12_translation_nuclear_attraction_integral.

(* evaluate_deriv_basis at the moved points (any order, back-end, transform) *)
Theorem C12_translation_evaluate_deriv_basis :
  forall (F : Type) (K : Fops F),
  is_field K ->
  forall (tx ty tz : F) (basis : list (shell F)) (pts : list (F * F * F)) 
    (o : comp) (T : option (list (list F))) (bk : backend),
  (forall s : shell F, In s basis -> exps_ok K s s) ->
  evaluate_deriv_basis_model K (map (shift_shell K tx ty tz) basis) (map (shift_point K tx ty tz) pts)
    o T bk = evaluate_deriv_basis_model K basis pts o T bk.
Proof. exact (@evaluate_deriv_basis_shift). Qed.
Print Assumptions C12_translation_evaluate_deriv_basis.

(* evaluate_basis at the moved points *)
Theorem C12_translation_evaluate_basis :
  forall (F : Type) (K : Fops F),
  is_field K ->
  forall (tx ty tz : F) (basis : list (shell F)) (pts : list (F * F * F)) (T : option (list (list F))),
  (forall s : shell F, In s basis -> exps_ok K s s) ->
  evaluate_basis_model K (map (shift_shell K tx ty tz) basis) (map (shift_point K tx ty tz) pts) T =
  evaluate_basis_model K basis pts T.
Proof. exact (@evaluate_basis_shift). Qed.
Print Assumptions C12_translation_evaluate_basis.

(* 2. Origin laws *)

(* (y+c+t)^k = sum_m binom(k,m) t^(k-m) (y+c)^m under every E_n, any two other linear factors *)
Theorem C12_origin_shift_moments_S3 :
  forall (F : Type) (K : Fops F),
  is_field K ->
  forall (v a b c t : F) (k n i j : nat),
  S3 K v a b (fadd K c t) n k i j = bsum K t k (fun m : nat => S3 K v a b c n m i j).
Proof. exact (@S3_origin_shift). Qed.
Print Assumptions C12_origin_shift_moments_S3.

(* the 1-D moment integral about a displaced origin: binomial law *)
Theorem C12_origin_shift_moments_T3 :
  forall (F : Type) (K : Fops F),
  is_field K ->
  forall (v a b c t : F) (k i j : nat),
  T3 K v a b (fadd K c t) k i j = bsum K t k (fun m : nat => T3 K v a b c m i j).
Proof. exact (@T3_origin_shift). Qed.
Print Assumptions C12_origin_shift_moments_T3.

(* the same law for the table the code builds (origin Cx -> Cx - t), every entry *)
Theorem C12_origin_shift_moment_table :
  forall (F : Type) (K : Fops F),
  is_field K ->
  forall (Ax Bx Cx alpha beta t : F) (la lb km k j i : nat),
  psum K alpha beta <> f0 K ->
  fadd K (f1 K) (f1 K) <> f0 K ->
  (k <= km)%nat ->
  (j <= lb)%nat ->
  (i <= la)%nat ->
  nth3 K k j i (table K Ax Bx (fsub K Cx t) alpha beta la lb km) =
  bsum K t k (fun m : nat => nth3 K m j i (table K Ax Bx Cx alpha beta la lb km)).
Proof. exact (@table_origin_shift). Qed.
Print Assumptions C12_origin_shift_moment_table.

(* angular momentum about a displaced origin = L + t x p (t = -d) for the primitive products that
   angmom_block_re contracts (moment, derivative and momentum tables of the models) *)
Theorem C12_origin_shift_angular_momentum_primitive :
  forall (F : Type) (K : Fops F),
  is_field K ->
  forall (Ax Ay Az Bx By Bz alpha beta tx ty tz : F) (la lb : nat) (ca cb : comp),
  (forall x : F, fapx K x = x) ->
  fadd K alpha beta <> f0 K ->
  fadd K (f1 K) (f1 K) <> f0 K ->
  (fst (fst ca) <= la)%nat /\ (snd (fst ca) <= la)%nat /\ (snd ca <= la)%nat ->
  (fst (fst cb) <= lb)%nat /\ (snd (fst cb) <= lb)%nat /\ (snd cb <= lb)%nat ->
  let d :=
    (dtable K Ax Bx alpha beta la lb 1, dtable K Ay By alpha beta la lb 1,
     dtable K Az Bz alpha beta la lb 1) in
  let m0 :=
    (table K Ax Bx (f0 K) alpha beta la lb 1, table K Ay By (f0 K) alpha beta la lb 1,
     table K Az Bz (f0 K) alpha beta la lb 1) in
  let mt :=
    (table K (fadd K Ax tx) (fadd K Bx tx) (f0 K) alpha beta la lb 1,
     table K (fadd K Ay ty) (fadd K By ty) (f0 K) alpha beta la lb 1,
     table K (fadd K Az tz) (fadd K Bz tz) (f0 K) alpha beta la lb 1) in
  let p :=
    (prim3 K d (1%nat, 0%nat, 0%nat) ca cb, prim3 K d (0%nat, 1%nat, 0%nat) ca cb,
     prim3 K d (0%nat, 0%nat, 1%nat) ca cb) in
  angmom_prim K d mt ca cb =
  map (fun '(l, x) => fadd K l x) (combine (angmom_prim K d m0 ca cb) (cross3 K (tx, ty, tz) p)).
Proof. exact (@angmom_prim_shift). Qed.
Print Assumptions C12_origin_shift_angular_momentum_primitive.

(* AngularMomentumIntegral.construct_array_contraction is its three Cartesian component blocks zipped *)
Theorem C12_angular_momentum_block_components :
  forall (F : Type) (K : Fops F) (sa sb : shell F),
  angmom_block_re K sa sb =
  zip4 (fun (xy : list F) (z : F) => xy ++ [z])
    (zip4 (fun x y : F => [x; y]) (angmom_comp_block K sa sb 0) (angmom_comp_block K sa sb 1))
    (angmom_comp_block K sa sb 2).
Proof. exact (@angmom_block_re_comps). Qed.
Print Assumptions C12_angular_momentum_block_components.

(* MomentumIntegral.construct_array_contraction likewise *)
Theorem C12_momentum_block_components :
  forall (F : Type) (K : Fops F) (sa sb : shell F),
  momentum_block_re K sa sb =
  zip4 (fun (xy : list F) (z : F) => xy ++ [z])
    (zip4 (fun x y : F => [x; y]) (momentum_comp_block K sa sb 0) (momentum_comp_block K sa sb 1))
    (momentum_comp_block K sa sb 2).
Proof. exact (@momentum_block_re_comps). Qed.
Print Assumptions C12_momentum_block_components.

(* block level (through the contraction): every entry of every Cartesian component of the angular-momentum block of
   the moved shell pair = entry of the original + (t x p) with p the momentum block entries, i.e. L about a
   displaced origin = L - d x p; PARTIAL here (one shell pair); lifted through the Hermitian assembly to the whole-basis
   angmom_integral_re, any coordinate types, in Props/C12_assembled.v *)
Theorem C12_origin_shift_angular_momentum_block_partial :
  forall (F : Type) (K : Fops F),
  is_field K ->
  forall (sa sb : shell F) (tx ty tz : F) (c ma ia mb ib : nat),
  (forall x : F, fapx K x = x) ->
  fadd K (f1 K) (f1 K) <> f0 K ->
  exps_ok K sa sb ->
  comps_within sa ->
  comps_within sb ->
  (c < 3)%nat ->
  (ma < nseg sa)%nat ->
  (mb < nseg sb)%nat ->
  (ia < length (comps_of sa))%nat ->
  (ib < length (comps_of sb))%nat ->
  let t := (tx, ty, tz) in
  let p := fun k : nat => get4 K ma ia mb ib (momentum_comp_block K sa sb k) in
  get4 K ma ia mb ib (angmom_comp_block K (shift_shell K tx ty tz sa) (shift_shell K tx ty tz sb) c) =
  fadd K
    (fadd K (get4 K ma ia mb ib (angmom_comp_block K sa sb c))
       (fmul K (tget t ((c + 1) mod 3)) (p ((c + 2) mod 3))))
    (fmul K (fopp K (tget t ((c + 2) mod 3))) (p ((c + 1) mod 3))).
Proof. exact (@angmom_block_shift). Qed.
Print Assumptions C12_origin_shift_angular_momentum_block_partial.

(* 3. The 48 signed axis permutations (generated by one reflection and two transpositions) *)

(* parity of the 1-D moments, every auxiliary index n *)
Theorem C12_reflection_parity_S3 :
  forall (F : Type) (K : Fops F),
  is_field K ->
  forall (v a b c : F) (k i j n : nat),
  S3 K v (fopp K a) (fopp K b) (fopp K c) n k i j =
  fmul K (sg K (n + k + i + j)) (S3 K v a b c n k i j).
Proof. exact (@S3_parity). Qed.
Print Assumptions C12_reflection_parity_S3.

(* T3(-a,-b,-c)(k,i,j) = (-1)^(k+i+j) T3(a,b,c)(k,i,j) *)
Theorem C12_reflection_parity_T3 :
  forall (F : Type) (K : Fops F),
  is_field K ->
  forall (v a b c : F) (k i j : nat),
  T3 K v (fopp K a) (fopp K b) (fopp K c) k i j = fmul K (sg K (k + i + j)) (T3 K v a b c k i j).
Proof. exact (@T3_parity). Qed.
Print Assumptions C12_reflection_parity_T3.

(* the code's table for the reflected axis (centres and origin negated) *)
Theorem C12_reflection_parity_moment_table :
  forall (F : Type) (K : Fops F),
  is_field K ->
  forall (Ax Bx Cx alpha beta : F) (la lb : nat),
  psum K alpha beta <> f0 K ->
  fadd K (f1 K) (f1 K) <> f0 K ->
  forall km k j i : nat,
  (k <= km)%nat ->
  (j <= lb)%nat ->
  (i <= la)%nat ->
  nth3 K k j i (table K (fopp K Ax) (fopp K Bx) (fopp K Cx) alpha beta la lb km) =
  fmul K (sg K (k + i + j)) (nth3 K k j i (table K Ax Bx Cx alpha beta la lb km)).
Proof. exact (@table_parity). Qed.
Print Assumptions C12_reflection_parity_moment_table.

(* the derivative table: each derivative flips the parity once more *)
Theorem C12_reflection_parity_derivative_table :
  forall (F : Type) (K : Fops F),
  is_field K ->
  forall (Ax Bx alpha beta : F) (la lb : nat),
  psum K alpha beta <> f0 K ->
  fadd K (f1 K) (f1 K) <> f0 K ->
  forall D k j i : nat,
  (k <= D)%nat ->
  (j <= lb)%nat ->
  (i <= la)%nat ->
  nth3 K k j i (dtable K (fopp K Ax) (fopp K Bx) alpha beta la lb D) =
  fmul K (sg K (k + i + j)) (nth3 K k j i (dtable K Ax Bx alpha beta la lb D)).
Proof. exact (@dtable_parity). Qed.
Print Assumptions C12_reflection_parity_derivative_table.

(* the 3-D primitive is a product over the axes: exchanging x,y tables exchanges the component / order indices *)
Theorem C12_axis_swap_xy_primitive :
  forall (F : Type) (K : Fops F),
  is_field K ->
  forall (t : table3) (o ca cb : comp),
  prim3 K (swap_xy t) (swap_xy o) (swap_xy ca) (swap_xy cb) = prim3 K t o ca cb.
Proof. exact (@prim3_swap_xy). Qed.
Print Assumptions C12_axis_swap_xy_primitive.

(* same for y,z *)
Theorem C12_axis_swap_yz_primitive :
  forall (F : Type) (K : Fops F),
  is_field K ->
  forall (t : table3) (o ca cb : comp),
  prim3 K (swap_yz t) (swap_yz o) (swap_yz ca) (swap_yz cb) = prim3 K t o ca cb.
Proof. exact (@prim3_swap_yz). Qed.
Print Assumptions C12_axis_swap_yz_primitive.

(* reflection of the x axis multiplies the 3-D primitive by (-1)^(o_x+a_x+b_x) *)
Theorem C12_reflection_x_primitive :
  forall (F : Type) (K : Fops F),
  is_field K ->
  forall (Ax Bx Cx alpha beta : F) (la lb km : nat) (ty tz : list (list (list F))) (o ca cb : comp),
  (forall x : F, fapx K x = x) ->
  psum K alpha beta <> f0 K ->
  fadd K (f1 K) (f1 K) <> f0 K ->
  (fst (fst o) <= km)%nat ->
  (fst (fst ca) <= la)%nat ->
  (fst (fst cb) <= lb)%nat ->
  prim3 K (table K (fopp K Ax) (fopp K Bx) (fopp K Cx) alpha beta la lb km, ty, tz) o ca cb =
  fmul K (sg K (fst (fst o) + fst (fst ca) + fst (fst cb)))
    (prim3 K (table K Ax Bx Cx alpha beta la lb km, ty, tz) o ca cb).
Proof. exact (@prim3_reflect_x). Qed.
Print Assumptions C12_reflection_x_primitive.

(* same for the derivative family *)
Theorem C12_reflection_x_derivative_primitive :
  forall (F : Type) (K : Fops F),
  is_field K ->
  forall (Ax Bx alpha beta : F) (la lb D : nat) (ty tz : list (list (list F))) (o ca cb : comp),
  (forall x : F, fapx K x = x) ->
  psum K alpha beta <> f0 K ->
  fadd K (f1 K) (f1 K) <> f0 K ->
  (fst (fst o) <= D)%nat ->
  (fst (fst ca) <= la)%nat ->
  (fst (fst cb) <= lb)%nat ->
  prim3 K (dtable K (fopp K Ax) (fopp K Bx) alpha beta la lb D, ty, tz) o ca cb =
  fmul K (sg K (fst (fst o) + fst (fst ca) + fst (fst cb)))
    (prim3 K (dtable K Ax Bx alpha beta la lb D, ty, tz) o ca cb).
Proof. exact (@dprim3_reflect_x). Qed.
Print Assumptions C12_reflection_x_derivative_primitive.

(* block level: every entry of the multipole block of the x-reflected pair (origin reflected along) *)
Theorem C12_reflection_x_multipole_block :
  forall (F : Type) (K : Fops F),
  is_field K ->
  forall (Cx Cy Cz : F) (orders : list comp) (sa sb : shell F) (io ma ia mb ib : nat),
  (forall x : F, fapx K x = x) ->
  fadd K (f1 K) (f1 K) <> f0 K ->
  exps_ok K sa sb ->
  comps_within sa ->
  comps_within sb ->
  (io < length orders)%nat ->
  (ma < nseg sa)%nat ->
  (mb < nseg sb)%nat ->
  (ia < length (comps_of sa))%nat ->
  (ib < length (comps_of sb))%nat ->
  get4 K ma ia mb ib
    (nth io (mm_block K (fopp K Cx) Cy Cz orders (reflect_x_shell K sa) (reflect_x_shell K sb)) []) =
  fmul K
    (sg K
       (fst (fst (nth io orders (0%nat, 0%nat, 0%nat))) +
        fst (fst (nth ia (comps_of sa) (0%nat, 0%nat, 0%nat))) +
        fst (fst (nth ib (comps_of sb) (0%nat, 0%nat, 0%nat)))))
    (get4 K ma ia mb ib (nth io (mm_block K Cx Cy Cz orders sa sb) [])).
Proof. exact (@mm_block_reflect_x). Qed.
Print Assumptions C12_reflection_x_multipole_block.

(* Overlap.construct_array_contraction of the x-reflected pair *)
Theorem C12_reflection_x_overlap_block :
  forall (F : Type) (K : Fops F),
  is_field K ->
  forall (sa sb : shell F) (ma ia mb ib : nat),
  (forall x : F, fapx K x = x) ->
  fadd K (f1 K) (f1 K) <> f0 K ->
  exps_ok K sa sb ->
  comps_within sa ->
  comps_within sb ->
  (ma < nseg sa)%nat ->
  (mb < nseg sb)%nat ->
  (ia < length (comps_of sa))%nat ->
  (ib < length (comps_of sb))%nat ->
  get4 K ma ia mb ib (overlap_block K (reflect_x_shell K sa) (reflect_x_shell K sb)) =
  fmul K
    (sg K
       (fst (fst (nth ia (comps_of sa) (0%nat, 0%nat, 0%nat))) +
        fst (fst (nth ib (comps_of sb) (0%nat, 0%nat, 0%nat)))))
    (get4 K ma ia mb ib (overlap_block K sa sb)).
Proof. exact (@overlap_block_reflect_x). Qed.
Print Assumptions C12_reflection_x_overlap_block.

(* derivative blocks (kinetic, momentum) of the x-reflected pair *)
Theorem C12_reflection_x_diffop_block :
  forall (F : Type) (K : Fops F),
  is_field K ->
  forall (orders : list comp) (sa sb : shell F) (io ma ia mb ib : nat),
  (forall x : F, fapx K x = x) ->
  fadd K (f1 K) (f1 K) <> f0 K ->
  exps_ok K sa sb ->
  comps_within sa ->
  comps_within sb ->
  (io < length orders)%nat ->
  (ma < nseg sa)%nat ->
  (mb < nseg sb)%nat ->
  (ia < length (comps_of sa))%nat ->
  (ib < length (comps_of sb))%nat ->
  get4 K ma ia mb ib (nth io (diffop_block K orders (reflect_x_shell K sa) (reflect_x_shell K sb)) []) =
  fmul K
    (sg K
       (fst (fst (nth io orders (0%nat, 0%nat, 0%nat))) +
        fst (fst (nth ia (comps_of sa) (0%nat, 0%nat, 0%nat))) +
        fst (fst (nth ib (comps_of sb) (0%nat, 0%nat, 0%nat)))))
    (get4 K ma ia mb ib (nth io (diffop_block K orders sa sb) [])).
Proof. exact (@diffop_block_reflect_x). Qed.
Print Assumptions C12_reflection_x_diffop_block.

(* the hypothesis comps_within holds for the default Cartesian components *)
Theorem C12_default_components_within_l :
  forall (F : Type) (s : shell F), s_comps s = [] -> comps_within s.
Proof. exact (@default_comps_within). Qed.
Print Assumptions C12_default_components_within_l.

(* block level: the x<->y exchanged system's block read at the exchanged component positions *)
Theorem C12_axis_swap_xy_multipole_block :
  forall (F : Type) (K : Fops F),
  is_field K ->
  forall (Cx Cy Cz : F) (orders : list (nat * nat * nat)) (sa sb : shell F)
    (io ma ia ia' mb ib ib' : nat),
  (io < length orders)%nat ->
  (ma < nseg sa)%nat ->
  (mb < nseg sb)%nat ->
  (ia < length (comps_of sa))%nat ->
  (ia' < length (comps_of sa))%nat ->
  (ib < length (comps_of sb))%nat ->
  (ib' < length (comps_of sb))%nat ->
  nth ia' (comps_of sa) (0%nat, 0%nat, 0%nat) = swap_xy (nth ia (comps_of sa) (0%nat, 0%nat, 0%nat)) ->
  nth ib' (comps_of sb) (0%nat, 0%nat, 0%nat) = swap_xy (nth ib (comps_of sb) (0%nat, 0%nat, 0%nat)) ->
  get4 K ma ia' mb ib'
    (nth io (mm_block K Cy Cx Cz (map swap_xy orders) (swap_xy_shell sa) (swap_xy_shell sb)) []) =
  get4 K ma ia mb ib (nth io (mm_block K Cx Cy Cz orders sa sb) []).
Proof. exact (@mm_block_swap_xy). Qed.
Print Assumptions C12_axis_swap_xy_multipole_block.

(* block level, y<->z *)
Theorem C12_axis_swap_yz_multipole_block :
  forall (F : Type) (K : Fops F),
  is_field K ->
  forall (Cx Cy Cz : F) (orders : list (nat * nat * nat)) (sa sb : shell F)
    (io ma ia ia' mb ib ib' : nat),
  (io < length orders)%nat ->
  (ma < nseg sa)%nat ->
  (mb < nseg sb)%nat ->
  (ia < length (comps_of sa))%nat ->
  (ia' < length (comps_of sa))%nat ->
  (ib < length (comps_of sb))%nat ->
  (ib' < length (comps_of sb))%nat ->
  nth ia' (comps_of sa) (0%nat, 0%nat, 0%nat) = swap_yz (nth ia (comps_of sa) (0%nat, 0%nat, 0%nat)) ->
  nth ib' (comps_of sb) (0%nat, 0%nat, 0%nat) = swap_yz (nth ib (comps_of sb) (0%nat, 0%nat, 0%nat)) ->
  get4 K ma ia' mb ib'
    (nth io (mm_block K Cx Cz Cy (map swap_yz orders) (swap_yz_shell sa) (swap_yz_shell sb)) []) =
  get4 K ma ia mb ib (nth io (mm_block K Cx Cy Cz orders sa sb) []).
Proof. exact (@mm_block_swap_yz). Qed.
Print Assumptions C12_axis_swap_yz_multipole_block.

(* Overlap.construct_array_contraction *)
Theorem C12_axis_swap_xy_overlap_block :
  forall (F : Type) (K : Fops F),
  is_field K ->
  forall (sa sb : shell F) (ma ia ia' mb ib ib' : nat),
  (ma < nseg sa)%nat ->
  (mb < nseg sb)%nat ->
  (ia < length (comps_of sa))%nat ->
  (ia' < length (comps_of sa))%nat ->
  (ib < length (comps_of sb))%nat ->
  (ib' < length (comps_of sb))%nat ->
  nth ia' (comps_of sa) (0%nat, 0%nat, 0%nat) = swap_xy (nth ia (comps_of sa) (0%nat, 0%nat, 0%nat)) ->
  nth ib' (comps_of sb) (0%nat, 0%nat, 0%nat) = swap_xy (nth ib (comps_of sb) (0%nat, 0%nat, 0%nat)) ->
  get4 K ma ia' mb ib' (overlap_block K (swap_xy_shell sa) (swap_xy_shell sb)) =
  get4 K ma ia mb ib (overlap_block K sa sb).
Proof. exact (@overlap_block_swap_xy). Qed.
Print Assumptions C12_axis_swap_xy_overlap_block.

(* Overlap.construct_array_contraction *)
Theorem C12_axis_swap_yz_overlap_block :
  forall (F : Type) (K : Fops F),
  is_field K ->
  forall (sa sb : shell F) (ma ia ia' mb ib ib' : nat),
  (ma < nseg sa)%nat ->
  (mb < nseg sb)%nat ->
  (ia < length (comps_of sa))%nat ->
  (ia' < length (comps_of sa))%nat ->
  (ib < length (comps_of sb))%nat ->
  (ib' < length (comps_of sb))%nat ->
  nth ia' (comps_of sa) (0%nat, 0%nat, 0%nat) = swap_yz (nth ia (comps_of sa) (0%nat, 0%nat, 0%nat)) ->
  nth ib' (comps_of sb) (0%nat, 0%nat, 0%nat) = swap_yz (nth ib (comps_of sb) (0%nat, 0%nat, 0%nat)) ->
  get4 K ma ia' mb ib' (overlap_block K (swap_yz_shell sa) (swap_yz_shell sb)) =
  get4 K ma ia mb ib (overlap_block K sa sb).
Proof. exact (@overlap_block_swap_yz). Qed.
Print Assumptions C12_axis_swap_yz_overlap_block.

(* derivative blocks (kinetic, momentum): orders exchanged along *)
Theorem C12_axis_swap_xy_diffop_block :
  forall (F : Type) (K : Fops F),
  is_field K ->
  forall (orders : list (nat * nat * nat)) (sa sb : shell F) (io ma ia ia' mb ib ib' : nat),
  (io < length orders)%nat ->
  (ma < nseg sa)%nat ->
  (mb < nseg sb)%nat ->
  (ia < length (comps_of sa))%nat ->
  (ia' < length (comps_of sa))%nat ->
  (ib < length (comps_of sb))%nat ->
  (ib' < length (comps_of sb))%nat ->
  nth ia' (comps_of sa) (0%nat, 0%nat, 0%nat) = swap_xy (nth ia (comps_of sa) (0%nat, 0%nat, 0%nat)) ->
  nth ib' (comps_of sb) (0%nat, 0%nat, 0%nat) = swap_xy (nth ib (comps_of sb) (0%nat, 0%nat, 0%nat)) ->
  get4 K ma ia' mb ib'
    (nth io (diffop_block K (map swap_xy orders) (swap_xy_shell sa) (swap_xy_shell sb)) []) =
  get4 K ma ia mb ib (nth io (diffop_block K orders sa sb) []).
Proof. exact (@diffop_block_swap_xy). Qed.
Print Assumptions C12_axis_swap_xy_diffop_block.

(* derivative blocks, y<->z *)
Theorem C12_axis_swap_yz_diffop_block :
  forall (F : Type) (K : Fops F),
  is_field K ->
  forall (orders : list (nat * nat * nat)) (sa sb : shell F) (io ma ia ia' mb ib ib' : nat),
  (io < length orders)%nat ->
  (ma < nseg sa)%nat ->
  (mb < nseg sb)%nat ->
  (ia < length (comps_of sa))%nat ->
  (ia' < length (comps_of sa))%nat ->
  (ib < length (comps_of sb))%nat ->
  (ib' < length (comps_of sb))%nat ->
  nth ia' (comps_of sa) (0%nat, 0%nat, 0%nat) = swap_yz (nth ia (comps_of sa) (0%nat, 0%nat, 0%nat)) ->
  nth ib' (comps_of sb) (0%nat, 0%nat, 0%nat) = swap_yz (nth ib (comps_of sb) (0%nat, 0%nat, 0%nat)) ->
  get4 K ma ia' mb ib'
    (nth io (diffop_block K (map swap_yz orders) (swap_yz_shell sa) (swap_yz_shell sb)) []) =
  get4 K ma ia mb ib (nth io (diffop_block K orders sa sb) []).
Proof. exact (@diffop_block_swap_yz). Qed.
Print Assumptions C12_axis_swap_yz_diffop_block.

(* Boys-type integrals, SPEC level (Gauss/SPoly.v): the one-axis vertical recursion for ANY sequence beta has
   parity (-1)^a under (PA,PC) -> (-PA,-PC); PARTIAL: stated for the specification recursion Vf / polynomials Pc,
   the tie of Model/OneElec.vpass and TwoElec to them belongs to C03 / C04 *)
Theorem C12_boys_reflection_recursion_partial :
  forall (F : Type) (K : Fops F),
  is_field K ->
  forall (pa pc v : F) (beta : nat -> F) (a m : nat),
  Vf K (fopp K pa) (fopp K pc) v beta a m = fmul K (sg K a) (Vf K pa pc v beta a m) /\
  Vf K (fopp K pa) (fopp K pc) v beta (S a) m = fmul K (sg K (S a)) (Vf K pa pc v beta (S a) m).
Proof. exact (@Vf_parity). Qed.
Print Assumptions C12_boys_reflection_recursion_partial.

(* the s-polynomial seen through every Phi_m *)
Theorem C12_boys_reflection_polynomial_Phi_partial :
  forall (F : Type) (K : Fops F),
  is_field K ->
  forall (pa pc v : F) (beta : nat -> F) (a m : nat),
  Phi K beta m (Pc K (fopp K pa) (fopp K pc) v a) = fmul K (sg K a) (Phi K beta m (Pc K pa pc v a)).
Proof. exact (@Pc_parity_Phi). Qed.
Print Assumptions C12_boys_reflection_polynomial_Phi_partial.

(* ... and through every evaluation (the per-s Gaussian moment) *)
Theorem C12_boys_reflection_polynomial_eval_partial :
  forall (F : Type) (K : Fops F),
  is_field K ->
  forall (pa pc v : F) (a : nat) (s : F),
  peval K (Pc K (fopp K pa) (fopp K pc) v a) s = fmul K (sg K a) (peval K (Pc K pa pc v a) s).
Proof. exact (@Pc_parity_eval). Qed.
Print Assumptions C12_boys_reflection_polynomial_eval_partial.

(* Phi of a product of per-axis polynomials does not depend on the order of the axes *)
Theorem C12_boys_product_symmetric_partial :
  forall (F : Type) (K : Fops F),
  is_field K ->
  forall (beta : nat -> F) (f g : list F) (m : nat),
  Phi K beta m (pmul K f g) = Phi K beta m (pmul K g f).
Proof. exact (@Phi_pmul_comm). Qed.
Print Assumptions C12_boys_product_symmetric_partial.

(* 3-D specification Phi_m(Px Py Pz): exchanging x and y *)
Theorem C12_boys_spec_swap_xy_partial :
  forall (F : Type) (K : Fops F),
  is_field K ->
  forall (beta : nat -> F) (v : F) (pa pc : F * F * F) (a : nat * nat * nat) (m : nat),
  boys_spec K beta v (swap_xy pa) (swap_xy pc) (swap_xy a) m = boys_spec K beta v pa pc a m.
Proof. exact (@boys_spec_swap_xy). Qed.
Print Assumptions C12_boys_spec_swap_xy_partial.

(* exchanging y and z *)
Theorem C12_boys_spec_swap_yz_partial :
  forall (F : Type) (K : Fops F),
  is_field K ->
  forall (beta : nat -> F) (v : F) (pa pc : F * F * F) (a : nat * nat * nat) (m : nat),
  boys_spec K beta v (swap_yz pa) (swap_yz pc) (swap_yz a) m = boys_spec K beta v pa pc a m.
Proof. exact (@boys_spec_swap_yz). Qed.
Print Assumptions C12_boys_spec_swap_yz_partial.

(* reflecting x: factor (-1)^(a_x) *)
Theorem C12_boys_spec_reflect_x_partial :
  forall (F : Type) (K : Fops F),
  is_field K ->
  forall (beta : nat -> F) (v : F) (pa pc : F * F * F) (a : comp) (m : nat),
  boys_spec K beta v (fopp K (fst (fst pa)), snd (fst pa), snd pa)
    (fopp K (fst (fst pc)), snd (fst pc), snd pc) a m =
  fmul K (sg K (fst (fst a))) (boys_spec K beta v pa pc a m).
Proof. exact (@boys_spec_reflect_x). Qed.
Print Assumptions C12_boys_spec_reflect_x_partial.

(* the hypotheses used above (field, 1+1 <> 0, fapx = identity, exponent sums non-zero) are satisfiable:
   the executable instance at Qc with two concrete shells *)
Example C12_hypotheses_satisfiable :
  forall (opi : Qc) (osqrt oexp oln : Qc -> Qc) (oboys : nat -> Qc -> Qc),
  is_field (hypK opi osqrt oexp oln oboys) /\
  fadd (hypK opi osqrt oexp oln oboys) (f1 (hypK opi osqrt oexp oln oboys))
    (f1 (hypK opi osqrt oexp oln oboys)) <> f0 (hypK opi osqrt oexp oln oboys) /\
  (forall x : Qc, fapx (hypK opi osqrt oexp oln oboys) x = x) /\
  basis_ok (hypK opi osqrt oexp oln oboys) [hyp_shA; hyp_shB] /\
  exps_ok (hypK opi osqrt oexp oln oboys) hyp_shA hyp_shB /\
  psum (hypK opi osqrt oexp oln oboys) (hq 1) (hq 3) <> f0 (hypK opi osqrt oexp oln oboys).
Proof. exact hyp_example. Qed.
Print Assumptions C12_hypotheses_satisfiable.
