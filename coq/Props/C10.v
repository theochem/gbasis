(* Props/C10.v — theorems backing property C10 (the Cartesian-to-spherical
   matrix is the set of real regular solid harmonics).  Only statements closed
   by [exact] of a lemma of Proofs/SphExactP.v, each followed by Print
   Assumptions.  The model is Model/SphExact.v (exact: every entry is a pair
   (r, q) denoting r * sqrt q). *)
From Coq Require Import List Arith Bool String ZArith QArith Qcanon.
From GB Require Import Base.Field Gauss.Moment1D Model.Shell Model.SphExact Proofs.SphExactP.
Import ListNotations.
Local Open Scope nat_scope.

(* For every l <= 10 (the domain of the property; the row polynomials are
   evaluated) the default matrix passes [check_l]: 2l+1 rows; each
   row, with the normalisation of the unit-normalised Cartesians divided out,
   is sqrt(rho) times a rational homogeneous polynomial of degree l whose
   Laplacian vanishes; the rows are orthonormal for the overlap of
   unit-normalised Cartesians of one shell; the row at the position of m in
   the documented order (s_l..s_1 c_0 c_1..c_l; (c1,s1,c0) for l = 1) equals
   A(x^2+y^2, z) * Re (x+iy)^m resp. A * Im (x+iy)^m with the SAME A for the
   c_m / s_m partners and a positive value of A near the pole; the public entry
   point on the default conventions returns these matrices; left = right^T;
   every Cartesian monomial occurs in some row. *)
Theorem C10_all : forall l, l <= 10 -> check_l l = true.
Proof. exact check_le10. Qed.
Print Assumptions C10_all.

(* Every l, every Cartesian order, every label order / sign list: if the
   request is accepted, then entry (function i, component j) of the result
   (in either form) is sign_i times the entry of the default-convention
   matrix at the positions p, q that function i (without its sign) and
   component j have in the default orders — and such positions exist. *)
Theorem C10_convention_honoured :
  forall l carts strs sd M,
  generate_transformation l carts strs sd = Some M ->
  exists lbs,
    parse_labels l strs = Some lbs /\ List.length lbs = List.length strs
    /\ (forall i, i < List.length strs -> nth i strs ""%string = fmt_label (nth i lbs dl))
    /\ forall i j, i < List.length strs -> j < List.length carts ->
       exists p q, p < 2 * l + 1 /\ q < ncart l
         /\ nth p (default_labels l) dl = unsigned (nth i lbs dl)
         /\ nth q (default_comps l) dc = nth j carts dc
         /\ get sd M i j = sneg (is_neg (nth i lbs dl)) (get SLeft (default_left l) p q).
Proof. exact convention_honoured. Qed.
Print Assumptions C10_convention_honoured.

(* the default matrix used above IS what the entry point returns on the default
   conventions, for every l (so the hypothesis of the previous theorem is satisfiable) *)
Theorem C10_default_generated :
  forall sd l,
  generate_transformation l (default_comps l) (default_label_strings l) sd
  = Some (form sd l (default_comps l) (default_labels l)).
Proof. exact default_generated. Qed.
Print Assumptions C10_default_generated.

(* left form = transpose of the right form: every l, every convention *)
Theorem C10_left_is_transpose :
  forall l carts lbs i j, i < List.length lbs -> j < List.length carts ->
  nth j (nth i (left_form l carts lbs) []) szero = nth i (nth j (right_form l carts lbs) []) szero.
Proof. exact left_is_transpose. Qed.
Print Assumptions C10_left_is_transpose.

(* an invalid convention is rejected: whatever is accepted has exactly 2l+1
   labels, each of one of the four documented forms with an admissible index,
   every function of the shell named (so none twice), and a Cartesian order
   that is a rearrangement of the components of the shell *)
Theorem C10_invalid_rejected :
  forall l carts strs sd M,
  generate_transformation l carts strs sd = Some M ->
  List.length strs = 2 * l + 1
  /\ (forall s, In s strs -> exists neg sine m,
        s = fmt_label (neg, sine, m) /\ m <= l /\ (sine = true -> 1 <= m))
  /\ (forall sine m, m <= l -> (sine = true -> 1 <= m) ->
        In (fmt_label (false, sine, m)) strs \/ In (fmt_label (true, sine, m)) strs)
  /\ List.length carts = ncart l
  /\ (forall x y z, In (x, y, z) carts -> x + y + z = l)
  /\ (forall x y z, x + y + z = l -> In (x, y, z) carts).
Proof. exact accepted_wellformed. Qed.
Print Assumptions C10_invalid_rejected.

(* the four documented forms are all accepted by the label parser *)
Theorem C10_documented_forms_accepted :
  forall l neg sine m, m <= l -> (sine = true -> 1 <= m) ->
  parse_label l (fmt_label (neg, sine, m)) = Some (neg, sine, m).
Proof. exact (fun l neg sine m H1 H2 => parse_fmt l (neg, sine, m) (conj H1 H2)). Qed.
Print Assumptions C10_documented_forms_accepted.

(* the one-axis factor [g1] of the Gram matrix used by the orthonormality check is
   the Gaussian moment m_n of Gauss/Moment1D.v (the functional the overlap
   theorems of C01 are about) at v = 1, in any field; satisfiable: Qc, R *)
Theorem C10_gram_is_gaussian_moment :
  forall (F : Type) (K : Fops F), is_field K ->
  forall n, mom K (f1 K) n = ofnat K (Z.to_nat (g1 n)).
Proof. exact (fun F K Kf => gram1_is_moment K Kf). Qed.
Print Assumptions C10_gram_is_gaussian_moment.

Example C10_reject_c_minus_1 :
  generate_transformation 1 (default_comps 1) ["c-1"; "s1"; "c0"]%string SLeft = None.
Proof. exact reject_c_minus_1. Qed.
Print Assumptions C10_reject_c_minus_1.

Example C10_reject_s_minus_2 :
  generate_transformation 2 (default_comps 2) ["s-2"; "s1"; "c0"; "c1"; "c2"]%string SRight = None.
Proof. exact reject_s_minus_2. Qed.
Print Assumptions C10_reject_s_minus_2.

Example C10_reject_duplicate :
  generate_transformation 1 (default_comps 1) ["c1"; "-c1"; "c0"]%string SLeft = None.
Proof. exact reject_duplicate. Qed.
Print Assumptions C10_reject_duplicate.

Example C10_reject_wrong_count :
  generate_transformation 1 (default_comps 1) ["c1"; "s1"; "c0"; "c0"]%string SLeft = None.
Proof. exact reject_wrong_count. Qed.
Print Assumptions C10_reject_wrong_count.

Example C10_reject_bad_carts :
  generate_transformation 1 [(1, 0, 0); (1, 0, 0); (0, 0, 1)]%nat ["c1"; "s1"; "c0"]%string SLeft = None.
Proof. exact reject_bad_carts. Qed.
Print Assumptions C10_reject_bad_carts.

Example C10_accept_orca_f :
  exists M, generate_transformation 3 (rev (default_comps 3))
              ["c0"; "c1"; "s1"; "c2"; "s2"; "-c3"; "-s3"]%string SLeft = Some M.
Proof. exact accept_orca_f. Qed.
Print Assumptions C10_accept_orca_f.

Example C10_gram_is_gaussian_moment_Qc :
  forall n, mom K0 (f1 K0) n = ofnat K0 (Z.to_nat (g1 n)).
Proof. exact gram1_is_moment_Qc. Qed.
Print Assumptions C10_gram_is_gaussian_moment_Qc.
