(* Props/C08_block.v — block-level theorems backing property C08 (momentum and angular momentum exact and
   Hermitian).  The model returns the REAL array R of the value -i R, last axis (x, y, z).  Spec per primitive
   pair (Proofs/CoreDiffP.v), with per axis  S1 = 1-D overlap integral,  D1(1) = Bop beta S1 = integral of
   phi_a d/dx phi_b,  M1o = prefactor x T3(1/(2p); P-A, P-B, P-0; 1, i, j) = integral of phi_a x phi_b
   (first moment about the coordinate origin):
     mom_x_prim = D1_x(1) S1_y S1_z                              (y, z alike)
     ang_x_prim = S1_x (M1o_y D1_z(1) - M1o_z D1_y(1))           (cyclic)     i.e.  phi_a (y d/dz - z d/dy) phi_b
   contracted over the primitives as in Props/C01_block.v.  Hypotheses as there. *)
From Coq Require Import List Arith.
From GB Require Import Base.Field Base.FNum Base.Tables Gauss.Moment1D Model.Shell Model.MomentInt Model.Overlap
  Model.DiffOp Proofs.DiffOpP Proofs.CoreSumP Proofs.CoreBlockP Proofs.CoreDiffP Proofs.CoreExamplesP.
Import ListNotations.

Theorem C08_spec_unfold :
  forall (F : Type) (K : Fops F) (sa sb : shell F) (ca cb : comp) (alpha beta : F),
  let S A B i j := Sfun K A B alpha beta i j in
  let D A B i j := Bop K beta (Sfun K A B alpha beta) i j in
  let M A B i j := fmul K (base K A B alpha beta) (T1 K A B (f0 K) alpha beta 1 i j) in
  mom_x_prim K sa sb ca cb alpha beta
  = fmul K (fmul K (D (s_x sa) (s_x sb) (cx ca) (cx cb)) (S (s_y sa) (s_y sb) (cy ca) (cy cb)))
           (S (s_z sa) (s_z sb) (cz ca) (cz cb))
  /\ ang_x_prim K sa sb ca cb alpha beta
  = fmul K (S (s_x sa) (s_x sb) (cx ca) (cx cb))
      (fsub K (fmul K (M (s_y sa) (s_y sb) (cy ca) (cy cb)) (D (s_z sa) (s_z sb) (cz ca) (cz cb)))
              (fmul K (M (s_z sa) (s_z sb) (cz ca) (cz cb)) (D (s_y sa) (s_y sb) (cy ca) (cy cb))))
  /\ ang_y_prim K sa sb ca cb alpha beta
  = fmul K (S (s_y sa) (s_y sb) (cy ca) (cy cb))
      (fsub K (fmul K (M (s_z sa) (s_z sb) (cz ca) (cz cb)) (D (s_x sa) (s_x sb) (cx ca) (cx cb)))
              (fmul K (M (s_x sa) (s_x sb) (cx ca) (cx cb)) (D (s_z sa) (s_z sb) (cz ca) (cz cb))))
  /\ ang_z_prim K sa sb ca cb alpha beta
  = fmul K (S (s_z sa) (s_z sb) (cz ca) (cz cb))
      (fsub K (fmul K (M (s_x sa) (s_x sb) (cx ca) (cx cb)) (D (s_y sa) (s_y sb) (cy ca) (cy cb)))
              (fmul K (M (s_y sa) (s_y sb) (cy ca) (cy cb)) (D (s_x sa) (s_x sb) (cx ca) (cx cb)))).
Proof. exact (fun F K sa sb ca cb alpha beta => conj eq_refl (conj eq_refl (conj eq_refl eq_refl))). Qed.
Print Assumptions C08_spec_unfold.

(* momentum_block_correct: entry [ma][ia][mb][ib] is the triple (x, y, z) of contracted integrals of
   phi_a d/dx_c phi_b (the value returned by the code is -i times it) *)
Theorem C08_momentum_block_correct :
  forall (F : Type) (K : Fops F), is_field K ->
  (forall x : F, fapx K x = x) -> fadd K (f1 K) (f1 K) <> f0 K ->
  forall (sa sb : shell F) (ma ia mb ib : nat),
  wf_shell sa -> wf_shell sb -> exps_ok K sa sb ->
  ma < nseg sa -> ia < length (comps_of sa) -> mb < nseg sb -> ib < length (comps_of sb) ->
  let ca := nth ia (comps_of sa) (0,0,0) in let cb := nth ib (comps_of sb) (0,0,0) in
  get4 [] ma ia mb ib (momentum_block_re K sa sb)
  = [ contracted K sa sb ca cb ma mb (mom_x_prim K sa sb ca cb);
      contracted K sa sb ca cb ma mb (mom_y_prim K sa sb ca cb);
      contracted K sa sb ca cb ma mb (mom_z_prim K sa sb ca cb) ].
Proof. exact (@momentum_block_correct). Qed.
Print Assumptions C08_momentum_block_correct.

(* angmom_block_correct: products moment x derivative x overlap about the coordinate origin, as the code
   forms them (angular_momentum.py:114-147), contracted *)
Theorem C08_angmom_block_correct :
  forall (F : Type) (K : Fops F), is_field K ->
  (forall x : F, fapx K x = x) -> fadd K (f1 K) (f1 K) <> f0 K ->
  forall (sa sb : shell F) (ma ia mb ib : nat),
  wf_shell sa -> wf_shell sb -> exps_ok K sa sb ->
  ma < nseg sa -> ia < length (comps_of sa) -> mb < nseg sb -> ib < length (comps_of sb) ->
  let ca := nth ia (comps_of sa) (0,0,0) in let cb := nth ib (comps_of sb) (0,0,0) in
  get4 [] ma ia mb ib (angmom_block_re K sa sb)
  = [ contracted K sa sb ca cb ma mb (ang_x_prim K sa sb ca cb);
      contracted K sa sb ca cb ma mb (ang_y_prim K sa sb ca cb);
      contracted K sa sb ca cb ma mb (ang_z_prim K sa sb ca cb) ].
Proof. exact (@angmom_block_correct). Qed.
Print Assumptions C08_angmom_block_correct.

(* momentum_block_antisym: block(b,a)[mb][ib][ma][ia][c] = - block(a,b)[ma][ia][mb][ib][c]; with the
   factor -i the shell-pair blocks are each other's conjugate transposes (Hermitian operator) *)
Theorem C08_momentum_block_antisym :
  forall (F : Type) (K : Fops F), is_field K ->
  (forall x : F, fapx K x = x) -> fadd K (f1 K) (f1 K) <> f0 K ->
  forall (sa sb : shell F) (ma ia mb ib : nat),
  wf_shell sa -> wf_shell sb -> exps_ok K sa sb ->
  ma < nseg sa -> ia < length (comps_of sa) -> mb < nseg sb -> ib < length (comps_of sb) ->
  get4 [] mb ib ma ia (momentum_block_re K sb sa)
  = map (fopp K) (get4 [] ma ia mb ib (momentum_block_re K sa sb)).
Proof. exact (@momentum_block_antisym). Qed.
Print Assumptions C08_momentum_block_antisym.

Theorem C08_angmom_block_antisym :
  forall (F : Type) (K : Fops F), is_field K ->
  (forall x : F, fapx K x = x) -> fadd K (f1 K) (f1 K) <> f0 K ->
  forall (sa sb : shell F) (ma ia mb ib : nat),
  wf_shell sa -> wf_shell sb -> exps_ok K sa sb ->
  ma < nseg sa -> ia < length (comps_of sa) -> mb < nseg sb -> ib < length (comps_of sb) ->
  get4 [] mb ib ma ia (angmom_block_re K sb sa)
  = map (fopp K) (get4 [] ma ia mb ib (angmom_block_re K sa sb)).
Proof. exact (@angmom_block_antisym). Qed.
Print Assumptions C08_angmom_block_antisym.

Example C08_block_hypotheses_Qc :
  forall opi osqrt oexp oln oboys,
  let K := KQ opi osqrt oexp oln oboys in
  is_field K /\ (forall x, fapx K x = x) /\ fadd K (f1 K) (f1 K) <> f0 K
  /\ wf_shell ex_sa /\ wf_shell ex_sb /\ exps_ok K ex_sa ex_sb /\ exps_ok K ex_sa ex_sa
  /\ 1 < nseg ex_sa /\ 5 < length (comps_of ex_sa) /\ 0 < nseg ex_sb /\ 2 < length (comps_of ex_sb).
Proof. exact block_hypotheses_satisfiable. Qed.
Print Assumptions C08_block_hypotheses_Qc.
