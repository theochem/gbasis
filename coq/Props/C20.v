(* Props/C20.v — theorems backing property C20 (overlap screening follows the documented cutoff
   and is conservative).  Statements closed by [exact] of a lemma proved in
   Proofs/ScreeningP.v or in a few lines from those lemmas, each followed by Print Assumptions.

   Generic theorems (any field [K], no axioms) speak about the executable model
   (Model/Screening.v) that the correspondence check runs against /repo.  Theorems about the
   ORDER (cutoff, monotonicity, conservativeness) are stated for the same model functions
   instantiated at the real numbers, [RK] = (R, +, *, ..., Rle_dec, sqrt, exp, ln, PI); they rely
   on the classical-real axioms of the standard library (printed below). *)
From Coq Require Import List Arith Reals.
From GB Require Import Base.Field Base.Tables Model.Shell Model.MomentInt Model.Assembly Model.Overlap
  Model.Screening Proofs.ScreeningP.
Import ListNotations.

(* no tolerance means no screening: decision, block, assembled matrix *)
Theorem C20_no_tol_no_screen :
  forall (F : Type) (K : Fops F),
  (forall sa sb : shell F, is_screened K None sa sb = false) /\
  (forall sa sb : shell F, overlap_block_screened K None sa sb = overlap_block K sa sb) /\
  (forall (basis : list (shell F)) (T : option (list (list F))),
     overlap_integral_screened K basis T None = overlap_integral K basis T).
Proof. exact (fun F K => conj (no_tol_no_screen_dec K)
                (conj (no_tol_no_screen_block K) (no_tol_no_screen_integral K))). Qed.
Print Assumptions C20_no_tol_no_screen.

(* a kept pair contributes exactly the unscreened block *)
Theorem C20_kept_blocks_equal :
  forall (F : Type) (K : Fops F) (tol : option F) (sa sb : shell F),
  is_screened K tol sa sb = false -> overlap_block_screened K tol sa sb = overlap_block K sa sb.
Proof. exact (@kept_block). Qed.
Print Assumptions C20_kept_blocks_equal.

(* a removed pair contributes the all-zero block of shape (M_a, L_a, M_b, L_b), which is the
        unscreened block with every entry replaced by zero (same shape) *)
Theorem C20_removed_blocks_zero :
  forall (F : Type) (K : Fops F) (tol : option F) (sa sb : shell F),
  is_screened K tol sa sb = true ->
  overlap_block_screened K tol sa sb = zero_block K sa sb
  /\ (forall m1 c1 m2 c2, nth4 K m1 c1 m2 c2 (overlap_block_screened K tol sa sb) = f0 K)
  /\ overlap_block_screened K tol sa sb = map4 (fun _ => f0 K) (overlap_block K sa sb).
Proof.
  exact (fun F K tol sa sb H =>
    conj (removed_block K tol sa sb H)
      (conj (fun m1 c1 m2 c2 => eq_ind_r (fun b => nth4 K m1 c1 m2 c2 b = f0 K)
                                  (zero_block_entry K sa sb m1 c1 m2 c2) (removed_block K tol sa sb H))
            (eq_trans (removed_block K tol sa sb H) (zero_block_is_zeroed K sa sb)))).
Qed.
Print Assumptions C20_removed_blocks_zero.

Theorem C20_zero_block_shape :
  forall (F : Type) (K : Fops F) (sa sb : shell F),
  length (zero_block K sa sb) = nseg sa /\
  (forall m1, m1 < nseg sa -> length (nth m1 (zero_block K sa sb) []) = length (comps_of sa) /\
   forall c1, c1 < length (comps_of sa) ->
     length (nth c1 (nth m1 (zero_block K sa sb) []) []) = nseg sb /\
     forall m2, m2 < nseg sb ->
       length (nth m2 (nth c1 (nth m1 (zero_block K sa sb) []) []) []) = length (comps_of sb)).
Proof. exact (@zero_block_shape). Qed.
Print Assumptions C20_zero_block_shape.

(* lift to the assembled matrix (any basis, any transform, any tolerance): the screened matrix is
        produced by the same triangle assembly from the unscreened processed blocks of the kept pairs and
        from all-zero matrices of the same shape for the removed pairs *)
Theorem C20_screened_assembly :
  forall (F : Type) (K : Fops F), is_field K ->
  forall (basis : list (shell F)) (T : option (list (list F))) (tol : option F),
  overlap_integral_screened K basis T tol =
  let m := two_symm_blocks (f0 K) (length basis) (fun i j =>
             if pair_screened K tol basis i j then map2 (fun _ => f0 K) (ublock K basis i j)
             else ublock K basis i j) in
  match T with None => m | Some t => lincomb2 (f0 K) (fadd K) (fmul K) t t m end.
Proof. exact (@screened_assembly). Qed.
Print Assumptions C20_screened_assembly.

Theorem C20_unscreened_assembly :
  forall (F : Type) (K : Fops F) (basis : list (shell F)),
  overlap_integral K basis None = two_symm_blocks (f0 K) (length basis) (ublock K basis).
Proof. exact (@overlap_integral_blocks). Qed.
Print Assumptions C20_unscreened_assembly.

(* the model's squared comparison is the documented rule  |R_b - R_a| > sqrt(-(a+b)/(ab) ln tol)
        with a, b the minima of the two exponent lists, for every tolerance in (0, 1] *)
Theorem C20_screened_iff_documented :
  forall (tol : R) (sa sb : shell R),
  pos_exps sa -> pos_exps sb -> (0 < tol <= 1)%R ->
  (is_screened RK (Some tol) sa sb = true
   <-> (sqrt (dist2 RK sa sb)
        > sqrt (- (min_exp RK sa + min_exp RK sb) / (min_exp RK sa * min_exp RK sb) * ln tol))%R).
Proof. exact screened_iff_documented. Qed.
Print Assumptions C20_screened_iff_documented.

Theorem C20_min_exp_is_minimum :
  forall s : shell R, pos_exps s ->
  In (min_exp RK s) (s_exps s) /\ forall x, In x (s_exps s) -> (min_exp RK s <= x)%R.
Proof. exact min_exp_is_min. Qed.
Print Assumptions C20_min_exp_is_minimum.

(* lowering the tolerance never removes more blocks *)
Theorem C20_screen_monotone :
  forall (tol1 tol2 : R) (sa sb : shell R),
  pos_exps sa -> pos_exps sb -> (0 < tol1)%R -> (tol1 <= tol2)%R -> (tol2 <= 1)%R ->
  is_screened RK (Some tol1) sa sb = true -> is_screened RK (Some tol2) sa sb = true.
Proof. exact screen_monotone. Qed.
Print Assumptions C20_screen_monotone.

(* the decision depends on the exponents only through the two minima *)
Theorem C20_cutoff_uses_min_exponents :
  forall (tol : option R) (sa sb sa' sb' : shell R) (ma mb : R),
  is_min ma (s_exps sa) -> is_min ma (s_exps sa') ->
  is_min mb (s_exps sb) -> is_min mb (s_exps sb') ->
  s_x sa = s_x sa' -> s_y sa = s_y sa' -> s_z sa = s_z sa' ->
  s_x sb = s_x sb' -> s_y sb = s_y sb' -> s_z sb = s_z sb' ->
  is_screened RK tol sa sb = is_screened RK tol sa' sb'.
Proof. exact cutoff_uses_min_exponents. Qed.
Print Assumptions C20_cutoff_uses_min_exponents.

Theorem C20_replace_nonminimal_exponent :
  forall (m x y : R) (l1 l2 : list R),
  In m (l1 ++ l2) -> is_min m (l1 ++ x :: l2) -> (m <= y)%R -> is_min m (l1 ++ y :: l2).
Proof. exact is_min_replace. Qed.
Print Assumptions C20_replace_nonminimal_exponent.

(* conservative: every removed s-type element is below tol times the sums of the normalised
        absolute contraction coefficients *)
Theorem C20_removed_s_bound :
  forall (la lb : list (R * R)) (na nb tol d2 ma mb : R),
  (forall ca, In ca la -> (0 < snd ca)%R) -> (forall cb, In cb lb -> (0 < snd cb)%R) ->
  is_min ma (map snd la) -> is_min mb (map snd lb) ->
  (0 < tol <= 1)%R -> (0 <= na)%R -> (0 <= nb)%R ->
  (- (ma + mb) / (ma * mb) * ln tol < d2)%R ->
  (Rabs (S_contr na nb la lb d2) <= tol * (na * abs_sum la) * (nb * abs_sum lb))%R
  /\ ((0 < na * abs_sum la)%R -> (0 < nb * abs_sum lb)%R ->
      (Rabs (S_contr na nb la lb d2) < tol * (na * abs_sum la) * (nb * abs_sum lb))%R).
Proof. exact removed_s_bound. Qed.
Print Assumptions C20_removed_s_bound.

Theorem C20_removed_s_bound_model :
  forall (sa sb : shell R) (ca cb : list R) (na nb tol : R),
  pos_exps sa -> pos_exps sb -> length ca = length (s_exps sa) -> length cb = length (s_exps sb) ->
  (0 < tol <= 1)%R -> (0 <= na)%R -> (0 <= nb)%R ->
  is_screened RK (Some tol) sa sb = true ->
  let la := combine ca (s_exps sa) in let lb := combine cb (s_exps sb) in
  (Rabs (S_contr na nb la lb (dist2 RK sa sb)) <= tol * (na * abs_sum la) * (nb * abs_sum lb))%R
  /\ ((0 < na * abs_sum la)%R -> (0 < nb * abs_sum lb)%R ->
      (Rabs (S_contr na nb la lb (dist2 RK sa sb)) < tol * (na * abs_sum la) * (nb * abs_sum lb))%R).
Proof.
  intros sa sb ca cb na nb tol Pa Pb La Lb Ht Hna Hnb H. cbv zeta.
  apply removed_s_bound_screened; try assumption; now apply map_snd_combine.
Qed.
Print Assumptions C20_removed_s_bound_model.

(* the ingredients of the bound, proved, not assumed *)
Theorem C20_mu_monotone :
  forall a b a' b' : R, (0 < a)%R -> (0 < b)%R -> (a <= a')%R -> (b <= b')%R -> (mu a b <= mu a' b')%R.
Proof. exact mu_mono. Qed.
Print Assumptions C20_mu_monotone.

Theorem C20_prefactor_at_most_one :
  forall a b : R, (0 < a)%R -> (0 < b)%R -> (0 <= pref a b <= 1)%R.
Proof. exact pref_bounds. Qed.
Print Assumptions C20_prefactor_at_most_one.

(* the primitive overlap used in the bound is the number the model computes for two normalised s
   primitives (norms of contractions.py:455-461 times the three 1-D prefactors of _moment_int.py) *)
Theorem C20_sprim_is_model_primitive :
  forall a b ax ay az bx by_ bz : R, (0 < a)%R -> (0 < b)%R ->
  (norm_prim RK 0 (0, 0, 0)%nat a * norm_prim RK 0 (0, 0, 0)%nat b
   * (base RK ax bx a b * base RK ay by_ a b * base RK az bz a b)
   = sprim a b ((bx - ax) * (bx - ax) + (by_ - ay) * (by_ - ay) + (bz - az) * (bz - az)))%R.
Proof. exact sprim_is_model_primitive. Qed.
Print Assumptions C20_sprim_is_model_primitive.

(* the raw s-s block entry of the model IS the abstract double sum (any two shells with l = 0 and the
   default component list; positive exponents) *)
Theorem C20_ss_entry_dsum :
  forall xa ya za ea ca sa_ la_ xb yb zb eb cb sb_ lb_ m1 m2,
  let sa := ss_shell xa ya za ea ca sa_ la_ in let sb := ss_shell xb yb zb eb cb sb_ lb_ in
  m1 < nseg sa -> m2 < nseg sb ->
  (forall x, In x ea -> (0 < x)%R) -> (forall x, In x eb -> (0 < x)%R) ->
  nth4 RK m1 0 m2 0 (overlap_block RK sa sb)
  = dsum (col m1 ea ca) (col m2 eb cb) (fun a b => sprim a b (dist2 RK sa sb)).
Proof. exact ss_entry_dsum. Qed.
Print Assumptions C20_ss_entry_dsum.

(* the property's last clause on the model itself: entry of the normalised s-s block (the model's own
   contraction norms [norm_cont]) of a removed pair *)
Theorem C20_removed_s_bound_normalised :
  forall xa ya za ea ca sa_ la_ xb yb zb eb cb sb_ lb_ m1 m2 (tol : R),
  let sa := ss_shell xa ya za ea ca sa_ la_ in let sb := ss_shell xb yb zb eb cb sb_ lb_ in
  pos_exps sa -> pos_exps sb -> length ca = length ea -> length cb = length eb ->
  m1 < nseg sa -> m2 < nseg sb ->
  (0 < tol <= 1)%R ->
  is_screened RK (Some tol) sa sb = true ->
  let Sa := (ncont sa m1 * abs_sum (col m1 ea ca))%R in let Sb := (ncont sb m2 * abs_sum (col m2 eb cb))%R in
  let e := nth4 RK m1 0 m2 0 (normalise RK Rmult (norm_cont RK sa) (norm_cont RK sb) (overlap_block RK sa sb)) in
  (Rabs e <= tol * Sa * Sb)%R /\ ((0 < Sa)%R -> (0 < Sb)%R -> (Rabs e < tol * Sa * Sb)%R).
Proof. exact removed_s_bound_normalised. Qed.
Print Assumptions C20_removed_s_bound_normalised.

(* ... and on the entry of the processed block the assembly places in the matrix (Cartesian s shells;
   [C20_screened_assembly] says this is the block replaced by zeros when the pair is removed) *)
Theorem C20_removed_s_bound_pblock :
  forall xa ya za ea ca la_ xb yb zb eb cb lb_ m1 m2 (tol : R),
  let sa := ss_shell xa ya za ea ca false la_ in let sb := ss_shell xb yb zb eb cb false lb_ in
  pos_exps sa -> pos_exps sb -> length ca = length ea -> length cb = length eb ->
  m1 < nseg sa -> m2 < nseg sb ->
  (0 < tol <= 1)%R ->
  is_screened RK (Some tol) sa sb = true ->
  let Sa := (ncont sa m1 * abs_sum (col m1 ea ca))%R in let Sb := (ncont sb m2 * abs_sum (col m2 eb cb))%R in
  let e := nth m2 (nth m1 (pblock RK 0%R Rplus Rmult (overlap_block RK) (prep RK sa) (prep RK sb)) []) 0%R in
  (Rabs e <= tol * Sa * Sb)%R /\ ((0 < Sa)%R -> (0 < Sb)%R -> (Rabs e < tol * Sa * Sb)%R).
Proof. exact removed_s_bound_pblock. Qed.
Print Assumptions C20_removed_s_bound_pblock.

(* hypotheses are satisfiable: concrete instances *)
Example C20_screen_monotone_ex :
  is_screened RK (Some (3 / 4)%R) (ex_shell 0) (ex_shell 3) = true.
Proof. exact screen_monotone_ex. Qed.
Print Assumptions C20_screen_monotone_ex.

Example C20_cutoff_uses_min_exponents_ex :
  forall big big' : R, (1 <= big)%R -> (1 <= big')%R ->
  is_screened RK (Some (/ 2)%R) (mkShell R 0 0%R 0%R 0%R [1%R; big] [[1%R]; [1%R]] false [] []) (ex_shell 3)
  = is_screened RK (Some (/ 2)%R) (mkShell R 0 0%R 0%R 0%R [1%R; big'] [[1%R]; [1%R]] false [] []) (ex_shell 3).
Proof. exact cutoff_uses_min_exponents_ex. Qed.
Print Assumptions C20_cutoff_uses_min_exponents_ex.

Example C20_removed_s_bound_ex :
  (Rabs (S_contr 1 1 [(1, 1)] [(1, 1)] 9) < / 2 * (1 * abs_sum [(1, 1)]) * (1 * abs_sum [(1, 1)]))%R.
Proof. exact removed_s_bound_ex. Qed.
Print Assumptions C20_removed_s_bound_ex.

Example C20_removed_s_bound_pblock_ex :
  let sa := ss_shell 0 0 0 [1%R] [[1%R]] false [] in let sb := ss_shell 3 0 0 [1%R] [[1%R]] false [] in
  (Rabs (nth 0 (nth 0 (pblock RK 0 Rplus Rmult (overlap_block RK) (prep RK sa) (prep RK sb)) []) 0)
   <= / 2 * (ncont sa 0 * abs_sum (col 0 [1] [[1]])) * (ncont sb 0 * abs_sum (col 0 [1] [[1]])))%R.
Proof. exact removed_s_bound_pblock_ex. Qed.
Print Assumptions C20_removed_s_bound_pblock_ex.
