(* Props/C05.v — theorems backing property C05 (basis-function values and arbitrary-order
   derivatives are exact).  Only statements, proved from the lemmas of
   Proofs/EvalP.v and Gauss/DerivBridge.v, each followed by Print Assumptions.

   u K alpha l n x is the polynomial P with d^n/dx^n [x^l e^{-alpha x^2}] = P(x) e^{-alpha x^2}
   (C05_nth_derivative, over the reals); the generic-field theorems say that both back-ends of
   the code compute P, for all n, l, alpha, x (x = 0 included: 0^0 = 1 is fpow x 0 = 1). *)
From Coq Require Import List Arith Reals.
From Coquelicot Require Import Coquelicot.
From GB Require Import Base.Field Base.FNum Model.Shell Model.Overlap Model.Eval Proofs.EvalP
  Gauss.DerivBridge.
Local Open Scope nat_scope.

(* general back-end: the Leibniz sum over Hermite polynomials with the code's zeroing rules,
   summed up to any nmax >= n (the code sums up to the largest order of the request) *)
Theorem C05_general_correct :
  forall (F : Type) (K : Fops F), is_field K ->
  forall (alpha x : F) (nmax n l : nat), n <= nmax ->
  deriv_general_upto K nmax n l alpha x = u K alpha l n x.
Proof. exact @general_correct_upto. Qed.
Print Assumptions C05_general_correct.

Theorem C05_general_correct_exact :
  forall (F : Type) (K : Fops F), is_field K ->
  forall (alpha x : F) (n l : nat), deriv_general K n l alpha x = u K alpha l n x.
Proof. exact @general_correct. Qed.
Print Assumptions C05_general_correct_exact.

(* direct back-end: each of the branches (l = 0, l = 1, l >= 2; first and second derivative),
   provided the two `any` tests of the code (has1, has2) hold whenever the branch needs them *)
Theorem C05_direct_correct :
  forall (F : Type) (K : Fops F), is_field K ->
  forall (alpha x : F) (h1 h2 : bool) (n l : nat), n <= 2 -> flags_ok h1 h2 l ->
  deriv_direct K h1 h2 n l alpha x = u K alpha l n x.
Proof. exact @direct_correct. Qed.
Print Assumptions C05_direct_correct.

Theorem C05_backends_agree :
  forall (F : Type) (K : Fops F), is_field K ->
  forall (alpha x : F) (h1 h2 : bool) (nmax n l : nat), n <= 2 -> n <= nmax -> flags_ok h1 h2 l ->
  deriv_direct K h1 h2 n l alpha x = deriv_general_upto K nmax n l alpha x.
Proof. exact @backends_agree. Qed.
Print Assumptions C05_backends_agree.

(* the tests hold for the complete component list of any angular momentum L, whichever axis is
   the first one differentiated twice and whichever axis / component is evaluated *)
Theorem C05_default_flags_ok :
  forall (L : nat) (o c : comp) (ax : nat),
  first2 o <> None -> In c (default_comps L) ->
  let '(h1, h2) := flags (default_comps L) o in flags_ok h1 h2 (comp_ax ax c).
Proof. exact default_flags_ok. Qed.
Print Assumptions C05_default_flags_ok.

(* what the block actually reads: rows of axis values.  General back-end, any orders *)
Theorem C05_rows_general :
  forall (F : Type) (K : Fops F), is_field K ->
  forall (L : nat) (o : comp) (ax : nat) (alpha x : F) (l : nat), ax < 3 -> l <= L ->
  nth l (axis_row K (gen_mode K false L o) ax (comp_ax ax o) L alpha x) (f0 K)
  = u K alpha l (comp_ax ax o) x.
Proof. exact @axis_row_general. Qed.
Print Assumptions C05_rows_general.

(* direct back-end on a complete Cartesian shell, every accepted request (all orders <= 2,
   including several axes differentiated twice) *)
Theorem C05_rows_direct_complete_shell :
  forall (F : Type) (K : Fops F), is_field K ->
  forall (L : nat) (o c : comp) (ax : nat) (alpha x : F),
  order_max o <= 2 -> In c (default_comps L) -> ax < 3 ->
  nth (comp_ax ax c)
      (axis_row K (mode_of K Direct L (default_comps L) o) ax (comp_ax ax o) L alpha x) (f0 K)
  = u K alpha (comp_ax ax c) (comp_ax ax o) x.
Proof. exact @axis_row_direct_complete. Qed.
Print Assumptions C05_rows_direct_complete_shell.

(* the error-scale rows are the specification at (-|alpha|, |x|): the sum of |monomials| *)
Theorem C05_rows_scale :
  forall (F : Type) (K : Fops F), is_field K ->
  forall (L : nat) (o : comp) (ax : nat) (alpha x : F) (l : nat), ax < 3 -> l <= L ->
  nth l (axis_row K (gen_mode K true L o) ax (comp_ax ax o) L alpha x) (f0 K)
  = u K (fopp K (fabs K alpha)) l (comp_ax ax o) (fabs K x).
Proof. intros F K Kf L o. exact (axis_row_gen K Kf true L o). Qed.
Print Assumptions C05_rows_scale.

(* refusals: the model answers `rejected` for the direct back-end exactly when some order
   exceeds two, and for a back-end name the code does not know *)
Theorem C05_direct_rejects_gt2 :
  forall (F : Type) (K : Fops F) (s : shell F) (basis : list (shell F)) (pts : list point)
         (o : comp) (T : option (list (list F))),
  2 < order_max o ->
  eval_block K s pts o Direct = None /\ evaluate_deriv_basis_model K basis pts o T Direct = None.
Proof. exact @direct_rejects_gt2. Qed.
Print Assumptions C05_direct_rejects_gt2.

Theorem C05_direct_accepts_le2 :
  forall (F : Type) (K : Fops F) (basis : list (shell F)) (pts : list point)
         (o : comp) (T : option (list (list F))),
  order_max o <= 2 -> evaluate_deriv_basis_model K basis pts o T Direct <> None.
Proof.
  intros F K basis pts o T Ho. unfold evaluate_deriv_basis_model, accepts.
  replace (order_max o <=? 2) with true by (symmetry; apply Nat.leb_le; exact Ho).
  discriminate.
Qed.
Print Assumptions C05_direct_accepts_le2.

Theorem C05_unknown_backend_rejected :
  forall (F : Type) (K : Fops F) (basis : list (shell F)) (pts : list point)
         (o : comp) (T : option (list (list F))),
  evaluate_deriv_basis_model K basis pts o T OtherBackend = None.
Proof. reflexivity. Qed.
Print Assumptions C05_unknown_backend_rejected.

(* the diagonal-only contraction normalisation used by the model is Overlap.norm_cont *)
Theorem C05_norm_shortcut :
  forall (F : Type) (K : Fops F) (s : shell F), norm_cont_diag K s = norm_cont K s.
Proof. reflexivity. Qed.
Print Assumptions C05_norm_shortcut.

(* analytic bridge over the reals (classical-reals axioms of the standard library) *)
Theorem C05_first_rule :
  forall (a : R) (l : nat) (x : R),
  is_derive (fun t => t ^ l * exp (- a * t ^ 2))%R x
    ((match l with O => 0 | S l' => INR l * x ^ l' end - 2 * a * x ^ (S l)) * exp (- a * x ^ 2))%R.
Proof. exact first_rule. Qed.
Print Assumptions C05_first_rule.

Theorem C05_nth_derivative :
  forall (a : R) (l n : nat) (x : R),
  is_derive_n (fun t => t ^ l * exp (- a * t ^ 2))%R n x (u RKd a l n x * exp (- a * x ^ 2))%R.
Proof. exact nth_derivative. Qed.
Print Assumptions C05_nth_derivative.

Theorem C05_Derive_n :
  forall (a : R) (l n : nat) (x : R),
  Derive_n (fun t => t ^ l * exp (- a * t ^ 2))%R n x = (u RKd a l n x * exp (- a * x ^ 2))%R.
Proof. exact (fun a l n x => Derive_n_gauss a l n x). Qed.
Print Assumptions C05_Derive_n.

(* the hypotheses are satisfiable *)
Example C05_field_hypothesis_R : is_field RKd.
Proof. exact RKd_field. Qed.
Print Assumptions C05_field_hypothesis_R.

Example C05_field_hypothesis_Qc :
  forall ex opi osqrt oexp oln oboys, is_field (QcK ex opi osqrt oexp oln oboys).
Proof. exact QcK_field. Qed.
Print Assumptions C05_field_hypothesis_Qc.

Example C05_flags_hypothesis : forall l, flags_ok true true l.
Proof. exact (fun l => conj (fun _ => eq_refl) (fun _ => eq_refl)). Qed.
Print Assumptions C05_flags_hypothesis.

Example C05_flags_hypothesis_shell :
  first2 (0, 2, 0) <> None /\ In (1, 1, 1) (default_comps 3) /\ order_max (2, 2, 1) <= 2
  /\ 2 < order_max (0, 3, 0).
Proof.
  split; [discriminate|]. split; [vm_compute; tauto|]. split; apply le_n.
Qed.
Print Assumptions C05_flags_hypothesis_shell.
