(* Props/C14_full.v — property C14, the transform statement at FULL strength: Props/C14.v has
   C14_esp_transform_is_backtransformed_partial with the hypothesis [squareb ...] (the model's integral array is
   n x n x N); here that hypothesis is a THEOREM for every basis whose shells have at least one contraction and
   component / label lists of the size their angular momentum demands (the default orders in particular), any
   coordinate types, any number of shells and points.  The statements are closed by lemmas of
   Proofs/EspFullP.v (the two examples by a step or two from them), each followed by Print Assumptions.

   esp_wf_shell s      0 < nseg s  /\  osize s = (if spherical then 2 l + 1 else (l+1)(l+2)/2)
   arr_shape n np V    V has n rows, every row n entries, every entry a vector of np numbers *)
From Coq Require Import List Arith Bool QArith Qcanon.
From GB Require Import Base.Field Base.Tables Model.Shell Model.Assembly Model.OneElec Model.OneBody
  Model.Esp Proofs.AssembledP Proofs.AssembledSphP Proofs.AssembledLincombP Proofs.EspP Proofs.EspFullP.
Import ListNotations.
Local Open Scope nat_scope.

Theorem C14_full_unfold :
  forall (F : Type) (s : shell F) (bs : list (shell F)) n np (V : list (list (list F))),
  (esp_wf_shell s <-> 0 < nseg s /\ osize s = if s_sph s then num_sph (s_l s) else num_cart (s_l s))
  /\ (esp_wf_basis bs <-> forall s, In s bs -> esp_wf_shell s)
  /\ (arr_shape n np V <-> length V = n /\ (forall I, I < n -> length (nth I V []) = n) /\
                           forall I J, I < n -> J < n -> length (nth J (nth I V []) []) = np).
Proof. exact (fun F s bs n np V => conj (iff_refl _) (conj (iff_refl _) (iff_refl _))). Qed.
Print Assumptions C14_full_unfold.

(* shells with the default component and label orders are well-formed *)
Theorem C14_default_shells_wf :
  forall (F : Type) (s : shell F), s_comps s = [] -> s_labels s = [] -> 0 < nseg s -> esp_wf_shell s.
Proof. exact (fun F => esp_wf_default). Qed.
Print Assumptions C14_default_shells_wf.

(* the number of contractions of the code's size check is the size of the assembled matrix *)
Theorem C14_nfun_is_matrix_size :
  forall (F : Type) (K : Fops F) (bs : list (shell F)), esp_wf_basis bs -> nfun_basis bs = ototal K bs.
Proof. exact (fun F K => nfun_is_ototal K). Qed.
Print Assumptions C14_nfun_is_matrix_size.

(* shape of point_charge_integral(basis, points, charges): [n][n][N] for ANY charges *)
Theorem C14_point_charge_integral_shape :
  forall (F : Type) (K : Fops F) (points : list (F * F * F * F)) (bs : list (shell F)),
  esp_wf_basis bs -> arr_shape (nfun_basis bs) (length points) (point_charge_integral K points bs None).
Proof. exact (fun F K => point_charge_integral_shape_none K). Qed.
Print Assumptions C14_point_charge_integral_shape.

(* ... and with transform = t (S rows, one column per contraction): [S][S][N] *)
Theorem C14_point_charge_integral_shape_transform :
  forall (F : Type) (K : Fops F) (points : list (F * F * F * F)) (bs : list (shell F)) (t : list (list F)) S,
  esp_wf_basis bs -> bs <> [] -> mat_shape S (nfun_basis bs) t ->
  arr_shape S (length points) (point_charge_integral K points bs (Some t)).
Proof. exact (fun F K => point_charge_integral_shape_T K). Qed.
Print Assumptions C14_point_charge_integral_shape_transform.

(* the bit the runner reports for every case is always true *)
Theorem C14_shape_bit_is_a_theorem :
  forall (F : Type) (K : Fops F) (points : list (F * F * F * F)) (bs : list (shell F)),
  esp_wf_basis bs -> squareb (nfun_basis bs) (length points) (point_charge_integral K points bs None) = true.
Proof. exact (fun F K => point_charge_integral_squareb K). Qed.
Print Assumptions C14_shape_bit_is_a_theorem.

(* FULL: an accepted call with a transform (any number of rows) returns what the untransformed path returns for
   T^T P T; and that call is accepted too *)
Theorem C14_esp_transform_is_backtransformed :
  forall (F : Type) (K : Fops F), is_field K ->
  forall basis P points ncoords ncharges T thr v,
  esp_wf_basis basis ->
  esp K basis P points ncoords ncharges (Some T) thr = Some v ->
  v = esp_values K (point_charge_integral K (unit_neg_points K points) basis None)
        (backtransform K T P (nfun_basis basis)) points (combine ncoords ncharges) thr
  /\ ((forall x y, feqb K x y = true <-> x = y) ->
      esp K basis (backtransform K T P (nfun_basis basis)) points ncoords ncharges None thr = Some v).
Proof. exact (fun F K Kf => esp_transform_is_backtransformed_full K Kf). Qed.
Print Assumptions C14_esp_transform_is_backtransformed.

(* the hypotheses are satisfiable *)
Example C14_wf_basis_satisfiable :
  forall (F : Type) (K : Fops F) (x y : F),
  esp_wf_basis [mkShell F 0 x x x [y] [[y]] false [] [];
                mkShell F 1 y x y [x; y] [[x; y]; [y; x]] true [] []].
Proof.
  intros F K x y s [<-|[<-|[]]]; (apply esp_wf_default; [reflexivity|reflexivity|cbn; auto with arith]).
Qed.
Print Assumptions C14_wf_basis_satisfiable.

(* a concrete accepted call with a rectangular (2 x 4) transform over Qc (stand-in oracles), by vm_compute *)
Example C14_full_hypotheses_satisfiable :
  esp_wf_basis ex_basis /\
  exists v, esp exK ex_basis ex_P ex_points [(Q2Qc 0, Q2Qc 0, Q2Qc 0)] [Q2Qc 1] (Some ex_T) (Q2Qc 0) = Some v.
Proof.
  split.
  - intros s [<-|[<-|[]]]; (apply esp_wf_default; [reflexivity|reflexivity|cbn; auto with arith]).
  - eexists. vm_compute. reflexivity.
Qed.
Print Assumptions C14_full_hypotheses_satisfiable.
