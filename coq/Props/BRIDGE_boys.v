(* Props/BRIDGE_boys.v — bridge (B2) narrowed: the Boys functional.  Only statements closed by [exact] of,
   or in a step or two from, lemmas proved in Gauss/BoysBridge.v, each followed by Print Assumptions.

   Fboys m T := RInt (fun t => t^(2m) * exp(-T t^2)) 0 1   (Coquelicot's Riemann integral: the Boys function)
   Phi K beta m f := sum_k f_k * beta (m+k),  peval K f s := value at s of the coefficient list f   (Gauss/SPoly.v)
   RK  := the number interface at R (Proofs/ScreeningP.v);  RKB := RK with fboys := Fboys
   prim_val K C A B al be ca cb := Phi (boys_seq ...) 0 (prim_poly ...): the spec of one primitive pair of the
   one-electron Coulomb models (Proofs/OneElecP.v; one_elec_spec is its contraction, one_elec_entry ties the
   model to it).

   What remains trusted for (B2) after this file: the identity
     int_{R^3} phi_a phi_b / |r-C| d^3r = right-hand side of BRIDGE_B2_prim_val_is_t_integral
   (Laplace representation of 1/r, exchange of integrals, Gaussian integration at fixed u — which is (B1) —
   and the substitution t^2 = u^2/(p+u^2)); stated precisely in the header of Gauss/BoysBridge.v; all of it but
   the exchange is proved in Props/BRIDGE_coulomb.v. *)
From Coq Require Import List Reals.
From Coquelicot Require Import Coquelicot.
From GB Require Import Base.Field Base.FNum Gauss.Moment1D Gauss.SPoly Gauss.BridgeR
  Model.Shell Proofs.ScreeningP Proofs.OneElecP Gauss.BoysBridge.
Import ListNotations.
Open Scope R_scope.

Theorem BRIDGE_B2_Phi_boys :
  forall (c T : R) (m : nat) (f : list R),
  Phi RK (fun k => c * Fboys k T) m f
  = c * RInt (fun t => SPoly.peval RK f (t ^ 2) * t ^ (2 * m) * exp (- T * t ^ 2)) 0 1.
Proof. exact Phi_boys. Qed.
Print Assumptions BRIDGE_B2_Phi_boys.

Theorem BRIDGE_B2_Phi_boys_integrable :
  forall (T : R) (m : nat) (f : list R),
  ex_RInt (fun t => SPoly.peval RK f (t ^ 2) * t ^ (2 * m) * exp (- T * t ^ 2)) 0 1.
Proof. intros T m f. eexists. apply Phi_boys_is_RInt. Qed.
Print Assumptions BRIDGE_B2_Phi_boys_integrable.

Theorem BRIDGE_B2_Fboys_is_integral :
  forall (m : nat) (T : R), is_RInt (fun t => t ^ (2 * m) * exp (- T * t ^ 2)) 0 1 (Fboys m T).
Proof. exact Fboys_correct. Qed.
Print Assumptions BRIDGE_B2_Fboys_is_integral.

Theorem BRIDGE_B2_Fboys_0 : forall m : nat, Fboys m 0 = / INR (2 * m + 1).
Proof. exact Fboys_0. Qed.
Print Assumptions BRIDGE_B2_Fboys_0.

Theorem BRIDGE_B2_Fboys_recurrence :
  forall (m : nat) (T : R), INR (2 * m + 1) * Fboys m T = 2 * T * Fboys (S m) T + exp (- T).
Proof. exact Fboys_rec. Qed.
Print Assumptions BRIDGE_B2_Fboys_recurrence.

Theorem BRIDGE_B2_Fboys_pos : forall (m : nat) (T : R), 0 < Fboys m T.
Proof. exact Fboys_pos. Qed.
Print Assumptions BRIDGE_B2_Fboys_pos.

Theorem BRIDGE_B2_Fboys_le : forall (m : nat) (T : R), 0 <= T -> Fboys m T <= / INR (2 * m + 1).
Proof. exact Fboys_le. Qed.
Print Assumptions BRIDGE_B2_Fboys_le.

Theorem BRIDGE_B2_Fboys_decreasing_in_m : forall (m : nat) (T : R), Fboys (S m) T <= Fboys m T.
Proof. exact Fboys_decr. Qed.
Print Assumptions BRIDGE_B2_Fboys_decreasing_in_m.

Theorem BRIDGE_B2_prim_val_is_t_integral :
  forall (Cx Cy Cz Ax Ay Az Bx By Bz al be : R) (ca cb : Shell.comp),
  let p := al + be in
  let Px := (al * Ax + be * Bx) / p in let Py := (al * Ay + be * By) / p in
  let Pz := (al * Az + be * Bz) / p in
  let mu := al * be / p in
  let ab2 := (Ax - Bx) * (Ax - Bx) + (Ay - By) * (Ay - By) + (Az - Bz) * (Az - Bz) in
  let pc2 := (Px - Cx) * (Px - Cx) + (Py - Cy) * (Py - Cy) + (Pz - Cz) * (Pz - Cz) in
  let v := 1 / ((1 + 1) * p) in
  prim_val RKB Cx Cy Cz Ax Ay Az Bx By Bz al be ca cb
  = (1 + 1) * PI / p * exp (- (mu * ab2))
    * RInt (fun t =>
              S3 RKB (v * (1 - t ^ 2)) (Px - Ax - t ^ 2 * (Px - Cx)) (Px - Bx - t ^ 2 * (Px - Cx)) 0 0 0
                 (fst (fst ca)) (fst (fst cb))
              * S3 RKB (v * (1 - t ^ 2)) (Py - Ay - t ^ 2 * (Py - Cy)) (Py - By - t ^ 2 * (Py - Cy)) 0 0 0
                   (snd (fst ca)) (snd (fst cb))
              * S3 RKB (v * (1 - t ^ 2)) (Pz - Az - t ^ 2 * (Pz - Cz)) (Pz - Bz - t ^ 2 * (Pz - Cz)) 0 0 0
                   (snd ca) (snd cb)
              * exp (- (p * pc2) * t ^ 2)) 0 1.
Proof. exact prim_val_is_t_integral. Qed.
Print Assumptions BRIDGE_B2_prim_val_is_t_integral.

Example BRIDGE_B2_prim_val_ss :
  forall (Cx Cy Cz Ax Ay Az Bx By Bz al be : R),
  let p := al + be in
  let Px := (al * Ax + be * Bx) / p in let Py := (al * Ay + be * By) / p in
  let Pz := (al * Az + be * Bz) / p in
  let mu := al * be / p in
  let ab2 := (Ax - Bx) * (Ax - Bx) + (Ay - By) * (Ay - By) + (Az - Bz) * (Az - Bz) in
  let pc2 := (Px - Cx) * (Px - Cx) + (Py - Cy) * (Py - Cy) + (Pz - Cz) * (Pz - Cz) in
  prim_val RKB Cx Cy Cz Ax Ay Az Bx By Bz al be (0, 0, 0)%nat (0, 0, 0)%nat
  = (1 + 1) * PI / p * exp (- (mu * ab2)) * Fboys 0 (p * pc2).
Proof. exact prim_val_ss. Qed.
Print Assumptions BRIDGE_B2_prim_val_ss.
