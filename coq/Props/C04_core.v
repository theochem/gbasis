(* Props/C04_core.v — the deep theorems behind property C04 (electron-repulsion integrals exact):
   the recursions of Model/TwoElec.v (transcribing gbasis/integrals/_two_elec_int.py) compute, for ALL
   angular momenta, exponents, centres and contraction shapes, the quantity

        N_a N_b N_c N_d  Sum_{primitive quartets} w w w w  Phi_0 ( Prod_{x,y,z} M4_axis(s) )

   where Phi_0 : s^k |-> beta_k is the linear functional given by the numbers the code puts in
   integrals[m] (beta_m = pref * F_m(rho |PQ|^2): ANY sequence, no property of the Boys function is used)
   and M4_axis(s) is the bivariate Gaussian moment
        E[(y1 + a1)^a (y1 + a1 + AB)^b (y2 + c1)^c (y2 + c1 + CD)^d]
   with covariance Sigma11 = (1 - s rho/p)/(2p), Sigma12 = s/(2(p+q)), Sigma22 = (1 - s rho/q)/(2q) and
   means a1 = PA - s (rho/p) PQ, c1 = QC + s (rho/q) PQ (DESIGN.md 2.4) defined by Wick's recursion
   (Gauss/Wick2D.v).  What ties "Phi_0 of the s-polynomial" to the six-dimensional integral is the analytic
   bridge (B1)-(B2) of DESIGN.md 2.6 (trusted, outside Coq).

   Every theorem is over an arbitrary field (Fops + field_theory hypothesis); all are closed under the
   global context.  Theorems over the lemmas of Proofs/TwoElecP.v + `Print Assumptions`, and `Example`s
   showing that the hypotheses are satisfiable (at Qc). *)
From Coq Require Import List Arith ZArith.
From GB Require Import Base.Field Base.FNum Base.Tables Gauss.Moment1D Gauss.SPoly Gauss.Wick2D
  Model.Shell Model.OneElec Model.TwoElec Proofs.TwoElecP.
Import ListNotations.


(* The family M is DEFINED by the rule that raises the first exponent (wick_first_rule) and the
   univariate recursion for M 0 k.  The rule for the second variable is a theorem (all i, k): *)
Theorem C04_wick_first_rule :
  forall (F : Type) (K : Fops F), is_field K ->
  forall (a1 c1 s11 s12 s22 : F) (i k : nat),
  M K a1 c1 s11 s12 s22 (S i) k
  = fadd K (fadd K (fmul K a1 (M K a1 c1 s11 s12 s22 i k))
                   (fmul K s11 (lo K i (fun i' => M K a1 c1 s11 s12 s22 i' k))))
           (fmul K s12 (lo K k (M K a1 c1 s11 s12 s22 i))).
Proof. exact (fun F K Kf => wick_first_rule K Kf). Qed.
Print Assumptions C04_wick_first_rule.

Theorem C04_wick_second_rule :
  forall (F : Type) (K : Fops F), is_field K ->
  forall (a1 c1 s11 s12 s22 : F) (i k : nat),
  M K a1 c1 s11 s12 s22 i (S k)
  = fadd K (fadd K (fmul K c1 (M K a1 c1 s11 s12 s22 i k))
                   (fmul K s22 (lo K k (M K a1 c1 s11 s12 s22 i))))
           (fmul K s12 (lo K i (fun i' => M K a1 c1 s11 s12 s22 i' k))).
Proof. exact (fun F K Kf => wick_second_rule K Kf). Qed.
Print Assumptions C04_wick_second_rule.

(* symmetry under exchanging the roles of the two electrons *)
Theorem C04_wick_swap :
  forall (F : Type) (K : Fops F), is_field K ->
  forall (a1 c1 s11 s12 s22 : F) (i k : nat),
  M K a1 c1 s11 s12 s22 i k = M K c1 a1 s22 s12 s11 k i.
Proof. exact (fun F K Kf => M_swap K Kf). Qed.
Print Assumptions C04_wick_swap.

(* the two rules and M 0 0 = 1 determine the family *)
Theorem C04_wick_unique :
  forall (F : Type) (K : Fops F), is_field K ->
  forall (a1 c1 s11 s12 s22 : F) (N : nat -> nat -> F),
  N 0 0 = f1 K ->
  (forall k, N 0 (S k) = fadd K (fmul K c1 (N 0 k)) (fmul K s22 (lo K k (N 0)))) ->
  (forall i k, N (S i) k = fadd K (fadd K (fmul K a1 (N i k)) (fmul K s11 (lo K i (fun i' => N i' k))))
                                  (fmul K s12 (lo K k (N i)))) ->
  forall i k, N i k = M K a1 c1 s11 s12 s22 i k.
Proof. exact (fun F K Kf => M_unique K Kf). Qed.
Print Assumptions C04_wick_unique.

(* the marginals are the one-dimensional Gaussian moments of Gauss/Moment1D.v (explicit moments
   (n-1)!! v^(n/2) of the centred Gaussian, shifted by the mean) *)
Theorem C04_wick_marginal_first :
  forall (F : Type) (K : Fops F), is_field K ->
  forall (a1 c1 s11 s12 s22 : F) (i : nat),
  M K a1 c1 s11 s12 s22 i 0 = S3 K s11 a1 (f0 K) (f0 K) 0 0 i 0.
Proof. exact (fun F K Kf a1 c1 s11 s12 s22 i => proj1 (M_i0 K Kf a1 c1 s11 s12 s22 i)). Qed.
Print Assumptions C04_wick_marginal_first.

Theorem C04_wick_marginal_second :
  forall (F : Type) (K : Fops F), is_field K ->
  forall (a1 c1 s11 s12 s22 : F) (k : nat),
  M K a1 c1 s11 s12 s22 0 k = S3 K s22 c1 (f0 K) (f0 K) 0 0 k 0.
Proof. exact (fun F K Kf a1 c1 s11 s12 s22 k => proj1 (M_0k K Kf a1 c1 s11 s12 s22 k)). Qed.
Print Assumptions C04_wick_marginal_second.

(* Electron transfer, per s  (_two_elec_int.py:413-526) *)

(* For every s the exact per-axis integrand Ms s a c (covariance/means above) satisfies the relation
   the code uses; the s-dependent terms cancel.  All a, c. *)
Theorem C04_etransfer_correct :
  forall (F : Type) (K : Fops F), is_field K ->
  forall p q PA QC PQ : F,
  p <> f0 K -> q <> f0 K -> fadd K p q <> f0 K -> fadd K (f1 K) (f1 K) <> f0 K ->
  forall (s : F) (a c : nat),
  Ms K p q PA QC PQ s a (S c)
  = fsub K
      (fadd K
        (fadd K (fmul K (fadd K QC (fmul K (fdiv K p q) PA)) (Ms K p q PA QC PQ s a c))
                (fmul K (fdiv K (ofnat K a) (fmul K (fadd K (f1 K) (f1 K)) q)) (Ms K p q PA QC PQ s (a - 1) c)))
        (fmul K (fdiv K (ofnat K c) (fmul K (fadd K (f1 K) (f1 K)) q)) (Ms K p q PA QC PQ s a (c - 1))))
      (fmul K (fdiv K p q) (Ms K p q PA QC PQ s (S a) c)).
Proof. exact (fun F K Kf => etransfer_correct K Kf). Qed.
Print Assumptions C04_etransfer_correct.

(* Vertical recursion with auxiliary index m  (_two_elec_int.py:335-399) *)

(* the entry (a, m) of the recursion V[m][a+1] = PA V[m][a] - pcw V[m+1][a] + a v (V[m][a-1] - w V[m+1][a-1])
   is Phi_m of a polynomial in s, for ANY starting sequence beta *)
Theorem C04_vrr2_entry_is_Phi :
  forall (F : Type) (K : Fops F), is_field K ->
  forall (pa pcw v w : F) (beta : nat -> F) (a m : nat),
  Vf2 K pa pcw v w beta a m = Phi K beta m (Pw K pa pcw v w a).
Proof. exact (fun F K Kf => vrr2_entry_is_Phi K Kf). Qed.
Print Assumptions C04_vrr2_entry_is_Phi.

(* ... whose value at every s is the marginal moment Ms s a 0 = E[(y1 + PA - s (rho/p) PQ)^a],
   variance (1 - s rho/p)/(2p) *)
Theorem C04_vrr2_polynomial_is_moment :
  forall (F : Type) (K : Fops F), is_field K ->
  forall p q PA QC PQ : F, p <> f0 K -> fadd K (f1 K) (f1 K) <> f0 K ->
  forall (a : nat) (s : F),
  peval K (Pw K PA (fmul K (fdiv K (rho K p q) p) PQ) (fdiv K (f1 K) (fmul K (fadd K (f1 K) (f1 K)) p))
              (fdiv K (rho K p q) p) a) s
  = Ms K p q PA QC PQ s a 0.
Proof. exact (fun F K Kf => Pw_is_moment K Kf). Qed.
Print Assumptions C04_vrr2_polynomial_is_moment.

(* precise relation with the one-electron recursion of Gauss/SPoly.v (property C03): with w = rho/p,
   w^m V2[m][a] is the one-electron table Vf built from the rescaled sequence w^m beta_m and pc := PQ *)
Theorem C04_vrr2_is_rescaled_one_electron_vrr :
  forall (F : Type) (K : Fops F), is_field K ->
  forall (pa pq v w : F) (beta : nat -> F) (a m : nat),
  fmul K (fpow K w m) (Vf2 K pa (fmul K w pq) v w beta a m)
  = Vf K pa pq v (fun m => fmul K (fpow K w m) (beta m)) a m.
Proof. exact (fun F K Kf => Vf2_via_SPoly K Kf). Qed.
Print Assumptions C04_vrr2_is_rescaled_one_electron_vrr.

(* validity region: the entry (a, m) reads beta only at m .. m + a *)
Theorem C04_vrr2_locality :
  forall (F : Type) (K : Fops F) (pa pcw v w : F) (b1 b2 : nat -> F) (a m : nat),
  (forall k, k <= a -> b1 (m + k) = b2 (m + k)) ->
  Vf2 K pa pcw v w b1 a m = Vf2 K pa pcw v w b2 a m.
Proof. exact (fun F K => Vf2_local K). Qed.
Print Assumptions C04_vrr2_locality.


(* vpass2 (rows over m of channel vectors): entry (a, m, ch) = abstract recursion, for m + a <= L
   (row m = L is never written by the code: outside the region the table holds zeros/garbage) *)
Theorem C04_vpass2_entry :
  forall (F : Type) (K : Fops F), is_field K ->
  forall (L n : nat) (pa pcw twop w : F) (v0 : list (list F)),
  (forall m, m <= L -> length (nth m v0 []) = n) ->
  forall a m ch, m + a <= L -> ch < n ->
  nth ch (nth m (nth a (vpass2 K L pa pcw twop w v0) []) []) (f0 K)
  = Vf2 K pa pcw (fdiv K (f1 K) twop) w (chan K v0 ch) a m.
Proof. exact (fun F K Kf => vpass2_entry K Kf). Qed.
Print Assumptions C04_vpass2_entry.

(* the three passes of vrr2_cube (x, then y for every ax, then z for every ax, ay; flattened layout) *)
Theorem C04_vrr2_cube_entry :
  forall (F : Type) (K : Fops F), is_field K ->
  forall (L : nat) (pax pay paz pqx pqy pqz twop w : F) (base : nat -> F) (ax ay az : nat),
  ax + ay + az <= L ->
  cget K (vrr2_cube K L pax pay paz pqx pqy pqz twop w base) ax ay az
  = V3g K pax pay paz pqx pqy pqz twop w base ax ay az 0.
Proof. exact (fun F K Kf => vrr2_cube_entry K Kf). Qed.
Print Assumptions C04_vrr2_cube_entry.

(* tpass along any axis: the column idx = L is never written; entry = abstract transfer recursion on
   idx + c <= L *)
Theorem C04_tpass_entry :
  forall (F : Type) (K : Fops F), is_field K ->
  forall (L Lc axis : nat) (coef twoq r : F) (t : cube) (c x y z : nat),
  c <= Lc -> x <= L -> y <= L -> z <= L -> idx axis x y z + c <= L ->
  cget K (nth c (tpass K L Lc axis coef twoq r t) []) x y z
  = ETf K coef twoq r (line K axis t x y z) c (idx axis x y z).
Proof. exact (fun F K Kf => tpass_entry K Kf). Qed.
Print Assumptions C04_tpass_entry.

(* hiter (Model/OneElec.v) along any axis: entry = abstract horizontal recursion on idx + b <= L *)
Theorem C04_hiter_entry :
  forall (F : Type) (K : Fops F) (L axis : nat) (ab : F) (t0 : cube) (n b x y z : nat),
  b <= n -> x <= L -> y <= L -> z <= L -> idx axis x y z + b <= L ->
  cget K (nth b (hiter K L axis ab n t0) []) x y z
  = Hf K ab (line K axis t0 x y z) b (idx axis x y z).
Proof.
  intros F K L axis ab t0 n b x y z Hb Hx Hy Hz Hi.
  rewrite Hf_one. now apply OneElecP.hiter_entry.
Qed.
Print Assumptions C04_hiter_entry.

(* horizontal recursion = binomial expansion of (x - B)^b = ((x - A) + AB)^b *)
Theorem C04_hrr_binomial :
  forall (F : Type) (K : Fops F), is_field K ->
  forall (ab : F) (T : nat -> F) (b a : nat),
  Hf K ab T b a
  = sumn (f0 K) (fadd K) (S b) (fun k => fmul K (fmul K (binF K b k) (fpow K ab (b - k))) (T (a + k))).
Proof. exact (fun F K Kf => hrr_binomial K Kf). Qed.
Print Assumptions C04_hrr_binomial.


(* abstract statement (functions of the indices): VRR along x, y, z then transfer along x, y, z *)
Theorem C04_eri_3d_correct :
  forall (F : Type) (K : Fops F), is_field K ->
  forall p q PAx PAy PAz QCx QCy QCz PQx PQy PQz : F,
  p <> f0 K -> q <> f0 K -> fadd K p q <> f0 K -> fadd K (f1 K) (f1 K) <> f0 K ->
  forall (beta : nat -> F) (cx cy cz ax ay az : nat),
  E3 K p q PAx PAy PAz QCx QCy QCz
     (fun ax0 ay0 az0 => V3 K p q PAx PAy PAz PQx PQy PQz beta ax0 ay0 az0 0) cx cy cz ax ay az
  = Phi K beta 0 (R3 K p q PAx PAy PAz QCx QCy QCz PQx PQy PQz cx cy cz ax ay az)
  /\ (forall s : F,
      peval K (R3 K p q PAx PAy PAz QCx QCy QCz PQx PQy PQz cx cy cz ax ay az) s
      = fmul K (fmul K (Ms K p q PAx QCx PQx s ax cx) (Ms K p q PAy QCy PQy s ay cy))
               (Ms K p q PAz QCz PQz s az cz)).
Proof. exact (fun F K Kf => eri_3d_correct K Kf). Qed.
Print Assumptions C04_eri_3d_correct.

(* the table eri_prim of the model (list level, with the validity region of the NumPy arrays) *)
Theorem C04_eri_prim_correct :
  forall (F : Type) (K : Fops F), is_field K ->
  forall (Ax Ay Az Bx By Bz Cx Cy Cz Dx Dy Dz alpha beta gamma delta : F) (L Lc cx cy cz ax ay az : nat),
  let p := fadd K alpha beta in let q := fadd K gamma delta in
  let Px := fdiv K (fadd K (fmul K alpha Ax) (fmul K beta Bx)) p in
  let Py := fdiv K (fadd K (fmul K alpha Ay) (fmul K beta By)) p in
  let Pz := fdiv K (fadd K (fmul K alpha Az) (fmul K beta Bz)) p in
  let Qx := fdiv K (fadd K (fmul K gamma Cx) (fmul K delta Dx)) q in
  let Qy := fdiv K (fadd K (fmul K gamma Cy) (fmul K delta Dy)) q in
  let Qz := fdiv K (fadd K (fmul K gamma Cz) (fmul K delta Dz)) q in
  p <> f0 K -> q <> f0 K -> fadd K p q <> f0 K -> fadd K (f1 K) (f1 K) <> f0 K ->
  cx <= Lc -> cy <= Lc -> cz <= Lc -> ax + ay + az + cx + cy + cz <= L ->
  let R := R3 K p q (fsub K Px Ax) (fsub K Py Ay) (fsub K Pz Az) (fsub K Qx Cx) (fsub K Qy Cy) (fsub K Qz Cz)
              (fsub K Px Qx) (fsub K Py Qy) (fsub K Pz Qz) cx cy cz ax ay az in
  eget K (eri_prim K L Lc (Ax, Ay, Az) (Bx, By, Bz) (Cx, Cy, Cz) (Dx, Dy, Dz) alpha beta gamma delta)
       cx cy cz ax ay az
  = Phi K (eri_base K Ax Ay Az Bx By Bz Cx Cy Cz Dx Dy Dz alpha beta gamma delta) 0 R
  /\ (forall s : F,
      peval K R s
      = fmul K (fmul K (Ms K p q (fsub K Px Ax) (fsub K Qx Cx) (fsub K Px Qx) s ax cx)
                       (Ms K p q (fsub K Py Ay) (fsub K Qy Cy) (fsub K Py Qy) s ay cy))
               (Ms K p q (fsub K Pz Az) (fsub K Qz Cz) (fsub K Pz Qz) s az cz)).
Proof. exact (fun F K Kf => eri_prim_correct K Kf). Qed.
Print Assumptions C04_eri_prim_correct.

(* the all-s closed form (_two_elec_int.py:8-145) is the general path at L = 0 *)
Theorem C04_all_s_closed_form :
  forall (F : Type) (K : Fops F) (A B C D : F * F * F) (alpha beta gamma delta : F),
  eri_prim K 0 0 A B C D alpha beta gamma delta
  = [[[ [[[ fapx K (fmul K (eri_pref K A B C D alpha beta gamma delta)
                           (fboys K 0 (eri_T K A B C D alpha beta gamma delta))) ]]] ]]].
Proof. exact (fun F K => all_s_closed_form K). Qed.
Print Assumptions C04_all_s_closed_form.


(* horizontal recursions on (c,d) then (a,b) of a six-index table, as the model's eri_channel does *)
Theorem C04_eri_channel_entry :
  forall (F : Type) (K : Fops F) (La Lc lb ld : nat) (abx aby abz cdx cdy cdz : F)
         (comps3 comps4 : list comp) (getc : nat -> nat -> nat -> nat -> nat -> nat -> F)
         (i3 i4 bx by_ bz ax ay az : nat),
  i3 < length comps3 -> i4 < length comps4 ->
  let c3 := nth i3 comps3 (0, 0, 0) in let c4 := nth i4 comps4 (0, 0, 0) in
  let cx := fst (fst c3) in let cy := snd (fst c3) in let cz := snd c3 in
  let dx := fst (fst c4) in let dy := snd (fst c4) in let dz := snd c4 in
  dx <= ld -> dy <= ld -> dz <= ld -> cx + dx <= Lc -> cy + dy <= Lc -> cz + dz <= Lc ->
  bx <= lb -> by_ <= lb -> bz <= lb -> ax + bx <= La -> ay + by_ <= La -> az + bz <= La ->
  cget K (nth bz (nth by_ (nth bx (nth i4 (nth i3
     (eri_channel K La Lc lb ld abx aby abz cdx cdy cdz comps3 comps4 getc) []) []) []) []) []) ax ay az
  = chan_val K abx aby abz cdx cdy cdz getc cx cy cz dx dy dz bx by_ bz ax ay az.
Proof. exact (fun F K => eri_channel_entry K). Qed.
Print Assumptions C04_eri_channel_entry.

(* the per-axis four-index quantity hh is characterised by hh a 0 c 0 = g a c and the two rules
   (x - B) = (x - A) + AB, (x - D) = (x - C) + CD; explicitly it is the double binomial sum *)
Theorem C04_four_index_rule_b :
  forall (F : Type) (K : Fops F) (ab cd : F) (g : nat -> nat -> F) (a b c d : nat),
  hh K ab cd g a (S b) c d = fadd K (hh K ab cd g (S a) b c d) (fmul K ab (hh K ab cd g a b c d)).
Proof. exact (fun F K => hh_Sb K). Qed.
Print Assumptions C04_four_index_rule_b.

Theorem C04_four_index_rule_d :
  forall (F : Type) (K : Fops F), is_field K ->
  forall (ab cd : F) (g : nat -> nat -> F) (a b c d : nat),
  hh K ab cd g a b c (S d) = fadd K (hh K ab cd g a b (S c) d) (fmul K cd (hh K ab cd g a b c d)).
Proof. exact (fun F K Kf => hh_Sd K Kf). Qed.
Print Assumptions C04_four_index_rule_d.

Theorem C04_four_index_binomial :
  forall (F : Type) (K : Fops F), is_field K ->
  forall (ab cd : F) (g : nat -> nat -> F) (a b c d : nat),
  hh K ab cd g a b c d
  = sumn (f0 K) (fadd K) (S b) (fun k => fmul K (fmul K (binF K b k) (fpow K ab (b - k)))
      (sumn (f0 K) (fadd K) (S d) (fun l => fmul K (fmul K (binF K d l) (fpow K cd (d - l)))
                                                   (g (a + k) (c + l))))).
Proof.
  intros F K Kf ab cd g a b c d.
  unfold hh. rewrite (hrr_binomial K Kf). apply sumn_ext. intros k Hk.
  rewrite (hrr_binomial K Kf). reflexivity.
Qed.
Print Assumptions C04_four_index_binomial.

(* two_elec_correct: EVERY entry [m1][i1][m2][i2][m3][i3][m4][i4] of the block returned by the model of
   ElectronRepulsionIntegral.construct_array_contraction is
     (1/sqrt((2a-1)!!..)) x4  *  Sum_{alpha,beta,gamma,delta} (N d)(N d)(N d)(N d)  Phi_0(R4)
   where the value of the polynomial R4 at every s is the product over the axes of the four-index
   bivariate Gaussian moments M4 (= hh of Ms).  All angular momenta, any number of primitives and
   segmented contractions, arbitrary centres.  Hypotheses: exact arithmetic (fapx = id), 2 <> 0,
   non-zero exponent sums (true for positive exponents), indices in range, components of shell k have
   total degree <= l_k. *)
Theorem C04_two_elec_correct :
  forall (F : Type) (K : Fops F), is_field K ->
  forall (s1 s2 s3 s4 : shell F) (m1 i1 m2 i2 m3 i3 m4 i4 : nat),
  (forall x : F, fapx K x = x) ->
  fadd K (f1 K) (f1 K) <> f0 K ->
  (forall alpha beta, In alpha (s_exps s1) -> In beta (s_exps s2) -> fadd K alpha beta <> f0 K) ->
  (forall gamma delta, In gamma (s_exps s3) -> In delta (s_exps s4) -> fadd K gamma delta <> f0 K) ->
  (forall alpha beta gamma delta, In alpha (s_exps s1) -> In beta (s_exps s2) ->
     In gamma (s_exps s3) -> In delta (s_exps s4) ->
     fadd K (fadd K alpha beta) (fadd K gamma delta) <> f0 K) ->
  m1 < nseg s1 -> m2 < nseg s2 -> m3 < nseg s3 -> m4 < nseg s4 ->
  i1 < length (comps_of s1) -> i2 < length (comps_of s2) ->
  i3 < length (comps_of s3) -> i4 < length (comps_of s4) ->
  let c1 := nth i1 (comps_of s1) (0, 0, 0) in let c2 := nth i2 (comps_of s2) (0, 0, 0) in
  let c3 := nth i3 (comps_of s3) (0, 0, 0) in let c4 := nth i4 (comps_of s4) (0, 0, 0) in
  compsum c1 <= s_l s1 -> compsum c2 <= s_l s2 -> compsum c3 <= s_l s3 -> compsum c4 <= s_l s4 ->
  nth i4 (nth m4 (nth i3 (nth m3 (nth i2 (nth m2 (nth i1 (nth m1 (eri_block K s1 s2 s3 s4)
    []) []) []) []) []) []) []) (f0 K)
  = fmul K (fmul K (fmul K (fmul K
      (csum K (wts K s1) m1 (s_exps s1) (fun alpha =>
        csum K (wts K s2) m2 (s_exps s2) (fun beta =>
          csum K (wts K s3) m3 (s_exps s3) (fun gamma =>
            csum K (wts K s4) m4 (s_exps s4) (fun delta =>
              Phi K (eri_base K (s_x s1) (s_y s1) (s_z s1) (s_x s2) (s_y s2) (s_z s2)
                                (s_x s3) (s_y s3) (s_z s3) (s_x s4) (s_y s4) (s_z s4)
                                alpha beta gamma delta) 0
                    (R4 K s1 s2 s3 s4 i1 i2 i3 i4 alpha beta gamma delta))))))
      (inv_sqrt_df K c1)) (inv_sqrt_df K c2)) (inv_sqrt_df K c3)) (inv_sqrt_df K c4)
  /\ (forall alpha beta gamma delta s : F,
      In alpha (s_exps s1) -> In beta (s_exps s2) -> In gamma (s_exps s3) -> In delta (s_exps s4) ->
      peval K (R4 K s1 s2 s3 s4 i1 i2 i3 i4 alpha beta gamma delta) s
      = fmul K (fmul K
          (M4 K alpha beta gamma delta (s_x s1) (s_x s2) (s_x s3) (s_x s4) s
              (fst (fst c1)) (fst (fst c2)) (fst (fst c3)) (fst (fst c4)))
          (M4 K alpha beta gamma delta (s_y s1) (s_y s2) (s_y s3) (s_y s4) s
              (snd (fst c1)) (snd (fst c2)) (snd (fst c3)) (snd (fst c4))))
          (M4 K alpha beta gamma delta (s_z s1) (s_z s2) (s_z s3) (s_z s4) s
              (snd c1) (snd c2) (snd c3) (snd c4))).
Proof. exact (fun F K Kf => two_elec_correct K Kf). Qed.
Print Assumptions C04_two_elec_correct.

(* NOT proved here (stated so that nothing is hidden):
   * the analytic bridge: that Phi_0 of the s-polynomial with beta_m = pref * F_m(rho |PQ|^2) IS the
     six-dimensional Coulomb integral (Laplace transform of 1/r12, Gaussian integrals; DESIGN.md 2.6, trusted);
   * the identification of M4 with a closed-form integral is by Wick's recursion (Gauss/Wick2D.v is the
     spec; its marginals are tied to Moment1D's explicit moments by C04_wick_marginal_first and _second);
   * floating-point accuracy (the 1e-6 Schwarz-scale clause) — decided by the correspondence check;
   * physicist's notation / eight-fold fill / spherical transformation: Props/C04.v. *)

Example C04_eri_hyps_ex :
  qc_of 3 2 <> f0 KQ4 /\ qc_of 2 1 <> f0 KQ4 /\ fadd KQ4 (qc_of 3 2) (qc_of 2 1) <> f0 KQ4
  /\ fadd KQ4 (f1 KQ4) (f1 KQ4) <> f0 KQ4.
Proof. exact eri_hyps_ex. Qed.
Print Assumptions C04_eri_hyps_ex.

Example C04_field_ex : is_field KQ4.
Proof. exact KQ4_field. Qed.
Print Assumptions C04_field_ex.

(* a concrete (p d | s p) quartet, two primitives per shell, meeting every hypothesis of
   C04_two_elec_correct for the entry [0][1][0][2][0][0][0][1] *)
Example C04_two_elec_hyps_ex :
  (forall x, fapx KQ4 x = x) /\ fadd KQ4 (f1 KQ4) (f1 KQ4) <> f0 KQ4
  /\ (forall alpha beta, In alpha (s_exps ex_s1) -> In beta (s_exps ex_s2) -> fadd KQ4 alpha beta <> f0 KQ4)
  /\ (forall gamma delta, In gamma (s_exps ex_s3) -> In delta (s_exps ex_s4) -> fadd KQ4 gamma delta <> f0 KQ4)
  /\ (forall alpha beta gamma delta, In alpha (s_exps ex_s1) -> In beta (s_exps ex_s2) ->
        In gamma (s_exps ex_s3) -> In delta (s_exps ex_s4) ->
        fadd KQ4 (fadd KQ4 alpha beta) (fadd KQ4 gamma delta) <> f0 KQ4)
  /\ (0 < nseg ex_s1 /\ 0 < nseg ex_s2 /\ 0 < nseg ex_s3 /\ 0 < nseg ex_s4)
  /\ (1 < length (comps_of ex_s1) /\ 2 < length (comps_of ex_s2)
      /\ 0 < length (comps_of ex_s3) /\ 1 < length (comps_of ex_s4))
  /\ (compsum (nth 1 (comps_of ex_s1) (0, 0, 0)) <= s_l ex_s1
      /\ compsum (nth 2 (comps_of ex_s2) (0, 0, 0)) <= s_l ex_s2
      /\ compsum (nth 0 (comps_of ex_s3) (0, 0, 0)) <= s_l ex_s3
      /\ compsum (nth 1 (comps_of ex_s4) (0, 0, 0)) <= s_l ex_s4).
Proof. exact two_elec_hyps_ex. Qed.
Print Assumptions C04_two_elec_hyps_ex.

(* C04_eri_prim_correct on concrete numbers, both sides computed (vm_compute): the entry a = (1,0,1),
   c = (1,0,0) of the primitive table with L = 3, for an arbitrary "Boys" sequence 1/(2m+1) *)
Example C04_eri_prim_correct_ex :
  let A := (qc_of 1 2, qc_of 0 1, qc_of (-1) 4) in let B := (qc_of 0 1, qc_of 1 1, qc_of 1 2) in
  let C := (qc_of (-1) 1, qc_of 1 4, qc_of 0 1) in let D := (qc_of 3 4, qc_of (-1) 2, qc_of 1 1) in
  let al := qc_of 1 2 in let be := qc_of 1 1 in let ga := qc_of 3 2 in let de := qc_of 1 2 in
  let p := fadd KQ4 al be in let q := fadd KQ4 ga de in
  let ctr := fun a b x y => fdiv KQ4 (fadd KQ4 (fmul KQ4 a x) (fmul KQ4 b y)) (fadd KQ4 a b) in
  let Px := ctr al be (qc_of 1 2) (qc_of 0 1) in let Py := ctr al be (qc_of 0 1) (qc_of 1 1) in
  let Pz := ctr al be (qc_of (-1) 4) (qc_of 1 2) in
  let Qx := ctr ga de (qc_of (-1) 1) (qc_of 3 4) in let Qy := ctr ga de (qc_of 1 4) (qc_of (-1) 2) in
  let Qz := ctr ga de (qc_of 0 1) (qc_of 1 1) in
  eget KQ4 (eri_prim KQ4 3 1 A B C D al be ga de) 1 0 0 1 0 1
  = Phi KQ4 (eri_base KQ4 (qc_of 1 2) (qc_of 0 1) (qc_of (-1) 4) (qc_of 0 1) (qc_of 1 1) (qc_of 1 2)
                          (qc_of (-1) 1) (qc_of 1 4) (qc_of 0 1) (qc_of 3 4) (qc_of (-1) 2) (qc_of 1 1)
                          al be ga de) 0
        (R3 KQ4 p q (fsub KQ4 Px (qc_of 1 2)) (fsub KQ4 Py (qc_of 0 1)) (fsub KQ4 Pz (qc_of (-1) 4))
            (fsub KQ4 Qx (qc_of (-1) 1)) (fsub KQ4 Qy (qc_of 1 4)) (fsub KQ4 Qz (qc_of 0 1))
            (fsub KQ4 Px Qx) (fsub KQ4 Py Qy) (fsub KQ4 Pz Qz) 1 0 0 1 0 1).
Proof. exact eri_prim_correct_ex. Qed.
Print Assumptions C04_eri_prim_correct_ex.
