(* Props/BRIDGE_value.v — the value of the Gaussian integral and the CLOSED form of bridge (B1) of
   DESIGN.md 2.6 (no hypothesis left).  Only statements closed by [exact] of, or in a step or two
   from, lemmas proved in Gauss/GaussInt.v, each followed by Print Assumptions.  Notation as in Props/BRIDGE.v:
   gint g l := is_RInt_gen g (Rbar_locally m_infty) (Rbar_locally p_infty) l  (improper Riemann
   integral over the whole line, spelled out by BRIDGE_gint_meaning), Gint := RInt_gen likewise. *)
From Coq Require Import List Reals.
From Coquelicot Require Import Coquelicot.
From GB Require Import Base.Field Gauss.Moment1D Gauss.Bridge Gauss.DerivBridge Gauss.BridgeR Gauss.GaussInt.
Import ListNotations.
Open Scope R_scope.

Theorem BRIDGE_gaussian_integral_unit : gint (fun x => exp (- x ^ 2)) (sqrt PI).
Proof. exact gaussian_integral_unit. Qed.
Print Assumptions BRIDGE_gaussian_integral_unit.

Theorem BRIDGE_gaussian_integral :
  forall p : R, 0 < p -> gint (fun x => exp (- p * x ^ 2)) (sqrt (PI / p)).
Proof. exact gaussian_integral. Qed.
Print Assumptions BRIDGE_gaussian_integral.

Theorem BRIDGE_gaussian_integral_value :
  forall p : R, 0 < p -> Gint (fun x => exp (- p * x ^ 2)) = sqrt (PI / p).
Proof. intros p Hp. apply Gint_correct. now apply gaussian_integral. Qed.
Print Assumptions BRIDGE_gaussian_integral_value.

(* (B1): for every p > 0, centre P, polynomial f (coefficient list in y = x - P):
   int_R f(x-P) e^{-p (x-P)^2} dx exists and equals sqrt(PI/p) * E f,  E of Gauss/Moment1D.v at v = 1/(2p) *)
Theorem BRIDGE_B1_closed :
  forall (p P : R) (f : list R), 0 < p ->
  gint (fun x => peval f (x - P) * exp (- p * (x - P) ^ 2)) (sqrt (PI / p) * E RKd (/ (2 * p)) f)
  /\ Gint (fun x => peval f (x - P) * exp (- p * (x - P) ^ 2)) / sqrt (PI / p) = E RKd (/ (2 * p)) f.
Proof. exact bridge_B1_closed. Qed.
Print Assumptions BRIDGE_B1_closed.

Theorem BRIDGE_B1_monomials_closed :
  forall (p P : R) (n : nat), 0 < p ->
  gint (fun x => (x - P) ^ n * exp (- p * (x - P) ^ 2)) (sqrt (PI / p) * mom RKd (/ (2 * p)) n).
Proof. intros p P n Hp. apply bridge_B1_monomials; [exact Hp | now apply gaussian_integral]. Qed.
Print Assumptions BRIDGE_B1_monomials_closed.

(* the 1-D factor of overlap (k = 0) and multipole-moment integrals is the S3 of Gauss/Moment1D.v *)
Theorem BRIDGE_overlap_1d_integral :
  forall (al be A B C : R) (k i j : nat), 0 < al -> 0 < be ->
  let p := al + be in let P := (al * A + be * B) / p in let mu := al * be / p in
  gint (fun x => (x - C) ^ k * (x - A) ^ i * (x - B) ^ j
                 * exp (- al * (x - A) ^ 2) * exp (- be * (x - B) ^ 2))
       (exp (- mu * (A - B) ^ 2) * sqrt (PI / p)
        * S3 RKd (/ (2 * p)) (P - A) (P - B) (P - C) 0 k i j).
Proof. exact overlap_1d_integral. Qed.
Print Assumptions BRIDGE_overlap_1d_integral.
