(* Props/BRIDGE.v — the analytic bridge (B1) of DESIGN.md 2.6, narrowed.  Only statements closed by
   [exact] of, or in a step or two from, lemmas proved in Gauss/Bridge.v (algebra, any field) or
   Gauss/BridgeR.v (real analysis, Coquelicot), each followed by Print Assumptions.

   gint g l  :=  is_RInt_gen g (Rbar_locally m_infty) (Rbar_locally p_infty) l
                 (improper Riemann integral over the whole real line; spelled out in BRIDGE_gint_meaning)
   Gint g    :=  RInt_gen g (Rbar_locally m_infty) (Rbar_locally p_infty)
   peval f x :=  value at x of the coefficient list f (low degree first)
   E RKd (/ (2 * p)) f  :=  the algebraic moment functional of Gauss/Moment1D.v at the reals, v = 1/(2p)

   What (B1) still needs after this file: the one fact about real numbers
        gint (fun x => exp (- x^2)) (sqrt PI)
   (hypothesis of BRIDGE_B1; existence and positivity of that integral are proved here).  It
   is proved in Gauss/GaussInt.v; Props/BRIDGE_value.v states the closed form BRIDGE_B1_closed. *)
From Coq Require Import List Reals.
From Coquelicot Require Import Coquelicot.
From GB Require Import Base.Field Gauss.Moment1D Gauss.Bridge Gauss.DerivBridge Gauss.BridgeR.
Import ListNotations.

Theorem BRIDGE_moments_unique :
  forall (F : Type) (K : Fops F), is_field K ->
  forall p v : F, fmul K (fmul K (fadd K (f1 K) (f1 K)) p) v = f1 K ->
  forall J : nat -> F, gauss_moment_laws K p J -> forall n, J n = fmul K (J 0%nat) (mom K v n).
Proof. exact @moments_unique. Qed.
Print Assumptions BRIDGE_moments_unique.

Theorem BRIDGE_uniqueness :
  forall (F : Type) (K : Fops F), is_field K ->
  forall p v : F, fmul K (fmul K (fadd K (f1 K) (f1 K)) p) v = f1 K ->
  forall I : list F -> F, plinear K I -> kills_derivatives K p I ->
  forall f, I f = fmul K (I [f1 K]) (E K v f).
Proof. exact @bridge_uniqueness. Qed.
Print Assumptions BRIDGE_uniqueness.

Theorem BRIDGE_characterisation :
  forall (F : Type) (K : Fops F), is_field K ->
  forall p v : F, fmul K (fmul K (fadd K (f1 K) (f1 K)) p) v = f1 K ->
  forall I : list F -> F, plinear K I ->
  (kills_derivatives K p I <-> forall f, I f = fmul K (I [f1 K]) (E K v f)).
Proof. exact @bridge_characterisation. Qed.
Print Assumptions BRIDGE_characterisation.

Theorem BRIDGE_E_linear :
  forall (F : Type) (K : Fops F), is_field K -> forall v : F, plinear K (E K v).
Proof. exact @E_linear. Qed.
Print Assumptions BRIDGE_E_linear.

Theorem BRIDGE_E_kills_derivatives :
  forall (F : Type) (K : Fops F), is_field K ->
  forall p v : F, fmul K (fmul K (fadd K (f1 K) (f1 K)) p) v = f1 K ->
  kills_all_derivatives K p (E K v).
Proof. exact @E_kills_derivatives. Qed.
Print Assumptions BRIDGE_E_kills_derivatives.

Theorem BRIDGE_gauss_product_identity :
  forall (F : Type) (K : Fops F), is_field K ->
  forall al be A B x : F, fadd K al be <> f0 K ->
  let p := fadd K al be in
  let P := fdiv K (fadd K (fmul K al A) (fmul K be B)) p in
  let mu := fdiv K (fmul K al be) p in
  fadd K (fmul K al (fmul K (fsub K x A) (fsub K x A))) (fmul K be (fmul K (fsub K x B) (fsub K x B)))
  = fadd K (fmul K p (fmul K (fsub K x P) (fsub K x P))) (fmul K mu (fmul K (fsub K A B) (fsub K A B))).
Proof. exact @gauss_product_identity. Qed.
Print Assumptions BRIDGE_gauss_product_identity.

Theorem BRIDGE_hypotheses_satisfiable :
  exists (F : Type) (K : Fops F) (p v : F) (I : list F -> F),
    is_field K /\ fmul K (fmul K (fadd K (f1 K) (f1 K)) p) v = f1 K /\
    plinear K I /\ kills_derivatives K p I /\ I [f1 K] <> f0 K.
Proof.
  destruct bridge_hypotheses_satisfiable as [I [HL [HK H1]]].
  eexists _, _, _, _, I.
  split; [apply QcK_field|]. split; [exact Hpv_Q|]. split; [exact HL|]. split; [exact HK|].
  rewrite H1. intro H. discriminate (f_equal Qcanon.this H).
Qed.
Print Assumptions BRIDGE_hypotheses_satisfiable.

Open Scope R_scope.

Theorem BRIDGE_gint_meaning :
  forall (g : R -> R) (l : R),
  gint g l <->
  (forall eps : posreal, exists M : R, forall a b : R, a < - M -> M < b ->
     exists y : R, is_RInt g a b y /\ Rabs (y - l) < eps).
Proof. exact gint_spelled_out. Qed.
Print Assumptions BRIDGE_gint_meaning.

Theorem BRIDGE_derivative_rule :
  forall (p : R) (n : nat) (x : R),
  is_derive (fun t => t ^ n * exp (- p * t ^ 2)) x
    ((match n with O => 0 | S n' => INR n * x ^ n' end - 2 * p * x ^ (S n)) * exp (- p * x ^ 2)).
Proof. exact gw_derive. Qed.
Print Assumptions BRIDGE_derivative_rule.

Theorem BRIDGE_poly_gauss_derive :
  forall (p : R) (f : list R) (x : R),
  is_derive (fun t => peval f t * exp (- p * t ^ 2)) x
            (peval (gderiv RKd p f) x * exp (- p * x ^ 2)).
Proof. exact poly_gauss_derive. Qed.
Print Assumptions BRIDGE_poly_gauss_derive.

Theorem BRIDGE_decay :
  forall (p : R) (n : nat), 0 < p ->
  filterlim (fun x => x ^ n * exp (- p * x ^ 2)) (Rbar_locally p_infty) (locally 0) /\
  filterlim (fun x => x ^ n * exp (- p * x ^ 2)) (Rbar_locally m_infty) (locally 0).
Proof. exact gw_decay. Qed.
Print Assumptions BRIDGE_decay.

Theorem BRIDGE_gauss_integral_kills_derivatives :
  forall (p : R) (n : nat), 0 < p ->
  gint (fun x => (match n with O => 0 | S n' => INR n * x ^ n' end - 2 * p * x ^ (S n))
                 * exp (- p * x ^ 2)) 0.
Proof. exact gauss_integral_kills_derivatives. Qed.
Print Assumptions BRIDGE_gauss_integral_kills_derivatives.

Theorem BRIDGE_gauss_integral_kills_all_derivatives :
  forall (p : R) (f : list R), 0 < p ->
  gint (fun x => peval (gderiv RKd p f) x * exp (- p * x ^ 2)) 0.
Proof. exact gauss_integral_kills_all_derivatives. Qed.
Print Assumptions BRIDGE_gauss_integral_kills_all_derivatives.

Theorem BRIDGE_first_moment_zero :
  forall p : R, 0 < p -> gint (fun x => x ^ 1 * exp (- p * x ^ 2)) 0.
Proof. exact gauss_first_moment. Qed.
Print Assumptions BRIDGE_first_moment_zero.

Theorem BRIDGE_gauss_moments :
  forall p J0 : R, 0 < p -> gint (fun x => exp (- p * x ^ 2)) J0 ->
  forall n, gint (fun x => x ^ n * exp (- p * x ^ 2)) (J0 * mom RKd (/ (2 * p)) n).
Proof. exact gauss_moments. Qed.
Print Assumptions BRIDGE_gauss_moments.

Theorem BRIDGE_gauss_moments_values :
  forall (p : R) (J : nat -> R), 0 < p ->
  (forall n, gint (fun x => x ^ n * exp (- p * x ^ 2)) (J n)) ->
  forall n, J n = J 0%nat * mom RKd (/ (2 * p)) n.
Proof.
  intros p J Hp HJ n. apply (gint_unique (gw p n)); [apply HJ|].
  apply gauss_moments; [exact Hp|].
  apply (gint_ext (gw p 0) _ (J 0%nat) _); [exact (gw_0 p) | reflexivity | apply HJ].
Qed.
Print Assumptions BRIDGE_gauss_moments_values.

Theorem BRIDGE_gaussian_integral_exists :
  forall p : R, 0 < p -> exists J0 : R, gint (fun x => exp (- p * x ^ 2)) J0.
Proof. exact gaussian_integral_exists. Qed.
Print Assumptions BRIDGE_gaussian_integral_exists.

Theorem BRIDGE_gaussian_integral_pos :
  forall p : R, 0 < p -> forall J0 : R, gint (fun x => exp (- p * x ^ 2)) J0 -> 0 < J0.
Proof. exact gaussian_integral_pos. Qed.
Print Assumptions BRIDGE_gaussian_integral_pos.

(* no hypothesis at all: the normalised Gaussian expectation of a polynomial is E f *)
Theorem BRIDGE_normalised :
  forall (p P : R) (f : list R), 0 < p ->
  gint (fun x => peval f (x - P) * exp (- p * (x - P) ^ 2))
       (Gint (fun x => exp (- p * x ^ 2)) * E RKd (/ (2 * p)) f)
  /\ Gint (fun x => peval f (x - P) * exp (- p * (x - P) ^ 2)) / Gint (fun x => exp (- p * x ^ 2))
     = E RKd (/ (2 * p)) f.
Proof. exact gauss_bridge_normalised. Qed.
Print Assumptions BRIDGE_normalised.

Theorem BRIDGE_integral_satisfies_abstract_laws :
  forall p J0 : R, 0 < p -> gint (fun x => exp (- p * x ^ 2)) J0 ->
  plinear RKd (Gfun p) /\ kills_all_derivatives RKd p (Gfun p) /\ Gfun p [1] = J0.
Proof. exact Gfun_bridge_laws. Qed.
Print Assumptions BRIDGE_integral_satisfies_abstract_laws.

Theorem BRIDGE_B1_modulo_gaussian_integral :
  forall p P : R, 0 < p ->
  gint (fun x => exp (- p * x ^ 2)) (sqrt (PI / p)) ->
  forall f : list R,
    gint (fun x => peval f (x - P) * exp (- p * (x - P) ^ 2)) (sqrt (PI / p) * E RKd (/ (2 * p)) f)
    /\ Gint (fun x => peval f (x - P) * exp (- p * (x - P) ^ 2)) / sqrt (PI / p) = E RKd (/ (2 * p)) f.
Proof. exact bridge_B1_modulo_gaussian_integral. Qed.
Print Assumptions BRIDGE_B1_modulo_gaussian_integral.

Theorem BRIDGE_B1_from_value :
  forall p P : R, 0 < p -> Gint (fun x => exp (- p * x ^ 2)) = sqrt (PI / p) ->
  forall f : list R,
    Gint (fun x => peval f (x - P) * exp (- p * (x - P) ^ 2)) / sqrt (PI / p) = E RKd (/ (2 * p)) f.
Proof. intros p P Hp <- f. now apply gauss_bridge_normalised. Qed.
Print Assumptions BRIDGE_B1_from_value.

Theorem BRIDGE_B1_monomials :
  forall p P : R, 0 < p -> gint (fun x => exp (- p * x ^ 2)) (sqrt (PI / p)) ->
  forall n, gint (fun x => (x - P) ^ n * exp (- p * (x - P) ^ 2)) (sqrt (PI / p) * mom RKd (/ (2 * p)) n).
Proof. exact bridge_B1_monomials. Qed.
Print Assumptions BRIDGE_B1_monomials.

Theorem BRIDGE_gaussian_integral_from_unit :
  forall p : R, 0 < p -> gint (fun x => exp (- x ^ 2)) (sqrt PI) ->
  gint (fun x => exp (- p * x ^ 2)) (sqrt (PI / p)).
Proof. exact gaussian_integral_from_unit. Qed.
Print Assumptions BRIDGE_gaussian_integral_from_unit.

Theorem BRIDGE_B1 :
  forall p P : R, 0 < p ->
  gint (fun x => exp (- x ^ 2)) (sqrt PI) ->
  forall f : list R,
    gint (fun x => peval f (x - P) * exp (- p * (x - P) ^ 2)) (sqrt (PI / p) * E RKd (/ (2 * p)) f)
    /\ Gint (fun x => peval f (x - P) * exp (- p * (x - P) ^ 2)) / sqrt (PI / p) = E RKd (/ (2 * p)) f.
Proof. exact bridge_B1. Qed.
Print Assumptions BRIDGE_B1.
