(* Props/C11_sym8.v — property C11 for electron_repulsion_integral WITHOUT hypotheses on the model's output:
   Props/C11.v proves the four-index permutation theorem (C11_assemble_perm_eri_integral) and "every cell of the
   store holds the block of its own quartet" (C11_four_store_holds_every_block) under two hypotheses about the
   processed blocks, their shape [shape4] and their eight-fold symmetry [sym8].  Both are THEOREMS for the model
   of the ERI (Proofs/EriSym8P.v): the processed block of a permuted shell quartet, evaluated independently by the
   asymmetric recursion, normalised and transformed, is the correspondingly transposed processed block of
   (s_i s_j | s_k s_l), as nested lists; any assignment of coordinate types, any l, segments, number of shells.
   Statements over the lemmas of Proofs/EriSym8P.v, each followed by Print Assumptions.

   eri_basis_ok K bs   every shell has a segment, components of degree <= l; all exponent sums alpha+beta and
                       (alpha+beta)+(gamma+delta) over the shells of the basis are non-zero
                       (Props/C09_block4.v C09_eri_basis_ok_unfold) *)
From Coq Require Import List Arith Bool.
From GB Require Import Base.Field Base.Tables Model.Shell Model.Assembly Model.Assembly14 Model.Overlap Model.TwoElec
  Model.OneBody Proofs.AssembledP Proofs.AssembledSphP Proofs.PermP Proofs.EriStructP Proofs.TwoElecP Proofs.EriOrientP
  Proofs.Block4FullP Proofs.EriSym8P.
Import ListNotations.

(* the eight index symmetries (ab|cd) = (ba|cd) = (ab|dc) = (ba|dc) = (cd|ab) = (dc|ab) = (cd|ba) = (dc|ba) of the
   processed blocks, list level *)
Theorem C11_eri_sym8 :
  forall (F : Type) (K : Fops F), is_field K ->
  (forall x : F, fapx K x = x) -> (forall n, ofnat K (S n) <> f0 K) ->
  forall bs : list (shell F), eri_basis_ok K bs ->
  forall i j k l, i < length bs -> j < length bs -> k < length bs -> l < length bs ->
  let B := Beri K bs in let sw := swapax (f0 K) in
  B i j l k = sw 2 3 (B i j k l) /\
  B j i k l = sw 0 1 (B i j k l) /\
  B j i l k = sw 0 1 (sw 2 3 (B i j k l)) /\
  B k l i j = sw 0 2 (sw 1 3 (B i j k l)) /\
  B l k i j = sw 0 1 (sw 0 2 (sw 1 3 (B i j k l))) /\
  B k l j i = sw 2 3 (sw 0 2 (sw 1 3 (B i j k l))) /\
  B l k j i = sw 0 3 (sw 1 2 (B i j k l)).
Proof. exact (fun F K Kf Hapx c0 bs OK => eri_sym8 K Kf Hapx c0 bs OK). Qed.
Print Assumptions C11_eri_sym8.

(* shape of the processed blocks: [odim s_i][odim s_j][odim s_k][odim s_l], odim = segments x output size *)
Theorem C11_eri_blocks_shape :
  forall (F : Type) (K : Fops F) (bs : list (shell F)),
  shape4 (length bs) (fun k => odim (sh_at K bs k)) (Beri K bs).
Proof. exact (fun F K bs => Beri_shape4 K bs). Qed.
Print Assumptions C11_eri_blocks_shape.

(* whatever the order of the eight writes, the assembled array is the plain concatenation of all n^4 blocks *)
Theorem C11_eri_integral_is_concat :
  forall (F : Type) (K : Fops F), is_field K ->
  (forall x : F, fapx K x = x) -> (forall n, ofnat K (S n) <> f0 K) ->
  forall bs : list (shell F), eri_basis_ok K bs ->
  eri_integral K bs None false = four_concat (length bs) (Beri K bs).
Proof. exact (fun F K Kf => eri_integral_is_concat K Kf). Qed.
Print Assumptions C11_eri_integral_is_concat.

(* assemble_perm for electron_repulsion_integral, no hypothesis on the blocks *)
Theorem C11_assemble_perm_eri_integral_full :
  forall (F : Type) (K : Fops F), is_field K ->
  (forall x : F, fapx K x = x) -> (forall n, ofnat K (S n) <> f0 K) ->
  forall (bs : list (shell F)), eri_basis_ok K bs ->
  forall (ds : shell F) (p : list nat), Forall (fun k => k < length bs) p ->
  let r := fun k => odim (sh_at K bs k) in
  forall x1 x2 x3 x4, x1 < length (iperm r p) -> x2 < length (iperm r p) ->
    x3 < length (iperm r p) -> x4 < length (iperm r p) ->
  Assembly14.get4 (f0 K) (eri_integral K (sel ds p bs) None false) x1 x2 x3 x4
  = Assembly14.get4 (f0 K) (eri_integral K bs None false)
      (nth x1 (iperm r p) 0) (nth x2 (iperm r p) 0) (nth x3 (iperm r p) 0) (nth x4 (iperm r p) 0).
Proof.
  intros F K Kf Hapx char0 bs OK ds p Hp r.
  apply (eri_integral_perm K bs ds r p (Beri_shape4 K bs) (eri_sym8 K Kf Hapx char0 bs OK) Hp).
Qed.
Print Assumptions C11_assemble_perm_eri_integral_full.

(* the hypotheses are satisfiable: spherical d shell, Cartesian p shell, s shell over Qc *)
Example C11_sym8_hypotheses_satisfiable :
  is_field KQ4 /\ (forall x, fapx KQ4 x = x) /\ (forall n, ofnat KQ4 (S n) <> f0 KQ4) /\
  eri_basis_ok KQ4 ex_eri_basis /\ ototal KQ4 ex_eri_basis = 9 /\
  sym8 (f0 KQ4) 3 (Beri KQ4 ex_eri_basis).
Proof. exact ex_eri_full. Qed.
Print Assumptions C11_sym8_hypotheses_satisfiable.
