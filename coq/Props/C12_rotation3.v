(* Props/C12_rotation3.v — property C12, GENERAL ROTATIONS (proper and improper), continued from C12_rotation2.v:
   the EVALUATIONS (function values and gradients; Proofs/RotationEvalP.v) and the ELECTRON REPULSION at the level of
   the algebraic specification and of every entry of the model's eri_block (Gauss/Poly6.v, Proofs/RotationEriP.v,
   Proofs/RotationEriBlockP.v).  Any field (characteristic 0 where Phi_unique is used), no analysis, no axioms; no
   property of exp, sqrt, pi or of the Boys function is used.

   CONVENTIONS as in C12_rotation.v / C12_rotation2.v: R : mat3 (rows), [rot_shell R s] has centre R * centre(s),
   [mapply R r] = R r, D(R)[a,a'] = coefficient of u^a' in (R^T u)^a, Jsum J (rot_expand R a) = sum_a' D(R)[a,a'] J a',
   [rep_mat R a' a] = D(R)[a,a'] collected over [default_comps l]; [orthogonal R] is R R^T = R^T R = 1, nothing is
   assumed about det R. *)
From Coq Require Import List Arith.
From GB Require Import Base.Field Base.FNum Base.Tables Gauss.Moment1D Gauss.SPoly Gauss.Poly3 Gauss.Wick2D Gauss.Poly6
  Model.Shell Model.MomentInt Model.Overlap Model.Eval Model.TwoElec Proofs.EvalP Proofs.SameFunP Proofs.TwoElecP
  Proofs.RigidP Proofs.RotationP Proofs.RotationBlockP Proofs.RotationMoreP Proofs.RotationEvalP Proofs.RotationEriP
  Proofs.RotationEriBlockP.
Import ListNotations.

(* the value (r-A)^a exp(-alpha |r-A|^2) of a Cartesian primitive: rotated shell at the rotated point, D-contracted *)
Theorem C12_rotation3_eval_prim :
  forall (F : Type) (K : Fops F), is_field K ->
  forall (R : @mat3 F) (A : @vec3 F) (alpha : F) (a : comp) (r : @vec3 F), orthogonal K R ->
  Jsum K (fun a' => gauss_prim K (mapply K R A) alpha a' (mapply K R r)) (rot_expand K R a)
  = gauss_prim K A alpha a r.
Proof. exact (@eval_prim_rotation_covariant). Qed.
Print Assumptions C12_rotation3_eval_prim.

(* [gauss_prim] is the order-(0,0,0) case of the expression the evaluation model computes per primitive *)
Theorem C12_rotation3_eval_prim_is_order0 :
  forall (F : Type) (K : Fops F) (A : @vec3 F) (alpha : F) (c : comp) (r : @vec3 F),
  gauss_prim_deriv K (0, 0, 0)%nat A alpha c r = gauss_prim K A alpha c r.
Proof. exact (@gauss_prim_deriv_0). Qed.
Print Assumptions C12_rotation3_eval_prim_is_order0.

(* the three first derivatives rotate as a vector *)
Theorem C12_rotation3_eval_prim_gradient :
  forall (F : Type) (K : Fops F), is_field K ->
  forall (R : @mat3 F) (A : @vec3 F) (alpha : F) (a : comp) (r : @vec3 F) (i : axis), orthogonal K R ->
  Jsum K (fun a' => gauss_prim_deriv K (eax i) (mapply K R A) alpha a' (mapply K R r)) (rot_expand K R a)
  = sum3 K (fun k => fmul K (matf R i k) (gauss_prim_deriv K (eax k) A alpha a r)).
Proof. exact (@eval_prim_gradient_rotation_covariant). Qed.
Print Assumptions C12_rotation3_eval_prim_gradient.

(* the un-normalised entry of the evaluation block is the contracted sum of [gauss_prim_deriv] *)
Theorem C12_rotation3_raw_entry_is_contracted :
  forall (F : Type) (K : Fops F), is_field K ->
  forall (o : comp) (s : shell F) (m ic : nat) (p : point (F:=F)),
  raw_entry K o s m ic p
  = contracted1 K (s_l s) m (combine (s_exps s) (s_coeffs s)) (compi s ic)
      (fun c alpha => gauss_prim_deriv K o (s_x s, s_y s, s_z s) alpha c p).
Proof. exact (@raw_entry_contracted1). Qed.
Print Assumptions C12_rotation3_raw_entry_is_contracted.

(* EVERY ENTRY of EvalDeriv/Eval.construct_array_contraction (general back-end, orders 0): any l, any number of
   primitives and segments, any points *)
Theorem C12_rotation3_eval_block :
  forall (F : Type) (K : Fops F), is_field K ->
  (forall x : F, fapx K x = x) -> (forall c, dfnorm K c <> f0 K) ->
  forall R, orthogonal K R -> forall l, exists M : comp -> comp -> F, mono_rep K R l M /\
    forall (s : shell F) (pts : list (point (F:=F))), s_l s = l -> s_comps s = [] ->
    forall blk blk',
      eval_block K s pts (0, 0, 0)%nat General = Some blk ->
      eval_block K (rot_shell K R s) (map (mapply K R) pts) (0, 0, 0)%nat General = Some blk' ->
      forall m j p, (m < nseg s)%nat -> (j < length (default_comps l))%nat -> (p < length pts)%nat ->
        let cmp i := nth i (default_comps l) (0, 0, 0)%nat in
        fmul K (dfnorm K (cmp j)) (nth p (nth j (nth m blk []) []) (f0 K))
        = FNum.fsum K (map (fun i => fmul K (fmul K (M (cmp i) (cmp j)) (dfnorm K (cmp i)))
                                       (nth p (nth i (nth m blk' []) []) (f0 K)))
                    (seq 0 (length (default_comps l)))).
Proof.
  intros F K Kf Hapx Hdf R HO l. exists (rep_mat K R). split; [apply (rep_mat_mono_rep K Kf)|].
  intros s pts <- Hc. exact (eval_block_rotation_law K Kf Hapx Hdf R HO s pts Hc).
Qed.
Print Assumptions C12_rotation3_eval_block.

(* EVERY ENTRY of the three first-derivative blocks: vector law on the derivative index, D on the function index *)
Theorem C12_rotation3_eval_block_gradient :
  forall (F : Type) (K : Fops F), is_field K ->
  (forall x : F, fapx K x = x) -> (forall c, dfnorm K c <> f0 K) ->
  forall R, orthogonal K R -> forall l, exists M : comp -> comp -> F, mono_rep K R l M /\
    forall (s : shell F) (pts : list (point (F:=F))), s_l s = l -> s_comps s = [] ->
    forall (i : axis) gx gy gz blk',
      eval_block K s pts (eax AX) General = Some gx -> eval_block K s pts (eax AY) General = Some gy ->
      eval_block K s pts (eax AZ) General = Some gz ->
      eval_block K (rot_shell K R s) (map (mapply K R) pts) (eax i) General = Some blk' ->
      forall m j p, (m < nseg s)%nat -> (j < length (default_comps l))%nat -> (p < length pts)%nat ->
        let cmp i := nth i (default_comps l) (0, 0, 0)%nat in
        fmul K (dfnorm K (cmp j))
          (fadd K (fadd K (fmul K (matf R i AX) (nth p (nth j (nth m gx []) []) (f0 K)))
                          (fmul K (matf R i AY) (nth p (nth j (nth m gy []) []) (f0 K))))
                  (fmul K (matf R i AZ) (nth p (nth j (nth m gz []) []) (f0 K))))
        = FNum.fsum K (map (fun i' => fmul K (fmul K (M (cmp i') (cmp j)) (dfnorm K (cmp i')))
                                        (nth p (nth i' (nth m blk' []) []) (f0 K)))
                    (seq 0 (length (default_comps l)))).
Proof.
  intros F K Kf Hapx Hdf R HO l. exists (rep_mat K R). split; [apply (rep_mat_mono_rep K Kf)|].
  intros s pts <- Hc. exact (eval_block_gradient_rotation_law K Kf Hapx Hdf R HO s pts Hc).
Qed.
Print Assumptions C12_rotation3_eval_block_gradient.

(* descriptor form (SameFunP.eval_spec): Cartesian function (m, j) with weights coefficient * norm_prim *)
Theorem C12_rotation3_eval_spec :
  forall (F : Type) (K : Fops F), is_field K ->
  (forall x : F, fapx K x = x) -> (forall c, dfnorm K c <> f0 K) ->
  forall R, orthogonal K R -> forall (s : shell F), s_comps s = [] ->
  forall m j (r : point (F:=F)), (j < length (default_comps (s_l s)))%nat ->
    let cmp i := nth i (default_comps (s_l s)) (0, 0, 0)%nat in
    fmul K (dfnorm K (cmp j)) (eval_spec K (cart_desc_raw K s m j) r)
    = FNum.fsum K (map (fun i => fmul K (fmul K (rep_mat K R (cmp i) (cmp j)) (dfnorm K (cmp i)))
                          (eval_spec K (cart_desc_raw K (rot_shell K R s) m i) (mapply K R r)))
                (seq 0 (length (default_comps (s_l s))))).
Proof. exact (@eval_spec_rotation_law). Qed.
Print Assumptions C12_rotation3_eval_spec.

(* the descriptor of SameFunP (what evaluate_basis returns, [same_function_eval]) is the raw one times norm_cont *)
Theorem C12_rotation3_cart_desc_scaled :
  forall (F : Type) (K : Fops F), is_field K ->
  forall (o : comp) (s : shell F) (m ic : nat) (p : point (F:=F)),
  deriv_spec K o (cart_desc K s m ic) p = fmul K (ncf K s m ic) (deriv_spec K o (cart_desc_raw K s m ic) p).
Proof. exact (@cart_desc_is_scaled_raw). Qed.
Print Assumptions C12_rotation3_cart_desc_scaled.

Theorem C12_rotation3_eval_hypotheses_satisfiable :
  exists (F : Type) (K : Fops F) (R1 R2 : @mat3 F) (s : shell F),
    is_field K /\ (forall x, fapx K x = x) /\ (forall c, dfnorm K c <> f0 K)
    /\ orthogonal K R1 /\ orthogonal K R2 /\ s_comps s = [].
Proof.
  exists _, evKQ, R345, Rimp, evP.
  split; [apply QcK_field|]. destruct evKQ_hyps as [A B]. split; [exact A|]. split; [exact B|].
  split; [apply orthogonal_R345|]. split; [apply orthogonal_Rimp|reflexivity].
Qed.
Print Assumptions C12_rotation3_eval_hypotheses_satisfiable.

(* the six-dimensional Gaussian moment functional (Gauss/Poly6.v): electron 1 -> y1 in R^3, electron 2 -> y2 in R^3,
   covariance [[s11 I, s12 I], [s12 I, s22 I]], means (a1, c1); six-variable polynomials as monomial lists built as
   tensor products f(y1) g(y2) of the three-variable ones of Poly3.v *)

(* Stein rule of the six-dimensional functional, electron-1 variables *)
Theorem C12_rotation3_E6_stein_electron1 :
  forall (F : Type) (K : Fops F),
  is_field K ->
  forall (a1 c1 : axis -> F) (s11 s12 s22 : F) (i : axis) (f : poly6),
  E6 K a1 c1 s11 s12 s22 (mulv6 E1 i f) =
  fadd K (fadd K (fmul K (a1 i) (E6 K a1 c1 s11 s12 s22 f)) (fmul K s11 (E6 K a1 c1 s11 s12 s22 (dv6 K E1 i f))))
    (fmul K s12 (E6 K a1 c1 s11 s12 s22 (dv6 K E2 i f))).
Proof. exact (@stein6_1). Qed.
Print Assumptions C12_rotation3_E6_stein_electron1.

(* Stein rule, electron-2 variables *)
Theorem C12_rotation3_E6_stein_electron2 :
  forall (F : Type) (K : Fops F),
  is_field K ->
  forall (a1 c1 : axis -> F) (s11 s12 s22 : F) (i : axis) (f : poly6),
  E6 K a1 c1 s11 s12 s22 (mulv6 E2 i f) =
  fadd K (fadd K (fmul K (c1 i) (E6 K a1 c1 s11 s12 s22 f)) (fmul K s12 (E6 K a1 c1 s11 s12 s22 (dv6 K E1 i f))))
    (fmul K s22 (E6 K a1 c1 s11 s12 s22 (dv6 K E2 i f))).
Proof. exact (@stein6_2). Qed.
Print Assumptions C12_rotation3_E6_stein_electron2.

(* a function on six-variable monomials obeying the six Wick/Stein recurrences is c0 * M6 *)
Theorem C12_rotation3_E6_moments_unique :
  forall (F : Type) (K : Fops F),
  is_field K ->
  forall (a1 c1 : axis -> F) (s11 s12 s22 : F) (J : mon6 -> F) (c0 : F),
  stein6_laws K a1 c1 s11 s12 s22 c0 J -> forall m : mon6, J m = fmul K c0 (M6 K a1 c1 s11 s12 s22 m).
Proof. exact (@moments6_unique). Qed.
Print Assumptions C12_rotation3_E6_moments_unique.

(* a linear functional obeying the six Stein rules on monomials is I(1) * E6 *)
Theorem C12_rotation3_E6_uniqueness :
  forall (F : Type) (K : Fops F),
  is_field K ->
  forall (a1 c1 : axis -> F) (s11 s12 s22 : F) (I : poly6 -> F),
  plinear6 K I ->
  stein6_on_monomials K a1 c1 s11 s12 s22 I -> forall f : poly6, I f = fmul K (I (one6 K)) (E6 K a1 c1 s11 s12 s22 f).
Proof. exact (@gauss6_uniqueness). Qed.
Print Assumptions C12_rotation3_E6_uniqueness.

(* (f (x) g) o (Q + Q) == (f o Q) (x) (g o Q) *)
Theorem C12_rotation3_subst6_tensor :
  forall (F : Type) (K : Fops F),
  is_field K -> forall (Q : mat) (f g : poly3), peq6 K (subst6 K Q (tens K f g)) (tens K (subst K Q f) (subst K Q g)).
Proof. exact (@subst6_tens). Qed.
Print Assumptions C12_rotation3_subst6_tensor.

(* THE SIX-DIMENSIONAL FUNCTIONAL IS COVARIANT UNDER THE SIMULTANEOUS ORTHOGONAL SUBSTITUTION (means rotate) *)
Theorem C12_rotation3_E6_rotation_covariant :
  forall (F : Type) (K : Fops F),
  is_field K ->
  forall (Q : mat) (a1 c1 : axis -> F) (s11 s12 s22 : F),
  orth_rows K Q ->
  forall f : poly6,
  E6 K a1 c1 s11 s12 s22 (subst6 K Q f) =
  E6 K (fun i : axis => dot K (Q i) a1) (fun i : axis => dot K (Q i) c1) s11 s12 s22 f.
Proof. exact (@E6_subst6_orth). Qed.
Print Assumptions C12_rotation3_E6_rotation_covariant.

(* E6 of ((y1+cB)^b y1^a) (x) ((y2+cD)^d y2^c) is the product over the axes of the four-index Wick quantities *)
Theorem C12_rotation3_E6_factorises :
  forall (F : Type) (K : Fops F),
  is_field K ->
  forall (a1 c1 : axis -> F) (s11 s12 s22 : F) (cB cD : axis -> F) (a b c d : mon),
  E6 K a1 c1 s11 s12 s22 (tens K (smono K cB b (mono3 K a)) (smono K cD d (mono3 K c))) =
  fmul K
    (fmul K
       (shf K (cB AX) (fun a' : nat => shf K (cD AX) (Mw K a1 c1 s11 s12 s22 AX a') (expo AX d) (expo AX c)) 
          (expo AX b) (expo AX a))
       (shf K (cB AY) (fun a' : nat => shf K (cD AY) (Mw K a1 c1 s11 s12 s22 AY a') (expo AY d) (expo AY c)) 
          (expo AY b) (expo AY a)))
    (shf K (cB AZ) (fun a' : nat => shf K (cD AZ) (Mw K a1 c1 s11 s12 s22 AZ a') (expo AZ d) (expo AZ c)) 
       (expo AZ b) (expo AZ a)).
Proof. exact (@E6_tens_smono). Qed.
Print Assumptions C12_rotation3_E6_factorises.

(* the exact integrand of a primitive quartet at s (product over the axes of TwoElecP.M4) is E6 of the product polynomial *)
Theorem C12_rotation3_eri_integrand_is_E6 :
  forall (F : Type) (K : Fops F),
  is_field K ->
  forall (alpha beta gamma delta : F) (A B C D : axis -> F) (s : F) (a b c d : Shell.comp),
  M4prod K alpha beta gamma delta A B C D s a b c d =
  E6 K (mean1v K alpha beta gamma delta A B C D s) (mean2v K alpha beta gamma delta A B C D s)
    (sig11 K (fadd K alpha beta) (fadd K gamma delta) s) (sig12 K (fadd K alpha beta) (fadd K gamma delta) s)
    (sig22 K (fadd K alpha beta) (fadd K gamma delta) s) (quartet_poly K (dvec K A B) (dvec K C D) a b c d).
Proof. exact (@M4_product_is_E6). Qed.
Print Assumptions C12_rotation3_eri_integrand_is_E6.

(* FOR EVERY s the integrand of the rotated quartet, D-contracted on the four indices, is that of the original one *)
Theorem C12_rotation3_eri_integrand_covariant :
  forall (F : Type) (K : Fops F),
  is_field K ->
  forall alpha beta gamma delta : F,
  fadd K alpha beta <> f0 K ->
  fadd K gamma delta <> f0 K ->
  fadd K (fadd K alpha beta) (fadd K gamma delta) <> f0 K ->
  forall (R : mat) (A B C D : axis -> F) (s : F) (a b c d : Shell.comp),
  orth_rows K (transpose R) ->
  Jsum K
    (fun a' : mon =>
     Jsum K
       (fun b' : mon =>
        Jsum K
          (fun c' : mon =>
           Jsum K
             (fun d' : mon =>
              M4prod K alpha beta gamma delta (RotationMoreP.rotv K R A) (RotationMoreP.rotv K R B)
                (RotationMoreP.rotv K R C) (RotationMoreP.rotv K R D) s a' b' c' d') (subst_mon K (transpose R) d))
          (subst_mon K (transpose R) c)) (subst_mon K (transpose R) b)) (subst_mon K (transpose R) a) =
  M4prod K alpha beta gamma delta A B C D s a b c d.
Proof. exact (@eri_quartet_rotation_covariant_eval). Qed.
Print Assumptions C12_rotation3_eri_integrand_covariant.

(* the values of the s-polynomial R4c are the M4 products *)
Theorem C12_rotation3_eri_R4c_eval :
  forall (F : Type) (K : Fops F),
  is_field K ->
  forall alpha beta gamma delta : F,
  fadd K alpha beta <> f0 K ->
  fadd K gamma delta <> f0 K ->
  fadd K (fadd K alpha beta) (fadd K gamma delta) <> f0 K ->
  fadd K (f1 K) (f1 K) <> f0 K ->
  forall (A B C D : axis -> F) (c1 c2 c3 c4 : Shell.comp) (s : F),
  SPoly.peval K (R4c K alpha beta gamma delta A B C D c1 c2 c3 c4) s = M4prod K alpha beta gamma delta A B C D s c1 c2 c3 c4.
Proof. exact (@R4c_eval). Qed.
Print Assumptions C12_rotation3_eri_R4c_eval.

(* the summand of TwoElecP.two_elec_correct is eri_quartet_spec (R4 = R4c at the components of the entry) *)
Theorem C12_rotation3_eri_summand_is_spec :
  forall (F : Type) (K : Fops F) (s1 s2 s3 s4 : Shell.shell F) (i1 i2 i3 i4 : nat) (alpha beta gamma delta : F),
  SPoly.Phi K
    (eri_base K (Shell.s_x s1) (Shell.s_y s1) (Shell.s_z s1) (Shell.s_x s2) (Shell.s_y s2) (Shell.s_z s2) 
       (Shell.s_x s3) (Shell.s_y s3) (Shell.s_z s3) (Shell.s_x s4) (Shell.s_y s4) (Shell.s_z s4) alpha beta gamma delta) 0
    (R4 K s1 s2 s3 s4 i1 i2 i3 i4 alpha beta gamma delta) =
  eri_quartet_spec K alpha beta gamma delta (RotationMoreP.centre s1) (RotationMoreP.centre s2) 
    (RotationMoreP.centre s3) (RotationMoreP.centre s4) (List.nth i1 (Shell.comps_of s1) (0, 0, 0))
    (List.nth i2 (Shell.comps_of s2) (0, 0, 0)) (List.nth i3 (Shell.comps_of s3) (0, 0, 0))
    (List.nth i4 (Shell.comps_of s4) (0, 0, 0)).
Proof. exact (@two_elec_summand_is_spec). Qed.
Print Assumptions C12_rotation3_eri_summand_is_spec.

(* through Phi_m of ANY sequence (Phi_unique, characteristic 0) *)
Theorem C12_rotation3_eri_Phi_covariant :
  forall (F : Type) (K : Fops F),
  is_field K ->
  forall alpha beta gamma delta : F,
  fadd K alpha beta <> f0 K ->
  fadd K gamma delta <> f0 K ->
  fadd K (fadd K alpha beta) (fadd K gamma delta) <> f0 K ->
  fadd K (f1 K) (f1 K) <> f0 K ->
  (forall n : nat, ofnat K (S n) <> f0 K) ->
  forall (R : mat) (A B C D : axis -> F) (a b c d : Shell.comp) (bet : nat -> F) (m : nat),
  orth_rows K (transpose R) ->
  Jsum K
    (fun a' : mon =>
     Jsum K
       (fun b' : mon =>
        Jsum K
          (fun c' : mon =>
           Jsum K
             (fun d' : mon =>
              SPoly.Phi K bet m
                (R4c K alpha beta gamma delta (RotationMoreP.rotv K R A) (RotationMoreP.rotv K R B)
                   (RotationMoreP.rotv K R C) (RotationMoreP.rotv K R D) a' b' c' d')) (subst_mon K (transpose R) d))
          (subst_mon K (transpose R) c)) (subst_mon K (transpose R) b)) (subst_mon K (transpose R) a) =
  SPoly.Phi K bet m (R4c K alpha beta gamma delta A B C D a b c d).
Proof. exact (@Phi_R4c_rotation_covariant). Qed.
Print Assumptions C12_rotation3_eri_Phi_covariant.

(* prefactor and Boys argument depend on |A-B|^2, |C-D|^2, |P-Q|^2 only *)
Theorem C12_rotation3_eri_base_invariant :
  forall (F : Type) (K : Fops F),
  is_field K ->
  forall alpha beta gamma delta : F,
  fadd K alpha beta <> f0 K ->
  fadd K gamma delta <> f0 K ->
  forall (R : mat) (A B C D : axis -> F) (m : nat),
  orth_rows K (transpose R) ->
  eri_base_v K alpha beta gamma delta (RotationMoreP.rotv K R A) (RotationMoreP.rotv K R B) (RotationMoreP.rotv K R C)
    (RotationMoreP.rotv K R D) m = eri_base_v K alpha beta gamma delta A B C D m.
Proof. exact (@eri_base_rot). Qed.
Print Assumptions C12_rotation3_eri_base_invariant.

(* GENERAL ROTATIONS, electron repulsion of four primitives at specification level *)
Theorem C12_rotation3_eri_spec :
  forall (F : Type) (K : Fops F),
  is_field K ->
  forall alpha beta gamma delta : F,
  fadd K alpha beta <> f0 K ->
  fadd K gamma delta <> f0 K ->
  fadd K (fadd K alpha beta) (fadd K gamma delta) <> f0 K ->
  fadd K (f1 K) (f1 K) <> f0 K ->
  (forall n : nat, ofnat K (S n) <> f0 K) ->
  forall (R : mat) (A B C D : axis -> F) (a b c d : Shell.comp),
  orth_rows K (transpose R) ->
  Jsum K
    (fun a' : mon =>
     Jsum K
       (fun b' : mon =>
        Jsum K
          (fun c' : mon =>
           Jsum K
             (fun d' : mon =>
              eri_quartet_spec K alpha beta gamma delta (RotationMoreP.rotv K R A) (RotationMoreP.rotv K R B)
                (RotationMoreP.rotv K R C) (RotationMoreP.rotv K R D) a' b' c' d') (subst_mon K (transpose R) d))
          (subst_mon K (transpose R) c)) (subst_mon K (transpose R) b)) (subst_mon K (transpose R) a) =
  eri_quartet_spec K alpha beta gamma delta A B C D a b c d.
Proof. exact (@eri_spec_rotation_covariant). Qed.
Print Assumptions C12_rotation3_eri_spec.

(* the same in the vocabulary of RigidP: mat3, rot_shell, rot_expand *)
Theorem C12_rotation3_eri_spec_shells :
  forall (F : Type) (K : Fops F),
  is_field K ->
  forall (R : RigidP.mat3) (s1 s2 s3 s4 : Shell.shell F) (alpha beta gamma delta : F) (a b c d : Shell.comp),
  RigidP.orthogonal K R ->
  fadd K alpha beta <> f0 K ->
  fadd K gamma delta <> f0 K ->
  fadd K (fadd K alpha beta) (fadd K gamma delta) <> f0 K ->
  fadd K (f1 K) (f1 K) <> f0 K ->
  (forall n : nat, ofnat K (S n) <> f0 K) ->
  Jsum K
    (fun a' : mon =>
     Jsum K
       (fun b' : mon =>
        Jsum K
          (fun c' : mon =>
           Jsum K
             (fun d' : mon =>
              eri_quartet_spec K alpha beta gamma delta (RotationMoreP.centre (RigidP.rot_shell K R s1))
                (RotationMoreP.centre (RigidP.rot_shell K R s2)) (RotationMoreP.centre (RigidP.rot_shell K R s3))
                (RotationMoreP.centre (RigidP.rot_shell K R s4)) a' b' c' d') (RotationP.rot_expand K R d))
          (RotationP.rot_expand K R c)) (RotationP.rot_expand K R b)) (RotationP.rot_expand K R a) =
  eri_quartet_spec K alpha beta gamma delta (RotationMoreP.centre s1) (RotationMoreP.centre s2) 
    (RotationMoreP.centre s3) (RotationMoreP.centre s4) a b c d.
Proof. exact (@eri_spec_rotation_covariant_shells). Qed.
Print Assumptions C12_rotation3_eri_spec_shells.

(* EVERY ENTRY of ElectronRepulsionIntegral.construct_array_contraction (the model's eri_block): Cartesian shells in
   the default component order, any l1..l4, exponents, generalized contractions; proper and improper R *)
Theorem C12_rotation3_eri_block :
  forall (F : Type) (K : Fops F), is_field K ->
  (forall x : F, fapx K x = x) -> (forall n : nat, ofnat K (S n) <> f0 K) -> (forall c, dfnorm K c <> f0 K) ->
  forall R, orthogonal K R -> forall l1 l2 l3 l4, exists M1 M2 M3 M4 : comp -> comp -> F,
    mono_rep K R l1 M1 /\ mono_rep K R l2 M2 /\ mono_rep K R l3 M3 /\ mono_rep K R l4 M4 /\
    forall s1 s2 s3 s4 : shell F,
      s_l s1 = l1 -> s_l s2 = l2 -> s_l s3 = l3 -> s_l s4 = l4 ->
      s_comps s1 = [] -> s_comps s2 = [] -> s_comps s3 = [] -> s_comps s4 = [] ->
      (forall alpha beta, In alpha (s_exps s1) -> In beta (s_exps s2) -> fadd K alpha beta <> f0 K) ->
      (forall gamma delta, In gamma (s_exps s3) -> In delta (s_exps s4) -> fadd K gamma delta <> f0 K) ->
      (forall alpha beta gamma delta, In alpha (s_exps s1) -> In beta (s_exps s2) ->
         In gamma (s_exps s3) -> In delta (s_exps s4) -> fadd K (fadd K alpha beta) (fadd K gamma delta) <> f0 K) ->
      forall m1 m2 m3 m4 j1 j2 j3 j4,
      (m1 < nseg s1)%nat -> (m2 < nseg s2)%nat -> (m3 < nseg s3)%nat -> (m4 < nseg s4)%nat ->
      (j1 < length (default_comps l1))%nat -> (j2 < length (default_comps l2))%nat ->
      (j3 < length (default_comps l3))%nat -> (j4 < length (default_comps l4))%nat ->
      let cmp l i := nth i (default_comps l) (0, 0, 0)%nat in
      fmul K (fmul K (fmul K (fmul K (dfnorm K (cmp l1 j1)) (dfnorm K (cmp l2 j2))) (dfnorm K (cmp l3 j3)))
                     (dfnorm K (cmp l4 j4)))
        (nth j4 (nth m4 (nth j3 (nth m3 (nth j2 (nth m2 (nth j1 (nth m1 (eri_block K s1 s2 s3 s4)
            []) []) []) []) []) []) []) (f0 K))
      = FNum.fsum K (map (fun i1 => FNum.fsum K (map (fun i2 => FNum.fsum K (map (fun i3 => FNum.fsum K (map (fun i4 =>
          fmul K (fmul K (fmul K (fmul K (M1 (cmp l1 i1) (cmp l1 j1)) (M2 (cmp l2 i2) (cmp l2 j2)))
                                 (M3 (cmp l3 i3) (cmp l3 j3))) (M4 (cmp l4 i4) (cmp l4 j4)))
            (fmul K (fmul K (fmul K (fmul K (dfnorm K (cmp l1 i1)) (dfnorm K (cmp l2 i2))) (dfnorm K (cmp l3 i3)))
                            (dfnorm K (cmp l4 i4)))
               (nth i4 (nth m4 (nth i3 (nth m3 (nth i2 (nth m2 (nth i1 (nth m1
                   (eri_block K (rot_shell K R s1) (rot_shell K R s2) (rot_shell K R s3) (rot_shell K R s4))
                   []) []) []) []) []) []) []) (f0 K))))
          (seq 0 (length (default_comps l4))))) (seq 0 (length (default_comps l3)))))
          (seq 0 (length (default_comps l2))))) (seq 0 (length (default_comps l1)))).
Proof.
  intros F K Kf Hapx c0 Hdf R HO l1 l2 l3 l4. exists (rep_mat K R), (rep_mat K R), (rep_mat K R), (rep_mat K R).
  repeat (split; [apply (rep_mat_mono_rep K Kf)|]).
  intros s1 s2 s3 s4 <- <- <- <-. exact (eri_block_rotation_law K Kf Hapx c0 Hdf R HO s1 s2 s3 s4).
Qed.
Print Assumptions C12_rotation3_eri_block.

Theorem C12_rotation3_eri_hypotheses_satisfiable :
  exists (F : Type) (K : Fops F) (R1 R2 : @mat3 F) (alpha beta gamma delta : F),
    is_field K /\ orthogonal K R1 /\ orthogonal K R2
    /\ fadd K alpha beta <> f0 K /\ fadd K gamma delta <> f0 K
    /\ fadd K (fadd K alpha beta) (fadd K gamma delta) <> f0 K /\ fadd K (f1 K) (f1 K) <> f0 K
    /\ (forall n, ofnat K (S n) <> f0 K).
Proof. exact eri_rotation_hypotheses_satisfiable. Qed.
Print Assumptions C12_rotation3_eri_hypotheses_satisfiable.

Theorem C12_rotation3_eri_block_hypotheses_satisfiable :
  exists (F : Type) (K : Fops F) (R1 R2 : @mat3 F) (s1 s2 s3 s4 : shell F),
    is_field K /\ (forall x, fapx K x = x) /\ (forall n, ofnat K (S n) <> f0 K) /\ (forall c, dfnorm K c <> f0 K)
    /\ orthogonal K R1 /\ orthogonal K R2
    /\ s_comps s1 = [] /\ s_comps s2 = [] /\ s_comps s3 = [] /\ s_comps s4 = []
    /\ (forall a b, In a (s_exps s1) -> In b (s_exps s2) -> fadd K a b <> f0 K)
    /\ (forall g d, In g (s_exps s3) -> In d (s_exps s4) -> fadd K g d <> f0 K)
    /\ (forall a b g d, In a (s_exps s1) -> In b (s_exps s2) -> In g (s_exps s3) -> In d (s_exps s4) ->
          fadd K (fadd K a b) (fadd K g d) <> f0 K).
Proof.
  exists _, ebKQ, R345, Rimp, ebP1, ebS2, ebP3, ebS4.
  split; [apply QcK_field|]. destruct ebKQ_hyps as (A & B & C). split; [exact A|]. split; [exact B|].
  split; [exact C|]. split; [exact orthogonal_R345|]. split; [exact orthogonal_Rimp|].
  split; [reflexivity|]. split; [reflexivity|]. split; [reflexivity|]. split; [reflexivity|].
  exact ebKQ_exps.
Qed.
Print Assumptions C12_rotation3_eri_block_hypotheses_satisfiable.
