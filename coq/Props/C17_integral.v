(* Props/C17_integral.v — property C17, the part of bridge B3 that is now PROVED: the overlap and the
   kinetic-energy matrices of the executable model over the reals ARE Gram matrices.
   Only statements, proved from the lemmas of Proofs/GramIntP.v, each followed by Print Assumptions.

   Notation (Gauss/Bridge3D.v, Props/BRIDGE_3d.v, Proofs/GramIntP.v):
   RK          the number interface at the real numbers (real sqrt, exp, PI), Proofs/ScreeningP.v
   gint3 F l   the ITERATED improper Riemann integral of F : R -> R -> R -> R over R^3 exists and equals l
   cfun s m c  the contracted, primitive-normalised Cartesian function of segment m, component c of shell s
   bidx        a basis function named by (shell, segment, index of the component in comps_of);  chi a the function
   bvalid a    the shell is well formed, its exponents are positive, both indices are in range
               (ANY centre, angular momentum, number of primitives and segments)
   Sov a b     entry [seg a][comp a][seg b][comp b] of  overlap_block RK (shell a) (shell b)   -- the model's numbers
   Tkin a b    the same entry of                        kinetic_block RK (shell a) (shell b)
               (before the constant contraction norms n_a n_b; C17I_scaled_psd covers any such factors)
   qf G l      sum_{(c,a) in l} sum_{(d,b) in l} c d G a b   (Proofs/GramP.v);  lcf l = sum_{(c,a) in l} c chi a
   gdot F G    grad F . grad G (three products of first partial derivatives, Coquelicot's Derive)

   WHAT IS PROVED: for every finite coefficient list over valid functions the quadratic form of Sov is the
   iterated integral of (sum c_a chi_a)^2 and that of Tkin is the iterated integral of 1/2 |grad sum c_a chi_a|^2
   (integration by parts proved, not assumed); both are >= 0; symmetry; Schwarz; |S_ab| <= 1 for unit diagonal;
   both matrices are Gram matrices of an [ipspace]; GramP.all_bounds_from_B3 with these two hypotheses discharged.
   WHAT REMAINS TRUSTED for S and T: only that the iterated improper Riemann integral is THE integral over R^3
   (Fubini-Tonelli for these continuous absolutely integrable functions) — no positivity statement.
   STILL RESTING ON B3 (with B2): point-charge matrix NSD and repulsion array PSD over pairs (the [exists]
   hypotheses left in C17I_all_bounds_S_T_proved_partial).
   The theorems use the classical-real axioms of the standard library (printed). *)
From Coq Require Import List Reals.
From Coquelicot Require Import Coquelicot.
From GB Require Import Base.Field Base.FNum Gauss.Moment1D Gauss.DerivBridge Gauss.BridgeR
  Model.Shell Model.MomentInt Model.Overlap Model.DiffOp Proofs.DiffOpP
  Proofs.CoreSumP Proofs.CoreBlockP Proofs.CoreDiffP Proofs.ScreeningP Proofs.CoreNormP
  Gauss.Bridge3D Proofs.GramP Proofs.GramIntP.
Import ListNotations.
Open Scope R_scope.

(* 0. the definitions, spelled out *)
Theorem C17I_definitions :
  forall (s t : shell R) (m i n j : nat),
  Sov (s, m, i) (t, n, j) = Overlap.nth4 RK m i n j (overlap_block RK s t) /\
  Tkin (s, m, i) (t, n, j) = Overlap.nth4 RK m i n j (kinetic_block RK s t) /\
  chi (s, m, i) = cfun s m (nth i (comps_of s) (0, 0, 0)%nat) /\
  (bvalid (s, m, i) <-> wf_shell s /\ (forall a, In a (s_exps s) -> 0 < a) /\ (m < nseg s)%nat /\ (i < length (comps_of s))%nat) /\
  (forall (F G : R -> R -> R -> R) (x y z : R),
     gdot F G x y z = Derive (fun t => F t y z) x * Derive (fun t => G t y z) x
                      + Derive (fun t => F x t z) y * Derive (fun t => G x t z) y
                      + Derive (fun t => F x y t) z * Derive (fun t => G x y t) z).
Proof.
  intros s t m i n j. split; [reflexivity|]. split; [reflexivity|]. split; [reflexivity|].
  split; [split; intro H; exact H|]. reflexivity.
Qed.
Print Assumptions C17I_definitions.

(* 1. the iterated improper integral of a pointwise non-negative function is non-negative *)
Theorem C17I_gint3_nonneg :
  forall (F : R -> R -> R -> R) (l : R), (forall x y z, 0 <= F x y z) -> gint3 F l -> 0 <= l.
Proof. exact gint3_nonneg. Qed.
Print Assumptions C17I_gint3_nonneg.

(* 2. OVERLAP: sum_a sum_b c_a c_b S_ab is the iterated integral of (sum_a c_a chi_a)^2 ... *)
Theorem C17I_overlap_quadratic_form_is_integral :
  forall l : list (R * bidx), (forall p, In p l -> bvalid (snd p)) ->
  gint3 (fun x y z => rsum (map (fun p => fst p * chi (snd p) x y z) l)
                      * rsum (map (fun p => fst p * chi (snd p) x y z) l))
        (qf Sov l).
Proof. exact overlap_quadratic_form_is_integral. Qed.
Print Assumptions C17I_overlap_quadratic_form_is_integral.

(* ... hence >= 0 for ALL coefficient lists: the overlap matrix of the model is positive semi-definite;
   it is symmetric, satisfies Schwarz, and |S_ab| <= 1 when the two diagonal entries are 1 *)
Theorem C17I_overlap_model_psd :
  (forall l : list (R * bidx), (forall p, In p l -> bvalid (snd p)) -> 0 <= qf Sov l) /\
  (forall a b : bidx, bvalid a -> bvalid b ->
     Sov a b = Sov b a /\ Sov a b * Sov a b <= Sov a a * Sov b b /\
     (Sov a a = 1 -> Sov b b = 1 -> Rabs (Sov a b) <= 1)).
Proof.
  exact (conj overlap_model_psd
           (fun a b Ha Hb => conj (overlap_model_symm a b Ha Hb)
              (conj (overlap_model_schwarz a b Ha Hb) (psd_on_unit_bound bvalid Sov a b overlap_model_symm overlap_model_psd Ha Hb)))).
Qed.
Print Assumptions C17I_overlap_model_psd.

(* constant factors n_a n_b (the contraction norms applied at the assembled level) keep positivity *)
Theorem C17I_scaled_psd :
  forall (n : bidx -> R) (l : list (R * bidx)), (forall p, In p l -> bvalid (snd p)) ->
  0 <= qf (fun a b => n a * n b * Sov a b) l /\ 0 <= qf (fun a b => n a * n b * Tkin a b) l.
Proof.
  exact (fun n l Hl => conj (psd_on_scale bvalid n Sov overlap_model_psd l Hl)
                            (psd_on_scale bvalid n Tkin kinetic_model_psd l Hl)).
Qed.
Print Assumptions C17I_scaled_psd.

(* 3. KINETIC ENERGY.  One axis: int f' g' dx = - int f g'' dx for two Gaussian primitives
      (the right-hand side is minus the spec D1 .. 2 of the second-derivative table, Bridge3D.deriv_1d_integral) *)
Theorem C17I_kinetic_1d_integration_by_parts :
  forall (al be A B : R) (i j : nat), 0 < al -> 0 < be ->
  gint (fun x => Derive (cg1 al A i) x * Derive (cg1 be B j) x) (- D1 RK A B al be 2 i j) /\
  gint (fun x => cg1 al A i x * Derive_n (cg1 be B j) 2 x) (D1 RK A B al be 2 i j).
Proof.
  exact (fun al be A B i j Ha Hb => conj (grad_1d_integral al be A B i j Ha Hb)
                                         (deriv_1d_integral al be A B 2 i j Ha Hb)).
Qed.
Print Assumptions C17I_kinetic_1d_integration_by_parts.

(* the entry of the model's kinetic block is BOTH the integral of chi_a (-1/2 Laplacian) chi_b and the integral of
   1/2 grad chi_a . grad chi_b *)
Theorem C17I_kinetic_entry_two_readings :
  forall a b : bidx, bvalid a -> bvalid b ->
  gint3 (fun x y z => chi a x y z * (- (1 / 2) * lap3 (chi b) x y z)) (Tkin a b) /\
  gint3 (fun x y z => 1 / 2 * gdot (chi a) (chi b) x y z) (Tkin a b).
Proof.
  intros a b Ha Hb. split; [|now apply kinetic_pair_is_grad_integral].
  destruct Ha as [Wa [Pa [Hma Hia]]]. destruct Hb as [Wb [Pb [Hmb Hib]]].
  exact (kinetic_block_is_integral (bsh a) (bsh b) (bseg a) (bci a) (bseg b) (bci b) Wa Wb Pa Pb Hma Hia Hmb Hib).
Qed.
Print Assumptions C17I_kinetic_entry_two_readings.

(* sum_a sum_b c_a c_b T_ab is the iterated integral of 1/2 |grad (sum_a c_a chi_a)|^2 ... *)
Theorem C17I_kinetic_quadratic_form_is_integral :
  forall l : list (R * bidx), (forall p, In p l -> bvalid (snd p)) ->
  gint3 (fun x y z => 1 / 2 * gdot (lcf l) (lcf l) x y z) (qf Tkin l) /\
  (forall x y z, lcf l x y z = rsum (map (fun p => fst p * chi (snd p) x y z) l)).
Proof.
  intros l Hl. split; [|reflexivity].
  refine (gint3_ext _ _ _ _ _ eq_refl (kinetic_quadratic_form_is_integral l Hl)).
  intros x y z. cbv beta. unfold gdot. now rewrite !pd3_lcf.
Qed.
Print Assumptions C17I_kinetic_quadratic_form_is_integral.

(* ... hence >= 0: the kinetic matrix of the model is positive semi-definite, symmetric, satisfies Schwarz *)
Theorem C17I_kinetic_model_psd :
  (forall l : list (R * bidx), (forall p, In p l -> bvalid (snd p)) -> 0 <= qf Tkin l) /\
  (forall a b : bidx, bvalid a -> bvalid b ->
     Tkin a b = Tkin b a /\ Tkin a b * Tkin a b <= Tkin a a * Tkin b b).
Proof.
  exact (conj kinetic_model_psd
           (fun a b Ha Hb => conj (kinetic_model_symm a b Ha Hb)
                                  (psd_on_schwarz bvalid Tkin a b kinetic_model_symm kinetic_model_psd Ha Hb))).
Qed.
Print Assumptions C17I_kinetic_model_psd.

(* 4. every symmetric positive semi-definite matrix is the Gram matrix of a semi-inner-product space, so the two
      [exists] hypotheses of C17_all_bounds_from_B3_partial about S and T are THEOREMS for the model
      (vidx = the subtype of valid basis functions) *)
Theorem C17I_psd_symm_is_gram :
  forall (J : Type) (G : J -> J -> R), symm G -> psd G ->
  exists (S : ipspace) (phi : J -> vec S), forall a b, G a b = ip S (phi a) (phi b).
Proof. exact (fun J G => psd_symm_is_gram G). Qed.
Print Assumptions C17I_psd_symm_is_gram.

Theorem C17I_overlap_kinetic_are_gram :
  (exists (L2 : ipspace) (phi : vidx -> vec L2), forall a b : vidx,
     Sov (proj1_sig a) (proj1_sig b) = ip L2 (phi a) (phi b)) /\
  (exists (H1 : ipspace) (dphi : vidx -> vec H1), forall a b : vidx,
     Tkin (proj1_sig a) (proj1_sig b) = ip H1 (dphi a) (dphi b)).
Proof.
  exact (conj (psd_symm_is_gram SovV SovV_symm SovV_psd) (psd_symm_is_gram TkinV TkinV_symm TkinV_psd)).
Qed.
Print Assumptions C17I_overlap_kinetic_are_gram.

(* 5. THE PROPERTY with the overlap and kinetic parts free of any Gram hypothesis: for any family v of valid
      basis functions of the model, S and T (the model's numbers) satisfy every bound C17 states.
      PARTIAL: the point-charge matrix Vm and the repulsion array G are still ASSUMED to be Gram matrices
      (weight 1/|r-C|, Coulomb form): bridge B3, which for these two needs the Laplace representation B2. *)
Theorem C17I_all_bounds_S_T_proved_partial :
  forall (I : Type) (v : I -> vidx) (Vm : I -> I -> R) (G : I -> I -> I -> I -> R) (q : R),
  0 <= q ->
  (exists (W : ipspace) (phi : I -> vec W), forall a b, Vm a b = - q * ip W (phi a) (phi b)) ->
  (exists (C : ipspace) (rho : I -> I -> vec C), forall a b c d, G a b c d = ip C (rho a b) (rho c d)) ->
  let Sm := fun a b => Sov (proj1_sig (v a)) (proj1_sig (v b)) in
  let Tm := fun a b => Tkin (proj1_sig (v a)) (proj1_sig (v b)) in
  symm Sm /\ psd Sm /\ (forall a b, Sm a b * Sm a b <= Sm a a * Sm b b) /\
  ((forall a, Sm a a = 1) -> forall a b, Rabs (Sm a b) <= 1) /\
  symm Tm /\ psd Tm /\ (forall a b, Tm a b * Tm a b <= Tm a a * Tm b b) /\
  symm Vm /\ nsd Vm /\
  psd (fun p r : I * I => G (fst p) (snd p) (fst r) (snd r)) /\
  (forall a b c d, G a b c d = G c d a b) /\
  (forall a b, 0 <= G a b a b) /\
  (forall a b c d, G a b c d * G a b c d <= G a b a b * G c d c d).
Proof. exact all_bounds_S_T_proved. Qed.
Print Assumptions C17I_all_bounds_S_T_proved_partial.

(* 6. the hypotheses are satisfiable: an s shell (two primitives) at the origin and a p shell at (1, -1, 1/2) *)
Example C17I_ex_two_shell_family_valid :
  ex_sh_s = mkShell R 0 0 0 0 [1; 1 / 2] [[1]; [2]] false [] [] /\
  ex_sh_p = mkShell R 1 1 (-1) (1 / 2) [2] [[1]] false [] [] /\
  bvalid (ex_sh_s, 0%nat, 0%nat) /\ bvalid (ex_sh_p, 0%nat, 0%nat) /\
  bvalid (ex_sh_p, 0%nat, 1%nat) /\ bvalid (ex_sh_p, 0%nat, 2%nat).
Proof. exact (conj eq_refl (conj eq_refl ex_family_valid)). Qed.
Print Assumptions C17I_ex_two_shell_family_valid.

Example C17I_ex_two_shell_psd :
  forall c0 c1 c2 c3 : R,
  let l := [(c0, (ex_sh_s, 0%nat, 0%nat)); (c1, (ex_sh_p, 0%nat, 0%nat));
            (c2, (ex_sh_p, 0%nat, 1%nat)); (c3, (ex_sh_p, 0%nat, 2%nat))] in
  0 <= qf Sov l /\ 0 <= qf Tkin l.
Proof. exact ex_two_shell_psd. Qed.
Print Assumptions C17I_ex_two_shell_psd.

Example C17I_ex_all_bounds_hypotheses :
  exists (v : nat -> vidx) (Vm : nat -> nat -> R) (G : nat -> nat -> nat -> nat -> R),
  (exists (W : ipspace) (phi : nat -> vec W), forall a b, Vm a b = - 1 * ip W (phi a) (phi b)) /\
  (exists (C : ipspace) (rho : nat -> nat -> vec C), forall a b c d, G a b c d = ip C (rho a b) (rho c d)).
Proof. exact ex_all_bounds_hypotheses. Qed.
Print Assumptions C17I_ex_all_bounds_hypotheses.
