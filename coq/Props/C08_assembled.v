(* Props/C08_assembled.v — herm_assembly: theorems about the ASSEMBLED momentum / angular-momentum matrices,
   i.e. about the models Model/OneBody.momentum_integral_re / angmom_integral_re that the correspondence
   check runs against gbasis.integrals.momentum.momentum_integral / angular_momentum.angular_momentum_integral
   (property C08).  The model carries the REAL array R of the value -i R; an element is the triple (x, y, z).
   Bases of Cartesian shells, no final transformation; ANY number of shells in ANY order, any l, K, M.
   Index map and basis hypotheses as in Props/C01_assembled.v.

   What the model does with the blocks (Model/OneBody.two_symm_blocks_h = base_two_symm.py with the repaired
   conjugation): blocks with i < j are evaluated; EVERY block with i >= j — the diagonal blocks included — is
   conj(transpose(block j i)), conj = negation of R.  Consequence proved here: R[J][I] = -R[I][J] everywhere
   needs the antisymmetry of the DIAGONAL blocks only (block(s,s)[m'][c'][m][c] = -block(s,s)[m][c][m'][c']);
   between different shells it holds by construction. *)
From Coq Require Import List Arith.
From GB Require Import Base.Field Base.FNum Base.Tables Model.Shell Model.MomentInt Model.Overlap Model.DiffOp
  Model.OneBody Proofs.CoreSumP Proofs.CoreBlockP Proofs.CoreDiffP Proofs.CoreExamplesP
  Proofs.BlockMatP Proofs.AssembledP Proofs.AssembledOverlapP Proofs.AssembledHermP
  Proofs.AssembledSphP Proofs.AssembledSphOverlapP Proofs.AssembledSphHermP Proofs.AssembledLincombP Proofs.AssembledExamplesP.
Import ListNotations.

(* herm_assembly, any block function (elements = lists over F, conj = negation) *)
Theorem C08_herm_assembly_cart :
  forall (F : Type) (K : Fops F), is_field K ->
  forall (blockf : shell F -> shell F -> list (list (list (list (list F))))) (bs : list (shell F)),
  cart_basis bs ->
  (forall sa sb, In sa bs -> In sb bs -> shape4 (nseg sa) (ncomp sa) (nseg sb) (ncomp sb) (blockf sa sb)) ->
  (forall s, In s bs -> forall m c m' c', m < nseg s -> c < ncomp s -> m' < nseg s -> c' < ncomp s ->
     get4 [] m' c' m c (blockf s s) = vneg K (get4 [] m c m' c' (blockf s s))) ->
  forall I J, I < btotal K bs -> J < btotal K bs ->
  let R := two_symm_integral_h K vzero (vadd K) (vscale K) (vneg K) blockf bs None in
  nth I (nth J R []) [] = vneg K (nth J (nth I R []) []).
Proof. exact (fun F K Kf blockf bs => herm_assembly_cart K Kf blockf bs). Qed.
Print Assumptions C08_herm_assembly_cart.

(* the assembled entry in either triangle, as the model fills it *)
Theorem C08_herm_entry :
  forall (F : Type) (K : Fops F)
         (blockf : shell F -> shell F -> list (list (list (list (list F))))) (bs : list (shell F)),
  cart_basis bs ->
  (forall sa sb, In sa bs -> In sb bs -> shape4 (nseg sa) (ncomp sa) (nseg sb) (ncomp sb) (blockf sa sb)) ->
  forall i j m c m' c', i < length bs -> j < length bs ->
  m < nseg (sh_at K bs i) -> c < ncomp (sh_at K bs i) -> m' < nseg (sh_at K bs j) -> c' < ncomp (sh_at K bs j) ->
  nth (gidx K bs j m' c') (nth (gidx K bs i m c)
      (two_symm_integral_h K vzero (vadd K) (vscale K) (vneg K) blockf bs None) []) []
  = if Nat.ltb i j
    then vscale K (fmul K (ncont K (sh_at K bs i) m c) (ncont K (sh_at K bs j) m' c'))
                  (get4 [] m c m' c' (blockf (sh_at K bs i) (sh_at K bs j)))
    else vneg K (vscale K (fmul K (ncont K (sh_at K bs j) m' c') (ncont K (sh_at K bs i) m c))
                  (get4 [] m' c' m c (blockf (sh_at K bs j) (sh_at K bs i)))).
Proof. exact (fun F K blockf bs => herm_entry K blockf bs). Qed.
Print Assumptions C08_herm_entry.

(* momentum: R[J][I] = -R[I][J] at every position, any order of the shells (so -iR is Hermitian) *)
Theorem C08_momentum_integral_herm :
  forall (F : Type) (K : Fops F), is_field K ->
  (forall x : F, fapx K x = x) -> fadd K (f1 K) (f1 K) <> f0 K ->
  forall bs : list (shell F), cart_basis bs -> basis_wf bs -> basis_exps K bs bs ->
  forall I J, I < btotal K bs -> J < btotal K bs ->
  nth I (nth J (momentum_integral_re K bs None) []) []
  = map (fopp K) (nth J (nth I (momentum_integral_re K bs None) []) []).
Proof. exact (fun F K Kf Hapx H2 => momentum_integral_herm K Kf Hapx H2). Qed.
Print Assumptions C08_momentum_integral_herm.

Theorem C08_angmom_integral_herm :
  forall (F : Type) (K : Fops F), is_field K ->
  (forall x : F, fapx K x = x) -> fadd K (f1 K) (f1 K) <> f0 K ->
  forall bs : list (shell F), cart_basis bs -> basis_wf bs -> basis_exps K bs bs ->
  forall I J, I < btotal K bs -> J < btotal K bs ->
  nth I (nth J (angmom_integral_re K bs None) []) []
  = map (fopp K) (nth J (nth I (angmom_integral_re K bs None) []) []).
Proof. exact (fun F K Kf Hapx H2 => angmom_integral_herm K Kf Hapx H2). Qed.
Print Assumptions C08_angmom_integral_herm.

(* exactness of the assembled matrices: EVERY entry, in either triangle and on the diagonal blocks, is
   norm_cont_i norm_cont_j x the contracted spec of phi_a d/dx_k phi_b (resp. phi_a (r x grad)_k phi_b)
   of Props/C08_block.v for the ordered pair (row shell, column shell) *)
Theorem C08_momentum_integral_entry :
  forall (F : Type) (K : Fops F), is_field K ->
  (forall x : F, fapx K x = x) -> fadd K (f1 K) (f1 K) <> f0 K ->
  forall bs : list (shell F), cart_basis bs -> basis_wf bs -> basis_exps K bs bs ->
  forall i j m c m' c', i < length bs -> j < length bs ->
  m < nseg (sh_at K bs i) -> c < ncomp (sh_at K bs i) -> m' < nseg (sh_at K bs j) -> c' < ncomp (sh_at K bs j) ->
  let sa := sh_at K bs i in let sb := sh_at K bs j in
  let ca := nth c (comps_of sa) (0, 0, 0) in let cb := nth c' (comps_of sb) (0, 0, 0) in
  let nn := fmul K (ncont K sa m c) (ncont K sb m' c') in
  nth (gidx K bs j m' c') (nth (gidx K bs i m c) (momentum_integral_re K bs None) []) []
  = [ fmul K nn (contracted K sa sb ca cb m m' (mom_x_prim K sa sb ca cb));
      fmul K nn (contracted K sa sb ca cb m m' (mom_y_prim K sa sb ca cb));
      fmul K nn (contracted K sa sb ca cb m m' (mom_z_prim K sa sb ca cb)) ].
Proof. exact (fun F K Kf Hapx H2 => momentum_integral_entry K Kf Hapx H2). Qed.
Print Assumptions C08_momentum_integral_entry.

Theorem C08_angmom_integral_entry :
  forall (F : Type) (K : Fops F), is_field K ->
  (forall x : F, fapx K x = x) -> fadd K (f1 K) (f1 K) <> f0 K ->
  forall bs : list (shell F), cart_basis bs -> basis_wf bs -> basis_exps K bs bs ->
  forall i j m c m' c', i < length bs -> j < length bs ->
  m < nseg (sh_at K bs i) -> c < ncomp (sh_at K bs i) -> m' < nseg (sh_at K bs j) -> c' < ncomp (sh_at K bs j) ->
  let sa := sh_at K bs i in let sb := sh_at K bs j in
  let ca := nth c (comps_of sa) (0, 0, 0) in let cb := nth c' (comps_of sb) (0, 0, 0) in
  let nn := fmul K (ncont K sa m c) (ncont K sb m' c') in
  nth (gidx K bs j m' c') (nth (gidx K bs i m c) (angmom_integral_re K bs None) []) []
  = [ fmul K nn (contracted K sa sb ca cb m m' (ang_x_prim K sa sb ca cb));
      fmul K nn (contracted K sa sb ca cb m m' (ang_y_prim K sa sb ca cb));
      fmul K nn (contracted K sa sb ca cb m m' (ang_z_prim K sa sb ca cb)) ].
Proof. exact (fun F K Kf Hapx H2 => angmom_integral_entry K Kf Hapx H2). Qed.
Print Assumptions C08_angmom_integral_entry.

(* the arrays are btotal x btotal (x 3) *)
Theorem C08_momentum_integral_shape :
  forall (F : Type) (K : Fops F) (bs : list (shell F)), cart_basis bs -> 0 < length bs ->
  length (momentum_integral_re K bs None) = btotal K bs
  /\ forall I, I < btotal K bs -> length (nth I (momentum_integral_re K bs None) []) = btotal K bs.
Proof.
  exact (fun F K bs C => two_symm_h_cart_shape K vzero (vadd K) (vscale K) (momentum_block_re K) bs C
                           (fun sa sb _ _ => momentum_block_shape K sa sb) (vneg K)).
Qed.
Print Assumptions C08_momentum_integral_shape.

(* ---- the hypotheses are satisfiable (the basis of Props/C01_assembled.v), and the Hermiticity theorem at a
        pair of positions inside a DIAGONAL block (3, 10: both in the generalized d shell) and across shells ---- *)
Example C08_assembled_hypotheses_Qc :
  forall opi osqrt oexp oln oboys,
  let K := KQ opi osqrt oexp oln oboys in
  is_field K /\ (forall x, fapx K x = x) /\ fadd K (f1 K) (f1 K) <> f0 K
  /\ cart_basis ex_basis /\ basis_wf ex_basis /\ basis_exps K ex_basis ex_basis
  /\ btotal K ex_basis = 16 /\ gidx K ex_basis 0 1 4 = 10 /\ gidx K ex_basis 1 0 2 = 14.
Proof. exact assembled_hypotheses_satisfiable. Qed.
Print Assumptions C08_assembled_hypotheses_Qc.

Example C08_momentum_herm_Qc :
  forall opi osqrt oexp oln oboys,
  let K := KQ opi osqrt oexp oln oboys in
  nth 3 (nth 10 (momentum_integral_re K ex_basis None) []) []
  = vneg K (nth 10 (nth 3 (momentum_integral_re K ex_basis None) []) [])
  /\ nth 14 (nth 10 (momentum_integral_re K ex_basis None) []) []
  = vneg K (nth 10 (nth 14 (momentum_integral_re K ex_basis None) []) []).
Proof. exact momentum_herm_ex. Qed.
Print Assumptions C08_momentum_herm_Qc.

(* ================= spherical / mixed bases (any assignment of coordinate types) =================
   oidx / osize / ototal / tco / dsum / to_cart as in Props/C01_assembled.v (C01_mixed_unfold). *)

(* herm_assembly, any block function whose entries are vectors of a common length d and whose DIAGONAL blocks
   are antisymmetric: R[J][I] = -R[I][J] at every position, any order and any types of the shells *)
Theorem C08_herm_assembly_mixed :
  forall (F : Type) (K : Fops F), is_field K ->
  forall (blockf : shell F -> shell F -> list (list (list (list (list F))))) (bs : list (shell F)) (d : nat),
  (forall s, In s bs -> 0 < nseg s) ->
  (forall sa sb, In sa bs -> In sb bs -> shape4 (nseg sa) (ncomp sa) (nseg sb) (ncomp sb) (blockf sa sb)) ->
  (forall sa sb, In sa bs -> In sb bs -> forall ma ia mb ib,
     ma < nseg sa -> ia < ncomp sa -> mb < nseg sb -> ib < ncomp sb ->
     length (get4 [] ma ia mb ib (blockf sa sb)) = d) ->
  (forall s, In s bs -> forall m c m' c', m < nseg s -> c < ncomp s -> m' < nseg s -> c' < ncomp s ->
     get4 [] m' c' m c (blockf s s) = vneg K (get4 [] m c m' c' (blockf s s))) ->
  forall I J, I < ototal K bs -> J < ototal K bs ->
  let R := two_symm_integral_h K vzero (vadd K) (vscale K) (vneg K) blockf bs None in
  nth I (nth J R []) [] = vneg K (nth J (nth I R []) []).
Proof. exact (fun F K Kf blockf bs d => herm_assembly_mixed K Kf blockf bs d). Qed.
Print Assumptions C08_herm_assembly_mixed.

Theorem C08_momentum_integral_herm_mixed :
  forall (F : Type) (K : Fops F), is_field K ->
  (forall x : F, fapx K x = x) -> fadd K (f1 K) (f1 K) <> f0 K ->
  forall bs : list (shell F), (forall s, In s bs -> 0 < nseg s) -> basis_wf bs -> basis_exps K bs bs ->
  forall I J, I < ototal K bs -> J < ototal K bs ->
  nth I (nth J (momentum_integral_re K bs None) []) []
  = map (fopp K) (nth J (nth I (momentum_integral_re K bs None) []) []).
Proof. exact (fun F K Kf Hapx H2 => momentum_integral_herm_mixed K Kf Hapx H2). Qed.
Print Assumptions C08_momentum_integral_herm_mixed.

Theorem C08_angmom_integral_herm_mixed :
  forall (F : Type) (K : Fops F), is_field K ->
  (forall x : F, fapx K x = x) -> fadd K (f1 K) (f1 K) <> f0 K ->
  forall bs : list (shell F), (forall s, In s bs -> 0 < nseg s) -> basis_wf bs -> basis_exps K bs bs ->
  forall I J, I < ototal K bs -> J < ototal K bs ->
  nth I (nth J (angmom_integral_re K bs None) []) []
  = map (fopp K) (nth J (nth I (angmom_integral_re K bs None) []) []).
Proof. exact (fun F K Kf Hapx H2 => angmom_integral_herm_mixed K Kf Hapx H2). Qed.
Print Assumptions C08_angmom_integral_herm_mixed.

(* exactness for spherical / mixed bases: every component k of every entry is (+)T on both indices of the
   all-Cartesian matrix (whose entries are C08_momentum_integral_entry) *)
Theorem C08_momentum_mixed_is_cart_transformed :
  forall (F : Type) (K : Fops F), is_field K ->
  (forall x : F, fapx K x = x) -> fadd K (f1 K) (f1 K) <> f0 K ->
  forall bs : list (shell F), (forall s, In s bs -> 0 < nseg s) -> basis_wf bs -> basis_exps K bs bs ->
  forall i j m q m' q', i < length bs -> j < length bs ->
  m < nseg (sh_at K bs i) -> q < osize (sh_at K bs i) -> m' < nseg (sh_at K bs j) -> q' < osize (sh_at K bs j) ->
  let e := nth (oidx K bs j m' q') (nth (oidx K bs i m q) (momentum_integral_re K bs None) []) [] in
  length e = 3 /\
  forall k, k < 3 ->
    nth k e (f0 K) = dsum K (sh_at K bs i) (sh_at K bs j) q q' (fun c c' =>
      nth k (nth (gidx K (map to_cart bs) j m' c') (nth (gidx K (map to_cart bs) i m c)
              (momentum_integral_re K (map to_cart bs) None) []) []) (f0 K)).
Proof. exact (fun F K Kf Hapx H2 => momentum_mixed_is_cart_transformed K Kf Hapx H2). Qed.
Print Assumptions C08_momentum_mixed_is_cart_transformed.

Theorem C08_angmom_mixed_is_cart_transformed :
  forall (F : Type) (K : Fops F), is_field K ->
  (forall x : F, fapx K x = x) -> fadd K (f1 K) (f1 K) <> f0 K ->
  forall bs : list (shell F), (forall s, In s bs -> 0 < nseg s) -> basis_wf bs -> basis_exps K bs bs ->
  forall i j m q m' q', i < length bs -> j < length bs ->
  m < nseg (sh_at K bs i) -> q < osize (sh_at K bs i) -> m' < nseg (sh_at K bs j) -> q' < osize (sh_at K bs j) ->
  let e := nth (oidx K bs j m' q') (nth (oidx K bs i m q) (angmom_integral_re K bs None) []) [] in
  length e = 3 /\
  forall k, k < 3 ->
    nth k e (f0 K) = dsum K (sh_at K bs i) (sh_at K bs j) q q' (fun c c' =>
      nth k (nth (gidx K (map to_cart bs) j m' c') (nth (gidx K (map to_cart bs) i m c)
              (angmom_integral_re K (map to_cart bs) None) []) []) (f0 K)).
Proof. exact (fun F K Kf Hapx H2 => angmom_mixed_is_cart_transformed K Kf Hapx H2). Qed.
Print Assumptions C08_angmom_mixed_is_cart_transformed.

(* the mixed Qc basis of Props/C01_assembled.v (spherical d, Cartesian p, spherical s): Hermiticity inside the
   diagonal block of the spherical d shell and across a spherical / Cartesian pair *)
Example C08_momentum_herm_mixed_Qc :
  forall opi osqrt oexp oln oboys,
  let K := KQ opi osqrt oexp oln oboys in
  nth 2 (nth 8 (momentum_integral_re K ex_mixed None) []) []
  = vneg K (nth 8 (nth 2 (momentum_integral_re K ex_mixed None) []) [])
  /\ nth 12 (nth 8 (angmom_integral_re K ex_mixed None) []) []
  = vneg K (nth 8 (nth 12 (angmom_integral_re K ex_mixed None) []) []).
Proof. exact momentum_herm_mixed_ex. Qed.
Print Assumptions C08_momentum_herm_mixed_Qc.

(* ================= the final transformation (transform = T, lincomb) ================= *)
(* an antisymmetric N x N matrix of vectors stays antisymmetric under T on both indices (T: S x N, rectangular
   allowed) *)
Theorem C08_antisym_lincomb :
  forall (F : Type) (K : Fops F), is_field K ->
  forall (t : list (list F)) (M : list (list (list F))) (N S d : nat),
  0 < N -> (length M = N /\ Forall (fun row => length row = N) M) ->
  (length t = S /\ Forall (fun row => length row = N) t) ->
  (forall I J, I < N -> J < N -> length (nth J (nth I M []) []) = d) ->
  (forall I J, I < N -> J < N -> nth I (nth J M []) [] = vneg K (nth J (nth I M []) [])) ->
  forall a b, a < S -> b < S ->
  nth a (nth b (Model.Assembly.lincomb2 vzero (vadd K) (vscale K) t t M) []) []
  = vneg K (nth b (nth a (Model.Assembly.lincomb2 vzero (vadd K) (vscale K) t t M) []) []).
Proof. exact (fun F K Kf => antisym_lincomb K Kf). Qed.
Print Assumptions C08_antisym_lincomb.

(* momentum / angular momentum with transform = T: Hermitian for any basis (any types, any order), any T *)
Theorem C08_momentum_integral_herm_T :
  forall (F : Type) (K : Fops F), is_field K ->
  (forall x : F, fapx K x = x) -> fadd K (f1 K) (f1 K) <> f0 K ->
  forall bs : list (shell F), (forall s, In s bs -> 0 < nseg s) -> basis_wf bs -> basis_exps K bs bs ->
  0 < length bs ->
  forall (t : list (list F)) (S : nat),
  (length t = S /\ Forall (fun row => length row = ototal K bs) t) ->
  forall a b, a < S -> b < S ->
  nth a (nth b (momentum_integral_re K bs (Some t)) []) []
  = map (fopp K) (nth b (nth a (momentum_integral_re K bs (Some t)) []) []).
Proof. exact (fun F K Kf Hapx H2 => momentum_integral_herm_T K Kf Hapx H2). Qed.
Print Assumptions C08_momentum_integral_herm_T.

Theorem C08_angmom_integral_herm_T :
  forall (F : Type) (K : Fops F), is_field K ->
  (forall x : F, fapx K x = x) -> fadd K (f1 K) (f1 K) <> f0 K ->
  forall bs : list (shell F), (forall s, In s bs -> 0 < nseg s) -> basis_wf bs -> basis_exps K bs bs ->
  0 < length bs ->
  forall (t : list (list F)) (S : nat),
  (length t = S /\ Forall (fun row => length row = ototal K bs) t) ->
  forall a b, a < S -> b < S ->
  nth a (nth b (angmom_integral_re K bs (Some t)) []) []
  = map (fopp K) (nth b (nth a (angmom_integral_re K bs (Some t)) []) []).
Proof. exact (fun F K Kf Hapx H2 => angmom_integral_herm_T K Kf Hapx H2). Qed.
Print Assumptions C08_angmom_integral_herm_T.

(* a rectangular 2 x 14 transformation of the mixed Qc basis meets the hypotheses *)
Example C08_momentum_herm_T_Qc :
  forall opi osqrt oexp oln oboys,
  let K := KQ opi osqrt oexp oln oboys in
  (length ex_T = 2 /\ Forall (fun row => length row = ototal K ex_mixed) ex_T)
  /\ nth 0 (nth 1 (momentum_integral_re K ex_mixed (Some ex_T)) []) []
     = vneg K (nth 1 (nth 0 (momentum_integral_re K ex_mixed (Some ex_T)) []) []).
Proof. exact (fun opi osqrt oexp oln oboys => conj (ex_T_shape opi osqrt oexp oln oboys) (momentum_herm_T_ex opi osqrt oexp oln oboys)). Qed.
Print Assumptions C08_momentum_herm_T_Qc.
