(* Props/C19.v — theorems backing property C19 (calls are pure).
   They are statements about the state machine of Model/Effects.v, for EVERY deterministic library
   (result_of, norm_of, window are universally quantified) and EVERY history (lists of operations).
   PARTIAL with respect to the property: that gbasis behaves like this machine (no aliasing, no hidden
   state) is observed by the monitor harness/c19.py on generated histories, not proved. *)
From Coq Require Import ZArith List.
From GB Require Import Model.Effects Proofs.EffectsP.
Import ListNotations.

(* Any sequence consisting only of public calls - valid or invalid, returning or raising - leaves the
   world (every argument object, every shell incl. its cached norm, the numpy error state) identical. *)
Theorem calls_preserve_world :
  forall (result_of : Z -> errstate -> list val -> result) (norm_of : val -> val -> val -> val -> val)
         (window : Z -> errstate -> errstate) (ops : list op) (w : world),
  Forall is_call ops ->
  fst (exec result_of norm_of window w ops) = w
  /\ Forall (fun x => exists r, x = OCall r /\ (r = Raised \/ exists v, r = Returned v))
            (snd (exec result_of norm_of window w ops)).
Proof.
  intros result_of norm_of window ops.
  induction ops as [|o r IH]; intros w H; [split; [reflexivity|constructor]|].
  inversion H as [|? ? Ho Hr]; subst. destruct o as [f args| | |]; try contradiction.
  rewrite run_cons, call_preserves_world, call_outcome. cbn [fst snd].
  destruct (IH w Hr) as [IH1 IH2]. split; [assumption|].
  constructor; [|assumption]. eexists; split; [reflexivity|].
  destruct (result_of _ _ _); [right; eexists; reflexivity | left; reflexivity].
Qed.
Print Assumptions calls_preserve_world.

(* The outcome of a call made after ANY history equals the outcome of the same function on a fresh world
   whose argument values (and error state) are equal. *)
Theorem result_depends_on_values_only :
  forall (result_of : Z -> errstate -> list val -> result) (norm_of : val -> val -> val -> val -> val)
         (window : Z -> errstate -> errstate) (w0 : world) (hist : list op) (wfresh : world)
         (f : Z) (args args' : list arg),
  let w := fst (exec result_of norm_of window w0 hist) in
  w_err w = w_err wfresh ->
  map (arg_value w) args = map (arg_value wfresh) args' ->
  snd (step result_of norm_of window w (Call f args))
  = snd (step result_of norm_of window wfresh (Call f args')).
Proof.
  intros result_of norm_of window w0 hist wfresh f args args' w He Hv.
  rewrite !call_outcome, He, Hv. reflexivity.
Qed.
Print Assumptions result_depends_on_values_only.

(* Repeating a call - immediately or after any sequence of other public calls - gives the same outcome. *)
Theorem repeated_call_same_outcome :
  forall (result_of : Z -> errstate -> list val -> result) (norm_of : val -> val -> val -> val -> val)
         (window : Z -> errstate -> errstate) (w : world) (f : Z) (args : list arg) (mid : list op),
  Forall is_call mid ->
  exists o omid,
    o = OCall (result_of f (w_err w) (map (arg_value w) args))
    /\ snd (exec result_of norm_of window w (Call f args :: mid ++ [Call f args])) = o :: omid ++ [o].
Proof.
  intros result_of norm_of window w f args mid Hm. eexists; eexists; split; [reflexivity|].
  rewrite run_cons, call_preserves_world, call_outcome. cbn [snd]. f_equal.
  rewrite run_app, (proj1 (calls_preserve_world result_of norm_of window mid w Hm)), run_cons, call_outcome.
  reflexivity.
Qed.
Print Assumptions repeated_call_same_outcome.

(* An accepted parameter update changes exactly that parameter of exactly that shell and leaves the cached
   norm as it was (stale); a rejected one changes nothing. *)
Theorem update_changes_exactly_that_field :
  forall (result_of : Z -> errstate -> list val -> result) (norm_of : val -> val -> val -> val -> val)
         (window : Z -> errstate -> errstate) (w : world) (s : nat) (fld : field) (v : val) (sh sh' : shell),
  nth_error (w_shells w) s = Some sh -> setter fld sh v = Some sh' ->
  let w' := fst (step result_of norm_of window w (Update s fld v)) in
  nth_error (w_shells w') s = Some sh'
  /\ params_eq_except fld sh sh'
  /\ s_norm sh' = s_norm sh
  /\ w_objs w' = w_objs w /\ w_err w' = w_err w
  /\ (forall s0, s0 <> s -> nth_error (w_shells w') s0 = nth_error (w_shells w) s0).
Proof. exact update_changes_exactly_l. Qed.
Print Assumptions update_changes_exactly_that_field.

Theorem rejected_update_changes_nothing :
  forall (result_of : Z -> errstate -> list val -> result) (norm_of : val -> val -> val -> val -> val)
         (window : Z -> errstate -> errstate) (w : world) (s : nat) (fld : field) (v : val),
  snd (step result_of norm_of window w (Update s fld v)) = ORejected ->
  fst (step result_of norm_of window w (Update s fld v)) = w.
Proof.
  intros result_of norm_of window w s fld v. cbn [step]. destruct (nth_error (w_shells w) s) as [sh|]; [|reflexivity].
  destruct (setter fld sh v); [discriminate|reflexivity].
Qed.
Print Assumptions rejected_update_changes_nothing.

(* After any history ending in assign_norm_cont on shell s, that shell is exactly a freshly constructed
   shell with the same parameters: its cached norm is the norm of its CURRENT parameters. *)
Theorem renormalised_after_update :
  forall (result_of : Z -> errstate -> list val -> result) (norm_of : val -> val -> val -> val -> val)
         (window : Z -> errstate -> errstate) (w : world) (ops : list op) (s : nat) (sh : shell),
  nth_error (w_shells (fst (exec result_of norm_of window w (ops ++ [AssignNorm s])))) s = Some sh ->
  sh = construct norm_of (s_angmom sh) (s_coord sh) (s_exps sh) (s_coeffs sh) (s_ctype sh)
  /\ s_norm sh = norm_of (s_angmom sh) (s_coord sh) (s_exps sh) (s_coeffs sh).
Proof.
  intros result_of norm_of window w ops s sh.
  rewrite run_app, run_cons. cbn [fst Effects.exec]. set (w1 := fst (exec result_of norm_of window w ops)).
  destruct (nth_error (w_shells w1) s) as [sh0|] eqn:E.
  - rewrite (assign_norm_step result_of norm_of window _ _ _ E). intros H; inversion H; subst.
    split; [exact (renorm_as_constructed norm_of sh0) | reflexivity].
  - cbn [Effects.step]. rewrite E. cbn [fst]. rewrite E. discriminate.
Qed.
Print Assumptions renormalised_after_update.

Theorem update_then_assign_is_fresh :
  forall (result_of : Z -> errstate -> list val -> result) (norm_of : val -> val -> val -> val -> val)
         (window : Z -> errstate -> errstate) (w : world) (s : nat) (fld : field) (v : val) (sh sh' : shell),
  nth_error (w_shells w) s = Some sh -> setter fld sh v = Some sh' ->
  nth_error (w_shells (fst (exec result_of norm_of window w [Update s fld v; AssignNorm s]))) s
  = Some (construct norm_of (s_angmom sh') (s_coord sh') (s_exps sh') (s_coeffs sh') (s_ctype sh')).
Proof.
  intros result_of norm_of window w s fld v sh sh' E H. rewrite !run_cons. cbn [fst exec].
  destruct (update_changes_exactly_l result_of norm_of window w s fld v sh sh' E H) as (E' & _).
  rewrite (assign_norm_step _ _ _ _ _ _ E'). destruct sh'; reflexivity.
Qed.
Print Assumptions update_then_assign_is_fresh.

(* No operation of the library (calls, setters, assign_norm_cont) changes the numpy error state, whatever
   state a function switches to while it computes; with user changes in the history the state is the
   user's last choice. *)
Theorem errstate_restored :
  forall (result_of : Z -> errstate -> list val -> result) (norm_of : val -> val -> val -> val -> val)
         (window : Z -> errstate -> errstate) (ops : list op) (w : world),
  Forall (fun o => ~ is_seterr o) ops ->
  w_err (fst (exec result_of norm_of window w ops)) = w_err w.
Proof. exact errstate_restored_l. Qed.
Print Assumptions errstate_restored.

Theorem errstate_is_last_user_choice :
  forall (result_of : Z -> errstate -> list val -> result) (norm_of : val -> val -> val -> val -> val)
         (window : Z -> errstate -> errstate) (ops : list op) (e : errstate) (rest : list op) (w : world),
  Forall (fun o => ~ is_seterr o) rest ->
  w_err (fst (exec result_of norm_of window w (ops ++ SetErr e :: rest))) = e.
Proof.
  intros result_of norm_of window ops e rest w H. rewrite run_app, run_cons. cbn [fst].
  rewrite (errstate_restored_l result_of norm_of window rest _ H). reflexivity.
Qed.
Print Assumptions errstate_is_last_user_choice.

(* The boolean comparisons the executable predictions are made with decide equality. *)
Theorem prediction_equalities_are_exact :
  (forall a b, world_eqb a b = true <-> a = b) /\ (forall a b, outcome_eqb a b = true <-> a = b).
Proof. exact (conj world_eqb_spec outcome_eqb_spec). Qed.
Print Assumptions prediction_equalities_are_exact.

(* Non-vacuity: in the free interpretation an update really leaves the norm stale, and outcomes follow the
   argument values through a concrete history (same before / same after / different across the update). *)
Example staleness_is_real :
  let w := fst (exec result_free norm_free window_exec ex_world [Update 0 FExps (ex_f [3; 4]%Z)]) in
  map fresh (w_shells w) = [false].
Proof. exact stale_after_update. Qed.
Print Assumptions staleness_is_real.

(* A concrete history through the executable predictor (kind 0 call / 1 rejected / 2 accepted, index of the
   first op with the same outcome, world changed): the hypotheses of the theorems above are satisfiable -
   accepted and rejected updates, equal outcomes before an update, a different one after it. *)
Example history_example :
  let ops := [Call 0 [AObj 0]; Call 9 [AObj 0; AObj 1]; Call 0 [AObj 0];
              Update 0 FExps (ex_f [3; 4]%Z); AssignNorm 0; Call 0 [AObj 0]; Update 0 FExps (ex_f [3]%Z);
              Call ESP [AObj 0]; Call 0 [AObj 0]] in
  map (fun '(k, i, ch) => (k, i, ch)) (fst (fst (predict ex_world ops)))
  = [(0, 0%nat, false); (0, 1%nat, false); (0, 0%nat, false); (2, 3%nat, true); (2, 4%nat, true);
     (0, 5%nat, false); (1, 6%nat, false); (0, 7%nat, false); (0, 5%nat, false)]%Z.
Proof. exact outcomes_follow_values. Qed.
Print Assumptions history_example.
