(* Props/C09_block4.v — property C09, FOUR-INDEX class (base_four_symm.py): the statement that Props/C09.v has
   for the first index only (C09_block4_index1_partial) is proved here for ALL FOUR indices, entry by entry, for
   every assignment of coordinate types, every element module (no algebraic law needed), any number of segments
   and components; over a field as one quadruple sum whose order of summation is irrelevant; and lifted to the
   assembled arrays (Assembly14.four_symm, OneBody.eri_integral).
   From the lemmas of Proofs/Block4FullP.v and Proofs/EriSym8P.v; each statement is followed by Print Assumptions.

   blk[m1][c1][m2][c2][m3][c3][m4][c4]   raw quartet block, sh8 M1 L1 .. M4 L4 its shape
   nsh M L n                            the norm table n has M rows of L entries
   osz t T L                            output size of one index: rows of T if t (spherical), L otherwise
   tsum t T L q f                       sum_{c<L} T[q][c] . f c  if t,  f q  otherwise
   nrm8 .. m1 c1 .. m4 c4               n4[m4][c4] . (n3[m3][c3] . (n2[m2][c2] . (n1[m1][c1] . blk[m1][c1]..[m4][c4])))
   ucoef t T q c                        T[q][c] if t, Kronecker delta(q, c) otherwise
   qsum4 L1 L2 L3 L4 g                  sum_{c1<L1} sum_{c2<L2} sum_{c3<L3} sum_{c4<L4} g c1 c2 c3 c4

   The generic assembled statement (any block function) keeps the eight-fold symmetry [sym8] of the processed
   blocks as a hypothesis, necessarily: base_four_symm.py evaluates one quartet per orbit and copies, so for an
   arbitrary block function the store does not hold the block of every quartet.  For the production model it is a
   THEOREM (Proofs/EriSym8P.v: quadruple-sum form of every entry + irrelevance of the summation order + the
   orientation theorems of Props/C04_orient.v / C11_eri.v): C09_eri_sym8, hence
   C09_eri_mixed_is_cart_transformed_full and C09_eri_integral_entry carry NO symmetry hypothesis, only: a field
   of characteristic 0, exact arithmetic, shells with a segment and components of degree <= l, non-zero
   exponent sums. *)
From Coq Require Import List Arith Bool ZArith.
From GB Require Import Base.Field Base.FNum Base.Tables Base.Blocks Model.Shell Model.Spherical Model.Assembly
  Model.Assembly14 Model.Overlap Model.TwoElec Model.OneBody Proofs.BlockMatP Proofs.AssembledP Proofs.AssembledSphP
  Proofs.AssembledSphOverlapP Proofs.PermP Proofs.PermEx Proofs.TwoElecP Proofs.EriOrientP Proofs.Block4FullP
  Proofs.EriSym8P.
Import ListNotations.

(* what the symbols stand for (by definition) *)
Theorem C09_block4_unfold :
  forall (F : Type) (K : Fops F) (A : Type) (azero : A) (aadd : A -> A -> A) (ascale : F -> A -> A)
         (t : bool) (T : list (list F)) (L q c : nat) (f : nat -> A) (n : list (list F)) M
         (s1 s2 s3 s4 : @sh F) blk m1 c1 m2 c2 m3 c3 m4 c4 (g : nat -> nat -> nat -> nat -> F),
  tsum K azero aadd ascale t T L q f
  = (if t then asum azero aadd (mk L (fun c => ascale (nth c (nth q T []) (f0 K)) (f c))) else f q)
  /\ osz t T L = (if t then length T else L)
  /\ (nsh M L n <-> length n = M /\ Forall (fun r => length r = L) n)
  /\ nrm8 K azero ascale s1 s2 s3 s4 blk m1 c1 m2 c2 m3 c3 m4 c4
     = ascale (nth c4 (nth m4 (sh_n s4) []) (f0 K)) (ascale (nth c3 (nth m3 (sh_n s3) []) (f0 K))
         (ascale (nth c2 (nth m2 (sh_n s2) []) (f0 K)) (ascale (nth c1 (nth m1 (sh_n s1) []) (f0 K))
            (nth c4 (nth m4 (nth c3 (nth m3 (nth c2 (nth m2 (nth c1 (nth m1 blk []) []) []) []) []) []) []) azero))))
  /\ ucoef K t T q c = (if t then nth c (nth q T []) (f0 K) else if Nat.eqb q c then f1 K else f0 K)
  /\ qsum4 K L L L L g
     = fsum K (mk L (fun c1 => fsum K (mk L (fun c2 => fsum K (mk L (fun c3 => fsum K (mk L (fun c4 => g c1 c2 c3 c4)))))))).
Proof.
  exact (fun F K A z a sc t T L q c f n M s1 s2 s3 s4 blk m1 c1 m2 c2 m3 c3 m4 c4 g =>
    conj eq_refl (conj eq_refl (conj (iff_refl _) (conj eq_refl (conj eq_refl eq_refl))))).
Qed.
Print Assumptions C09_block4_unfold.

(* shape and EVERY entry of the processed quartet block, any module *)
Theorem C09_block4_entry :
  forall (F : Type) (K : Fops F) (A : Type) (azero : A) (aadd : A -> A -> A) (ascale : F -> A -> A)
         t1 t2 t3 t4 (s1 s2 s3 s4 : @sh F) blk M1 L1 M2 L2 M3 L3 M4 L4,
  nsh M1 L1 (sh_n s1) -> nsh M2 L2 (sh_n s2) -> nsh M3 L3 (sh_n s3) -> nsh M4 L4 (sh_n s4) ->
  sh8 M1 L1 M2 L2 M3 L3 M4 L4 blk ->
  (t1 = true -> Forall (fun r => length r = L1) (sh_T s1)) -> (t2 = true -> Forall (fun r => length r = L2) (sh_T s2)) ->
  (t3 = true -> Forall (fun r => length r = L3) (sh_T s3)) -> (t4 = true -> Forall (fun r => length r = L4) (sh_T s4)) ->
  let O1 := osz t1 (sh_T s1) L1 in let O2 := osz t2 (sh_T s2) L2 in
  let O3 := osz t3 (sh_T s3) L3 in let O4 := osz t4 (sh_T s4) L4 in
  let B := block4 azero aadd ascale t1 t2 t3 t4 s1 s2 s3 s4 blk in
  lshape (lshape (lshape (lshape (fun _ : A => True) (M4 * O4)) (M3 * O3)) (M2 * O2)) (M1 * O1) B /\
  forall m1 q1 m2 q2 m3 q3 m4 q4,
    m1 < M1 -> q1 < O1 -> m2 < M2 -> q2 < O2 -> m3 < M3 -> q3 < O3 -> m4 < M4 -> q4 < O4 ->
    Assembly14.get4 azero B (m1 * O1 + q1) (m2 * O2 + q2) (m3 * O3 + q3) (m4 * O4 + q4)
    = tsum K azero aadd ascale t1 (sh_T s1) L1 q1 (fun c1 =>
      tsum K azero aadd ascale t2 (sh_T s2) L2 q2 (fun c2 =>
      tsum K azero aadd ascale t3 (sh_T s3) L3 q3 (fun c3 =>
      tsum K azero aadd ascale t4 (sh_T s4) L4 q4 (fun c4 =>
        nrm8 K azero ascale s1 s2 s3 s4 blk m1 c1 m2 c2 m3 c3 m4 c4)))).
Proof. exact (fun F K A z a sc => block4_spec K z a sc). Qed.
Print Assumptions C09_block4_entry.

(* every entry of the mixed block = T_s1 (x) T_s2 (x) T_s3 (x) T_s4 applied to the all-Cartesian processed block *)
Theorem C09_block4_is_cart_transformed :
  forall (F : Type) (K : Fops F) (A : Type) (azero : A) (aadd : A -> A -> A) (ascale : F -> A -> A)
         t1 t2 t3 t4 (s1 s2 s3 s4 : @sh F) blk M1 L1 M2 L2 M3 L3 M4 L4,
  nsh M1 L1 (sh_n s1) -> nsh M2 L2 (sh_n s2) -> nsh M3 L3 (sh_n s3) -> nsh M4 L4 (sh_n s4) ->
  sh8 M1 L1 M2 L2 M3 L3 M4 L4 blk ->
  (t1 = true -> Forall (fun r => length r = L1) (sh_T s1)) -> (t2 = true -> Forall (fun r => length r = L2) (sh_T s2)) ->
  (t3 = true -> Forall (fun r => length r = L3) (sh_T s3)) -> (t4 = true -> Forall (fun r => length r = L4) (sh_T s4)) ->
  forall m1 q1 m2 q2 m3 q3 m4 q4,
  m1 < M1 -> q1 < osz t1 (sh_T s1) L1 -> m2 < M2 -> q2 < osz t2 (sh_T s2) L2 ->
  m3 < M3 -> q3 < osz t3 (sh_T s3) L3 -> m4 < M4 -> q4 < osz t4 (sh_T s4) L4 ->
  Assembly14.get4 azero (block4 azero aadd ascale t1 t2 t3 t4 s1 s2 s3 s4 blk)
    (m1 * osz t1 (sh_T s1) L1 + q1) (m2 * osz t2 (sh_T s2) L2 + q2)
    (m3 * osz t3 (sh_T s3) L3 + q3) (m4 * osz t4 (sh_T s4) L4 + q4)
  = tsum K azero aadd ascale t1 (sh_T s1) L1 q1 (fun c1 =>
    tsum K azero aadd ascale t2 (sh_T s2) L2 q2 (fun c2 =>
    tsum K azero aadd ascale t3 (sh_T s3) L3 q3 (fun c3 =>
    tsum K azero aadd ascale t4 (sh_T s4) L4 q4 (fun c4 =>
      Assembly14.get4 azero (block4 azero aadd ascale false false false false s1 s2 s3 s4 blk)
        (m1 * L1 + c1) (m2 * L2 + c2) (m3 * L3 + c3) (m4 * L4 + c4))))).
Proof. exact (fun F K A z a sc => block4_is_cart_transformed K z a sc). Qed.
Print Assumptions C09_block4_is_cart_transformed.

(* the all-Cartesian processed block: the four norms, nothing else *)
Theorem C09_block4_cartesian_entry :
  forall (F : Type) (K : Fops F) (A : Type) (azero : A) (aadd : A -> A -> A) (ascale : F -> A -> A)
         (s1 s2 s3 s4 : @sh F) blk M1 L1 M2 L2 M3 L3 M4 L4,
  nsh M1 L1 (sh_n s1) -> nsh M2 L2 (sh_n s2) -> nsh M3 L3 (sh_n s3) -> nsh M4 L4 (sh_n s4) ->
  sh8 M1 L1 M2 L2 M3 L3 M4 L4 blk ->
  forall m1 c1 m2 c2 m3 c3 m4 c4,
  m1 < M1 -> c1 < L1 -> m2 < M2 -> c2 < L2 -> m3 < M3 -> c3 < L3 -> m4 < M4 -> c4 < L4 ->
  Assembly14.get4 azero (block4 azero aadd ascale false false false false s1 s2 s3 s4 blk)
    (m1 * L1 + c1) (m2 * L2 + c2) (m3 * L3 + c3) (m4 * L4 + c4)
  = nrm8 K azero ascale s1 s2 s3 s4 blk m1 c1 m2 c2 m3 c3 m4 c4.
Proof. exact (fun F K A z a sc => block4_cart_entry K z a sc). Qed.
Print Assumptions C09_block4_cartesian_entry.

(* over a field: ONE quadruple sum with the matrices U_k = T_k (spherical) / identity (Cartesian) *)
Theorem C09_block4_quadruple_sum :
  forall (F : Type) (K : Fops F), is_field K ->
  forall t1 t2 t3 t4 (s1 s2 s3 s4 : @sh F) blk M1 L1 M2 L2 M3 L3 M4 L4,
  nsh M1 L1 (sh_n s1) -> nsh M2 L2 (sh_n s2) -> nsh M3 L3 (sh_n s3) -> nsh M4 L4 (sh_n s4) ->
  sh8 M1 L1 M2 L2 M3 L3 M4 L4 blk ->
  (t1 = true -> Forall (fun r => length r = L1) (sh_T s1)) -> (t2 = true -> Forall (fun r => length r = L2) (sh_T s2)) ->
  (t3 = true -> Forall (fun r => length r = L3) (sh_T s3)) -> (t4 = true -> Forall (fun r => length r = L4) (sh_T s4)) ->
  forall m1 q1 m2 q2 m3 q3 m4 q4,
  m1 < M1 -> q1 < osz t1 (sh_T s1) L1 -> m2 < M2 -> q2 < osz t2 (sh_T s2) L2 ->
  m3 < M3 -> q3 < osz t3 (sh_T s3) L3 -> m4 < M4 -> q4 < osz t4 (sh_T s4) L4 ->
  Assembly14.get4 (f0 K) (block4 (f0 K) (fadd K) (fmul K) t1 t2 t3 t4 s1 s2 s3 s4 blk)
    (m1 * osz t1 (sh_T s1) L1 + q1) (m2 * osz t2 (sh_T s2) L2 + q2)
    (m3 * osz t3 (sh_T s3) L3 + q3) (m4 * osz t4 (sh_T s4) L4 + q4)
  = qsum4 K L1 L2 L3 L4 (fun c1 c2 c3 c4 =>
      fmul K (fmul K (fmul K (fmul K (ucoef K t1 (sh_T s1) q1 c1) (ucoef K t2 (sh_T s2) q2 c2))
                 (ucoef K t3 (sh_T s3) q3 c3)) (ucoef K t4 (sh_T s4) q4 c4))
        (Assembly14.get4 (f0 K) (block4 (f0 K) (fadd K) (fmul K) false false false false s1 s2 s3 s4 blk)
           (m1 * L1 + c1) (m2 * L2 + c2) (m3 * L3 + c3) (m4 * L4 + c4))).
Proof. exact (fun F K Kf => block4_quadruple_sum K Kf). Qed.
Print Assumptions C09_block4_quadruple_sum.

(* the order in which the four contractions are performed is not observable: adjacent summations commute
   (these three exchanges generate all 24 orders) *)
Theorem C09_block4_sum_order :
  forall (F : Type) (K : Fops F), is_field K ->
  forall L1 L2 L3 L4 (g : nat -> nat -> nat -> nat -> F),
  qsum4 K L1 L2 L3 L4 g = qsum4 K L2 L1 L3 L4 (fun c2 c1 c3 c4 => g c1 c2 c3 c4) /\
  qsum4 K L1 L2 L3 L4 g = qsum4 K L1 L3 L2 L4 (fun c1 c3 c2 c4 => g c1 c2 c3 c4) /\
  qsum4 K L1 L2 L3 L4 g = qsum4 K L1 L2 L4 L3 (fun c1 c2 c4 c3 => g c1 c2 c3 c4).
Proof.
  exact (fun F K Kf L1 L2 L3 L4 g =>
    conj (qsum4_swap12 K Kf L1 L2 L3 L4 g) (conj (qsum4_swap23 K Kf L1 L2 L3 L4 g) (qsum4_swap34 K Kf L1 L2 L3 L4 g))).
Qed.
Print Assumptions C09_block4_sum_order.

(* assembled: Assembly14.four_symm, the mix path (mode 2) against the cartesian path (mode 0) *)
Theorem C09_four_symm_mix_is_cart_transformed :
  forall (F : Type) (K : Fops F) (A : Type) (azero : A) (aadd : A -> A -> A) (ascale : F -> A -> A)
         (ss : list (@sh F)) bf (Mf Lf : nat -> nat),
  let s_ := fun k => nth k ss (mkSh false [] []) in
  (forall k, k < length ss -> nsh (Mf k) (Lf k) (sh_n (s_ k))) ->
  (forall k, k < length ss -> sh_sph (s_ k) = true -> Forall (fun r => length r = Lf k) (sh_T (s_ k))) ->
  (forall i j k l, i < length ss -> j < length ss -> k < length ss -> l < length ss ->
     sh8 (Mf i) (Lf i) (Mf j) (Lf j) (Mf k) (Lf k) (Mf l) (Lf l) (bf i j k l)) ->
  let O := fun k => osz (sh_sph (s_ k)) (sh_T (s_ k)) (Lf k) in
  let rmix := fun k => Mf k * O k in let rcart := fun k => Mf k * Lf k in
  forall i j k l m1 q1 m2 q2 m3 q3 m4 q4,
  sym8 azero (length ss) (B4f azero aadd ascale 2 ss bf) -> sym8 azero (length ss) (B4f azero aadd ascale 0 ss bf) ->
  i < length ss -> j < length ss -> k < length ss -> l < length ss ->
  m1 < Mf i -> q1 < O i -> m2 < Mf j -> q2 < O j -> m3 < Mf k -> q3 < O k -> m4 < Mf l -> q4 < O l ->
  Assembly14.get4 azero (four_symm azero aadd ascale 2 ss bf)
    (offs rmix i + (m1 * O i + q1)) (offs rmix j + (m2 * O j + q2))
    (offs rmix k + (m3 * O k + q3)) (offs rmix l + (m4 * O l + q4))
  = tsum K azero aadd ascale (sh_sph (s_ i)) (sh_T (s_ i)) (Lf i) q1 (fun c1 =>
    tsum K azero aadd ascale (sh_sph (s_ j)) (sh_T (s_ j)) (Lf j) q2 (fun c2 =>
    tsum K azero aadd ascale (sh_sph (s_ k)) (sh_T (s_ k)) (Lf k) q3 (fun c3 =>
    tsum K azero aadd ascale (sh_sph (s_ l)) (sh_T (s_ l)) (Lf l) q4 (fun c4 =>
      Assembly14.get4 azero (four_symm azero aadd ascale 0 ss bf)
        (offs rcart i + (m1 * Lf i + c1)) (offs rcart j + (m2 * Lf j + c2))
        (offs rcart k + (m3 * Lf k + c3)) (offs rcart l + (m4 * Lf l + c4)))))).
Proof. exact (fun F K A z a sc ss bf Mf Lf => four_symm_mix_is_cart_transformed K z a sc ss bf Mf Lf). Qed.
Print Assumptions C09_four_symm_mix_is_cart_transformed.

(* the production model: electron_repulsion_integral of a basis with any coordinate types against the same
   basis with all shells Cartesian (oidx / gidx: Props/C01_assembled.v) *)
Theorem C09_eri_mixed_is_cart_transformed :
  forall (F : Type) (K : Fops F) (bs : list (shell F)) i j k l m1 q1 m2 q2 m3 q3 m4 q4,
  sym8 (f0 K) (length bs) (Beri K bs) -> sym8 (f0 K) (length bs) (Beri K (map to_cart bs)) ->
  i < length bs -> j < length bs -> k < length bs -> l < length bs ->
  m1 < nseg (sh_at K bs i) -> q1 < osize (sh_at K bs i) -> m2 < nseg (sh_at K bs j) -> q2 < osize (sh_at K bs j) ->
  m3 < nseg (sh_at K bs k) -> q3 < osize (sh_at K bs k) -> m4 < nseg (sh_at K bs l) -> q4 < osize (sh_at K bs l) ->
  let ts := fun s => tsum K (f0 K) (fadd K) (fmul K) (s_sph s) (shell_transform K s) (ncomp s) in
  Assembly14.get4 (f0 K) (eri_integral K bs None false)
    (oidx K bs i m1 q1) (oidx K bs j m2 q2) (oidx K bs k m3 q3) (oidx K bs l m4 q4)
  = ts (sh_at K bs i) q1 (fun c1 => ts (sh_at K bs j) q2 (fun c2 =>
    ts (sh_at K bs k) q3 (fun c3 => ts (sh_at K bs l) q4 (fun c4 =>
      Assembly14.get4 (f0 K) (eri_integral K (map to_cart bs) None false)
        (gidx K bs i m1 c1) (gidx K bs j m2 c2) (gidx K bs k m3 c3) (gidx K bs l m4 c4))))).
Proof. exact (fun F K bs => eri_mixed_is_cart_transformed K bs). Qed.
Print Assumptions C09_eri_mixed_is_cart_transformed.

(* the hypotheses are satisfiable *)
(* the production data have the shapes the theorems ask for *)
Example C09_block4_shapes_of_the_model :
  forall (F : Type) (K : Fops F) (a b c d : shell F),
  nsh (nseg a) (ncomp a) (norm_cont K a)
  /\ Forall (fun r => length r = ncomp a) (shell_transform K a)
  /\ sh8 (nseg a) (ncomp a) (nseg b) (ncomp b) (nseg c) (ncomp c) (nseg d) (ncomp d) (eri_block K a b c d).
Proof. exact (fun F K a b c d => conj (norm_cont_nsh K a) (conj (shell_transform_rows K a) (eri_block_sh8 K a b c d))). Qed.
Print Assumptions C09_block4_shapes_of_the_model.

(* labelled integers (Proofs/PermEx.v): shells with 1, 2 (two segments) and 2 (spherical from 3 components)
   functions: shapes and BOTH eight-fold symmetries hold, by evaluation *)
Example C09_block4_hypotheses_satisfiable :
  (forall k, k < 3 -> nsh (nM k) (nL4 k) (sh_n (nth k ss4 (mkSh false [] [])))) /\
  (forall k, k < 3 -> sh_sph (nth k ss4 (mkSh false [] [])) = true ->
     Forall (fun r => length r = nL4 k) (sh_T (nth k ss4 (mkSh false [] [])))) /\
  (forall i j k l, i < 3 -> j < 3 -> k < 3 -> l < 3 ->
     sh8 (nM i) (nL4 i) (nM j) (nL4 j) (nM k) (nL4 k) (nM l) (nL4 l) (raw4 i j k l)) /\
  sym8 0%Z 3 (B4f 0%Z Z.add Z.mul 2 ss4 raw4) /\ sym8 0%Z 3 (B4f 0%Z Z.add Z.mul 0 ss4 raw4).
Proof. exact ex_block4_hyps. Qed.
Print Assumptions C09_block4_hypotheses_satisfiable.

(* one entry of that instance, both sides evaluated: entry (shell 2 function 1, shell 1 segment 1, shell 2
   function 0, shell 0) of the mixed array, and the same number from the all-Cartesian array through T of the
   spherical shell 2 on indices 1 and 3 *)
Example C09_block4_instance :
  let mix := four_symm 0%Z Z.add Z.mul 2 ss4 raw4 in
  let cart := four_symm 0%Z Z.add Z.mul 0 ss4 raw4 in
  let T := sh_T sh_c in
  Assembly14.get4 0%Z mix 4 2 3 0
  = fold_right Z.add 0%Z (mk 3 (fun c1 => (nth c1 (nth 1 T []) 0 * fold_right Z.add 0 (mk 3 (fun c3 =>
      nth c3 (nth 0 T []) 0 * Assembly14.get4 0%Z cart (3 + c1) 2 (3 + c3) 0)))%Z)).
Proof. vm_compute. reflexivity. Qed.
Print Assumptions C09_block4_instance.

(* the production model WITHOUT a symmetry hypothesis (Proofs/EriSym8P.v) *)
(* eri_basis_ok K bs: every shell has a segment; every component of every shell has degree <= l; for all shells
   a b c d of the basis the exponent sums alpha+beta, gamma+delta, alpha+beta+gamma+delta are non-zero *)
Theorem C09_eri_basis_ok_unfold :
  forall (F : Type) (K : Fops F) (bs : list (shell F)),
  eri_basis_ok K bs <->
  (forall s, In s bs -> 0 < nseg s) /\
  (forall s, In s bs -> forall i, i < ncomp s -> compsum (nth i (comps_of s) (0, 0, 0)) <= s_l s) /\
  (forall a b c d, In a bs -> In b bs -> In c bs -> In d bs ->
     (forall alpha beta, In alpha (s_exps a) -> In beta (s_exps b) -> fadd K alpha beta <> f0 K) /\
     (forall gamma delta, In gamma (s_exps c) -> In delta (s_exps d) -> fadd K gamma delta <> f0 K) /\
     (forall alpha beta gamma delta, In alpha (s_exps a) -> In beta (s_exps b) -> In gamma (s_exps c) ->
        In delta (s_exps d) -> fadd K (fadd K alpha beta) (fadd K gamma delta) <> f0 K)).
Proof. exact (fun F K bs => iff_refl _). Qed.
Print Assumptions C09_eri_basis_ok_unfold.

(* the EIGHT-FOLD SYMMETRY of the processed ERI blocks: each of the seven permuted copies written by
   base_four_symm.py is the processed block of the permuted shell quartet, evaluated independently *)
Theorem C09_eri_sym8 :
  forall (F : Type) (K : Fops F), is_field K ->
  (forall x : F, fapx K x = x) -> (forall n, ofnat K (S n) <> f0 K) ->
  forall bs : list (shell F), eri_basis_ok K bs -> sym8 (f0 K) (length bs) (Beri K bs).
Proof. exact (fun F K Kf => eri_sym8 K Kf). Qed.
Print Assumptions C09_eri_sym8.

Theorem C09_eri_mixed_is_cart_transformed_full :
  forall (F : Type) (K : Fops F), is_field K ->
  (forall x : F, fapx K x = x) -> (forall n, ofnat K (S n) <> f0 K) ->
  forall bs : list (shell F), eri_basis_ok K bs ->
  forall i j k l m1 q1 m2 q2 m3 q3 m4 q4,
  i < length bs -> j < length bs -> k < length bs -> l < length bs ->
  m1 < nseg (sh_at K bs i) -> q1 < osize (sh_at K bs i) -> m2 < nseg (sh_at K bs j) -> q2 < osize (sh_at K bs j) ->
  m3 < nseg (sh_at K bs k) -> q3 < osize (sh_at K bs k) -> m4 < nseg (sh_at K bs l) -> q4 < osize (sh_at K bs l) ->
  let ts := fun s => tsum K (f0 K) (fadd K) (fmul K) (s_sph s) (shell_transform K s) (ncomp s) in
  Assembly14.get4 (f0 K) (eri_integral K bs None false)
    (oidx K bs i m1 q1) (oidx K bs j m2 q2) (oidx K bs k m3 q3) (oidx K bs l m4 q4)
  = ts (sh_at K bs i) q1 (fun c1 => ts (sh_at K bs j) q2 (fun c2 =>
    ts (sh_at K bs k) q3 (fun c3 => ts (sh_at K bs l) q4 (fun c4 =>
      Assembly14.get4 (f0 K) (eri_integral K (map to_cart bs) None false)
        (gidx K bs i m1 c1) (gidx K bs j m2 c2) (gidx K bs k m3 c3) (gidx K bs l m4 c4))))).
Proof. exact (fun F K Kf => eri_mixed_is_cart_transformed_full K Kf). Qed.
Print Assumptions C09_eri_mixed_is_cart_transformed_full.

(* EVERY entry of the assembled array (all n^4 cells, evaluated or copied) is the quadruple sum over the raw block
   of its OWN shell quartet: U (x) U (x) U (x) U, the four norms, the raw entry *)
Theorem C09_eri_integral_entry :
  forall (F : Type) (K : Fops F), is_field K ->
  (forall x : F, fapx K x = x) -> (forall n, ofnat K (S n) <> f0 K) ->
  forall bs : list (shell F), eri_basis_ok K bs ->
  forall i j k l m1 q1 m2 q2 m3 q3 m4 q4,
  i < length bs -> j < length bs -> k < length bs -> l < length bs ->
  m1 < nseg (sh_at K bs i) -> q1 < osize (sh_at K bs i) -> m2 < nseg (sh_at K bs j) -> q2 < osize (sh_at K bs j) ->
  m3 < nseg (sh_at K bs k) -> q3 < osize (sh_at K bs k) -> m4 < nseg (sh_at K bs l) -> q4 < osize (sh_at K bs l) ->
  let a := sh_at K bs i in let b := sh_at K bs j in let c := sh_at K bs k in let d := sh_at K bs l in
  let U := fun s q x => ucoef K (s_sph s) (shell_transform K s) q x in
  Assembly14.get4 (f0 K) (eri_integral K bs None false)
    (oidx K bs i m1 q1) (oidx K bs j m2 q2) (oidx K bs k m3 q3) (oidx K bs l m4 q4)
  = qsum4 K (ncomp a) (ncomp b) (ncomp c) (ncomp d) (fun c1 c2 c3 c4 =>
      fmul K (fmul K (fmul K (fmul K (U a q1 c1) (U b q2 c2)) (U c q3 c3)) (U d q4 c4))
        (fmul K (ncont K d m4 c4) (fmul K (ncont K c m3 c3) (fmul K (ncont K b m2 c2) (fmul K (ncont K a m1 c1)
           (TwoElec.get8 K (eri_block K a b c d) m1 c1 m2 c2 m3 c3 m4 c4)))))).
Proof. exact (fun F K Kf => eri_integral_entry K Kf). Qed.
Print Assumptions C09_eri_integral_entry.

(* the hypotheses are satisfiable: spherical d shell, Cartesian p shell, s shell (two primitives each) over Qc *)
Example C09_eri_hypotheses_satisfiable :
  is_field KQ4 /\ (forall x, fapx KQ4 x = x) /\ (forall n, ofnat KQ4 (S n) <> f0 KQ4) /\
  eri_basis_ok KQ4 ex_eri_basis /\ ototal KQ4 ex_eri_basis = 9 /\
  sym8 (f0 KQ4) 3 (Beri KQ4 ex_eri_basis).
Proof. exact ex_eri_full. Qed.
Print Assumptions C09_eri_hypotheses_satisfiable.
