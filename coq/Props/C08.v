(* Props/C08.v — theorems backing property C08 (momentum / angular momentum). *)
From Coq Require Import List Arith.
From GB Require Import Base.Field Base.Tables Gauss.Moment1D Model.MomentInt Model.DiffOp
  Proofs.MomentIntP Proofs.DiffOpP.

(* first-derivative entry = integral of phi_a d/dx phi_b (value returned is -i times it) *)
Theorem C08_first_derivative_entry :
  forall (F : Type) (K : Fops F), is_field K ->
  forall (Ax Bx alpha beta : F) (la lb : nat),
  psum K alpha beta <> f0 K -> fadd K (f1 K) (f1 K) <> f0 K ->
  forall j i, j <= lb -> i <= la ->
  nth3 K 1 j i (dtable K Ax Bx alpha beta la lb 1)
  = Bop K beta (Sfun K Ax Bx alpha beta) i j.
Proof. exact (fun F K Kf Ax Bx alpha beta la lb Hp H2 j i Hj Hi =>
         diffop_slice_is_deriv_b K Kf Ax Bx alpha beta la lb 1 Hp H2 1 j i (le_n 1) Hj Hi). Qed.
Print Assumptions C08_first_derivative_entry.

(* anti-symmetry at the 1-D level: derivative acting on the right function = minus the
   derivative acting on the left one (so -i d/dx is Hermitian) *)
Theorem C08_derivative_antisymmetric :
  forall (F : Type) (K : Fops F), is_field K ->
  forall (Ax Bx alpha beta : F),
  psum K alpha beta <> f0 K -> fadd K (f1 K) (f1 K) <> f0 K ->
  forall i j, negA K alpha (Sfun K Ax Bx alpha beta) i j = Bop K beta (Sfun K Ax Bx alpha beta) i j.
Proof. exact (@ibp). Qed.
Print Assumptions C08_derivative_antisymmetric.

(* the 1-D integrals do not depend on which function is called "left" *)
Theorem C08_moment_swap :
  forall (F : Type) (K : Fops F), is_field K ->
  forall (v a b c : F) k i j, T3 K v a b c k i j = T3 K v b a c k j i.
Proof. exact (@T3_swap). Qed.
Print Assumptions C08_moment_swap.
