(* Props/C20_assembled.v — property C20 (overlap screening) at the ENTRIES of the assembled matrix of the
   screened overlap model, Model/Screening.overlap_integral_screened (the model the correspondence check runs
   against gbasis.integrals.overlap.overlap_integral(basis, tol_screen=...)), through the explicit index maps of
   Props/C01_assembled.v:  gidx (a basis of Cartesian shells) and oidx (any assignment of coordinate types).

   scr tol bs i j  is the model's decision for the two blocks (i, j) and (j, i) of the matrix: the triangle loop
   evaluates the block of the ordered pair (min i j, max i j) and mirrors it (C20_asm_unfold; over the reals the
   decision is symmetric in the two shells).
     (a) a screened pair: every entry of the two blocks is exactly 0;
     (b) a kept pair: the entries are those of the unscreened overlap_integral;
     (c) two s shells (Cartesian, or spherical with label c0 / -c0 — the 1x1 transformation is +-1 by the link
         theorem of Props/C10_link.v) whose pair is screened: |S_IJ| <= tol * Sa * Sb for the entry of the
         UNSCREENED assembled matrix, strict when Sa, Sb > 0; Sa = norm_cont_a[m][0] * sum_k |d_km|;
         hence the same bound on the error S_IJ - Sscr_IJ made by screening.
   Generic field for (a), (b); the reals (RK of Proofs/ScreeningP.v) where the order is needed.
   Statements closed by [exact] of a lemma of Proofs/ScreeningAsmP.v, or in a step or two from one, each followed
   by Print Assumptions. *)
From Coq Require Import List Arith Reals.
From GB Require Import Base.Field Base.Tables Model.Shell Model.MomentInt Model.Overlap Model.Screening
  Proofs.CoreBlockP Proofs.AssembledP Proofs.AssembledOverlapP Proofs.AssembledSphP Proofs.AssembledSphOverlapP
  Proofs.ScreeningP Proofs.ScreeningAsmP.
Import ListNotations.

(* what the symbols stand for *)
Theorem C20_asm_unfold :
  forall (F : Type) (K : Fops F) (tol : option F) (bs : list (shell F)) (i j : nat),
  scr K tol bs i j = is_screened K tol (sh_at K bs (Nat.min i j)) (sh_at K bs (Nat.max i j))
  /\ scr K tol bs i j = scr K tol bs j i
  /\ (i <= j -> j < length bs -> scr K tol bs i j = pair_screened K tol bs i j).
Proof.
  exact (fun F K tol bs i j => conj eq_refl (conj (scr_sym K tol bs i j) (scr_is_pair_screened K tol bs i j))).
Qed.
Print Assumptions C20_asm_unfold.

(* (a) + (b), a basis of Cartesian shells: every position of the two blocks of a pair, both triangles *)
Theorem C20_asm_entry_cart :
  forall (F : Type) (K : Fops F), is_field K ->
  forall bs : list (shell F), cart_basis bs ->
  forall (tol : option F) (i j m c m' c' : nat), i < length bs -> j < length bs ->
  m < nseg (sh_at K bs i) -> c < ncomp (sh_at K bs i) -> m' < nseg (sh_at K bs j) -> c' < ncomp (sh_at K bs j) ->
  nth (gidx K bs j m' c') (nth (gidx K bs i m c) (overlap_integral_screened K bs None tol) []) (f0 K)
  = if scr K tol bs i j then f0 K
    else nth (gidx K bs j m' c') (nth (gidx K bs i m c) (overlap_integral K bs None) []) (f0 K).
Proof. exact (fun F K Kf => screened_entry_cart K Kf). Qed.
Print Assumptions C20_asm_entry_cart.

Theorem C20_asm_removed_cart :
  forall (F : Type) (K : Fops F), is_field K ->
  forall bs : list (shell F), cart_basis bs ->
  forall (tol : option F) (i j m c m' c' : nat), i < length bs -> j < length bs ->
  m < nseg (sh_at K bs i) -> c < ncomp (sh_at K bs i) -> m' < nseg (sh_at K bs j) -> c' < ncomp (sh_at K bs j) ->
  scr K tol bs i j = true ->
  nth (gidx K bs j m' c') (nth (gidx K bs i m c) (overlap_integral_screened K bs None tol) []) (f0 K) = f0 K
  /\ nth (gidx K bs i m c) (nth (gidx K bs j m' c') (overlap_integral_screened K bs None tol) []) (f0 K) = f0 K.
Proof. exact (fun F K Kf => removed_entry_cart K Kf). Qed.
Print Assumptions C20_asm_removed_cart.

Theorem C20_asm_kept_cart :
  forall (F : Type) (K : Fops F), is_field K ->
  forall bs : list (shell F), cart_basis bs ->
  forall (tol : option F) (i j m c m' c' : nat), i < length bs -> j < length bs ->
  m < nseg (sh_at K bs i) -> c < ncomp (sh_at K bs i) -> m' < nseg (sh_at K bs j) -> c' < ncomp (sh_at K bs j) ->
  scr K tol bs i j = false ->
  nth (gidx K bs j m' c') (nth (gidx K bs i m c) (overlap_integral_screened K bs None tol) []) (f0 K)
  = nth (gidx K bs j m' c') (nth (gidx K bs i m c) (overlap_integral K bs None) []) (f0 K)
  /\ nth (gidx K bs i m c) (nth (gidx K bs j m' c') (overlap_integral_screened K bs None tol) []) (f0 K)
     = nth (gidx K bs i m c) (nth (gidx K bs j m' c') (overlap_integral K bs None) []) (f0 K).
Proof.
  intros F K Kf bs C tol i j m c m' c' Hi Hj Hm Hc Hm' Hc' S. split.
  - rewrite (screened_entry_cart K Kf bs C) by assumption. now rewrite S.
  - rewrite (screened_entry_cart K Kf bs C) by assumption. now rewrite scr_sym, S.
Qed.
Print Assumptions C20_asm_kept_cart.

(* (a) + (b), any assignment of coordinate types (spherical / Cartesian / mixed) *)
Theorem C20_asm_entry_mixed :
  forall (F : Type) (K : Fops F), is_field K ->
  forall bs : list (shell F), seg_basis bs ->
  forall (tol : option F) (i j m q m' q' : nat), i < length bs -> j < length bs ->
  m < nseg (sh_at K bs i) -> q < osize (sh_at K bs i) -> m' < nseg (sh_at K bs j) -> q' < osize (sh_at K bs j) ->
  nth (oidx K bs j m' q') (nth (oidx K bs i m q) (overlap_integral_screened K bs None tol) []) (f0 K)
  = if scr K tol bs i j then f0 K
    else nth (oidx K bs j m' q') (nth (oidx K bs i m q) (overlap_integral K bs None) []) (f0 K).
Proof. exact (fun F K Kf => screened_entry_mixed K Kf). Qed.
Print Assumptions C20_asm_entry_mixed.

Theorem C20_asm_removed_mixed :
  forall (F : Type) (K : Fops F), is_field K ->
  forall bs : list (shell F), seg_basis bs ->
  forall (tol : option F) (i j m q m' q' : nat), i < length bs -> j < length bs ->
  m < nseg (sh_at K bs i) -> q < osize (sh_at K bs i) -> m' < nseg (sh_at K bs j) -> q' < osize (sh_at K bs j) ->
  scr K tol bs i j = true ->
  nth (oidx K bs j m' q') (nth (oidx K bs i m q) (overlap_integral_screened K bs None tol) []) (f0 K) = f0 K
  /\ nth (oidx K bs i m q) (nth (oidx K bs j m' q') (overlap_integral_screened K bs None tol) []) (f0 K) = f0 K.
Proof. exact (fun F K Kf => removed_entry_mixed K Kf). Qed.
Print Assumptions C20_asm_removed_mixed.

Theorem C20_asm_kept_mixed :
  forall (F : Type) (K : Fops F), is_field K ->
  forall bs : list (shell F), seg_basis bs ->
  forall (tol : option F) (i j m q m' q' : nat), i < length bs -> j < length bs ->
  m < nseg (sh_at K bs i) -> q < osize (sh_at K bs i) -> m' < nseg (sh_at K bs j) -> q' < osize (sh_at K bs j) ->
  scr K tol bs i j = false ->
  nth (oidx K bs j m' q') (nth (oidx K bs i m q) (overlap_integral_screened K bs None tol) []) (f0 K)
  = nth (oidx K bs j m' q') (nth (oidx K bs i m q) (overlap_integral K bs None) []) (f0 K)
  /\ nth (oidx K bs i m q) (nth (oidx K bs j m' q') (overlap_integral_screened K bs None tol) []) (f0 K)
     = nth (oidx K bs i m q) (nth (oidx K bs j m' q') (overlap_integral K bs None) []) (f0 K).
Proof. exact (fun F K Kf => kept_entry_mixed K Kf). Qed.
Print Assumptions C20_asm_kept_mixed.

(* no pair removed: the whole matrix coincides with the unscreened one, with or without a final transformation *)
Theorem C20_asm_all_kept_equal :
  forall (F : Type) (K : Fops F), is_field K ->
  forall (bs : list (shell F)) (T : option (list (list F))) (tol : option F),
  (forall i j, i <= j -> j < length bs -> scr K tol bs i j = false) ->
  overlap_integral_screened K bs T tol = overlap_integral K bs T.
Proof. exact (fun F K Kf => all_kept_equal K Kf). Qed.
Print Assumptions C20_asm_all_kept_equal.

(* the decision does not depend on the order of the two shells, so scr is the decision for (row, column) *)
Theorem C20_asm_decision_symmetric :
  forall (tol : option R) (sa sb : shell R) (bs : list (shell R)) (i j : nat),
  is_screened RK tol sa sb = is_screened RK tol sb sa
  /\ scr RK tol bs i j = is_screened RK tol (sh_at RK bs i) (sh_at RK bs j).
Proof. exact (fun tol sa sb bs i j => conj (is_screened_sym_R tol sa sb) (scr_R tol bs i j)). Qed.
Print Assumptions C20_asm_decision_symmetric.

(* the 1x1 transformation of an s shell (l = 0, default component list, label c0 or -c0 if spherical) *)
Theorem C20_asm_s_shell_transform :
  forall s : shell R,
  s_l s = 0 /\ s_comps s = [] /\ (exists neg, labels_of s = [(neg, false, 0)]) ->
  (ncomp s = 1 /\ osize s = 1) /\ (tco RK s 0 0 = 1%R \/ tco RK s 0 0 = (-1)%R).
Proof. exact (fun s H => conj (s_shell_sizes s H) (s_shell_tco s H)). Qed.
Print Assumptions C20_asm_s_shell_transform.

(* (c) Cartesian basis *)
Theorem C20_asm_removed_s_bound_cart :
  forall (bs : list (shell R)) (i j m m' : nat) (tol : R),
  cart_basis bs -> basis_wf bs -> (forall s, In s bs -> pos_exps s) ->
  i < length bs -> j < length bs ->
  let sa := sh_at RK bs i in let sb := sh_at RK bs j in
  s_l sa = 0 -> s_comps sa = [] -> s_l sb = 0 -> s_comps sb = [] ->
  m < nseg sa -> m' < nseg sb -> (0 < tol <= 1)%R ->
  scr RK (Some tol) bs i j = true ->
  let Sa := (AssembledP.ncont RK sa m 0 * abs_sum (col m (s_exps sa) (s_coeffs sa)))%R in
  let Sb := (AssembledP.ncont RK sb m' 0 * abs_sum (col m' (s_exps sb) (s_coeffs sb)))%R in
  let e := nth (gidx RK bs j m' 0) (nth (gidx RK bs i m 0) (overlap_integral RK bs None) []) 0%R in
  (Rabs e <= tol * Sa * Sb)%R /\ ((0 < Sa)%R -> (0 < Sb)%R -> (Rabs e < tol * Sa * Sb)%R).
Proof. exact removed_s_bound_assembled_cart. Qed.
Print Assumptions C20_asm_removed_s_bound_cart.

(* (c) any coordinate types: the two s shells Cartesian or spherical, the other shells arbitrary *)
Theorem C20_asm_removed_s_bound_mixed :
  forall (bs : list (shell R)) (i j m m' : nat) (tol : R),
  seg_basis bs -> basis_wf bs -> (forall s, In s bs -> pos_exps s) ->
  i < length bs -> j < length bs ->
  let sa := sh_at RK bs i in let sb := sh_at RK bs j in
  (s_l sa = 0 /\ s_comps sa = [] /\ exists neg, labels_of sa = [(neg, false, 0)]) ->
  (s_l sb = 0 /\ s_comps sb = [] /\ exists neg, labels_of sb = [(neg, false, 0)]) ->
  m < nseg sa -> m' < nseg sb -> (0 < tol <= 1)%R ->
  scr RK (Some tol) bs i j = true ->
  let Sa := (AssembledP.ncont RK sa m 0 * abs_sum (col m (s_exps sa) (s_coeffs sa)))%R in
  let Sb := (AssembledP.ncont RK sb m' 0 * abs_sum (col m' (s_exps sb) (s_coeffs sb)))%R in
  let e := nth (oidx RK bs j m' 0) (nth (oidx RK bs i m 0) (overlap_integral RK bs None) []) 0%R in
  (Rabs e <= tol * Sa * Sb)%R /\ ((0 < Sa)%R -> (0 < Sb)%R -> (Rabs e < tol * Sa * Sb)%R).
Proof. exact removed_s_bound_assembled_mixed. Qed.
Print Assumptions C20_asm_removed_s_bound_mixed.

(* ... the error made by screening at those entries *)
Theorem C20_asm_screening_error_s :
  forall (bs : list (shell R)) (i j m m' : nat) (tol : R),
  seg_basis bs -> basis_wf bs -> (forall s, In s bs -> pos_exps s) ->
  i < length bs -> j < length bs ->
  let sa := sh_at RK bs i in let sb := sh_at RK bs j in
  (s_l sa = 0 /\ s_comps sa = [] /\ exists neg, labels_of sa = [(neg, false, 0)]) ->
  (s_l sb = 0 /\ s_comps sb = [] /\ exists neg, labels_of sb = [(neg, false, 0)]) ->
  m < nseg sa -> m' < nseg sb -> (0 < tol <= 1)%R ->
  scr RK (Some tol) bs i j = true ->
  let Sa := (AssembledP.ncont RK sa m 0 * abs_sum (col m (s_exps sa) (s_coeffs sa)))%R in
  let Sb := (AssembledP.ncont RK sb m' 0 * abs_sum (col m' (s_exps sb) (s_coeffs sb)))%R in
  let d := (nth (oidx RK bs j m' 0) (nth (oidx RK bs i m 0) (overlap_integral RK bs None) []) 0
            - nth (oidx RK bs j m' 0) (nth (oidx RK bs i m 0)
                  (overlap_integral_screened RK bs None (Some tol)) []) 0)%R in
  (Rabs d <= tol * Sa * Sb)%R /\ ((0 < Sa)%R -> (0 < Sb)%R -> (Rabs d < tol * Sa * Sb)%R).
Proof. exact screening_error_s_mixed. Qed.
Print Assumptions C20_asm_screening_error_s.

(* the hypotheses are satisfiable *)
(* spherical s shell and Cartesian p shell at the origin, Cartesian s shell 3 bohr away, tol = 1/2:
   the pair (0, 2) is screened, the pair (0, 1) is kept; 5 basis functions *)
Example C20_asm_hypotheses_R :
  seg_basis ex_asm_basis /\ basis_wf ex_asm_basis /\ (forall s, In s ex_asm_basis -> pos_exps s)
  /\ is_s_shell (sh_at RK ex_asm_basis 0) /\ is_s_shell (sh_at RK ex_asm_basis 2)
  /\ scr RK (Some (/ 2)%R) ex_asm_basis 0 2 = true /\ scr RK (Some (/ 2)%R) ex_asm_basis 0 1 = false
  /\ ototal RK ex_asm_basis = 5 /\ oidx RK ex_asm_basis 2 0 0 = 4.
Proof. exact asm_hypotheses_satisfiable. Qed.
Print Assumptions C20_asm_hypotheses_R.

Example C20_asm_removed_example_R :
  nth 4 (nth 0 (overlap_integral_screened RK ex_asm_basis None (Some (/ 2)%R)) []) 0%R = 0%R
  /\ nth 0 (nth 4 (overlap_integral_screened RK ex_asm_basis None (Some (/ 2)%R)) []) 0%R = 0%R
  /\ nth 2 (nth 0 (overlap_integral_screened RK ex_asm_basis None (Some (/ 2)%R)) []) 0%R
     = nth 2 (nth 0 (overlap_integral RK ex_asm_basis None) []) 0%R.
Proof. exact asm_removed_example. Qed.
Print Assumptions C20_asm_removed_example_R.

(* two Cartesian s shells 3 bohr apart, tol = 1/2: every hypothesis of the Cartesian theorems holds, the
   off-diagonal entry is removed and the unscreened entry obeys the bound *)
Example C20_asm_cart_example_R :
  cart_basis ex_cart_basis /\ basis_wf ex_cart_basis /\ (forall s, In s ex_cart_basis -> pos_exps s)
  /\ scr RK (Some (/ 2)%R) ex_cart_basis 0 1 = true
  /\ nth 1 (nth 0 (overlap_integral_screened RK ex_cart_basis None (Some (/ 2)%R)) []) 0%R = 0%R
  /\ (Rabs (nth 1 (nth 0 (overlap_integral RK ex_cart_basis None) []) 0)
      <= / 2 * (AssembledP.ncont RK (ex_shell 0) 0 0 * abs_sum (col 0 [1] [[1]]))
             * (AssembledP.ncont RK (ex_shell 3) 0 0 * abs_sum (col 0 [1] [[1]])))%R.
Proof. exact asm_cart_example. Qed.
Print Assumptions C20_asm_cart_example_R.
