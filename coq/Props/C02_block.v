(* Props/C02_block.v — block-level theorems backing property C02 (kinetic-energy integrals exact).
   Spec per axis of a primitive pair (Proofs/DiffOpP.v, CoreDiffP.v):
     S1 A B alpha beta i j   = Sfun = sqrt(pi/p) exp(-mu (A-B)^2) x T3(1/(2p); P-A, P-B; 0, i, j)   1-D overlap
     D1 A B alpha beta k i j = (Bop beta)^k S1 i j,  (Bop beta T) i j = j T i (j-1) - 2 beta T i (j+1)
                             = 1-D integral of phi_a d^k/dx^k phi_b
     kin_prim = -1/2 (D1_x(2) S1_y S1_z + S1_x D1_y(2) S1_z + S1_x S1_y D1_z(2))
   contracted over the primitives with coefficients and primitive norms as in Props/C01_block.v.
   Hypotheses as there. *)
From Coq Require Import List Arith.
From GB Require Import Base.Field Base.FNum Base.Tables Gauss.Moment1D Model.Shell Model.MomentInt Model.Overlap
  Model.DiffOp Proofs.DiffOpP Proofs.CoreSumP Proofs.CoreBlockP Proofs.CoreDiffP Proofs.CoreExamplesP.
Import ListNotations.

Theorem C02_spec_unfold :
  forall (F : Type) (K : Fops F) (sa sb : shell F) (ca cb : comp) (alpha beta : F),
  let S A B i j := Sfun K A B alpha beta i j in
  let D2 A B i j := Bop K beta (Bop K beta (Sfun K A B alpha beta)) i j in
  kin_prim K sa sb ca cb alpha beta
  = fmul K (fopp K (fdiv K (f1 K) (fadd K (f1 K) (f1 K))))
      (fadd K (fadd K
         (fmul K (fmul K (D2 (s_x sa) (s_x sb) (cx ca) (cx cb)) (S (s_y sa) (s_y sb) (cy ca) (cy cb)))
                 (S (s_z sa) (s_z sb) (cz ca) (cz cb)))
         (fmul K (fmul K (S (s_x sa) (s_x sb) (cx ca) (cx cb)) (D2 (s_y sa) (s_y sb) (cy ca) (cy cb)))
                 (S (s_z sa) (s_z sb) (cz ca) (cz cb))))
         (fmul K (fmul K (S (s_x sa) (s_x sb) (cx ca) (cx cb)) (S (s_y sa) (s_y sb) (cy ca) (cy cb)))
                 (D2 (s_z sa) (s_z sb) (cz ca) (cz cb)))).
Proof. exact (fun F K sa sb ca cb alpha beta => eq_refl). Qed.
Print Assumptions C02_spec_unfold.

(* kinetic_block_correct: every entry of the kinetic block is -1/2 sum_axis [second derivative of phi_b on
   that axis x overlaps on the other two], contracted — all l_a, l_b, K, M, centres, exponents, coefficients
   (includes the padding argument of the derivative recursion and integration by parts) *)
Theorem C02_kinetic_block_correct :
  forall (F : Type) (K : Fops F), is_field K ->
  (forall x : F, fapx K x = x) -> fadd K (f1 K) (f1 K) <> f0 K ->
  forall (sa sb : shell F) (ma ia mb ib : nat),
  wf_shell sa -> wf_shell sb -> exps_ok K sa sb ->
  ma < nseg sa -> ia < length (comps_of sa) -> mb < nseg sb -> ib < length (comps_of sb) ->
  nth4 K ma ia mb ib (kinetic_block K sa sb)
  = contracted K sa sb (nth ia (comps_of sa) (0,0,0)) (nth ib (comps_of sb) (0,0,0)) ma mb
      (kin_prim K sa sb (nth ia (comps_of sa) (0,0,0)) (nth ib (comps_of sb) (0,0,0))).
Proof. exact (@kinetic_block_correct). Qed.
Print Assumptions C02_kinetic_block_correct.

(* the general routine _compute_differential_operator_integrals: any list of derivative orders,
   slice d <-> d-th requested triple, entry = contracted product of the three 1-D derivative integrals *)
Theorem C02_diffop_block_correct :
  forall (F : Type) (K : Fops F), is_field K ->
  (forall x : F, fapx K x = x) -> fadd K (f1 K) (f1 K) <> f0 K ->
  forall (orders : list comp) (sa sb : shell F),
  wf_shell sa -> wf_shell sb -> exps_ok K sa sb ->
  forall d ma ia mb ib, d < length orders ->
  ma < nseg sa -> ia < length (comps_of sa) -> mb < nseg sb -> ib < length (comps_of sb) ->
  nth4 K ma ia mb ib (nth d (diffop_block K orders sa sb) [])
  = contracted K sa sb (nth ia (comps_of sa) (0,0,0)) (nth ib (comps_of sb) (0,0,0)) ma mb
      (dprim K (nth d orders (0,0,0)) sa sb (nth ia (comps_of sa) (0,0,0)) (nth ib (comps_of sb) (0,0,0))).
Proof. exact (@diffop_block_correct). Qed.
Print Assumptions C02_diffop_block_correct.

(* kinetic_sym: T_ba = T_ab — the block of the exchanged pair is the transpose (A^2 S = B^2 S) *)
Theorem C02_kinetic_block_sym :
  forall (F : Type) (K : Fops F), is_field K ->
  (forall x : F, fapx K x = x) -> fadd K (f1 K) (f1 K) <> f0 K ->
  forall (sa sb : shell F) (ma ia mb ib : nat),
  wf_shell sa -> wf_shell sb -> exps_ok K sa sb ->
  ma < nseg sa -> ia < length (comps_of sa) -> mb < nseg sb -> ib < length (comps_of sb) ->
  nth4 K mb ib ma ia (kinetic_block K sb sa) = nth4 K ma ia mb ib (kinetic_block K sa sb).
Proof. exact (@kinetic_block_sym). Qed.
Print Assumptions C02_kinetic_block_sym.

(* exchanging the shells transposes any derivative block up to the sign (-1)^(o_x+o_y+o_z) *)
Theorem C02_diffop_block_swap :
  forall (F : Type) (K : Fops F), is_field K ->
  (forall x : F, fapx K x = x) -> fadd K (f1 K) (f1 K) <> f0 K ->
  forall (orders : list comp) (sa sb : shell F) (d ma ia mb ib : nat),
  wf_shell sa -> wf_shell sb -> exps_ok K sa sb -> d < length orders ->
  ma < nseg sa -> ia < length (comps_of sa) -> mb < nseg sb -> ib < length (comps_of sb) ->
  let o := nth d orders (0,0,0) in
  nth4 K mb ib ma ia (nth d (diffop_block K orders sb sa) [])
  = fmul K (fmul K (fmul K (fneg1pow K (cx o)) (fneg1pow K (cy o))) (fneg1pow K (cz o)))
           (nth4 K ma ia mb ib (nth d (diffop_block K orders sa sb) [])).
Proof. exact (@diffop_block_swap). Qed.
Print Assumptions C02_diffop_block_swap.

Example C02_block_hypotheses_Qc :
  forall opi osqrt oexp oln oboys,
  let K := KQ opi osqrt oexp oln oboys in
  is_field K /\ (forall x, fapx K x = x) /\ fadd K (f1 K) (f1 K) <> f0 K
  /\ wf_shell ex_sa /\ wf_shell ex_sb /\ exps_ok K ex_sa ex_sb /\ exps_ok K ex_sa ex_sa
  /\ 1 < nseg ex_sa /\ 5 < length (comps_of ex_sa) /\ 0 < nseg ex_sb /\ 2 < length (comps_of ex_sb).
Proof. exact block_hypotheses_satisfiable. Qed.
Print Assumptions C02_block_hypotheses_Qc.
