(* Props/C16_integral.v — property C16 CLOSED over the real numbers: the entries of the overlap / multipole
   moment / kinetic-energy MODELS are the integrals over R^3 of (products of) the very functions whose values the
   evaluation MODEL returns.  Only statements, proved from the lemmas of Proofs/SameFunRealP.v, each
   followed by Print Assumptions.  Props/C16.v (generic field) left the integral step as a hypothesis on an
   abstract linear functional; here it is discharged with Gauss/Bridge3D.v (Props/BRIDGE_3d.v).

   RK            the number interface at R (real sqrt, exp, PI) of Proofs/ScreeningP.v
   gint3 F l     the ITERATED improper Riemann integral of F : R -> R -> R -> R exists and equals l
                 (Props/BRIDGE_3d.v, BRIDGE3_gint3_meaning); its identification with the Lebesgue integral
                 over R^3 (Fubini-Tonelli for polynomial x Gaussian) is the one step left outside Coq
   pd3 ox oy oz G x y z, lap3 G x y z   mixed partial derivative / Laplacian of G by Coquelicot's Derive_n
   bfun basis I x y z    := entry [I][0] of evaluate_basis_model RK basis [(x,y,z)] None
   bdfun basis o I x y z := entry [I][0] of evaluate_deriv_basis_model RK basis [(x,y,z)] o None General
   dfun d x y z          := eval_spec RK d (x,y,z), d a function descriptor of Props/C16.v
   cfun s m c            the contracted function sum_k coeff[k][m] norm_prim(alpha_k, c) prim_k of Gauss/Bridge3D.v
   oidx basis k m q      position of (shell k, segment m, component / spherical row q)  (Props/C01_assembled.v)
   All statements hold for EVERY basis of well-formed shells — Cartesian, spherical, mixed; any angular
   momentum, contraction length, number of segments — with positive exponents; there is no bound. *)
From Coq Require Import List Reals.
From Coquelicot Require Import Coquelicot.
From GB Require Import Base.Field Base.FNum Base.Tables Model.Shell Model.MomentInt Model.Spherical
  Model.Assembly Model.Overlap Model.DiffOp Model.OneBody Model.Eval
  Proofs.CoreSumP Proofs.CoreBlockP Proofs.ScreeningP Gauss.BridgeR Gauss.Bridge3D Proofs.SameFunP
  Proofs.SameFunRealP.
From GB Require Proofs.AssembledP Proofs.AssembledSphP.
Import ListNotations.
Open Scope R_scope.

(* what the symbols stand for (by definition) *)
Theorem C16R_unfold :
  forall (basis : list (shell R)) (o : Shell.comp) (I : nat) (x y z : R) (d : @fdesc R),
  bfun basis I x y z = nth 0 (nth I (evaluate_basis_model RK basis [(x, y, z)] None) []) 0
  /\ bdfun basis o I x y z
     = match evaluate_deriv_basis_model RK basis [(x, y, z)] o None General with
       | Some m => nth 0 (nth I m []) 0 | None => 0 end
  /\ dfun d x y z = eval_spec RK d (x, y, z)
  /\ nfun basis = length (descr_basis RK basis)
  /\ (pos_basis basis <-> forall s, In s basis -> forall a, In a (s_exps s) -> 0 < a).
Proof. repeat split; intro H; exact H. Qed.
Print Assumptions C16R_unfold.

(* ---- (b) the closed theorems on the models ---- *)
Theorem C16_closed_overlap :
  forall basis : list (shell R), List.Forall shell_wf basis -> pos_basis basis ->
  forall I J : nat, (I < nfun basis)%nat -> (J < nfun basis)%nat ->
  gint3 (fun x y z => bfun basis I x y z * bfun basis J x y z)
        (nth J (nth I (overlap_integral RK basis None) []) 0).
Proof. exact closed_overlap. Qed.
Print Assumptions C16_closed_overlap.

Theorem C16_closed_kinetic :
  forall basis : list (shell R), List.Forall shell_wf basis -> pos_basis basis ->
  forall I J : nat, (I < nfun basis)%nat -> (J < nfun basis)%nat ->
  gint3 (fun x y z => bfun basis I x y z * (- (1 / 2) * lap3 (bfun basis J) x y z))
        (nth J (nth I (kinetic_integral RK basis None) []) 0).
Proof. exact closed_kinetic. Qed.
Print Assumptions C16_closed_kinetic.

(* the same with the second derivatives taken from the derivative MODEL *)
Theorem C16_closed_kinetic_models :
  forall basis : list (shell R), List.Forall shell_wf basis -> pos_basis basis ->
  forall I J : nat, (I < nfun basis)%nat -> (J < nfun basis)%nat ->
  gint3 (fun x y z => bfun basis I x y z
                      * (- (1 / 2) * (bdfun basis (2, 0, 0)%nat J x y z + bdfun basis (0, 2, 0)%nat J x y z
                                      + bdfun basis (0, 0, 2)%nat J x y z)))
        (nth J (nth I (kinetic_integral RK basis None) []) 0).
Proof.
  intros basis W P I J HI HJ. refine (gint3_ext _ _ _ _ _ eq_refl (closed_kinetic basis W P I J HI HJ)).
  intros x y z. cbv beta. unfold lap3. now rewrite !closed_deriv_model.
Qed.
Print Assumptions C16_closed_kinetic_models.

Theorem C16_closed_moment :
  forall basis : list (shell R), List.Forall shell_wf basis -> pos_basis basis ->
  forall I J : nat, (I < nfun basis)%nat -> (J < nfun basis)%nat ->
  forall (Cx Cy Cz : R) (orders : list Shell.comp) (d : nat), (d < length orders)%nat ->
  let o := nth d orders (0, 0, 0)%nat in
  gint3 (fun x y z => (x - Cx) ^ SameFunP.cx o * (y - Cy) ^ SameFunP.cy o * (z - Cz) ^ SameFunP.cz o
                      * bfun basis I x y z * bfun basis J x y z)
        (nth d (nth J (nth I (moment_integral RK Cx Cy Cz orders basis None) []) []) 0).
Proof. exact closed_moment. Qed.
Print Assumptions C16_closed_moment.

(* the derivative model returns the partial derivatives of the function the evaluation model returns *)
Theorem C16_closed_deriv_model :
  forall (basis : list (shell R)) (ox oy oz I : nat) (x y z : R),
  List.Forall shell_wf basis -> (I < nfun basis)%nat ->
  bdfun basis (ox, oy, oz) I x y z = pd3 ox oy oz (bfun basis I) x y z.
Proof. exact closed_deriv_model. Qed.
Print Assumptions C16_closed_deriv_model.

Theorem C16_matrix_size :
  forall basis : list (shell R), List.Forall shell_wf basis -> pos_basis basis ->
  length (overlap_integral RK basis None) = nfun basis.
Proof.
  intros basis W P.
  rewrite (same_function_overlap RK RK_field CoreNormP.fapx_id_R basis CoreNormP.two_neq_0_R W (exps_ok_of_pos basis P)).
  unfold outer. now rewrite map_length.
Qed.
Print Assumptions C16_matrix_size.

(* ---- the same at the level of two arbitrary function descriptors (spherical combinations included) ---- *)
Theorem C16_pairing_is_integral :
  forall d1 d2 : @fdesc R, pos_desc d1 -> pos_desc d2 ->
  gint3 (fun x y z => dfun d1 x y z * dfun d2 x y z) (pair_spec RK (Iov RK) d1 d2)
  /\ gint3 (fun x y z => dfun d1 x y z * (- (1 / 2) * lap3 (dfun d2) x y z)) (pair_spec RK (Ikin RK) d1 d2)
  /\ forall Cx Cy Cz (o : Shell.comp),
     gint3 (fun x y z => (x - Cx) ^ SameFunP.cx o * (y - Cy) ^ SameFunP.cy o * (z - Cz) ^ SameFunP.cz o
                         * dfun d1 x y z * dfun d2 x y z)
           (pair_spec RK (Imom RK Cx Cy Cz o) d1 d2).
Proof.
  intros d1 d2 P1 P2. split; [now apply gint3_pair_overlap|]. split; [now apply gint3_pair_kinetic|].
  intros. now apply gint3_pair_moment.
Qed.
Print Assumptions C16_pairing_is_integral.

Theorem C16_deriv_spec_is_derivative :
  forall (d : @fdesc R) (ox oy oz : nat) (x y z : R),
  deriv_spec RK (ox, oy, oz) d (x, y, z) = pd3 ox oy oz (dfun d) x y z.
Proof. exact deriv_spec_is_derivative. Qed.
Print Assumptions C16_deriv_spec_is_derivative.

(* (B1) for one pair of primitives — the hypothesis of Props/C16.v C16_integral_of_product, now a theorem *)
Theorem C16_primitive_pair_integrals :
  forall g1 g2 : @SameFunP.gprim R, 0 < g_a g1 -> 0 < g_a g2 ->
  gint3 (fun x y z => dval RK (0, 0, 0)%nat g1 (x, y, z) * dval RK (0, 0, 0)%nat g2 (x, y, z)) (Iov RK g1 g2)
  /\ gint3 (fun x y z => gfun g1 x y z * gfun g2 x y z) (Iov RK g1 g2)
  /\ gint3 (fun x y z => gfun g1 x y z * (- (1 / 2) * lap3 (gfun g2) x y z)) (Ikin RK g1 g2)
  /\ forall x y z, dval RK (0, 0, 0)%nat g1 (x, y, z) = gfun g1 x y z
                   /\ gfun g1 x y z = cprim (g_a g1) (g_x g1) (g_y g1) (g_z g1) (g_c g1) x y z.
Proof.
  intros g1 g2 H1 H2. split; [|split; [now apply prim_pair_overlap|split; [now apply prim_pair_kinetic|]]].
  - refine (gint3_ext _ _ _ _ _ eq_refl (prim_pair_overlap g1 g2 H1 H2)).
    intros x y z. now rewrite !dval0_is_gfun.
  - intros x y z. split; [apply dval0_is_gfun|reflexivity].
Qed.
Print Assumptions C16_primitive_pair_integrals.

(* ---- (a) the evaluated functions are the contracted functions of Gauss/Bridge3D.v ---- *)
Theorem C16_descriptor_is_contracted_function :
  forall (s : shell R) (m ic : nat) (x y z : R), wf_coeffs s ->
  eval_spec RK (cart_desc RK s m ic) (x, y, z)
  = nth ic (nth m (norm_cont RK s) []) 0 * cfun s m (nth ic (comps_of s) (0, 0, 0)%nat) x y z.
Proof. exact cart_desc_is_cfun. Qed.
Print Assumptions C16_descriptor_is_contracted_function.

Theorem C16_eval_model_cartesian_function :
  forall (basis : list (shell R)) (k m c : nat) (x y z : R),
  List.Forall shell_wf basis -> (k < length basis)%nat ->
  let s := AssembledP.sh_at RK basis k in
  wf_coeffs s -> s_sph s = false -> (m < nseg s)%nat -> (c < length (comps_of s))%nat ->
  bfun basis (AssembledSphP.oidx RK basis k m c) x y z
  = AssembledP.ncont RK s m c * cfun s m (nth c (comps_of s) (0, 0, 0)%nat) x y z.
Proof. exact bfun_cart. Qed.
Print Assumptions C16_eval_model_cartesian_function.

Theorem C16_eval_model_spherical_function :
  forall (basis : list (shell R)) (k m q : nat) (x y z : R),
  List.Forall shell_wf basis -> (k < length basis)%nat ->
  let s := AssembledP.sh_at RK basis k in
  wf_coeffs s -> s_sph s = true -> (m < nseg s)%nat -> (q < length (labels_of s))%nat ->
  bfun basis (AssembledSphP.oidx RK basis k m q) x y z
  = FNum.fsum RK (map (fun p : R * nat =>
        fst p * (AssembledP.ncont RK s m (snd p) * cfun s m (nth (snd p) (comps_of s) (0, 0, 0)%nat) x y z))
      (combine (nth q (shell_transform RK s) []) (seq 0 (length (comps_of s))))).
Proof. exact bfun_sph. Qed.
Print Assumptions C16_eval_model_spherical_function.

(* position of a function in the descriptor list = output index map of the assembled matrices *)
Theorem C16_descriptor_position :
  forall (basis : list (shell R)) (k m q : nat),
  (k < length basis)%nat -> (m < nseg (AssembledP.sh_at RK basis k))%nat ->
  (q < AssembledSphP.osize (AssembledP.sh_at RK basis k))%nat ->
  nth (AssembledSphP.oidx RK basis k m q) (descr_basis RK basis) [] = dd RK (AssembledP.sh_at RK basis k) m q
  /\ (AssembledSphP.oidx RK basis k m q < nfun basis)%nat.
Proof. exact descr_basis_nth. Qed.
Print Assumptions C16_descriptor_position.

(* (b) for two Cartesian shells, written with the contracted functions whose iterated integrals are the block
   entries in Props/BRIDGE_3d.v: assembled entry = integral of the product of the NORMALISED functions *)
Theorem C16_closed_overlap_cartesian :
  forall (basis : list (shell R)) (k m c k' m' c' : nat),
  List.Forall shell_wf basis -> pos_basis basis -> (k < length basis)%nat -> (k' < length basis)%nat ->
  let s := AssembledP.sh_at RK basis k in let s' := AssembledP.sh_at RK basis k' in
  wf_coeffs s -> wf_coeffs s' -> s_sph s = false -> s_sph s' = false ->
  (m < nseg s)%nat -> (c < length (comps_of s))%nat -> (m' < nseg s')%nat -> (c' < length (comps_of s'))%nat ->
  gint3 (fun x y z => (AssembledP.ncont RK s m c * cfun s m (nth c (comps_of s) (0, 0, 0)%nat) x y z)
                      * (AssembledP.ncont RK s' m' c' * cfun s' m' (nth c' (comps_of s') (0, 0, 0)%nat) x y z))
        (nth (AssembledSphP.oidx RK basis k' m' c')
             (nth (AssembledSphP.oidx RK basis k m c) (overlap_integral RK basis None) []) 0).
Proof.
  intros basis k m c k' m' c' W P Hk Hk' s s' Wc Wc' Hs Hs' Hm Hc Hm' Hc'.
  assert (Hq : (c < AssembledSphP.osize s)%nat) by (unfold AssembledSphP.osize; now rewrite Hs).
  assert (Hq' : (c' < AssembledSphP.osize s')%nat) by (unfold AssembledSphP.osize; now rewrite Hs').
  destruct (descr_basis_nth basis k m c Hk Hm Hq) as [_ HI].
  destruct (descr_basis_nth basis k' m' c' Hk' Hm' Hq') as [_ HJ].
  refine (gint3_ext _ _ _ _ _ eq_refl (closed_overlap basis W P _ _ HI HJ)).
  intros x y z. cbv beta.
  rewrite (bfun_cart basis k m c x y z W Hk Wc Hs Hm Hc).
  now rewrite (bfun_cart basis k' m' c' x y z W Hk' Wc' Hs' Hm' Hc').
Qed.
Print Assumptions C16_closed_overlap_cartesian.

(* ---- the hypotheses are satisfiable: Cartesian generalized d shell (K = 2, M = 2) + spherical p shell ---- *)
Example C16_closed_hypotheses_satisfiable :
  List.Forall shell_wf ex_basis_c16 /\ pos_basis ex_basis_c16 /\ nfun ex_basis_c16 = 15%nat.
Proof. exact closed_hypotheses_satisfiable. Qed.
Print Assumptions C16_closed_hypotheses_satisfiable.

Example C16_closed_overlap_instance :
  gint3 (fun x y z => bfun ex_basis_c16 13 x y z * bfun ex_basis_c16 4 x y z)
        (nth 4 (nth 13 (overlap_integral RK ex_basis_c16 None) []) 0).
Proof. exact closed_overlap_instance. Qed.
Print Assumptions C16_closed_overlap_instance.
