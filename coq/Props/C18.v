(* Props/C18.v — theorems backing property C18 (basis-set import preserves every shell and leaves its
   arguments intact).  Statements closed by [exact] of a lemma proved in Proofs/ParsersP.v, in a few lines
   from those lemmas or in a line from the model's definition, each followed by Print Assumptions.  Model: Model/Parsers.v (line/token level; numbers are literal strings). *)
From Coq Require Import List String.
From GB Require Import Model.Parsers Proofs.ParsersP.
Import ListNotations.
Open Scope string_scope.

(* NWChem: for EVERY well-formed basis set (any number of elements, blocks, primitives, columns; combined
   shells such as SP; any literals float() accepts that are not bare words) and EVERY layout (zero, one
   or many lines before the first element, comment / blank / other filler lines anywhere between lines,
   any indentation / separation / trailing blanks, upper- or lower-case shell letters) the parser returns
   exactly the shells written, per element, in file order, combined shells split. *)
Theorem parse_print_roundtrip_nwchem :
  forall (L : layout), layout_ok_nw L ->
  forall (a : ast), wf_ast a = true ->
  parse_nwchem_model (print_nwchem a L) = Some (expected a).
Proof. exact roundtrip_nwchem. Qed.
Print Assumptions parse_print_roundtrip_nwchem.

(* Gaussian94: same statement; a generalized shell is written as consecutive one-column blocks with equal
   exponents and the merge rule (parsers.py:150-164) puts it back together.  [close] is the comparison the
   merge rule applies to two exponent literals (np.allclose after float()), only assumed reflexive;
   wf_ast_gbs adds that no two consecutive shells of an element that are meant to be separate have the
   same angular momentum and pairwise-close exponents. *)
Theorem parse_print_roundtrip_gbs :
  forall (close : string -> string -> bool), (forall s, close s s = true) ->
  forall (L : layout), layout_ok_gbs L ->
  forall (a : ast), wf_ast_gbs close a = true ->
  parse_gbs_model close (print_gbs a L) = Some (expected a).
Proof. exact roundtrip_gbs. Qed.
Print Assumptions parse_print_roundtrip_gbs.

(* make_contractions: whenever the call returns, the contractions are, atom after atom (icenter = atom
   index, that atom's coordinate row), that atom's shells in dict order; the coordinate types are the
   entries of the list / tuple (or the one string repeated) in order, normalised; there are as many
   contractions as shells. *)
Theorem make_contractions_spec :
  forall (C : Type) (d : dict) (atoms : list string) (coords : list C) (ct : ctypes) res,
  fst (make_contractions_model (d, atoms, coords, ct)) = Some res ->
  List.length atoms = List.length coords /\
  map c_place res = placed_from d 0 (combine atoms coords) /\
  map (fun c => Some (c_type c)) res = map norm_type (expand ct (List.length res)) /\
  total_shells d atoms = Some (List.length res).
Proof. exact (@mc_spec). Qed.
Print Assumptions make_contractions_spec.

(* ... and the call does return for valid arguments: as many rows as atoms, every atom in the dict, one
   valid type per shell (list or tuple) or one valid string *)
Theorem make_contractions_accepts :
  forall (C : Type) (d : dict) (atoms : list string) (coords : list C) (ct : ctypes) (n : nat),
  List.length atoms = List.length coords ->
  total_shells d atoms = Some n ->
  List.length (expand ct n) = n -> Forall valid_type (expand ct n) ->
  (match ct with CStr s => valid_type s | _ => True end) ->
  exists res, fst (make_contractions_model (d, atoms, coords, ct)) = Some res.
Proof.
  intros C d atoms coords ct n Hl Ht Hn Hv Hs.
  destruct (total_shells_combine d atoms coords n Hl Ht) as [Hd Hsum].
  rewrite mc_unfold, Hl, PeanoNat.Nat.eqb_refl, Ht, Hn, PeanoNat.Nat.eqb_refl.
  assert (type_ok ct = true) as ->.
  { destruct ct as [s| |]; auto. unfold valid_type in Hs. simpl. destruct (norm_type s); congruence. }
  rewrite place_all_eq by (auto; congruence).
  destruct (map_opt_total norm_type _ Hv) as [tys ->]. eexists. reflexivity.
Qed.
Print Assumptions make_contractions_accepts.

(* the four argument objects are, after the call, what they were before; hence a second call with the
   same objects gives the same result; a tuple is treated as the list with the same entries *)
Theorem args_untouched :
  forall (C : Type) (args : @mc_args C), snd (make_contractions_model args) = args.
Proof. intros C [[[d atoms] coords] ct]. reflexivity. Qed.
Print Assumptions args_untouched.
Theorem repeated_call_same :
  forall (C : Type) (args : @mc_args C),
  make_contractions_model (snd (make_contractions_model args)) = make_contractions_model args.
Proof. intros C args. rewrite args_untouched. reflexivity. Qed.
Print Assumptions repeated_call_same.
Theorem tuple_as_list :
  forall (C : Type) d atoms (coords : list C) l,
  fst (make_contractions_model (d, atoms, coords, CList l)) = fst (make_contractions_model (d, atoms, coords, CTuple l)).
Proof. reflexivity. Qed.
Print Assumptions tuple_as_list.

(* the hypotheses are satisfiable: a realistic basis set (6-31G-like Li with an SP shell, a two-column
   generalized d shell, a k shell, D / E / plain literals), realistic layouts and the bare layout with no
   line before the first element *)
Example hypotheses_satisfiable :
  (wf_ast ex_ast = true /\ wf_ast_gbs close_lit ex_ast = true) /\
  (layout_ok_nw ex_layout_nw /\ layout_ok_nw ex_layout_bare) /\
  (layout_ok_gbs ex_layout_gbs /\ layout_ok_gbs ex_layout_bare) /\
  (forall s, close_lit s s = true).
Proof. exact (conj ex_ast_wf (conj ex_layout_nw_ok (conj ex_layout_gbs_ok close_lit_refl))). Qed.
Print Assumptions hypotheses_satisfiable.
Example roundtrip_instances :
  parse_nwchem_model (print_nwchem ex_ast ex_layout_nw) = Some (expected ex_ast) /\
  parse_nwchem_model (print_nwchem ex_ast ex_layout_bare) = Some (expected ex_ast) /\
  parse_gbs_model close_lit (print_gbs ex_ast ex_layout_gbs) = Some (expected ex_ast) /\
  parse_gbs_model close_lit (print_gbs ex_ast ex_layout_bare) = Some (expected ex_ast) /\
  List.length (expected_shells (snd (hd ("", []) ex_ast))) = 5.
Proof.
  destruct ex_ast_wf as [Hw Hg], ex_layout_nw_ok as [N1 N2], ex_layout_gbs_ok as [G1 G2].
  split; [|split; [|split; [|split]]].
  - exact (roundtrip_nwchem _ N1 _ Hw).
  - exact (roundtrip_nwchem _ N2 _ Hw).
  - exact (roundtrip_gbs _ close_lit_refl _ G1 _ Hg).
  - exact (roundtrip_gbs _ close_lit_refl _ G2 _ Hg).
  - reflexivity.
Qed.
Print Assumptions roundtrip_instances.
Example make_contractions_instance :
  exists res,
    fst (make_contractions_model (C := nat)
           (expected ex_ast, ["H"; "Li"; "H"], [10; 11; 12],
            CTuple ["c"; "p"; "spherical"; "cartesian"; "c"; "p"; "p"; "c"; "spherical"; "p"; "c"])) = Some res /\
    List.length res = 11 /\
    map (fun c => fst (fst (fst c))) res = [0; 0; 0; 1; 1; 1; 1; 1; 2; 2; 2] /\
    map (fun c => snd (fst (fst c))) res = [10; 10; 10; 11; 11; 11; 11; 11; 12; 12; 12] /\
    map snd res = ["cartesian"; "spherical"; "spherical"; "cartesian"; "cartesian"; "spherical"; "spherical";
                   "cartesian"; "spherical"; "spherical"; "cartesian"].
Proof. eexists. split; [vm_compute; reflexivity|]. repeat apply conj; reflexivity. Qed.
Print Assumptions make_contractions_instance.
