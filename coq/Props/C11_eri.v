(* Props/C11_eri.v — property C11 (index symmetries) for the electron-repulsion blocks, at the level of the
   recursions: the eight-fold symmetry (ab|cd) = (ba|cd) = (ab|dc) = (cd|ab) = ... holds for blocks evaluated
   INDEPENDENTLY in each orientation by the model of _two_elec_int.py (not only through the copies the
   assembly makes): the block computed for a permuted quartet is the correspondingly transposed block of
   (s1 s2|s3 s4), entry by entry, for all angular momenta, exponents, centres and contraction shapes.
   The asymmetric recursion (vertical on a, transfer to c, horizontal c->d and a->b) treats the four shells
   differently; both sides equal the symmetric specification (Props/C04_orient.v, Proofs/EriOrientP.v).

   Only `Theorem ... Proof. exact lemma. Qed.` + `Print Assumptions`, plus `Example`s. *)
From Coq Require Import List Arith ZArith.
From GB Require Import Base.Field Base.FNum Base.Tables Gauss.SPoly
  Model.Shell Model.OneElec Model.TwoElec Proofs.TwoElecP Proofs.EriOrientP.
Import ListNotations.

(* the three generators of the eight-fold symmetry, written out *)
Theorem C11_eri_block_swap_ab :
  forall (F : Type) (K : Fops F), is_field K ->
  forall (s1 s2 s3 s4 : shell F) (m1 i1 m2 i2 m3 i3 m4 i4 : nat),
  (forall x : F, fapx K x = x) ->
  (forall n : nat, ofnat K (S n) <> f0 K) ->
  (forall alpha beta, In alpha (s_exps s1) -> In beta (s_exps s2) -> fadd K alpha beta <> f0 K) ->
  (forall gamma delta, In gamma (s_exps s3) -> In delta (s_exps s4) -> fadd K gamma delta <> f0 K) ->
  (forall alpha beta gamma delta, In alpha (s_exps s1) -> In beta (s_exps s2) ->
     In gamma (s_exps s3) -> In delta (s_exps s4) ->
     fadd K (fadd K alpha beta) (fadd K gamma delta) <> f0 K) ->
  m1 < nseg s1 -> m2 < nseg s2 -> m3 < nseg s3 -> m4 < nseg s4 ->
  i1 < length (comps_of s1) -> i2 < length (comps_of s2) ->
  i3 < length (comps_of s3) -> i4 < length (comps_of s4) ->
  compsum (nth i1 (comps_of s1) (0, 0, 0)) <= s_l s1 -> compsum (nth i2 (comps_of s2) (0, 0, 0)) <= s_l s2 ->
  compsum (nth i3 (comps_of s3) (0, 0, 0)) <= s_l s3 -> compsum (nth i4 (comps_of s4) (0, 0, 0)) <= s_l s4 ->
  nth i4 (nth m4 (nth i3 (nth m3 (nth i1 (nth m1 (nth i2 (nth m2 (eri_block K s2 s1 s3 s4) []) []) []) []) []) []) []) (f0 K)
  = nth i4 (nth m4 (nth i3 (nth m3 (nth i2 (nth m2 (nth i1 (nth m1 (eri_block K s1 s2 s3 s4) []) []) []) []) []) []) []) (f0 K).
Proof. exact (fun F K Kf => both_orientations_agree_eri K Kf O_bacd). Qed.
Print Assumptions C11_eri_block_swap_ab.

Theorem C11_eri_block_swap_cd :
  forall (F : Type) (K : Fops F), is_field K ->
  forall (s1 s2 s3 s4 : shell F) (m1 i1 m2 i2 m3 i3 m4 i4 : nat),
  (forall x : F, fapx K x = x) ->
  (forall n : nat, ofnat K (S n) <> f0 K) ->
  (forall alpha beta, In alpha (s_exps s1) -> In beta (s_exps s2) -> fadd K alpha beta <> f0 K) ->
  (forall gamma delta, In gamma (s_exps s3) -> In delta (s_exps s4) -> fadd K gamma delta <> f0 K) ->
  (forall alpha beta gamma delta, In alpha (s_exps s1) -> In beta (s_exps s2) ->
     In gamma (s_exps s3) -> In delta (s_exps s4) ->
     fadd K (fadd K alpha beta) (fadd K gamma delta) <> f0 K) ->
  m1 < nseg s1 -> m2 < nseg s2 -> m3 < nseg s3 -> m4 < nseg s4 ->
  i1 < length (comps_of s1) -> i2 < length (comps_of s2) ->
  i3 < length (comps_of s3) -> i4 < length (comps_of s4) ->
  compsum (nth i1 (comps_of s1) (0, 0, 0)) <= s_l s1 -> compsum (nth i2 (comps_of s2) (0, 0, 0)) <= s_l s2 ->
  compsum (nth i3 (comps_of s3) (0, 0, 0)) <= s_l s3 -> compsum (nth i4 (comps_of s4) (0, 0, 0)) <= s_l s4 ->
  nth i3 (nth m3 (nth i4 (nth m4 (nth i2 (nth m2 (nth i1 (nth m1 (eri_block K s1 s2 s4 s3) []) []) []) []) []) []) []) (f0 K)
  = nth i4 (nth m4 (nth i3 (nth m3 (nth i2 (nth m2 (nth i1 (nth m1 (eri_block K s1 s2 s3 s4) []) []) []) []) []) []) []) (f0 K).
Proof. exact (fun F K Kf => both_orientations_agree_eri K Kf O_abdc). Qed.
Print Assumptions C11_eri_block_swap_cd.

Theorem C11_eri_block_swap_electrons :
  forall (F : Type) (K : Fops F), is_field K ->
  forall (s1 s2 s3 s4 : shell F) (m1 i1 m2 i2 m3 i3 m4 i4 : nat),
  (forall x : F, fapx K x = x) ->
  (forall n : nat, ofnat K (S n) <> f0 K) ->
  (forall alpha beta, In alpha (s_exps s1) -> In beta (s_exps s2) -> fadd K alpha beta <> f0 K) ->
  (forall gamma delta, In gamma (s_exps s3) -> In delta (s_exps s4) -> fadd K gamma delta <> f0 K) ->
  (forall alpha beta gamma delta, In alpha (s_exps s1) -> In beta (s_exps s2) ->
     In gamma (s_exps s3) -> In delta (s_exps s4) ->
     fadd K (fadd K alpha beta) (fadd K gamma delta) <> f0 K) ->
  m1 < nseg s1 -> m2 < nseg s2 -> m3 < nseg s3 -> m4 < nseg s4 ->
  i1 < length (comps_of s1) -> i2 < length (comps_of s2) ->
  i3 < length (comps_of s3) -> i4 < length (comps_of s4) ->
  compsum (nth i1 (comps_of s1) (0, 0, 0)) <= s_l s1 -> compsum (nth i2 (comps_of s2) (0, 0, 0)) <= s_l s2 ->
  compsum (nth i3 (comps_of s3) (0, 0, 0)) <= s_l s3 -> compsum (nth i4 (comps_of s4) (0, 0, 0)) <= s_l s4 ->
  nth i2 (nth m2 (nth i1 (nth m1 (nth i4 (nth m4 (nth i3 (nth m3 (eri_block K s3 s4 s1 s2) []) []) []) []) []) []) []) (f0 K)
  = nth i4 (nth m4 (nth i3 (nth m3 (nth i2 (nth m2 (nth i1 (nth m1 (eri_block K s1 s2 s3 s4) []) []) []) []) []) []) []) (f0 K).
Proof. exact (fun F K Kf => both_orientations_agree_eri K Kf O_cdab). Qed.
Print Assumptions C11_eri_block_swap_electrons.

(* all eight: opick_k o x1 x2 x3 x4 = x_{order[k]}, order = (0,1,2,3) (1,0,2,3) (0,1,3,2) (1,0,3,2) (2,3,0,1)
   (3,2,0,1) (2,3,1,0) (3,2,1,0) for o = O_abcd .. O_dcba *)
Theorem C11_both_orientations_agree_eri :
  forall (F : Type) (K : Fops F), is_field K ->
  forall (o : orient) (s1 s2 s3 s4 : shell F) (m1 i1 m2 i2 m3 i3 m4 i4 : nat),
  (forall x : F, fapx K x = x) ->
  (forall n : nat, ofnat K (S n) <> f0 K) ->
  (forall alpha beta, In alpha (s_exps s1) -> In beta (s_exps s2) -> fadd K alpha beta <> f0 K) ->
  (forall gamma delta, In gamma (s_exps s3) -> In delta (s_exps s4) -> fadd K gamma delta <> f0 K) ->
  (forall alpha beta gamma delta, In alpha (s_exps s1) -> In beta (s_exps s2) ->
     In gamma (s_exps s3) -> In delta (s_exps s4) ->
     fadd K (fadd K alpha beta) (fadd K gamma delta) <> f0 K) ->
  m1 < nseg s1 -> m2 < nseg s2 -> m3 < nseg s3 -> m4 < nseg s4 ->
  i1 < length (comps_of s1) -> i2 < length (comps_of s2) ->
  i3 < length (comps_of s3) -> i4 < length (comps_of s4) ->
  compsum (nth i1 (comps_of s1) (0, 0, 0)) <= s_l s1 -> compsum (nth i2 (comps_of s2) (0, 0, 0)) <= s_l s2 ->
  compsum (nth i3 (comps_of s3) (0, 0, 0)) <= s_l s3 -> compsum (nth i4 (comps_of s4) (0, 0, 0)) <= s_l s4 ->
  nth (opick4 o i1 i2 i3 i4) (nth (opick4 o m1 m2 m3 m4) (nth (opick3 o i1 i2 i3 i4) (nth (opick3 o m1 m2 m3 m4) (nth (opick2 o i1 i2 i3 i4) (nth (opick2 o m1 m2 m3 m4) (nth (opick1 o i1 i2 i3 i4) (nth (opick1 o m1 m2 m3 m4) (eri_block K (opick1 o s1 s2 s3 s4) (opick2 o s1 s2 s3 s4) (opick3 o s1 s2 s3 s4) (opick4 o s1 s2 s3 s4)) []) []) []) []) []) []) []) (f0 K)
  = nth i4 (nth m4 (nth i3 (nth m3 (nth i2 (nth m2 (nth i1 (nth m1 (eri_block K s1 s2 s3 s4) []) []) []) []) []) []) []) (f0 K).
Proof. exact (fun F K Kf => both_orientations_agree_eri K Kf). Qed.
Print Assumptions C11_both_orientations_agree_eri.

(* the same statement for the implementation's transposed result (key statement of Props/C04_orient.v) *)
Theorem C11_eri_block_orientation_independent :
  forall (F : Type) (K : Fops F), is_field K ->
  forall (o : orient) (s1 s2 s3 s4 : shell F) (m1 i1 m2 i2 m3 i3 m4 i4 : nat),
  (forall x : F, fapx K x = x) ->
  (forall n : nat, ofnat K (S n) <> f0 K) ->
  (forall alpha beta, In alpha (s_exps s1) -> In beta (s_exps s2) -> fadd K alpha beta <> f0 K) ->
  (forall gamma delta, In gamma (s_exps s3) -> In delta (s_exps s4) -> fadd K gamma delta <> f0 K) ->
  (forall alpha beta gamma delta, In alpha (s_exps s1) -> In beta (s_exps s2) ->
     In gamma (s_exps s3) -> In delta (s_exps s4) ->
     fadd K (fadd K alpha beta) (fadd K gamma delta) <> f0 K) ->
  m1 < nseg s1 -> m2 < nseg s2 -> m3 < nseg s3 -> m4 < nseg s4 ->
  i1 < length (comps_of s1) -> i2 < length (comps_of s2) ->
  i3 < length (comps_of s3) -> i4 < length (comps_of s4) ->
  compsum (nth i1 (comps_of s1) (0, 0, 0)) <= s_l s1 -> compsum (nth i2 (comps_of s2) (0, 0, 0)) <= s_l s2 ->
  compsum (nth i3 (comps_of s3) (0, 0, 0)) <= s_l s3 -> compsum (nth i4 (comps_of s4) (0, 0, 0)) <= s_l s4 ->
  nth i4 (nth m4 (nth i3 (nth m3 (nth i2 (nth m2 (nth i1 (nth m1 (eri_block_oriented K o s1 s2 s3 s4) []) []) []) []) []) []) []) (f0 K)
  = nth i4 (nth m4 (nth i3 (nth m3 (nth i2 (nth m2 (nth i1 (nth m1 (eri_block K s1 s2 s3 s4) []) []) []) []) []) []) []) (f0 K).
Proof. exact (fun F K Kf => eri_block_orientation_independent K Kf). Qed.
Print Assumptions C11_eri_block_orientation_independent.

(* opick on a concrete tuple: the eight orders of electron_repulsion.py::_ORIENTATIONS *)
Example C11_orient_orders_ex :
  map (fun o => [opick1 o 0 1 2 3; opick2 o 0 1 2 3; opick3 o 0 1 2 3; opick4 o 0 1 2 3]) all_orients
  = [[0; 1; 2; 3]; [1; 0; 2; 3]; [0; 1; 3; 2]; [1; 0; 3; 2]; [2; 3; 0; 1]; [3; 2; 0; 1]; [2; 3; 1; 0]; [3; 2; 1; 0]].
Proof. exact orient_orders_ex. Qed.
Print Assumptions C11_orient_orders_ex.

(* a concrete (p s | s p) quartet at Qc: the eight oriented blocks coincide on all 36 entries (the orientation theorem at this quartet) *)
Example C11_eight_orientations_ex :
  (let r := eri_block KQ4 o_s1 o_s2 o_s3 o_s4 in
   forallb (fun o => block_eqb (eri_block_oriented KQ4 o o_s1 o_s2 o_s3 o_s4) r) all_orients) = true.
Proof. exact eight_orientations_ex. Qed.
Print Assumptions C11_eight_orientations_ex.
