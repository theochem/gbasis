(* Props/C02.v — theorems backing property C02 (kinetic-energy integrals exact). *)
From Coq Require Import List Arith.
From GB Require Import Base.Field Base.Tables Gauss.Moment1D Model.MomentInt Model.DiffOp
  Proofs.MomentIntP Proofs.DiffOpP.

(* Padding argument, for every la, lb and derivative order D: on the whole slice the
   code returns (i <= la), at every order k <= D, the entry of the padded recursion
   equals (negA^k S)(i, j): k-fold application of minus the x-derivative of the left
   primitive to the exact 1-D overlap integrals S. *)
Theorem C02_diffop_slice_valid :
  forall (F : Type) (K : Fops F), is_field K ->
  forall (Ax Bx alpha beta : F) (la lb D : nat),
  psum K alpha beta <> f0 K -> fadd K (f1 K) (f1 K) <> f0 K ->
  forall k j i, k <= D -> j <= lb -> i <= la ->
  nth3 K k j i (dtable K Ax Bx alpha beta la lb D)
  = iterop (negA K alpha) k (Sfun K Ax Bx alpha beta) i j.
Proof. exact (@diffop_slice_valid). Qed.
Print Assumptions C02_diffop_slice_valid.

(* Integration by parts, every order: the same entry is the integral of phi_a times the
   k-th x-derivative of phi_b (Bop = derivative rule of the right primitive). For k = 2
   and summed over the axes with factor -1/2 this is the kinetic-energy integral. *)
Theorem C02_diffop_is_derivative_of_right :
  forall (F : Type) (K : Fops F), is_field K ->
  forall (Ax Bx alpha beta : F) (la lb D : nat),
  psum K alpha beta <> f0 K -> fadd K (f1 K) (f1 K) <> f0 K ->
  forall k j i, k <= D -> j <= lb -> i <= la ->
  nth3 K k j i (dtable K Ax Bx alpha beta la lb D)
  = iterop (Bop K beta) k (Sfun K Ax Bx alpha beta) i j.
Proof. exact (@diffop_slice_is_deriv_b). Qed.
Print Assumptions C02_diffop_is_derivative_of_right.
