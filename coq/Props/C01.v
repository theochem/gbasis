(* Props/C01.v — theorems backing property C01 (overlap integrals exact).
   Only statements closed by [exact] of a lemma proved elsewhere, each followed
   by Print Assumptions. *)
From Coq Require Import List Arith.
From GB Require Import Base.Field Base.Tables Gauss.Moment1D Model.MomentInt Proofs.MomentIntP.

(* Every entry of the table built by the code's recursion (any la, lb, moment
   order, exponents, centres; one axis, one primitive pair) is the s-s
   prefactor times the Gaussian moment E((y+PC)^k (y+PA)^i (y+PB)^j). *)
Theorem C01_table_exact :
  forall (F : Type) (K : Fops F), is_field K ->
  forall (Ax Bx Cx alpha beta : F) (la lb km : nat),
  psum K alpha beta <> f0 K -> fadd K (f1 K) (f1 K) <> f0 K ->
  forall k j i, k <= km -> j <= lb -> i <= la ->
  nth3 K k j i (table K Ax Bx Cx alpha beta la lb km)
  = fmul K (base K Ax Bx alpha beta)
      (T3 K (fdiv K (f1 K) (twop K alpha beta))
          (PA K Ax Bx alpha beta) (PB K Ax Bx alpha beta) (PC K Ax Bx Cx alpha beta) k i j).
Proof. exact (@table_correct). Qed.
Print Assumptions C01_table_exact.
