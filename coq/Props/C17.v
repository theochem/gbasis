(* Props/C17.v — theorems backing property C17 (integral arrays satisfy the positivity and Schwarz
   bounds of Gram matrices).  Only statements, proved from the lemmas of
   Proofs/GramP.v, each followed by Print Assumptions.

   PARTIAL BY DESIGN.  The full statement of the property is
       "the overlap matrix S_ab = int phi_a phi_b, the kinetic matrix T_ab = 1/2 int grad phi_a . grad phi_b,
        minus the point-charge matrix V_ab/q = int phi_a phi_b / |r - C| and the repulsion array
        (ab|cd) = iint phi_a phi_b (1) phi_c phi_d (2) / r12 are Gram matrices",
   i.e. each is  G_ab = <v_a, v_b>  for a symmetric bilinear form with <v, v> >= 0 on the real span of
   the basis functions (resp. of their gradients, of the products phi_a phi_b).  That these four forms
   ARE positive (an integral of a square; the weight 1/|r-C| >= 0; the Coulomb kernel is positive
   definite) is the analytic bridge B3 of DESIGN.md 2.6: it is NOT derived here, and cannot be derived
   from the algebraic moment functional of Gauss/Moment1D.v for functions on different centres.
   Everything the property concludes from it IS derived here, over R, for ANY such space
   ([ipspace]: a carrier with addition, scaling, zero and a symmetric, left-linear form with
   ip v v >= 0 — no definiteness, no dimension), any index type and any finite coefficient list.

   The theorems over R use the classical-real axioms of the standard library (printed). *)
From Coq Require Import List Reals.
From GB Require Import Base.Field Gauss.Moment1D Model.MomentInt Proofs.DiffOpP Proofs.GramP.
Import ListNotations.
Local Open Scope R_scope.

(* 0. THE FULL STATEMENT OF THE PROPERTY, with the analytic bridge B3 as its explicit hypotheses:
      if the overlap array is the Gram matrix of the basis functions in some semi-inner-product space
      (L2), the kinetic array that of their gradients, the point-charge array -q times that of the basis
      functions under the weight 1/|r-C|, and the repulsion array that of the pair densities under the
      Coulomb form, and the overlap diagonal is 1 (C01), then: S is symmetric PSD with |S_ab| <= 1;
      T is symmetric PSD; V is symmetric NSD for q >= 0; the repulsion array is PSD over index pairs,
      pair-symmetric, (ab|ab) >= 0 and (ab|cd)^2 <= (ab|ab)(cd|cd).
      The four [exists] hypotheses are what is NOT proved here (B3). *)
Theorem C17_all_bounds_from_B3_partial :
  forall (I : Type) (Sm Tm Vm : I -> I -> R) (G : I -> I -> I -> I -> R) (q : R),
  0 <= q ->
  (exists (L2 : ipspace) (phi : I -> vec L2), forall a b, Sm a b = ip L2 (phi a) (phi b)) ->
  (exists (H1 : ipspace) (dphi : I -> vec H1), forall a b, Tm a b = ip H1 (dphi a) (dphi b)) ->
  (exists (W : ipspace) (phi : I -> vec W), forall a b, Vm a b = - q * ip W (phi a) (phi b)) ->
  (exists (C : ipspace) (rho : I -> I -> vec C), forall a b c d, G a b c d = ip C (rho a b) (rho c d)) ->
  (forall a, Sm a a = 1) ->
  symm Sm /\ psd Sm /\ (forall a b, Rabs (Sm a b) <= 1) /\
  symm Tm /\ psd Tm /\
  symm Vm /\ nsd Vm /\
  psd (fun p r : I * I => G (fst p) (snd p) (fst r) (snd r)) /\
  (forall a b c d, G a b c d = G c d a b) /\
  (forall a b, 0 <= G a b a b) /\
  (forall a b c d, G a b c d * G a b c d <= G a b a b * G c d c d).
Proof. exact all_bounds_from_B3. Qed.
Print Assumptions C17_all_bounds_from_B3_partial.

Example C17_ex_B3_hypotheses_satisfiable :
  exists (Sm Tm Vm : unit -> unit -> R) (G : unit -> unit -> unit -> unit -> R),
  (exists (L2 : ipspace) (phi : unit -> vec L2), forall a b, Sm a b = ip L2 (phi a) (phi b)) /\
  (exists (H1 : ipspace) (dphi : unit -> vec H1), forall a b, Tm a b = ip H1 (dphi a) (dphi b)) /\
  (exists (W : ipspace) (phi : unit -> vec W), forall a b, Vm a b = - 2 * ip W (phi a) (phi b)) /\
  (exists (C : ipspace) (rho : unit -> unit -> vec C), forall a b c d, G a b c d = ip C (rho a b) (rho c d)) /\
  (forall a, Sm a a = 1).
Proof. exact all_bounds_hypotheses_satisfiable. Qed.
Print Assumptions C17_ex_B3_hypotheses_satisfiable.

(* 1. The quadratic form of a Gram matrix is non-negative: sum_a sum_b c_a c_b <v_a, v_b> >= 0.
      [qf G l] is that double sum for the coefficient list l = [(c, a); ...]. *)
Theorem C17_gram_psd :
  forall (S : ipspace) (I : Type) (v : I -> vec S) (l : list (R * I)),
  0 <= rsum (map (fun p => rsum (map (fun q => fst p * fst q * ip S (v (snd p)) (v (snd q))) l)) l).
Proof. exact (fun S I v => gram_psd S v). Qed.
Print Assumptions C17_gram_psd.

(* ... because it is the squared norm of the linear combination *)
Theorem C17_gram_form_is_norm :
  forall (S : ipspace) (I : Type) (v : I -> vec S) (l : list (R * I)),
  qf (gram S v) l = ip S (lincomb S v l) (lincomb S v l).
Proof. exact (fun S I v => qf_gram_is_norm S v). Qed.
Print Assumptions C17_gram_form_is_norm.

(* 2. Cauchy-Schwarz (discriminant argument, valid without definiteness), its absolute-value form,
      and the bound |G_ab| <= 1 for unit diagonal (overlap of normalised functions). *)
Theorem C17_cauchy_schwarz :
  forall (S : ipspace) (u w : vec S), ip S u w * ip S u w <= ip S u u * ip S w w.
Proof. exact cauchy_schwarz. Qed.
Print Assumptions C17_cauchy_schwarz.

Theorem C17_gram_schwarz_abs :
  forall (S : ipspace) (I : Type) (v : I -> vec S) (a b : I),
  Rabs (gram S v a b) <= sqrt (gram S v a a * gram S v b b).
Proof. exact (fun S I v => gram_schwarz_abs S v). Qed.
Print Assumptions C17_gram_schwarz_abs.

Theorem C17_unit_diag_bound :
  forall (S : ipspace) (I : Type) (v : I -> vec S) (a b : I),
  gram S v a a = 1 -> gram S v b b = 1 -> Rabs (gram S v a b) <= 1.
Proof. intros S I v a b. apply psd_unit_diag_bound; [apply gram_symm | apply gram_psd]. Qed.
Print Assumptions C17_unit_diag_bound.

(* the same bounds for ANY symmetric positive semi-definite matrix (not only one given as a Gram matrix) *)
Theorem C17_psd_schwarz :
  forall (I : Type) (G : I -> I -> R) (a b : I), symm G -> psd G -> G a b * G a b <= G a a * G b b.
Proof. exact (fun I G a b => psd_schwarz G a b). Qed.
Print Assumptions C17_psd_schwarz.

(* 3. Repulsion array = Gram matrix over index pairs (w a b = the product density phi_a phi_b in the
      Coulomb semi-inner-product space): positive semi-definite over pairs, (ab|ab) >= 0,
      (ab|cd)^2 <= (ab|ab)(cd|cd), (ab|cd) = (cd|ab). *)
Theorem C17_eri_pair_psd :
  forall (S : ipspace) (I : Type) (w : I -> I -> vec S), psd (eri_mat S w).
Proof. exact (fun S I w => eri_pair_psd S w). Qed.
Print Assumptions C17_eri_pair_psd.

Theorem C17_eri_schwarz :
  forall (S : ipspace) (I : Type) (w : I -> I -> vec S) (a b c d : I),
  0 <= eri S w a b a b /\
  eri S w a b c d * eri S w a b c d <= eri S w a b a b * eri S w c d c d /\
  Rabs (eri S w a b c d) <= sqrt (eri S w a b a b * eri S w c d c d) /\
  eri S w a b c d = eri S w c d a b.
Proof.
  intros S I w a b c d. split; [apply ip_pos|]. split; [apply eri_schwarz|]. split; [|apply ip_sym].
  exact (gram_schwarz_abs S (fun p : I * I => w (fst p) (snd p)) (a, b) (c, d)).
Qed.
Print Assumptions C17_eri_schwarz.

(* 4. Point-charge matrix of a non-negative charge q: -q * G with G the Gram matrix of the weighted
      form int f g / |r - C| is negative semi-definite. *)
Theorem C17_point_charge_nsd :
  forall (S : ipspace) (I : Type) (v : I -> vec S) (q : R), 0 <= q ->
  forall l : list (R * I), qf (fun a b => - q * gram S v a b) l <= 0.
Proof. exact (fun S I v q Hq => neg_charge_nsd S v q Hq). Qed.
Print Assumptions C17_point_charge_nsd.

(* 6. What "within tolerance of the exact matrix" (the correspondence check) gives for the computed
      matrix M: if |M_ab - G_ab| <= eps for all a, b then c^T M c >= - n eps |c|^2, n = number of
      coefficients: every eigenvalue of the symmetric part of M is >= - n eps. *)
Theorem C17_perturbation :
  forall (S : ipspace) (I : Type) (v : I -> vec S) (M : I -> I -> R) (eps : R) (l : list (R * I)),
  (forall a b, Rabs (M a b - gram S v a b) <= eps) ->
  - (INR (length l) * eps * sum_sq l) <= qf M l.
Proof. exact (fun S I v => gram_perturbation S v). Qed.
Print Assumptions C17_perturbation.

(* 5. Model-level facts that ARE algebraic (any field, no axioms): the one-dimensional primitive
      integrals from which the overlap and kinetic models are assembled are symmetric under exchanging
      the two functions:  S_ab(i,j) = S_ba(j,i)  and  <d^2 a|b>(i,j) = <d^2 b|a>(j,i)
      ([Sfun] = prefactor x Gaussian moment, the value of every entry of the code's table by
      C01_table_exact; [negA] = minus the derivative with respect to the left function's coordinate,
      the operator of the code's derivative recursion by C02's diffop_slice_valid).  Symmetry of the
      ASSEMBLED matrices is by construction (lower blocks are transposes: Model/Assembly.two_symm_blocks,
      Proofs/OverlapP.two_symm_integral_unfold) and is the subject of C11. *)
Theorem C17_overlap_prim_symm :
  forall (F : Type) (K : Fops F), is_field K ->
  forall (Ax Bx alpha beta : F), Model.MomentInt.psum K alpha beta <> f0 K ->
  forall i j : nat, Sfun K Bx Ax beta alpha j i = Sfun K Ax Bx alpha beta i j.
Proof. exact (fun F K Kf Ax Bx alpha beta _ => overlap_prim_symm K Kf Ax Bx alpha beta). Qed.
Print Assumptions C17_overlap_prim_symm.

Theorem C17_kinetic_prim_symm :
  forall (F : Type) (K : Fops F), is_field K ->
  forall (Ax Bx alpha beta : F), Model.MomentInt.psum K alpha beta <> f0 K -> fadd K (f1 K) (f1 K) <> f0 K ->
  forall i j : nat,
  iterop (negA K beta) 2 (Sfun K Bx Ax beta alpha) j i = iterop (negA K alpha) 2 (Sfun K Ax Bx alpha beta) i j.
Proof. exact (fun F K Kf Ax Bx alpha beta Hp H2 => kinetic_prim_symm K Kf Ax Bx alpha beta Hp H2). Qed.
Print Assumptions C17_kinetic_prim_symm.

(* One centre, one exponent pair, one axis — the case in which the bridge B3 is NOT needed:
   the Gaussian moment functional E (variance v = 1/(2p) >= 0) is positive on squares, E(f f) >= 0 for
   every polynomial f of every degree ([hank v 0 f g] = sum_i f_i E(y^i g) = E(f g)); hence the matrix
   E(f_a f_b) of ANY finite family of polynomials (the 1-D overlap matrix of functions sharing centre
   and exponent pair) is positive semi-definite and satisfies Schwarz.
   PARTIAL with respect to the property: the three-dimensional (tensor-product) case and families on
   several centres / with several exponents are not derived from E (bridge B3). *)
Theorem C17_one_centre_square_nonneg :
  forall (v : R) (f : list R), 0 <= v -> 0 <= hank v 0 f f.
Proof. exact hankel_psd. Qed.
Print Assumptions C17_one_centre_square_nonneg.

Theorem C17_one_centre_moment_identity :
  forall (v : R) (f g : list R) (N : nat), (length f <= N)%nat ->
  hank v 0 f g = rsumn (S N) (fun k => wk v k * ek v k f * ek v k g).
Proof. exact hank_identity. Qed.
Print Assumptions C17_one_centre_moment_identity.

Theorem C17_one_centre_gram_psd_partial :
  forall (v : R), 0 <= v -> forall (I : Type) (fam : I -> list R) (l : list (R * I)),
  0 <= qf (fun a b => hank v 0 (fam a) (fam b)) l.
Proof. intros v Hv I fam. exact (gram_psd (poly_space v Hv) fam). Qed.
Print Assumptions C17_one_centre_gram_psd_partial.

Theorem C17_one_centre_schwarz_partial :
  forall (v : R), 0 <= v -> forall f g : list R,
  hank v 0 f g * hank v 0 f g <= hank v 0 f f * hank v 0 g g.
Proof. intros v Hv f g. exact (cauchy_schwarz (poly_space v Hv) f g). Qed.
Print Assumptions C17_one_centre_schwarz_partial.

(* ---- the hypotheses are satisfiable: R^2 with the dot product; a linearly dependent family; a
        degenerate (semi-definite) space; unit diagonal; the perturbation hypothesis ---- *)
Example C17_ex_R2_schwarz : forall x1 y1 x2 y2 : R,
  (x1 * x2 + y1 * y2) * (x1 * x2 + y1 * y2) <= (x1 * x1 + y1 * y1) * (x2 * x2 + y2 * y2).
Proof. exact R2_schwarz_example. Qed.
Print Assumptions C17_ex_R2_schwarz.

Example C17_ex_R2_dependent_family : forall c0 c1 c2 : R,
  let fam := fun i : nat => match i with 0%nat => (1, 0) | 1%nat => (1 / 2, 1) | _ => (1, 0) end in
  0 <= qf (gram R2 fam) [(c0, 0%nat); (c1, 1%nat); (c2, 2%nat)].
Proof. exact R2_gram_example. Qed.
Print Assumptions C17_ex_R2_dependent_family.

Example C17_ex_semidefinite_space : ip R2semi (0, 1) (0, 1) = 0 /\ (0, 1) <> vzero R2semi.
Proof. exact R2semi_degenerate. Qed.
Print Assumptions C17_ex_semidefinite_space.

Example C17_ex_unit_diag :
  gram R2 (fun i : bool => if i then (1, 0) else (3 / 5, 4 / 5)) true true = 1 /\
  gram R2 (fun i : bool => if i then (1, 0) else (3 / 5, 4 / 5)) false false = 1.
Proof. exact unit_diag_satisfiable. Qed.
Print Assumptions C17_ex_unit_diag.

Example C17_ex_perturbation : forall c : R,
  - (INR 1 * (1 / 4) * (c * c + 0)) <= qf (fun _ _ : unit => 3 / 4) [(c, tt)].
Proof. exact perturbation_example. Qed.
Print Assumptions C17_ex_perturbation.

Example C17_ex_standard_normal_moments : hank 1 0 [1; 1] [1; 1] = 2 /\ hank 1 0 [0; 0; 1] [0; 0; 1] = 3.
Proof. exact hank_example. Qed.
Print Assumptions C17_ex_standard_normal_moments.
