(* Props/C11.v — theorems backing property C11 (index symmetries; reordering shells only
   reorders indices), from the lemmas of Proofs/PermP.v and Proofs/OrientP.v; the instances are
   evaluated on the data of Proofs/PermEx.v.  Each is followed by Print Assumptions.

   A reordering is an index list p (new position k holds old shell [nth k p 0]); the new shell
   list is [sel d p l].  Every theorem holds for ANY p with entries < number of shells
   (selections, repetitions); for a permutation p of 0..n-1 the induced list [iperm r p] of old
   basis-function indices in the new order is a permutation of 0..N-1
   (C11_index_map_is_permutation), where r i = number of functions of old shell i.
   [sel1 d ip v] / [sel2 d ip1 ip2 m] look a vector / matrix up through index lists.
   No bound on the number of shells, their sizes, types, segment counts, or p. *)
From Coq Require Import List Arith Bool Permutation ZArith.
From GB Require Import Base.Field Base.Tables Base.Blocks Gauss.Moment1D Model.Shell Model.MomentInt
  Model.DiffOp Model.Assembly Model.Assembly14 Model.Overlap Model.OneBody
  Proofs.PermP Proofs.OrientP Proofs.PermEx.
Import ListNotations.

Theorem C11_index_map_is_permutation :
  forall (r : nat -> nat) (n : nat) (p : list nat),
  Permutation p (seq 0 n) -> Permutation (iperm r p) (seq 0 (off r n)).
Proof.
  intros r n p H. rewrite <- iperm_seq. unfold iperm. now apply Permutation_flat_map.
Qed.
Print Assumptions C11_index_map_is_permutation.

(* one index, any per-shell piece function (evaluate_basis, evaluate_deriv_basis, ...) *)
Theorem C11_assemble_perm_one_index_generic :
  forall (B C : Type) (g : B -> list C) (l : list B) (d : B) (d' : C) (p : list nat),
  Forall (fun k => k < length l) p ->
  concat (map g (sel d p l))
  = sel1 d' (iperm (fun k => length (g (nth k l d))) p) (concat (map g l)).
Proof. exact @one_perm. Qed.
Print Assumptions C11_assemble_perm_one_index_generic.

(* one index, the model of base_one.py (Assembly14.one_mix) *)
Theorem C11_assemble_perm_one_index :
  forall (F A : Type) (azero : A) (aadd : A -> A -> A) (ascale : F -> A -> A)
         (l : list (@sh F * list (list A))) (d : @sh F * list (list A)) (p : list nat),
  Forall (fun k => k < length l) p ->
  one_mix azero aadd ascale (sel d p l)
  = sel1 azero (iperm (fun k => length (one_piece azero aadd ascale (nth k l d))) p)
         (one_mix azero aadd ascale l).
Proof.
  intros F A azero aadd ascale l d p Hp. rewrite !(one_mix_pieces azero aadd ascale). now apply one_perm.
Qed.
Print Assumptions C11_assemble_perm_one_index.

Example C11_one_index_instance :
  one_mix 0%Z Z.add Z.mul (sel (sh_a, []) p3 l1)
  = sel1 0%Z (iperm (fun k => length (one_piece 0%Z Z.add Z.mul (nth k l1 (sh_a, [])))) p3)
         (one_mix 0%Z Z.add Z.mul l1)
  /\ one_mix 0%Z Z.add Z.mul (sel (sh_a, []) p3 l1) = [25; (-2); 10; 1; 4; 9; 4; 5; 6]%Z.
Proof. split; vm_compute; reflexivity. Qed.
Print Assumptions C11_one_index_instance.

(* two indices, block matrices in general = the asymmetric class (no symmetry hypothesis;
   independent selections of row and column shells) *)
Theorem C11_assemble_perm_blocks :
  forall (A : Type) (azero : A) (n1 n2 : nat) (r1 r2 : nat -> nat) (Bf : nat -> nat -> list (list A))
         (p1 p2 : list nat),
  shape2 n1 n2 r1 r2 Bf -> p2 <> [] ->
  Forall (fun k => k < n1) p1 -> Forall (fun k => k < n2) p2 ->
  two_asymm_blocks (length p1) (length p2) (fun k l => Bf (nth k p1 0) (nth l p2 0))
  = sel2 azero (iperm r1 p1) (iperm r2 p2) (two_asymm_blocks n1 n2 Bf).
Proof. exact @blocks_perm. Qed.
Print Assumptions C11_assemble_perm_blocks.

Example C11_blocks_instance :
  shape2 3 3 r3 r3 Bas /\
  two_asymm_blocks 3 2 (fun k l => Bas (nth k p3 0) (nth l [1; 2] 0))
  = sel2 0 (iperm r3 p3) (iperm r3 [1; 2]) (two_asymm_blocks 3 3 Bas).
Proof. split; [apply shape2b_sound|]; vm_compute; reflexivity. Qed.
Print Assumptions C11_blocks_instance.

(* overlap_integral_asymmetric (Overlap.two_asymm_integral) *)
Theorem C11_assemble_perm_two_index_asymmetric :
  forall (F : Type) (K : Fops F) (A : Type) (azero : A) (aadd : A -> A -> A) (ascale : F -> A -> A)
         (blockf : shell F -> shell F -> list (list (list (list A))))
         (b1 b2 : list (shell F)) (ds : shell F) (r1 r2 : nat -> nat) (p1 p2 : list nat),
  shape2 (length b1) (length b2) r1 r2 (Bfun K azero aadd ascale blockf b1 b2 ds) -> p2 <> [] ->
  Forall (fun k => k < length b1) p1 -> Forall (fun k => k < length b2) p2 ->
  two_asymm_integral K azero aadd ascale blockf (sel ds p1 b1) (sel ds p2 b2) None None
  = sel2 azero (iperm r1 p1) (iperm r2 p2) (two_asymm_integral K azero aadd ascale blockf b1 b2 None None).
Proof. exact @two_asymm_integral_perm. Qed.
Print Assumptions C11_assemble_perm_two_index_asymmetric.

(* the symmetric class: if the processed block function satisfies
   block (j, i) = transpose (block (i, j))  [bsym], the assembled matrix of the reordered
   list is the original one with rows and columns looked up through iperm *)
Theorem C11_assemble_perm_symm_blocks :
  forall (A : Type) (azero : A) (n : nat) (r : nat -> nat) (Bf : nat -> nat -> list (list A)) (p : list nat),
  shape2 n n r r Bf -> bsym azero n Bf -> Forall (fun k => k < n) p ->
  two_symm_blocks azero (length p) (fun k l => Bf (nth k p 0) (nth l p 0))
  = sel2 azero (iperm r p) (iperm r p) (two_symm_blocks azero n Bf).
Proof. exact @symm_blocks_perm. Qed.
Print Assumptions C11_assemble_perm_symm_blocks.

Example C11_symm_blocks_instance :
  (shape2 3 3 r3 r3 Bex /\ bsym 0 3 Bex) /\
  (iperm r3 p3 = [3; 4; 5; 0; 1; 2] /\ Permutation p3 (seq 0 3)) /\
  (two_symm_blocks 0 (length p3) (fun k l => Bex (nth k p3 0) (nth l p3 0))
   = sel2 0 (iperm r3 p3) (iperm r3 p3) (two_symm_blocks 0 3 Bex)
   /\ two_symm_blocks 0 (length p3) (fun k l => Bex (nth k p3 0) (nth l p3 0)) <> two_symm_blocks 0 3 Bex).
Proof.
  split; [|split].
  - apply (ok2_sound Nat.eq_dec 3 r3 (transpose 0)). vm_compute. reflexivity.
  - split; [reflexivity|]. unfold p3. cbn [seq].
    apply (Permutation_cons_app [0; 1] [] 2). cbn. apply Permutation_refl.
  - split; [vm_compute; reflexivity|vm_compute; discriminate].
Qed.
Print Assumptions C11_symm_blocks_instance.

(* Overlap.two_symm_integral: overlap_integral, kinetic_energy_integral, moment_integral,
   point_charge_integral (nuclear attraction is a sum over its last axis) *)
Theorem C11_assemble_perm_two_index_symmetric :
  forall (F : Type) (K : Fops F) (A : Type) (azero : A) (aadd : A -> A -> A) (ascale : F -> A -> A)
         (blockf : shell F -> shell F -> list (list (list (list A))))
         (basis : list (shell F)) (ds : shell F) (r : nat -> nat) (p : list nat),
  shape2 (length basis) (length basis) r r (Bfun K azero aadd ascale blockf basis basis ds) ->
  bsym azero (length basis) (Bfun K azero aadd ascale blockf basis basis ds) ->
  Forall (fun k => k < length basis) p ->
  two_symm_integral K azero aadd ascale blockf (sel ds p basis) None
  = sel2 azero (iperm r p) (iperm r p) (two_symm_integral K azero aadd ascale blockf basis None).
Proof. exact @two_symm_integral_perm. Qed.
Print Assumptions C11_assemble_perm_two_index_symmetric.

(* hypotheses satisfiable and conclusion evaluated: shells s, p (two segments), d (spherical);
   new order (2, 0, 1) *)
Example C11_two_index_symmetric_instance :
  shape2 3 3 wb wb (Bfun ZK 0%Z Z.add Z.mul blockf_ex basis3 basis3 (shl 0 1 false)) /\
  bsym 0%Z 3 (Bfun ZK 0%Z Z.add Z.mul blockf_ex basis3 basis3 (shl 0 1 false)) /\
  two_symm_integral ZK 0%Z Z.add Z.mul blockf_ex (sel (shl 0 1 false) p3 basis3) None
  = sel2 0%Z (iperm wb p3) (iperm wb p3) (two_symm_integral ZK 0%Z Z.add Z.mul blockf_ex basis3 None).
Proof.
  destruct (ok2_sound Z.eq_dec 3 wb (transpose 0%Z)
              (Bfun ZK 0%Z Z.add Z.mul blockf_ex basis3 basis3 (shl 0 1 false))) as [HS Hs];
    [vm_compute; reflexivity|].
  split; [exact HS|]. split; [exact Hs|]. vm_compute. reflexivity.
Qed.
Print Assumptions C11_two_index_symmetric_instance.

(* OneBody.two_symm_integral_h: momentum_integral, angular_momentum_integral (the model carries
   the real matrix R of the value -i R; aconj = negation; hypothesis: block (j,i) = conj-transpose) *)
Theorem C11_assemble_perm_two_index_hermitian :
  forall (F : Type) (K : Fops F) (A : Type) (azero : A) (aadd : A -> A -> A) (ascale : F -> A -> A)
         (blockf : shell F -> shell F -> list (list (list (list A)))) (aconj : A -> A)
         (basis : list (shell F)) (ds : shell F) (r : nat -> nat) (p : list nat),
  shape2 (length basis) (length basis) r r (Bfun K azero aadd ascale blockf basis basis ds) ->
  bsym_h azero aconj (length basis) (Bfun K azero aadd ascale blockf basis basis ds) ->
  Forall (fun k => k < length basis) p ->
  two_symm_integral_h K azero aadd ascale aconj blockf (sel ds p basis) None
  = sel2 azero (iperm r p) (iperm r p) (two_symm_integral_h K azero aadd ascale aconj blockf basis None).
Proof. exact @two_symm_integral_h_perm. Qed.
Print Assumptions C11_assemble_perm_two_index_hermitian.

Example C11_hermitian_blocks_instance :
  shape2 3 3 r3 r3 Bh /\ bsym_h 0%Z Z.opp 3 Bh /\
  two_symm_blocks_h 0%Z Z.opp (length p3) (fun k l => Bh (nth k p3 0) (nth l p3 0))
  = sel2 0%Z (iperm r3 p3) (iperm r3 p3) (two_symm_blocks_h 0%Z Z.opp 3 Bh).
Proof.
  destruct (ok2_sound Z.eq_dec 3 r3 (fun M => map (map Z.opp) (transpose 0%Z M)) Bh) as [HS Hs];
    [vm_compute; reflexivity|].
  split; [exact HS|]. split; [exact Hs|]. vm_compute. reflexivity.
Qed.
Print Assumptions C11_hermitian_blocks_instance.

(* the label-level transcriptions of Assembly14 (every code path: mode 0 cartesian, 1 spherical, 2 mix) *)
Theorem C11_assemble_perm_two_symm_n :
  forall (F A : Type) (azero : A) (aadd : A -> A -> A) (ascale : F -> A -> A) (mode : nat)
         (ss : list (@sh F)) (bf : nat -> nat -> list (list (list (list A)))) (r : nat -> nat) (p : list nat),
  shape2 (length ss) (length ss) r r (B14 azero aadd ascale mode ss ss bf) ->
  bsym azero (length ss) (B14 azero aadd ascale mode ss ss bf) ->
  Forall (fun k => k < length ss) p ->
  two_symm_n azero aadd ascale mode (sel (mkSh false [] []) p ss) (fun k l => bf (nth k p 0) (nth l p 0))
  = sel2 azero (iperm r p) (iperm r p) (two_symm_n azero aadd ascale mode ss bf).
Proof. exact @two_symm_n_perm. Qed.
Print Assumptions C11_assemble_perm_two_symm_n.

Example C11_two_symm_n_instance :
  shape2 3 3 w14 w14 (B14 0%Z Z.add Z.mul 2 ss3 ss3 raw2) /\ bsym 0%Z 3 (B14 0%Z Z.add Z.mul 2 ss3 ss3 raw2) /\
  two_symm_n 0%Z Z.add Z.mul 2 (sel (mkSh false [] []) p3 ss3) (fun k l => raw2 (nth k p3 0) (nth l p3 0))
  = sel2 0%Z (iperm w14 p3) (iperm w14 p3) (two_symm_n 0%Z Z.add Z.mul 2 ss3 raw2).
Proof.
  destruct (ok2_sound Z.eq_dec 3 w14 (transpose 0%Z) (B14 0%Z Z.add Z.mul 2 ss3 ss3 raw2)) as [HS Hs];
    [vm_compute; reflexivity|].
  split; [exact HS|]. split; [exact Hs|]. vm_compute. reflexivity.
Qed.
Print Assumptions C11_two_symm_n_instance.

Theorem C11_assemble_perm_two_asymm_n :
  forall (F A : Type) (azero : A) (aadd : A -> A -> A) (ascale : F -> A -> A) (mode : nat)
         (ss1 ss2 : list (@sh F)) (bf : nat -> nat -> list (list (list (list A))))
         (r1 r2 : nat -> nat) (p1 p2 : list nat),
  shape2 (length ss1) (length ss2) r1 r2 (B14 azero aadd ascale mode ss1 ss2 bf) -> p2 <> [] ->
  Forall (fun k => k < length ss1) p1 -> Forall (fun k => k < length ss2) p2 ->
  two_asymm_n azero aadd ascale mode (sel (mkSh false [] []) p1 ss1) (sel (mkSh false [] []) p2 ss2)
    (fun k l => bf (nth k p1 0) (nth l p2 0))
  = sel2 azero (iperm r1 p1) (iperm r2 p2) (two_asymm_n azero aadd ascale mode ss1 ss2 bf).
Proof. exact @two_asymm_n_perm. Qed.
Print Assumptions C11_assemble_perm_two_asymm_n.

(* four indices (base_four_symm.py): the nested concatenation along axes 3, 2, 1, 0 *)
Theorem C11_four_concat_entry :
  forall (A : Type) (azero : A) (n : nat) (r : nat -> nat)
         (cell : nat -> nat -> nat -> nat -> list (list (list (list A)))),
  shape4 n r cell ->
  forall i j k l a b c e, i < n -> j < n -> k < n -> l < n -> a < r i -> b < r j -> c < r k -> e < r l ->
  get4 azero (four_concat n cell) (off r i + a) (off r j + b) (off r k + c) (off r l + e)
  = get4 azero (cell i j k l) a b c e.
Proof. exact @four_concat_entry. Qed.
Print Assumptions C11_four_concat_entry.

(* the store of the eight permuted writes with "last write wins": given the eight-fold
   symmetry [sym8] of the processed blocks, every cell holds the block of its own quartet *)
Theorem C11_four_store_holds_every_block :
  forall (A : Type) (azero : A) (n : nat) (Bf : nat -> nat -> nat -> nat -> list (list (list (list A)))),
  sym8 azero n Bf ->
  forall i j k l, i < n -> j < n -> k < n -> l < n ->
  lookup (all_writes azero n Bf) (i, j, k, l) = Bf i j k l.
Proof. exact @lookup_all_writes. Qed.
Print Assumptions C11_four_store_holds_every_block.

Theorem C11_assemble_perm_four_index :
  forall (F A : Type) (azero : A) (aadd : A -> A -> A) (ascale : F -> A -> A) (mode : nat)
         (ss : list (@sh F))
         (bf : nat -> nat -> nat -> nat -> list (list (list (list (list (list (list (list A))))))))
         (r : nat -> nat) (p : list nat),
  shape4 (length ss) r (B4f azero aadd ascale mode ss bf) ->
  sym8 azero (length ss) (B4f azero aadd ascale mode ss bf) ->
  Forall (fun k => k < length ss) p ->
  forall x1 x2 x3 x4, x1 < length (iperm r p) -> x2 < length (iperm r p) ->
    x3 < length (iperm r p) -> x4 < length (iperm r p) ->
  get4 azero (four_symm azero aadd ascale mode (sel (mkSh false [] []) p ss)
               (fun a b c d => bf (nth a p 0) (nth b p 0) (nth c p 0) (nth d p 0))) x1 x2 x3 x4
  = get4 azero (four_symm azero aadd ascale mode ss bf)
      (nth x1 (iperm r p) 0) (nth x2 (iperm r p) 0) (nth x3 (iperm r p) 0) (nth x4 (iperm r p) 0).
Proof. exact @four_symm_perm. Qed.
Print Assumptions C11_assemble_perm_four_index.

Example C11_four_index_instance :
  shape4 3 w4 (B4f 0%Z Z.add Z.mul 2 ss4 raw4) /\ sym8 0%Z 3 (B4f 0%Z Z.add Z.mul 2 ss4 raw4) /\
  (four_symm 0%Z Z.add Z.mul 2 (sel (mkSh false [] []) p3 ss4)
     (fun a b c d => raw4 (nth a p3 0) (nth b p3 0) (nth c p3 0) (nth d p3 0))
   = sel4 (iperm w4 p3) (four_symm 0%Z Z.add Z.mul 2 ss4 raw4)
   /\ iperm w4 p3 = [3; 4; 0; 1; 2]).
Proof.
  split; [|split; [exact ex_sym8|split; [|reflexivity]]].
  - apply (shape4_B4f_tab _ _ _ _ _ _ raw4z _ _ raw4z_eq). apply shape4b_sound.
    exact (proj1 (andb_prop _ _ (proj1 (andb_prop _ _ ex_blocks_ok)))).
  - refine (eq_trans (eq_sym (four_symm_ext _ _ _ _ _ _ _ (fun a b c d => raw4z_eq _ _ _ _)))
              (eq_trans ex_four_symm_perm_z (f_equal (sel4 _) (four_symm_ext _ _ _ _ _ _ _ raw4z_eq)))).
Qed.
Print Assumptions C11_four_index_instance.

(* electron_repulsion_integral (OneBody.eri_integral, chemists' notation, no transform); the two hypotheses
   [shape4] and [sym8] are theorems for this model: Props/C11_sym8.v (C11_assemble_perm_eri_integral_full) *)
Theorem C11_assemble_perm_eri_integral :
  forall (F : Type) (K : Fops F) (basis : list (shell F)) (ds : shell F) (r : nat -> nat) (p : list nat),
  shape4 (length basis) r (Beri K basis) -> sym8 (f0 K) (length basis) (Beri K basis) ->
  Forall (fun k => k < length basis) p ->
  forall x1 x2 x3 x4, x1 < length (iperm r p) -> x2 < length (iperm r p) ->
    x3 < length (iperm r p) -> x4 < length (iperm r p) ->
  get4 (f0 K) (eri_integral K (sel ds p basis) None false) x1 x2 x3 x4
  = get4 (f0 K) (eri_integral K basis None false)
      (nth x1 (iperm r p) 0) (nth x2 (iperm r p) 0) (nth x3 (iperm r p) 0) (nth x4 (iperm r p) 0).
Proof. exact @eri_integral_perm. Qed.
Print Assumptions C11_assemble_perm_eri_integral.

(* What the mirrored assembly returns WHATEVER the block function (only the evaluated blocks
   i <= j are constrained, by their shapes).  This does NOT settle the property: the entries
   below the block diagonal are copies, so an asymmetry of the block routine (block (j,i) <>
   transpose (block (i,j))) is invisible in the returned array - see C11_copy_hides_asymmetry
   - which is why the correspondence check evaluates both orientations independently. *)
Theorem C11_symmetric_output_offdiag :
  forall (A : Type) (azero : A) (n : nat) (r : nat -> nat) (bf : nat -> nat -> list (list A)),
  (forall i, i < n -> 0 < r i) ->
  (forall i j, i < n -> j < n -> i <= j ->
     length (bf i j) = r i /\ Forall (fun row => length row = r j) (bf i j)) ->
  forall i j a b, i < n -> j < n -> i <> j -> a < r i -> b < r j ->
  ent azero (two_symm_blocks_t azero n bf) (off r i + a) (off r j + b)
  = ent azero (two_symm_blocks_t azero n bf) (off r j + b) (off r i + a).
Proof. exact @symmetric_output_offdiag. Qed.
Print Assumptions C11_symmetric_output_offdiag.

(* inside one shell the code writes the TRANSPOSE of the evaluated (s,s) block (the tril loop
   includes the diagonal): symmetric there only if the block routine is *)
Theorem C11_symmetric_output_diag :
  forall (A : Type) (azero : A) (n : nat) (r : nat -> nat) (bf : nat -> nat -> list (list A)),
  (forall i, i < n -> 0 < r i) ->
  (forall i j, i < n -> j < n -> i <= j ->
     length (bf i j) = r i /\ Forall (fun row => length row = r j) (bf i j)) ->
  forall i a b, i < n -> a < r i -> b < r i ->
  ent azero (two_symm_blocks_t azero n bf) (off r i + a) (off r i + b) = ent azero (bf i i) b a.
Proof. exact @symmetric_output_diag. Qed.
Print Assumptions C11_symmetric_output_diag.

Theorem C11_symmetric_output :
  forall (A : Type) (azero : A) (n : nat) (r : nat -> nat) (bf : nat -> nat -> list (list A)),
  (forall i, i < n -> 0 < r i) ->
  (forall i j, i < n -> j < n -> i <= j ->
     length (bf i j) = r i /\ Forall (fun row => length row = r j) (bf i j)) ->
  (forall i a b, i < n -> a < r i -> b < r i -> ent azero (bf i i) a b = ent azero (bf i i) b a) ->
  forall x y, x < off r n -> y < off r n ->
  ent azero (two_symm_blocks_t azero n bf) x y = ent azero (two_symm_blocks_t azero n bf) y x.
Proof. exact @symmetric_output. Qed.
Print Assumptions C11_symmetric_output.

(* the variant used by Overlap.two_symm_integral (diagonal block kept as evaluated) *)
Theorem C11_symmetric_output_model_entries :
  forall (A : Type) (azero : A) (n : nat) (r : nat -> nat) (bf : nat -> nat -> list (list A)),
  (forall i, i < n -> 0 < r i) ->
  (forall i j, i < n -> j < n -> i <= j ->
     length (bf i j) = r i /\ Forall (fun row => length row = r j) (bf i j)) ->
  forall i j a b, i < n -> j < n -> a < r i -> b < r j ->
  ent azero (two_symm_blocks azero n bf) (off r i + a) (off r j + b)
  = if Nat.leb i j then ent azero (bf i j) a b else ent azero (bf j i) b a.
Proof. exact @symm_entry. Qed.
Print Assumptions C11_symmetric_output_model_entries.

(* Hermitian class (two_symm_integral_h): across different shells the real matrix R of the value
   -i R satisfies R[y][x] = aconj R[x][y] (aconj = negation: R^T = -R there) whatever bf;
   inside one shell the entry is aconj of the transposed evaluated block *)
Theorem C11_hermitian_output_offdiag :
  forall (A : Type) (azero : A) (n : nat) (r : nat -> nat) (bf : nat -> nat -> list (list A)),
  (forall i, i < n -> 0 < r i) ->
  (forall i j, i < n -> j < n -> i <= j ->
     length (bf i j) = r i /\ Forall (fun row => length row = r j) (bf i j)) ->
  forall (aconj : A -> A) i j a b, i < n -> j < n -> i < j -> a < r i -> b < r j ->
  ent azero (two_symm_blocks_h azero aconj n bf) (off r j + b) (off r i + a)
  = aconj (ent azero (two_symm_blocks_h azero aconj n bf) (off r i + a) (off r j + b)).
Proof.
  intros A azero n r bf Hr HS aconj i j a b Hi Hj Hlt Ha Hb.
  rewrite !(symm_h_entry azero n r bf Hr HS aconj) by assumption.
  rewrite (proj2 (Nat.ltb_lt i j) Hlt), (proj2 (Nat.ltb_ge j i) (Nat.lt_le_incl i j Hlt)). reflexivity.
Qed.
Print Assumptions C11_hermitian_output_offdiag.

Theorem C11_hermitian_output_diag :
  forall (A : Type) (azero : A) (n : nat) (r : nat -> nat) (bf : nat -> nat -> list (list A)),
  (forall i, i < n -> 0 < r i) ->
  (forall i j, i < n -> j < n -> i <= j ->
     length (bf i j) = r i /\ Forall (fun row => length row = r j) (bf i j)) ->
  forall (aconj : A -> A) i a b, i < n -> a < r i -> b < r i ->
  ent azero (two_symm_blocks_h azero aconj n bf) (off r i + a) (off r i + b)
  = aconj (ent azero (bf i i) b a).
Proof.
  intros A azero n r bf Hr HS aconj i a b Hi Ha Hb.
  rewrite (symm_h_entry azero n r bf Hr HS aconj) by assumption. now rewrite Nat.ltb_irrefl.
Qed.
Print Assumptions C11_hermitian_output_diag.

Example C11_copy_hides_asymmetry :
  ent 0 (two_symm_blocks_t 0 3 Bas) 0 2 = ent 0 (two_symm_blocks_t 0 3 Bas) 2 0 /\
  ent 0 (Bas 0 1) 0 1 <> ent 0 (Bas 1 0) 1 0.
Proof. split; [vm_compute; reflexivity|vm_compute; discriminate]. Qed.
Print Assumptions C11_copy_hides_asymmetry.

(* the recursion table computed for the swapped pair (B, beta, lb | A, alpha, la), read
   transposed, equals the table of (A, alpha, la | B, beta, lb): overlap and every moment order *)
Theorem C11_both_orientations_agree_moment_tables :
  forall (F : Type) (K : Fops F), is_field K ->
  forall Ax Bx Cx alpha beta : F,
  psum K alpha beta <> f0 K -> fadd K (f1 K) (f1 K) <> f0 K ->
  forall la lb km k j i, k <= km -> j <= lb -> i <= la ->
  nth3 K k i j (table K Bx Ax Cx beta alpha lb la km)
  = nth3 K k j i (table K Ax Bx Cx alpha beta la lb km).
Proof. exact @table_swap. Qed.
Print Assumptions C11_both_orientations_agree_moment_tables.

(* derivative tables (the derivative acts on the left, padded, function in both computations):
   (-1)^k, i.e. antisymmetric for momentum / angular momentum, symmetric for kinetic energy *)
Theorem C11_both_orientations_derivative_tables :
  forall (F : Type) (K : Fops F), is_field K ->
  forall Ax Bx alpha beta : F,
  psum K alpha beta <> f0 K -> fadd K (f1 K) (f1 K) <> f0 K ->
  forall la lb D k j i, k <= D -> j <= lb -> i <= la ->
  nth3 K k i j (dtable K Bx Ax beta alpha lb la D)
  = sg K k (nth3 K k j i (dtable K Ax Bx alpha beta la lb D)).
Proof. exact @dtable_swap. Qed.
Print Assumptions C11_both_orientations_derivative_tables.

Theorem C11_first_derivative_antisymmetric :
  forall (F : Type) (K : Fops F), is_field K ->
  forall Ax Bx alpha beta : F,
  psum K alpha beta <> f0 K -> fadd K (f1 K) (f1 K) <> f0 K ->
  forall la lb D j i, 1 <= D -> j <= lb -> i <= la ->
  nth3 K 1 i j (dtable K Bx Ax beta alpha lb la D)
  = fopp K (nth3 K 1 j i (dtable K Ax Bx alpha beta la lb D)).
Proof. exact @dtable_swap_first. Qed.
Print Assumptions C11_first_derivative_antisymmetric.

Theorem C11_second_derivative_symmetric :
  forall (F : Type) (K : Fops F), is_field K ->
  forall Ax Bx alpha beta : F,
  psum K alpha beta <> f0 K -> fadd K (f1 K) (f1 K) <> f0 K ->
  forall la lb D j i, 2 <= D -> j <= lb -> i <= la ->
  nth3 K 2 i j (dtable K Bx Ax beta alpha lb la D)
  = nth3 K 2 j i (dtable K Ax Bx alpha beta la lb D).
Proof. exact @dtable_swap_second. Qed.
Print Assumptions C11_second_derivative_symmetric.

Example C11_orientation_hypotheses_satisfiable :
  is_field QK /\ psum QK (f1 QK) (fadd QK (f1 QK) (f1 QK)) <> f0 QK /\ fadd QK (f1 QK) (f1 QK) <> f0 QK.
Proof. exact ex_orient_hyps. Qed.
Print Assumptions C11_orientation_hypotheses_satisfiable.
